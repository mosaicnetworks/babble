(* C03 Consensus output is a function of the event DAG only.  Statements only.
   What is proved here: (1) the virtual-voting result does not depend on the order in which a
   round's witnesses are visited (Go iterates over maps) nor on which other witnesses a view
   knows (monotone in the view) - theorems about the abstract voting loop that HgImpl
   instantiates; (2) the admitted DAG, the per-creator listings and the insertion counter are
   untouched by the consensus passes; (3) the batching clause of the property is FALSE of the
   code: C03_batching_refuted; (4) (Proofs/FirstDesc .. Proofs/Agreement) in
   per-event mode under static membership, round, witness flag, Lamport timestamp and strongly-see
   of a stored event are functions of its ancestry (and no pass ever fails): any two reachable states (any insertion
   orders, any cuts, any node) over one universe assign the same values to the events they share
   (C03_round_function_of_ancestry, C03_lamport_function_of_ancestry,
   C03_strongly_see_function_of_ancestry, C03_order_independent_shared); (5)
   (Proofs/AdmitOrder.v) WHICH events get admitted does not depend on the order either: two
   topological orders of one fork-free set of attempts let in the same events
   (C03_admission_order_independent), hence give the same observation for every identifier
   (C03_order_independent); a topological run over a superset of the attempts admits a superset
   (C03_admission_monotone); delivered blocks of any two runs over one universe are equal position
   by position (C03_blocks_order_consistent, from C01) - the NUMBER of blocks delivered so far may
   differ (a round stays flagged decided when a late witness arrives after its decision, and
   waits for that witness when it arrives before), so "all results equal" holds as prefix
   consistency, not as equality of the sequences.  The literal statement without the premises
   (fork freedom) is false: C03_order_independent_statement_refuted; (6) under dynamic membership
   (no no_accept) the `_dynamic` theorems give (4) and the block statement of (5) for two runs
   that both respect the distance bound [gap_runb] and have not failed (Lamport timestamps need
   only the latter); nothing is proved there about WHICH events are admitted.  The check evaluates the
   statements on every generated DAG (harness cmd/sim -dagrun). *)
From Coq Require Import ZArith List Bool Permutation.
From V Require Import Model.ZMap Model.Quorum Model.Voting Model.VotingRef Model.HgImpl Model.HgBatch
  Proofs.VotingProofs Proofs.VotingTheorems Proofs.BatchRefute Proofs.AdmissionProofs Proofs.BlockInv
  Proofs.OrderProofs Proofs.Static Proofs.Agreement Proofs.AgreementU Proofs.AdmitOrder Proofs.BlockAgree
  Model.Window Proofs.GapWindow Proofs.RoundAgreeD Proofs.RoundReceivedD Proofs.OrderIndepD
  Proofs.BlockAgreeD Proofs.BlockPeersD Proofs.OrderAgreeD.
Import ListNotations.
Open Scope Z_scope.

(* HgImpl's DecideFame for one witness IS the abstract loop (definitional) *)
Theorem C03_fame_is_voting_loop : forall st x r,
  fame_of st x r = fame_loop (vparams_of st x) (round_witnesses st) r (zrange (r + 1) (last_round st)) [].
Proof. exact (fun st x r => eq_refl). Qed.
Print Assumptions C03_fame_is_voting_loop.

(* process-local iteration order (Go map order) is irrelevant for the fame decision *)
Theorem C03_vote_counting_order_insensitive : forall n r P P' W W' J,
  view_ok n r P W J -> same_params_upto_order r J P P' W ->
  (forall j, Permutation (W j) (W' j)) ->
  fame_loop P' (fun j => Some (W' j)) r (zrange (r + 1) J) []
  = fame_loop P (fun j => Some (W j)) r (zrange (r + 1) J) [].
Proof. exact VOTE_T5_order_irrelevant. Qed.
Print Assumptions C03_vote_counting_order_insensitive.

(* a node that knows fewer witnesses (a downward-closed sub-DAG) never decides differently, and
   what it has decided stays decided with the same value in every larger view *)
Theorem C03_fame_prefix : forall n r P1 W1 J1 P2 W2 J2 G v,
  view_ok n r P1 W1 J1 -> view_ok n r P2 W2 J2 -> same_history n r P1 W1 J1 P2 W2 J2 G ->
  J1 <= J2 -> (forall j, r + 1 <= j <= J1 -> incl (W1 j) (W2 j)) ->
  fame_loop P1 (fun j => Some (W1 j)) r (zrange (r + 1) J1) [] = Some (Some v) ->
  fame_loop P2 (fun j => Some (W2 j)) r (zrange (r + 1) J2) [] = Some (Some v).
Proof. exact VOTE_T4_decision_monotone. Qed.
Print Assumptions C03_fame_prefix.

(* the batching clause is false: same events, same order, same validator set; consensus passes
   after every insertion vs after every third insertion give different rounds *)
Theorem C03_batching_refuted :
  exists genesis evs k x r1 r2,
    round_of_event (run (init_hg (-1) genesis []) evs) x = Some r1 /\
    round_of_event (run_batched k (init_hg (-1) genesis []) evs) x = Some r2 /\ r1 <> r2.
Proof. exact batching_witness. Qed.
Print Assumptions C03_batching_refuted.

(* round and witness flag: set at the event's insertion, the same in every state that stores it *)
Theorem C03_round_function_of_ancestry :
  forall genesis all self1 self2 oracle1 oracle2 ops1 ops2 x e1 e2,
  ids_determine all -> no_accept all -> Forall (hop_ok all) ops1 -> Forall (hop_ok all) ops2 ->
  let st1 := hrun (init_hg self1 genesis oracle1) ops1 in
  let st2 := hrun (init_hg self2 genesis oracle2) ops2 in
  get_event st1 x = Some e1 -> get_event st2 x = Some e2 ->
  ev_round e1 = ev_round e2 /\ ev_round e1 <> None /\
  zget x (round_memo st1) = zget x (round_memo st2) /\ zget x (witness_memo st1) = zget x (witness_memo st2).
Proof.
  exact (fun g all s1 s2 o1 o2 ops1 ops2 x e1 e2 ID NA H1 H2 => u_round g all ID NA s1 s2 o1 o2 ops1 ops2 H1 H2 x e1 e2).
Qed.
Print Assumptions C03_round_function_of_ancestry.

Theorem C03_lamport_function_of_ancestry :
  forall genesis all self1 self2 oracle1 oracle2 ops1 ops2 x e1 e2,
  ids_determine all -> no_accept all -> Forall (hop_ok all) ops1 -> Forall (hop_ok all) ops2 ->
  let st1 := hrun (init_hg self1 genesis oracle1) ops1 in
  let st2 := hrun (init_hg self2 genesis oracle2) ops2 in
  get_event st1 x = Some e1 -> get_event st2 x = Some e2 -> ev_lt e1 = ev_lt e2 /\ ev_lt e1 <> None.
Proof.
  exact (fun g all s1 s2 o1 o2 ops1 ops2 x e1 e2 ID NA H1 H2 => u_lamport g all ID NA s1 s2 o1 o2 ops1 ops2 H1 H2 x e1 e2).
Qed.
Print Assumptions C03_lamport_function_of_ancestry.

(* _stronglySee(x, w) read through the coordinates (first descendants of w gain entries over
   time, the walk stops at witnesses) has one value, whatever the state that stores both *)
Theorem C03_strongly_see_function_of_ancestry :
  forall genesis all self1 self2 oracle1 oracle2 ops1 ops2 x w e1x e2x e1w e2w,
  ids_determine all -> no_accept all -> Forall (hop_ok all) ops1 -> Forall (hop_ok all) ops2 ->
  let st1 := hrun (init_hg self1 genesis oracle1) ops1 in
  let st2 := hrun (init_hg self2 genesis oracle2) ops2 in
  get_event st1 x = Some e1x -> get_event st2 x = Some e2x ->
  get_event st1 w = Some e1w -> get_event st2 w = Some e2w ->
  strongly_see st1 x w genesis = strongly_see st2 x w genesis /\ strongly_see st1 x w genesis <> None.
Proof.
  exact (fun g all s1 s2 o1 o2 ops1 ops2 x w e1x e2x e1w e2w ID NA H1 H2 =>
           u_strongly_see g all ID NA s1 s2 o1 o2 ops1 ops2 H1 H2 x w e1x e2x e1w e2w).
Qed.
Print Assumptions C03_strongly_see_function_of_ancestry.

(* THE SAME UNDER DYNAMIC MEMBERSHIP (no [no_accept]); code after fix 05eda0b.
   - Lamport timestamps never read a validator set: they are a function of the ancestry for ANY two nodes over one
     universe, with no membership premise at all (C03_lamport_function_of_ancestry_dynamic).
   - Round, witness flag, strongly-see and round-received read the validator-set table: they are functions of the
     ancestry AND OF THE TABLE: any two nodes (any selfs, insertion orders, cuts, genesis sets) that respect the distance
     bound [gap_runb] and whose tables agree on the rounds both have ([tables_agree]) assign the same values to the
     events they share.  Without the bound they do not: C01_dynamic_fork_by_scheduling. *)
Theorem C03_lamport_function_of_ancestry_dynamic :
  forall all self1 self2 genesis1 genesis2 oracle1 oracle2 ops1 ops2 x e1 e2,
  ids_determine all -> Forall (hop_ok all) ops1 -> Forall (hop_ok all) ops2 ->
  failed (hrun (init_hg self1 genesis1 oracle1) ops1) = false -> failed (hrun (init_hg self2 genesis2 oracle2) ops2) = false ->
  get_event (hrun (init_hg self1 genesis1 oracle1) ops1) x = Some e1 ->
  get_event (hrun (init_hg self2 genesis2 oracle2) ops2) x = Some e2 ->
  ev_lt e1 = ev_lt e2 /\ ev_lt e1 <> None.
Proof. exact lamport_agree_any. Qed.
Print Assumptions C03_lamport_function_of_ancestry_dynamic.

Theorem C03_round_function_of_ancestry_dynamic :
  forall all self1 self2 genesis1 genesis2 oracle1 oracle2 ops1 ops2 x e1 e2,
  ids_determine all -> self1 <> -1 -> self2 <> -1 ->
  Forall (hop_ok all) ops1 -> Forall (hop_ok all) ops2 ->
  gap_runb (init_hg self1 genesis1 oracle1) ops1 = true -> gap_runb (init_hg self2 genesis2 oracle2) ops2 = true ->
  let st1 := hrun (init_hg self1 genesis1 oracle1) ops1 in
  let st2 := hrun (init_hg self2 genesis2 oracle2) ops2 in
  failed st1 = false -> failed st2 = false -> tables_agree st1 st2 ->
  get_event st1 x = Some e1 -> get_event st2 x = Some e2 ->
  ev_round e1 = ev_round e2 /\ ev_round e1 <> None /\
  zget x (round_memo st1) = zget x (round_memo st2) /\ zget x (witness_memo st1) = zget x (witness_memo st2).
Proof. exact (fun all s1 s2 g1 g2 o1 o2 ops1 ops2 x e1 e2 ID S1 S2 H1 H2 B1 B2 F1 F2 T =>
                gap_round_agree all s1 s2 g1 g2 o1 o2 ops1 ops2 ID S1 S2 H1 H2 B1 B2 F1 F2 T x e1 e2). Qed.
Print Assumptions C03_round_function_of_ancestry_dynamic.

Theorem C03_strongly_see_function_of_ancestry_dynamic :
  forall all self1 self2 genesis1 genesis2 oracle1 oracle2 ops1 ops2 g x w e1x e2x e1w e2w,
  ids_determine all -> self1 <> -1 -> self2 <> -1 ->
  Forall (hop_ok all) ops1 -> Forall (hop_ok all) ops2 ->
  gap_runb (init_hg self1 genesis1 oracle1) ops1 = true -> gap_runb (init_hg self2 genesis2 oracle2) ops2 = true ->
  let st1 := hrun (init_hg self1 genesis1 oracle1) ops1 in
  let st2 := hrun (init_hg self2 genesis2 oracle2) ops2 in
  failed st1 = false -> failed st2 = false -> tables_agree st1 st2 ->
  get_event st1 x = Some e1x -> get_event st2 x = Some e2x ->
  get_event st1 w = Some e1w -> get_event st2 w = Some e2w ->
  strongly_see st1 x w g = strongly_see st2 x w g /\ strongly_see st1 x w g <> None.
Proof. exact (fun all s1 s2 g1 g2 o1 o2 ops1 ops2 g x w e1x e2x e1w e2w ID S1 S2 H1 H2 B1 B2 F1 F2 T =>
                gap_strongly_see_agree all s1 s2 g1 g2 o1 o2 ops1 ops2 ID S1 S2 H1 H2 B1 B2 F1 F2 T g x w e1x e2x e1w e2w). Qed.
Print Assumptions C03_strongly_see_function_of_ancestry_dynamic.

Theorem C03_round_received_function_of_ancestry_dynamic :
  forall all self1 self2 genesis1 genesis2 oracle1 oracle2 ops1 ops2 x e1 e2 i1 i2,
  ids_determine all -> fork_free all -> self1 <> -1 -> self2 <> -1 ->
  Forall (hop_ok all) ops1 -> Forall (hop_ok all) ops2 ->
  gap_runb (init_hg self1 genesis1 oracle1) ops1 = true -> gap_runb (init_hg self2 genesis2 oracle2) ops2 = true ->
  let st1 := hrun (init_hg self1 genesis1 oracle1) ops1 in
  let st2 := hrun (init_hg self2 genesis2 oracle2) ops2 in
  failed st1 = false -> failed st2 = false -> tables_agree st1 st2 ->
  get_event st1 x = Some e1 -> get_event st2 x = Some e2 ->
  ev_rr e1 = Some i1 -> ev_rr e2 = Some i2 -> i1 = i2.
Proof. exact rr_agreement_gap_universe. Qed.
Print Assumptions C03_round_received_function_of_ancestry_dynamic.

Definition is_topological (evs : list event) : Prop :=
  forall i e, nth_error evs i = Some e ->
    (e_sp e = -1 \/ exists j p, (j < i)%nat /\ nth_error evs j = Some p /\ e_id p = e_sp e) /\
    (e_op e = -1 \/ exists j p, (j < i)%nat /\ nth_error evs j = Some p /\ e_id p = e_op e).
Definition obs (st : hg) (x : Z) := option_map (fun e => (ev_round e, ev_lt e)) (get_event st x).
(* the observation of a shared event does not depend on the order / cut *)
Theorem C03_order_independent_shared :
  forall genesis all self1 self2 oracle1 oracle2 ops1 ops2 x,
  ids_determine all -> no_accept all -> Forall (hop_ok all) ops1 -> Forall (hop_ok all) ops2 ->
  let st1 := hrun (init_hg self1 genesis oracle1) ops1 in
  let st2 := hrun (init_hg self2 genesis oracle2) ops2 in
  get_event st1 x <> None -> get_event st2 x <> None -> obs st1 x = obs st2 x.
Proof. exact (fun g all s1 s2 o1 o2 ops1 ops2 x ID NA H1 H2 => u_obs g all ID NA s1 s2 o1 o2 ops1 ops2 H1 H2 x). Qed.
Print Assumptions C03_order_independent_shared.

(* ADMISSION IS ORDER INDEPENDENT: two topological orders (parents attempted first) of one set of
   attempts - any events: bad signatures, wrong indexes, unknown creators included - over a
   fork-free universe with distinct identifiers, static membership, let in the same events.  The
   two runs may even belong to different nodes (self, oracle). *)
Theorem C03_admission_order_independent : forall genesis evs evs' self1 self2 oracle1 oracle2,
  Permutation evs evs' -> is_topological evs -> is_topological evs' ->
  ids_determine evs -> fork_free evs -> no_accept evs -> (forall e, In e evs -> 0 <= e_id e) ->
  forall x, get_event (run (init_hg self1 genesis oracle1) evs) x <> None <->
            get_event (run (init_hg self2 genesis oracle2) evs') x <> None.
Proof.
  exact (fun g evs evs' s1 s2 o1 o2 P T1 T2 ID FF NA NN x =>
           admitted_order_independent g evs evs' P T1 T2 ID FF NA NN s1 s2 o1 o2 x).
Qed.
Print Assumptions C03_admission_order_independent.

(* THE ORDER-INDEPENDENCE STATEMENT, with the premises it needs *)
Theorem C03_order_independent : forall genesis evs evs' self1 self2 oracle1 oracle2,
  Permutation evs evs' -> is_topological evs -> is_topological evs' ->
  ids_determine evs -> fork_free evs -> no_accept evs -> (forall e, In e evs -> 0 <= e_id e) ->
  forall x, obs (run (init_hg self1 genesis oracle1) evs) x = obs (run (init_hg self2 genesis oracle2) evs') x.
Proof.
  exact (fun g evs evs' s1 s2 o1 o2 P T1 T2 ID FF NA NN x =>
           obs_order_independent g evs evs' P T1 T2 ID FF NA NN s1 s2 o1 o2 x).
Qed.
Print Assumptions C03_order_independent.

(* a sub-DAG: every event a run admits is admitted by any topological run that attempts (at least)
   the admitted events of the first - in particular by a run over a superset of the attempts *)
Theorem C03_admission_monotone : forall genesis all self1 self2 oracle1 oracle2 ops1 evs2,
  ids_determine all -> fork_free all -> no_accept all ->
  Forall (hop_ok all) ops1 -> Forall (hop_ok all) (map HInsert evs2) -> is_topological evs2 ->
  let st1 := hrun (init_hg self1 genesis oracle1) ops1 in
  let st2 := hrun (init_hg self2 genesis oracle2) (map HInsert evs2) in
  (forall x es, get_event st1 x = Some es -> In (ev_e es) evs2) ->
  forall x, get_event st1 x <> None -> get_event st2 x <> None.
Proof.
  exact (fun g all s1 s2 o1 o2 ops1 evs2 ID FF NA H1 H2 T =>
           admitted_incl g all ID FF NA s1 o1 ops1 s2 o2 evs2 H1 H2 T).
Qed.
Print Assumptions C03_admission_monotone.

(* the delivered blocks of two runs over one universe - any orders, any cuts - agree position by
   position (C01_agreement restated for [run]) *)
Theorem C03_blocks_order_consistent : forall genesis all evs1 evs2 self1 self2 oracle1 oracle2 k d1 d2,
  ids_determine all -> sigkeys_determine all -> no_accept all -> fork_free all ->
  Forall (hop_ok all) (map HInsert evs1) -> Forall (hop_ok all) (map HInsert evs2) ->
  nth_error (delivered (hrun (init_hg self1 genesis oracle1) (map HInsert evs1))) k = Some d1 ->
  nth_error (delivered (hrun (init_hg self2 genesis oracle2) (map HInsert evs2))) k = Some d2 ->
  cbody d1 = cbody d2.
Proof.
  exact (fun g all evs1 evs2 s1 s2 o1 o2 k d1 d2 ID SK NA FF H1 H2 =>
           blocks_agree g all ID SK NA FF s1 s2 o1 o2 (map HInsert evs1) (map HInsert evs2) k d1 d2 H1 H2).
Qed.
Print Assumptions C03_blocks_order_consistent.

(* THE SAME UNDER DYNAMIC MEMBERSHIP (no [no_accept], no premise on the tables): two runs over one fork-free universe
   -- any insertion orders, any cuts, any selfs, the same genesis set -- that both respect the distance bound [gap_runb]
   and have not failed give the same observation (round, Lamport timestamp) for every event both have admitted, and
   their delivered blocks agree position by position in index, round-received, timestamp, transactions, internal
   transactions and peers ([cbodyD], Proofs/BlockPeersD.v; C01_agreement_dynamic_gap restated for insertion
   sequences).  Without the bound: C01_dynamic_fork_by_scheduling (the order of insertion alone forks). *)
Theorem C03_order_independent_shared_dynamic :
  forall all genesis self1 self2 oracle1 oracle2 ops1 ops2 x,
  ids_determine all -> sigkeys_determine all -> fork_free all -> self1 <> -1 -> self2 <> -1 ->
  Forall (hop_ok all) ops1 -> Forall (hop_ok all) ops2 ->
  gap_runb (init_hg self1 genesis oracle1) ops1 = true -> gap_runb (init_hg self2 genesis oracle2) ops2 = true ->
  let st1 := hrun (init_hg self1 genesis oracle1) ops1 in
  let st2 := hrun (init_hg self2 genesis oracle2) ops2 in
  failed st1 = false -> failed st2 = false ->
  get_event st1 x <> None -> get_event st2 x <> None -> obs st1 x = obs st2 x.
Proof.
  exact (fun all g s1 s2 o1 o2 ops1 ops2 x ID SK FF S1 S2 H1 H2 B1 B2 F1 F2 =>
           obs_agree_gap all g ID SK FF s1 s2 o1 o2 ops1 ops2 S1 S2 H1 H2 B1 B2 F1 F2 x).
Qed.
Print Assumptions C03_order_independent_shared_dynamic.

Theorem C03_blocks_order_consistent_dynamic : forall all genesis evs1 evs2 self1 self2 oracle1 oracle2 k d1 d2,
  ids_determine all -> sigkeys_determine all -> fork_free all -> self1 <> -1 -> self2 <> -1 ->
  Forall (hop_ok all) (map HInsert evs1) -> Forall (hop_ok all) (map HInsert evs2) ->
  gap_runb (init_hg self1 genesis oracle1) (map HInsert evs1) = true ->
  gap_runb (init_hg self2 genesis oracle2) (map HInsert evs2) = true ->
  failed (hrun (init_hg self1 genesis oracle1) (map HInsert evs1)) = false ->
  failed (hrun (init_hg self2 genesis oracle2) (map HInsert evs2)) = false ->
  nth_error (delivered (hrun (init_hg self1 genesis oracle1) (map HInsert evs1))) k = Some d1 ->
  nth_error (delivered (hrun (init_hg self2 genesis oracle2) (map HInsert evs2))) k = Some d2 ->
  cbodyD d1 = cbodyD d2.
Proof.
  exact (fun all g evs1 evs2 s1 s2 o1 o2 k d1 d2 ID SK FF S1 S2 H1 H2 B1 B2 F1 F2 =>
           blocks_agree_gap_full all g ID SK FF s1 s2 o1 o2 (map HInsert evs1) (map HInsert evs2) S1 S2 H1 H2 B1 B2 F1 F2 k d1 d2).
Qed.
Print Assumptions C03_blocks_order_consistent_dynamic.

(* THE PREFIX STATEMENT (literal, no premise): attempting more events only appends blocks *)
Theorem C03_prefix : forall genesis evs more,
  exists l, map b_txs (delivered (run (init_hg (-1) genesis []) (evs ++ more)))
          = map b_txs (delivered (run (init_hg (-1) genesis []) evs)) ++ l.
Proof. exact (fun g evs more => delivered_txs_prefix (-1) g [] evs more). Qed.
Print Assumptions C03_prefix.

(* REFUTED: the order-independence statement WITHOUT fork freedom.  Two first events a, b of one
   creator: [a; b] admits a, [b; a] admits b (Proofs/AdmitOrder.v: ow_a, ow_b). *)
Definition C03_order_independent_statement : Prop :=
  forall genesis evs evs', Permutation evs evs' -> is_topological evs -> is_topological evs' ->
    forall x, obs (run (init_hg (-1) genesis []) evs) x = obs (run (init_hg (-1) genesis []) evs') x.
Theorem C03_order_independent_statement_refuted : ~ C03_order_independent_statement.
Proof. exact ow_refuted. Qed.
Print Assumptions C03_order_independent_statement_refuted.

(* non-vacuity of the function-of-ancestry theorems: the C01 example (two nodes, 24 / 17 events of one DAG) *)
Example C03_example_functions :
  let g := [mkPeer 100 0; mkPeer 101 1] in
  let ev k := mkEvent k (k mod 2) (k / 2) (if k <? 2 then -1 else k - 2) (if k =? 0 then -1 else k - 1) k
                      (Z.even (k / 3)) (100 - k) [k] [] [] true in
  let all := map ev (zseq 0 24) in
  let st1 := hrun (init_hg 0 g []) (map HInsert all) in
  let st2 := hrun (init_hg 1 g []) (map HInsert (firstn 17 all)) in
  no_acceptb all = true /\ failed st1 = false /\ failed st2 = false /\
  map (obs st1) (zseq 0 17) = map (obs st2) (zseq 0 17) /\
  obs st2 16 = Some (Some 8, Some 16) /\
  strongly_see st1 16 13 g = Some true /\ strongly_see st2 16 13 g = Some true /\
  strongly_see st1 16 16 g = Some false /\ strongly_see st2 16 16 g = Some false.
Proof. vm_compute. repeat split; reflexivity. Qed.

(* non-vacuity of C03_order_independent: the same 24 events, the first two swapped (both topological) *)
Example C03_example_orders :
  let g := [mkPeer 100 0; mkPeer 101 1] in
  let ev k := mkEvent k (k mod 2) (k / 2) (if k <? 2 then -1 else k - 2) (if k <? 2 then -1 else k - 1) k
                      (Z.even (k / 3)) (100 - k) [k] [] [] true in
  let evs := map ev (zseq 0 24) in
  let evs' := ev 1 :: ev 0 :: map ev (zseq 2 22) in
  fork_freeb evs = true /\ no_acceptb evs = true /\
  map (obs (run (init_hg (-1) g []) evs)) (zseq 0 24) = map (obs (run (init_hg (-1) g []) evs')) (zseq 0 24) /\
  obs (run (init_hg (-1) g []) evs') 16 = Some (Some 7, Some 15).
Proof.
  intros g ev evs evs'.
  assert (F : let s' := run (init_hg (-1) g []) evs' in
    fork_freeb evs = true /\ no_acceptb evs = true /\
    map (obs (run (init_hg (-1) g []) evs)) (zseq 0 24) = map (obs s') (zseq 0 24) /\
    obs s' 16 = Some (Some 7, Some 15)) by (vm_compute; repeat split; reflexivity).
  exact F.
Qed.
