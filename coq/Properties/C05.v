(* C05 Transaction integrity.  Statements only.
   Model/NodeModel.v: the pools of core.go and addSelfEvent's capture / insert / trim discipline,
   with the outcome of the insertion (and what the commit callback appends meanwhile) as inputs,
   so the theorems hold for EVERY pattern of failing / succeeding insertions and submissions.
   Transactions are identified by harness serial numbers (byte identity: C15/C20). *)
From Coq Require Import ZArith List Bool.
From V Require Import Model.ZMap Model.Quorum Model.HgImpl Model.NodeModel Proofs.NodeProofs
  Proofs.AdmissionProofs Proofs.BlockInv Proofs.OrderProofs Proofs.TidyC05
  Model.CoreModel Proofs.CoreProofs.
Import ListNotations.
Open Scope Z_scope.

(* nothing lost, nothing duplicated, order preserved: everything a node accepted is, in order of
   acceptance, the payload of its own events followed by what is still pending *)
Theorem C05_conservation : forall ops,
  p_submitted (prun ops) = flat_map fst (p_created (prun ops)) ++ p_txs (prun ops) /\
  p_isubmitted (prun ops) = flat_map snd (p_created (prun ops)) ++ p_itxs (prun ops).
Proof. exact prun_conserved. Qed.
Print Assumptions C05_conservation.

(* each accepted transaction is pending or in exactly one self-event, never both, never twice *)
Theorem C05_exactly_one_event : forall ops,
  NoDup (p_submitted (prun ops)) ->
  NoDup (flat_map fst (p_created (prun ops)) ++ p_txs (prun ops)) /\
  forall t, In t (p_submitted (prun ops)) <->
            In t (flat_map fst (p_created (prun ops))) \/ In t (p_txs (prun ops)).
Proof. exact prun_exactly_once. Qed.
Print Assumptions C05_exactly_one_event.

(* a failed insertion (sync failure, store failure, consensus-pass error) keeps everything pending *)
Theorem C05_failure_keeps_pending : forall p dtx ditx,
  p_txs (pstep p (PSelfEvent true false dtx ditx)) = p_txs p ++ dtx /\
  p_itxs (pstep p (PSelfEvent true false dtx ditx)) = p_itxs p ++ ditx /\
  p_created (pstep p (PSelfEvent true false dtx ditx)) = p_created p.
Proof. exact failed_self_event_keeps_pool. Qed.
Print Assumptions C05_failure_keeps_pending.

(** The commit side, on the hashgraph model (HgImpl, every reachable state of every sequence of
    insertion attempts and ProcessSigPool calls, [hrun]; hypotheses as in C04: identifiers
    determine events, numbered from 0).
    [committed_txs st]    = concatenation of the delivered blocks' transaction lists (commit order);
    [committed_events st] = concatenation of the delivered blocks' frame events (commit order);
    [etxs st x]           = payload of the stored event x. *)

(* the committed transaction stream is exactly the concatenation, in commit order, of the payloads
   of the committed events (whole events, nothing else) *)
Theorem C05_committed_stream : forall all self_ genesis oracle_ ops,
  ids_determine all -> Forall (hop_ok all) ops ->
  let st := hrun (init_hg self_ genesis oracle_) ops in
  committed_txs st = flat_map (etxs st) (committed_events st).
Proof. exact (fun all s g o ops ID H => committed_stream all _ (hrun_ginv all s g o ops ID H)). Qed.
Print Assumptions C05_committed_stream.

(* no event is committed twice: not in two blocks, not twice in one *)
Theorem C05_no_event_committed_twice : forall all self_ genesis oracle_ ops,
  ids_determine all -> Forall (hop_ok all) ops ->
  NoDup (committed_events (hrun (init_hg self_ genesis oracle_) ops)).
Proof. exact committed_events_nodup. Qed.
Print Assumptions C05_no_event_committed_twice.

(* hence, if the admitted events have duplicate-free and pairwise disjoint payloads, no
   transaction is committed twice (neither in two blocks nor twice in one) *)
Theorem C05_no_transaction_committed_twice : forall all self_ genesis oracle_ ops,
  ids_determine all -> Forall (hop_ok all) ops ->
  payloads_disjoint (hrun (init_hg self_ genesis oracle_) ops) ->
  NoDup (committed_txs (hrun (init_hg self_ genesis oracle_) ops)).
Proof. exact no_transaction_committed_twice. Qed.
Print Assumptions C05_no_transaction_committed_twice.

(* the same with the hypothesis on the attempted events (what the senders built) *)
Theorem C05_no_transaction_committed_twice_attempts : forall all self_ genesis oracle_ ops,
  ids_determine all -> Forall (hop_ok all) ops ->
  (forall e, In e all -> NoDup (e_txs e)) ->
  (forall e e' t, In e all -> In e' all -> In t (e_txs e) -> In t (e_txs e') -> e = e') ->
  NoDup (committed_txs (hrun (init_hg self_ genesis oracle_) ops)).
Proof. exact no_transaction_committed_twice_attempts. Qed.
Print Assumptions C05_no_transaction_committed_twice_attempts.

(* every committed transaction is in the payload of a committed event, which is an admitted
   event: stored under its identifier, one of the attempted events, with a valid signature *)
Theorem C05_committed_was_submitted : forall all self_ genesis oracle_ ops t,
  ids_determine all -> Forall (hop_ok all) ops ->
  let st := hrun (init_hg self_ genesis oracle_) ops in
  In t (committed_txs st) ->
  exists x ex, In x (committed_events st) /\ get_event st x = Some ex /\ In t (e_txs (ev_e ex)) /\
               In (ev_e ex) all /\ e_id (ev_e ex) = x /\ e_sigok (ev_e ex) = true.
Proof. exact committed_was_submitted. Qed.
Print Assumptions C05_committed_was_submitted.

(** The link between the two models.  [O c] is the life (any [pop] sequence) of the node with key
    c, [slot e] says which self-event of its creator e is.  If every attempted event carries the
    payload its creator's addSelfEvent captured for that self-event, different events of one
    creator are different self-events, and the transactions accepted by the nodes are pairwise
    distinct within and across nodes, then the attempted events have duplicate-free, pairwise
    disjoint payloads (this is C05_exactly_one_event, node by node) ... *)
Theorem C05_pools_give_disjoint_payloads : forall all creators (O : Z -> list pop) slot,
  from_pools all creators (fun c => prun (O c)) slot ->
  NoDup creators -> NoDup (flat_map (fun c => p_submitted (prun (O c))) creators) ->
  (forall e, In e all -> NoDup (e_txs e)) /\
  (forall e e' t, In e all -> In e' all -> In t (e_txs e) -> In t (e_txs e') -> e = e').
Proof. exact pools_payloads_disjoint. Qed.
Print Assumptions C05_pools_give_disjoint_payloads.

(* ... and therefore no submitted transaction is committed twice, by any node, whatever the
   gossip: end to end over pools + hashgraph *)
Theorem C05_submitted_committed_at_most_once : forall all creators O slot self_ genesis oracle_ ops,
  ids_determine all -> Forall (hop_ok all) ops ->
  from_pools all creators (fun c => prun (O c)) slot ->
  NoDup creators -> NoDup (flat_map (fun c => p_submitted (prun (O c))) creators) ->
  NoDup (committed_txs (hrun (init_hg self_ genesis oracle_) ops)).
Proof. exact no_transaction_committed_twice_pools. Qed.
Print Assumptions C05_submitted_committed_at_most_once.

(* the combinatorial core: blocks made of distinct event payloads chosen among pairwise disjoint,
   duplicate-free payloads carry no transaction twice *)
Theorem C05_commit_once : forall (blocks : list (list Z)) (events : list (list Z)),
  NoDup (concat events) -> (exists sel, concat blocks = concat sel /\ NoDup sel /\ incl sel events) ->
  NoDup (concat blocks).
Proof. exact commit_once_lists. Qed.
Print Assumptions C05_commit_once.

(** The combined model (Model/CoreModel.v): the core's pools, head and seq over the hashgraph
    model; operations addTransactions / addInternalTransaction / addSelfEvent / the insertion loop
    of sync / processSigPool.  [node self genesis oracle ops] is the core after [ops] from its
    initial state.  [run_ok all .. ops]: every event handed to the hashgraph is in [all] (the list
    in which identifiers determine events) with an identifier >= 0, and a synced event that claims
    this node as creator does not verify unless the node made it ([not_forged]; unforgeability).
    Freshness of the identifier of a new self-event is NOT a premise: it follows. *)

(* the hashgraph of the node is the [hrun] state of the calls the core made, which satisfy the
   premises of the hashgraph theorems: all of C02 / C04 / C05 above / C07 / C09 / C10 / C18 apply *)
Theorem C05_core_hashgraph_is_hrun : forall all self_ genesis oracle_ ops,
  run_ok all (core_init self_ genesis oracle_) ops ->
  c_hg (node self_ genesis oracle_ ops) = hrun (init_hg self_ genesis oracle_) (node_calls self_ genesis oracle_ ops) /\
  Forall (hop_ok all) (node_calls self_ genesis oracle_ ops).
Proof. exact node_hg. Qed.
Print Assumptions C05_core_hashgraph_is_hrun.

(* (1) the node's own stored events are exactly the self-events made by addSelfEvent: the k-th one
   is stored with index k and the payload captured from the pools, every stored event of the node
   is one of them, seq and head are those of the last one *)
Theorem C05_own_events_are_created : forall all self_ genesis oracle_ ops,
  ids_determine all -> run_ok all (core_init self_ genesis oracle_) ops ->
  let c := node self_ genesis oracle_ ops in
  (forall k id txs itxs, nth_error (c_created c) k = Some (id, (txs, itxs)) ->
     exists ex, get_event (c_hg c) id = Some ex /\ e_creator (ev_e ex) = self_ /\
                e_index (ev_e ex) = Z.of_nat k /\ e_txs (ev_e ex) = txs /\ e_itxs (ev_e ex) = itxs) /\
  (forall x ex, get_event (c_hg c) x = Some ex -> e_creator (ev_e ex) = self_ ->
     exists txs itxs, nth_error (c_created c) (Z.to_nat (e_index (ev_e ex))) = Some (x, (txs, itxs))) /\
  c_seq c = Z.of_nat (length (c_created c)) - 1 /\ c_head c = last (map fst (c_created c)) (-1).
Proof. exact own_events_are_created. Qed.
Print Assumptions C05_own_events_are_created.

(* (2) conservation, the statement the Go oracle `conservation` evaluates: at every moment what
   addTransactions accepted is, in order, the payloads of the node's own stored events followed by
   the pool ... *)
Theorem C05_core_conservation : forall all self_ genesis oracle_ ops,
  ids_determine all -> run_ok all (core_init self_ genesis oracle_) ops ->
  let c := node self_ genesis oracle_ ops in
  c_submitted c = flat_map (etxs (c_hg c)) (created_ids c) ++ c_txs c /\
  NoDup (created_ids c) /\
  (forall x, In x (created_ids c) <-> exists ex, get_event (c_hg c) x = Some ex /\ e_creator (ev_e ex) = self_).
Proof. exact node_conservation. Qed.
Print Assumptions C05_core_conservation.

(* ... so that an accepted transaction is either still in the pool and in no own stored event, or
   in exactly one own stored event and not in the pool *)
Theorem C05_core_exactly_one : forall all self_ genesis oracle_ ops t,
  ids_determine all -> run_ok all (core_init self_ genesis oracle_) ops ->
  let c := node self_ genesis oracle_ ops in
  NoDup (c_submitted c) -> In t (c_submitted c) ->
  (In t (c_txs c) /\ forall x, In x (created_ids c) -> ~ In t (etxs (c_hg c) x)) \/
  (~ In t (c_txs c) /\ exists x, In x (created_ids c) /\ In t (etxs (c_hg c) x) /\
                        forall y, In y (created_ids c) -> In t (etxs (c_hg c) y) -> y = x).
Proof. exact node_exactly_one. Qed.
Print Assumptions C05_core_exactly_one.

(* (3) commit side of one node: the own events it committed are self-events of addSelfEvent, none
   twice; a transaction committed through an own event was accepted by addTransactions; with
   distinct accepted transactions none is committed twice, and none is still in the pool *)
Theorem C05_core_commit_side : forall all self_ genesis oracle_ ops,
  ids_determine all -> run_ok all (core_init self_ genesis oracle_) ops ->
  let c := node self_ genesis oracle_ ops in
  NoDup (own_committed_events c) /\ incl (own_committed_events c) (created_ids c) /\
  incl (own_committed_txs c) (c_submitted c) /\
  (NoDup (c_submitted c) ->
     NoDup (own_committed_txs c) /\ forall t, In t (own_committed_txs c) -> ~ In t (c_txs c)).
Proof. exact node_commit_side. Qed.
Print Assumptions C05_core_commit_side.

(* The hypothesis [from_pools] of C05_submitted_committed_at_most_once holds for nodes that are
   cores ([nd G Or Ops k] = node k (G k) (Or k) (Ops k)): every list of events that are stored at
   their creators' nodes is made of the creators' pool payloads, slot = index *)
Theorem C05_nodes_from_pools : forall all creators G Or Ops,
  ids_determine all ->
  (forall k, In k creators -> run_ok all (core_init k (G k) (Or k)) (Ops k)) ->
  forall evs,
  (forall e, In e evs -> In e all /\ In (e_creator e) creators /\
                         get_event (c_hg (nd G Or Ops (e_creator e))) (e_id e) <> None) ->
  from_pools evs creators (fun k => pools_of (nd G Or Ops k)) (fun e => Z.to_nat (e_index e)).
Proof. exact nodes_from_pools. Qed.
Print Assumptions C05_nodes_from_pools.

(* C05_submitted_committed_at_most_once with [from_pools] discharged.  Any observer (any node,
   any operation sequence [hops]) whose admitted events were made by their creators' cores -- i.e.
   are stored at the creator's node -- never commits a transaction twice, when the transactions
   accepted by the nodes are pairwise distinct within and across nodes. *)
Theorem C05_submitted_committed_at_most_once_cores : forall all creators G Or Ops,
  ids_determine all ->
  (forall k, In k creators -> run_ok all (core_init k (G k) (Or k)) (Ops k)) ->
  forall self_ genesis oracle_ hops,
  Forall (hop_ok all) hops ->
  let R := hrun (init_hg self_ genesis oracle_) hops in
  NoDup creators ->
  (forall x ex, get_event R x = Some ex ->
     In (e_creator (ev_e ex)) creators /\ get_event (c_hg (nd G Or Ops (e_creator (ev_e ex)))) x <> None) ->
  NoDup (flat_map (fun k => c_submitted (nd G Or Ops k)) creators) ->
  NoDup (committed_txs R).
Proof. exact network_committed_at_most_once. Qed.
Print Assumptions C05_submitted_committed_at_most_once_cores.

(* the NodeModel pools read off a core obey NodeModel's conservation law (link of the two models) *)
Theorem C05_core_pools_conserved : forall all self_ genesis oracle_ ops,
  ids_determine all -> run_ok all (core_init self_ genesis oracle_) ops ->
  p_submitted (pools_of (node self_ genesis oracle_ ops)) =
    flat_map fst (p_created (pools_of (node self_ genesis oracle_ ops))) ++ p_txs (pools_of (node self_ genesis oracle_ ops)) /\
  p_isubmitted (pools_of (node self_ genesis oracle_ ops)) =
    flat_map snd (p_created (pools_of (node self_ genesis oracle_ ops))) ++ p_itxs (pools_of (node self_ genesis oracle_ ops)).
Proof. exact (fun all s g o ops ID H => pools_of_conserved all _ (node_cinv all s g o ops ID H)). Qed.
Print Assumptions C05_core_pools_conserved.

(* NOT PROVED (asserted nowhere): the premise of the last theorem that every event an observer
   admits is stored at its creator's node is a statement about the network (an admitted event
   verifies, so by unforgeability its creator signed it, and a core signs only the self-events it
   inserts first); it is not derived from a model of the network.  Not modelled in CoreModel: the
   pool of own block signatures (payload [sigs] is an input), fast-forward / reset / bootstrap. *)

Example C05_example :
  let p := prun [PSubmit [1; 2]; PSelfEvent true false [] []; PSubmit [3]; PSelfEvent true true [4] [];
                 PSelfEvent false true [] []; PSelfEvent true true [] []] in
  p_created p = [([1; 2; 3], []); ([4], [])] /\ p_txs p = [] /\ p_submitted p = [1; 2; 3; 4].
Proof. vm_compute. repeat split. Qed.

(* non-vacuity of the commit side: two validators gossiping in ping-pong, event k carries
   transaction k, created by node (k mod 2) as its self-event number k/2 out of a pool fed with
   PSubmit [k].  All hypotheses hold; three blocks are delivered. *)
Definition c05_g : peerset := [mkPeer 100 0; mkPeer 101 1].
Definition c05_ev (k : Z) : event :=
  mkEvent k (k mod 2) (k / 2) (if k <? 2 then -1 else k - 2) (if k =? 0 then -1 else k - 1) k
          (Z.even (k / 3)) (100 - k) [k] [] [] true.
Definition c05_all : list event := map c05_ev [0; 1; 2; 3; 4; 5; 6; 7; 8; 9; 10; 11].
Definition c05_ops : list hop := map HInsert c05_all ++ [HSigPool].
Definition c05_st : hg := hrun (init_hg 0 c05_g [7; 8; 9; 10; 11; 12]) c05_ops.
Definition c05_O (c : Z) : list pop :=
  flat_map (fun j => [PSubmit [2 * j + c]; PSelfEvent true true [] []]) [0; 1; 2; 3; 4; 5].
Definition c05_slot (e : event) : nat := Z.to_nat (e_index e).

Example C05_example_commit :
  ids_determine c05_all /\ Forall (hop_ok c05_all) c05_ops /\
  from_pools c05_all [0; 1] (fun c => prun (c05_O c)) c05_slot /\
  NoDup (flat_map (fun c => p_submitted (prun (c05_O c))) [0; 1]) /\
  failed c05_st = false /\
  committed_events c05_st = [0; 1; 2; 3; 4; 5] /\
  committed_txs c05_st = [0; 1; 2; 3; 4; 5] /\
  map b_txs (delivered c05_st) = [[0; 1]; [2; 3]; [4; 5]].
Proof.
  assert (ID : ids_determine c05_all) by (apply ids_determine_distinct; vm_compute; reflexivity).
  split; [exact ID|].
  split; [apply Forall_app; split; [apply hop_ok_inserts; vm_compute; reflexivity|repeat constructor]|].
  split.
  { split.
    - intros e He. repeat (destruct He as [<-|He]; [vm_compute; split; [tauto|reflexivity]|]). destruct He.
    - (* creator and slot give the identifier *)
      assert (K : forallb (fun e => e_id e =? 2 * Z.of_nat (c05_slot e) + e_creator e) c05_all = true) by (vm_compute; reflexivity).
      rewrite forallb_forall in K.
      intros e e' He He' Hc Hs. apply ID; [exact He|exact He'|].
      rewrite (proj1 (Z.eqb_eq _ _) (K e He)), (proj1 (Z.eqb_eq _ _) (K e' He')), Hc, Hs. reflexivity. }
  split; [apply distinctb_NoDup; vm_compute; reflexivity|].
  vm_compute. repeat split; reflexivity.
Qed.

(* non-vacuity of the combined model: the history of C05_example_commit seen from node 0 as a
   core: it accepts transaction k and makes self-event k for even k, and syncs event k of node 1 for
   odd k; then accepts 12 and 13 which stay pending.  The premises hold (checked), three blocks are
   delivered, the own committed transactions are 0, 2, 4. *)
Definition c05c_ops : list cop :=
  flat_map (fun k => if Z.even k
                     then [CAddTxs [k]; CAddSelfEvent k (if k =? 0 then -1 else k - 1) k (Z.even (k / 3)) (100 - k) []]
                     else [CSync [c05_ev k]]) [0; 1; 2; 3; 4; 5; 6; 7; 8; 9; 10; 11]
  ++ [CSigPool; CAddTxs [12; 13]].
Definition c05c_init : core := core_init 0 c05_g [7; 8; 9; 10; 11; 12].
Definition c05c : core := node 0 c05_g [7; 8; 9; 10; 11; 12] c05c_ops.

Example C05_example_core :
  run_evs c05c_init c05c_ops = c05_all /\
  ids_determine c05_all /\ run_ok c05_all c05c_init c05c_ops /\
  c_hg c05c = c05_st /\
  created_ids c05c = [0; 2; 4; 6; 8; 10] /\ c_txs c05c = [12; 13] /\ c_head c05c = 10 /\ c_seq c05c = 5 /\
  c_submitted c05c = [0; 2; 4; 6; 8; 10; 12; 13] /\
  own_committed_events c05c = [0; 2; 4] /\ own_committed_txs c05c = [0; 2; 4] /\
  committed_txs (c_hg c05c) = [0; 1; 2; 3; 4; 5].
Proof.
  assert (E : run_evs c05c_init c05c_ops = c05_all) by (vm_compute; reflexivity).
  assert (R : run_ok c05_all c05c_init c05c_ops).
  { apply run_ok_of_checks; [rewrite E; apply incl_refl| |vm_compute; reflexivity].
    intros e He. repeat (destruct He as [<-|He]; [vm_compute; discriminate|]). destruct He. }
  split; [exact E|]. split; [apply ids_determine_distinct; vm_compute; reflexivity|]. split; [exact R|].
  (* one evaluation of the run; its hashgraph is [c05_st] because its calls are [c05_ops] *)
  assert (F : let r := crun_h c05c_init c05c_ops in
    map hop_of (snd r) = c05_ops /\
    created_ids (fst r) = [0; 2; 4; 6; 8; 10] /\ c_txs (fst r) = [12; 13] /\ c_head (fst r) = 10 /\ c_seq (fst r) = 5 /\
    c_submitted (fst r) = [0; 2; 4; 6; 8; 10; 12; 13] /\
    own_committed_events (fst r) = [0; 2; 4] /\ own_committed_txs (fst r) = [0; 2; 4] /\
    committed_txs (c_hg (fst r)) = [0; 1; 2; 3; 4; 5]) by (vm_compute; repeat split; reflexivity).
  destruct F as [C F]. split; [|exact F].
  exact (eq_trans (proj1 (node_hg _ _ _ _ _ R)) (f_equal (hrun _) C)).
Qed.
