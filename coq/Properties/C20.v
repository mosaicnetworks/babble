(* C20 The application proxy is transparent for arbitrary payloads.
   Statements only; every proof is `exact <lemma>`. *)
From Coq Require Import ZArith List Bool.
From V Require Import Model.Proxy Proofs.ProxyProofs.
Import ListNotations.
Open Scope Z_scope.

(* The retry loop of both socket clients. *)

(* a call that returns without error returns the reply of an attempt that went through (the first one),
   and that attempt is one of the three *)
Theorem C20_no_empty_success : forall (R : Type) conn (outs : list (outcome R)) r,
  c_result (call conn outs) = Some r ->
  exists k, (k < 3)%nat /\ nth_error outs k = Some (Ok r) /\
    forall j, (j < k)%nat -> exists o, nth_error outs j = Some o /\ is_ok o = false.
Proof. exact (fun R => call_loop_success R retries). Qed.
Print Assumptions C20_no_empty_success.

(* when every attempt fails (dial, call, timeout, in any combination) the call returns an error *)
Theorem C20_all_fail_error : forall (R : Type) conn (outs : list (outcome R)),
  (forall o, In o (firstn 3 outs) -> is_ok o = false) -> c_result (call conn outs) = None.
Proof. exact (fun R => call_loop_all_fail R retries). Qed.
Print Assumptions C20_all_fail_error.

(* conversely an attempt that goes through after at most two failures makes the call succeed *)
Theorem C20_first_ok_decides : forall (R : Type) conn (outs : list (outcome R)) k r,
  (k < 3)%nat -> nth_error outs k = Some (Ok r) ->
  (forall j, (j < k)%nat -> exists o, nth_error outs j = Some o /\ is_ok o = false) ->
  c_result (call conn outs) = Some r.
Proof. exact (fun R => call_loop_first_ok R retries). Qed.
Print Assumptions C20_first_ok_decides.

Theorem C20_at_most_three : forall (R : Type) conn (outs : list (outcome R)),
  (c_attempts (call conn outs) <= 3)%nat /\ (c_deliveries (call conn outs) <= 3)%nat /\
  (c_dials (call conn outs) <= 3)%nat.
Proof. exact call_counts. Qed.
Print Assumptions C20_at_most_three.

(* a success means the handler ran at least once (it may have run up to three times: a retried call is
   delivered again), and the connection is kept; an error after three attempts drops the connection *)
Theorem C20_at_least_once : forall (R : Type) conn (outs : list (outcome R)) r,
  c_result (call conn outs) = Some r ->
  (1 <= c_deliveries (call conn outs))%nat /\ c_conn (call conn outs) = true.
Proof. exact (fun R => call_loop_success_delivered R retries). Qed.
Print Assumptions C20_at_least_once.

Theorem C20_error_drops_connection : forall (R : Type) conn (outs : list (outcome R)),
  (3 <= length outs)%nat -> c_result (call conn outs) = None -> c_conn (call conn outs) = false.
Proof. exact (fun R conn outs => call_loop_error_conn R retries conn outs (Nat.lt_0_succ 2)). Qed.
Print Assumptions C20_error_drops_connection.

(* Successive calls on one client are independent: the reply (and the number of deliveries) of the k-th call is a
   function of the k-th call's own attempts only -- not of the connection left by earlier calls, not of any
   earlier or later reply.  (The model is value-semantic: a returned reply is never touched again; the harness's
   retention check `content-changed-after-later-call` is the implementation-side counterpart.) *)
Theorem C20_calls_independent : forall (R : Type) (calls : list (list (outcome R))) conn,
  map c_result (call_seq conn calls) = map (fun outs => c_result (call false outs)) calls /\
  map c_deliveries (call_seq conn calls) = map (fun outs => c_deliveries (call false outs)) calls.
Proof. exact call_seq_results. Qed.
Print Assumptions C20_calls_independent.

Theorem C20_earlier_results_unaffected : forall (R : Type) conn conn' (pre pre' : list (list (outcome R))) c post post',
  length pre = length pre' ->
  nth_error (map c_result (call_seq conn (pre ++ c :: post))) (length pre) = Some (c_result (call false c)) /\
  nth_error (map c_result (call_seq conn' (pre' ++ c :: post'))) (length pre) = Some (c_result (call false c)).
Proof. exact earlier_results_unaffected. Qed.
Print Assumptions C20_earlier_results_unaffected.

(* Failure and success reporting, from the handler's point of view.
   [isnull r]: the reply r is encoded as JSON null; [denull]: what the server methods do to a nil byte-slice
   reply (faf0201); the handler's error is wrapped so that its message is never empty (ebb9c0a). *)

(* If the application handled none of the three attempts successfully -- network faults at any position,
   handler errors with ANY message, the empty one included -- Babble gets an error.  (Was refuted before
   ebb9c0a: finding C20-empty-error-message-is-success.) *)
Theorem C20_failure_reported : forall (R : Type) (isnull : R -> bool) (denull : R -> R) conn (l : list (attempt R)),
  (forall a, In a (firstn 3 l) -> handled a = false) -> c_result (call_attempts isnull denull conn l) = None.
Proof. exact failures_reported. Qed.
Print Assumptions C20_failure_reported.

(* A call that the application handles successfully in one of the three attempts, the earlier ones not being
   handled, is a success for Babble with the application's reply -- also when that reply is a nil slice, which
   arrives as the empty slice.  (Was refuted before faf0201: finding C20-nil-result-is-error.) *)
Theorem C20_success_reported : forall (R : Type) (isnull : R -> bool) (denull : R -> R),
  (forall r, isnull (denull r) = false) ->
  forall conn (l : list (attempt R)) k r,
  (k < 3)%nat -> nth_error l k = Some (APass (HOk r)) ->
  (forall j, (j < k)%nat -> exists a, nth_error l j = Some a /\ handled a = false) ->
  c_result (call_attempts isnull denull conn l) = Some (denull r).
Proof. exact success_reported. Qed.
Print Assumptions C20_success_reported.

(* without faults: exactly one delivery *)
Theorem C20_success_first_attempt : forall (R : Type) (isnull : R -> bool) (denull : R -> R),
  (forall r, isnull (denull r) = false) ->
  forall conn r (rest : list (attempt R)),
  c_result (call_attempts isnull denull conn (APass (HOk r) :: rest)) = Some (denull r) /\
  c_deliveries (call_attempts isnull denull conn (APass (HOk r) :: rest)) = 1%nat.
Proof. exact handled_first. Qed.
Print Assumptions C20_success_first_attempt.

(* the premise holds of the byte-slice replies (snapshot, state hash) *)
Theorem C20_bytes_never_null : forall b, bytes_null (bytes_denull b) = false.
Proof. exact bytes_denull_ok. Qed.
Print Assumptions C20_bytes_never_null.

(* every success comes from an attempt whose handler succeeded, and carries exactly its reply *)
Theorem C20_success_source : forall (R : Type) (isnull : R -> bool) (denull : R -> R) conn (l : list (attempt R)) r,
  c_result (call_attempts isnull denull conn l) = Some r ->
  exists k r0, (k < 3)%nat /\ nth_error l k = Some (APass (HOk r0)) /\ r = denull r0 /\
    forall j, (j < k)%nat -> exists a, nth_error l j = Some a /\ is_ok (outcome_of isnull denull a) = false.
Proof. exact success_source. Qed.
Print Assumptions C20_success_source.

(* What remains true of net/rpc and Go's jsonrpc client by themselves (a server that hands the handler's return
   to the library unchanged, as the code did before the two fixes, or as a non-Go application may): an error
   with an empty message is a success with the zero reply, a null result is an error after three deliveries;
   the same inputs through the server methods give an error resp. a success. *)
Theorem C20_library_conventions_empty_message :
  let l := [APass (HErr true (Some [])); APass (HErr true (Some [])); APass (HErr true (Some []))] in
  c_result (call_attempts_raw bytes_null false l) = Some (Some []) /\
  c_result (call_attempts bytes_null bytes_denull false l) = None /\
  c_deliveries (call_attempts bytes_null bytes_denull false l) = 3%nat.
Proof. exact empty_message_raw_and_fixed. Qed.
Print Assumptions C20_library_conventions_empty_message.

Theorem C20_library_conventions_nil_reply :
  let l : list (attempt bytes) := [APass (HOk None); APass (HOk None); APass (HOk None)] in
  c_result (call_attempts_raw bytes_null false l) = None /\
  c_deliveries (call_attempts_raw bytes_null false l) = 3%nat /\
  c_result (call_attempts bytes_null bytes_denull false l) = Some (Some []) /\
  c_deliveries (call_attempts bytes_null bytes_denull false l) = 1%nat.
Proof. exact nil_reply_raw_and_fixed. Qed.
Print Assumptions C20_library_conventions_nil_reply.

(* Blocks, commit responses and transactions come out of the JSON-RPC layer with exactly the content
   that went in: every byte of every byte string (any values, any length, nil and empty kept apart,
   hence a fortiori identical modulo nil == empty), every index, every internal transaction and
   receipt, every signature entry; only the unexported caches are dropped.  Premise: byte values are
   bytes, and the Go strings (peer address / key / moniker, signatures) are valid UTF-8. *)
Theorem C20_roundtrip_block : forall b,
  block_bytes_ok b = true -> block_str_ok b = true -> through_block b = Some (strip_block b).
Proof. exact roundtrip_block. Qed.
Print Assumptions C20_roundtrip_block.

Theorem C20_roundtrip_response : forall c,
  cresp_bytes_ok c = true -> cresp_str_ok c = true -> through_cresp c = Some (strip_cresp c).
Proof. exact roundtrip_cresp. Qed.
Print Assumptions C20_roundtrip_response.

Theorem C20_roundtrip_transaction : forall b, bytes_ok b = true -> through_bytes b = Some b.
Proof. exact dec_enc_bytes. Qed.
Print Assumptions C20_roundtrip_transaction.

(* peers.NewPeer (b2c4118) normalises address and moniker: whatever raw strings it is given, the result is
   valid UTF-8 (the key being a hex string), normalising twice changes nothing, and the wire leaves such a
   peer as it is.  (Before b2c4118 the creating node kept the raw bytes: finding
   C20-invalid-utf8-string-sanitised.) *)
Theorem C20_new_peer_valid : forall key net mon,
  str_ok key = true -> peer_str_ok (new_peer key net mon) = true /\ wire_peer (new_peer key net mon) = new_peer key net mon.
Proof. exact (fun key net mon H => conj (new_peer_ok key net mon H) (new_peer_wire key net mon H)). Qed.
Print Assumptions C20_new_peer_valid.

Theorem C20_to_valid_idempotent : forall s, str_ok (to_valid s) = true /\ to_valid (to_valid s) = to_valid s.
Proof. exact (fun s => conj (to_valid_ok s) (to_valid_idem s)). Qed.
Print Assumptions C20_to_valid_idempotent.

(* Hence: every block (response) whose internal transactions carry peers made by NewPeer from ARBITRARY address
   and moniker strings -- key and signature strings being the output of the hex / base-36 encoders -- reaches
   the socket application with exactly the content the in-process application sees. *)
Theorem C20_roundtrip_built_block : forall b,
  block_bytes_ok b = true -> built_block b -> through_block b = Some (strip_block b).
Proof. exact roundtrip_built_block. Qed.
Print Assumptions C20_roundtrip_built_block.

Theorem C20_roundtrip_built_response : forall c,
  cresp_bytes_ok c = true -> built_cresp c -> through_cresp c = Some (strip_cresp c).
Proof. exact roundtrip_built_cresp. Qed.
Print Assumptions C20_roundtrip_built_response.

(* for ANY strings: what arrives is the sanitised view ... *)
Theorem C20_roundtrip_block_wire : forall b,
  block_bytes_ok b = true -> through_block b = Some (wire_block b).
Proof. exact through_block_wire. Qed.
Print Assumptions C20_roundtrip_block_wire.

(* ... which still differs for a Peer that does NOT come from NewPeer or a JSON decode (a struct literal with a
   stray byte in the moniker; the code builds no such peer: documented deviation D1, the harness's control case) *)
Theorem C20_raw_peer_literal_changes :
  exists b, block_bytes_ok b = true /\ through_block b <> Some (strip_block b) /\
            through_block b = Some (wire_block b).
Proof. exact (ex_intro _ bad_block invalid_utf8_witness). Qed.
Print Assumptions C20_raw_peer_literal_changes.

Definition ex_peer := mkPeer [Good 49; Good 50] [Good 48; Good 88] [Good 233; Good 128512] 77.
Definition ex_block :=
  mkBlock (mkBody 9007199254740993 (-1) 3
                  (Some []) None (Some [255; 254; 0])
                  (Some [Some [0; 1; 2; 3; 255]; None; Some []; Some [104; 105]])
                  (Some [mkItx 0 ex_peer [Good 115]; mkItx 1 ex_peer []])
                  (Some [mkReceipt (mkItx 0 ex_peer [Good 115]) true]))
          (Some [([Good 48; Good 88], [Good 97])]) (Some [1]) [Good 65] true.
Definition ex_built_block :=
  mkBlock (mkBody 5 6 7 (Some []) None None (Some [Some [255]])
                  (Some [mkItx 0 (new_peer [Good 48; Good 88] [Bad 255; Good 58] [Good 109; Bad 195; Bad 40]) [Good 50]])
                  (Some [mkReceipt (mkItx 1 (new_peer [Good 48] [] [Bad 128]) []) false]))
          (Some [([Good 48], [Good 49])]) None [] false.
Example C20_example :
  block_bytes_ok ex_block = true /\ block_str_ok ex_block = true /\
  through_block ex_block = Some (strip_block ex_block) /\
  b64enc [77; 97; 110] = [19; 22; 5; 46] /\ b64enc [77; 97] = [19; 22; 4; 64] /\ b64enc [77] = [19; 16; 64; 64] /\
  c_result (call false [CallFail true; Timeout false; Ok 5]) = Some 5 /\
  c_deliveries (call false [CallFail true; Timeout false; Ok 5]) = 2%nat /\
  c_dials (call false [CallFail true; Timeout false; Ok 5]) = 3%nat /\
  c_result (call true [DialFail; DialFail; DialFail; Ok 5]) = None /\
  c_result (call_attempts bytes_null bytes_denull true [ADropReply; APass (HErr false None); APass (HOk (Some [1]))]) = Some (Some [1]) /\
  c_result (call_attempts bytes_null bytes_denull true [ADropReply; APass (HErr true None); APass (HOk None)]) = Some (Some []) /\
  c_result (call_attempts bytes_null bytes_denull false [APass (HErr true (Some [])); AStallReply; ADown; APass (HOk (Some []))]) = None /\
  new_peer [Good 48] [Good 97; Bad 255; Bad 254; Good 98; Bad 128] [Bad 237; Bad 160; Bad 128] =
    mkPeer [Good 97; Good 65533; Good 98; Good 65533] [Good 48] [Good 65533] 0 /\
  built_block ex_built_block /\ through_block ex_built_block = Some (strip_block ex_built_block) /\
  map c_result (call_seq false [[CallFail true; Ok 1]; [Ok 2]; [DialFail; DialFail; DialFail]; [Ok 4]]) = [Some 1; Some 2; None; Some 4].
Proof.
  repeat match goal with |- _ /\ _ => split end; try (vm_compute; reflexivity).
  unfold built_block, ex_built_block. cbn [bl_body bo_itxs bo_receipts bl_sigs norm_slice]. repeat split.
  - intros t [H | []]. subst t. exists [Good 48; Good 88], [Bad 255; Good 58], [Good 109; Bad 195; Bad 40]. repeat split.
  - intros r [H | []]. subst r. exists [Good 48], [], [Bad 128]. repeat split.
Qed.
