(* C15 Encoding identity: hashes and signatures survive the wire, JSON and database forms.
   Statements only; every proof is `exact <lemma>`.

   Vocabulary (Model/Wire.v, Proofs/WireJson.v, Proofs/WireProofs.v):
     set_wire_info st e       Hashgraph.SetWireInfo on the sender (fills the four private wire fields)
     to_wire / read_wire st   Event.ToWire / Hashgraph.ReadWireInfo against a store st
     wire_rt true st e        ToWire, encoding/json (SyncResponse, EagerSyncRequest), ReadWireInfo
     db_rt                    Event.MarshalDB then Event.UnmarshalDB (what BadgerStore writes / reads)
     json_rt_block/_frame     a Block / Frame through encoding/json (FastForwardResponse over TCP)
     ug_rt_frame              Frame.Marshal / Frame.Unmarshal (ugorji canonical; BadgerStore frames)
     event_digest, blockbody_digest, block_digest   the JSON document whose SHA256 is the hash
     frame_digest             the same for Frame.Hash; None when the ugorji writer does not terminate
     same_public a b          all serialized fields of the two events are equal: transactions
                              (nil / empty / contents), internal transactions, parents, creator,
                              index, block signatures with their validators, timestamp, signature
     X_valid                  every string in X is valid UTF-8
     store_ok st              the part of the admission invariant the conversion needs (see below)
   Hash functions: a hash is any function of the digest input (event_hash H, event_hex H with the
   private cache); "same digest input" is what is proved, so the conclusions hold for SHA256. *)
From Coq Require Import ZArith List Bool String Permutation.
From V Require Import Model.Wire Model.WireWitness Proofs.WireSort Proofs.WireJson Proofs.WireProofs Proofs.WireFrameProofs Proofs.WireWitnessProofs.
Import ListNotations.
Open Scope Z_scope.

(* ---- wire form and back, pointer hand-over (InmemTransport).
   Hypotheses: the store satisfies the admission invariant (an event found by hash sits at its
   creator's index; ids and keys name the same peers); the event has exactly two parent slots;
   its self-parent, if any, is by the same creator; its block signatures are its creator's. *)
Theorem C15_wire_roundtrip : forall st e e1 sp op k,
  store_ok st ->
  b_parents (e_body e) = Some [sp; op] ->
  b_creator (e_body e) = Some k ->
  (sp <> [] -> exists i, ev_find sp (ws_ev st) = Some (k, i)) ->
  (forall l b, b_bsigs (e_body e) = Some l -> In b l -> bs_validator b = Some k) ->
  set_wire_info st e = inr e1 ->
  exists e2, read_wire st (to_wire e1) = inr e2 /\ same_public e2 e /\ same_wire_info e2 e1.
Proof. exact wire_roundtrip. Qed.
Print Assumptions C15_wire_roundtrip.

(* ---- the same through encoding/json (TCP transport), for valid UTF-8 strings *)
Theorem C15_wire_roundtrip_json : forall st e e1 sp op k,
  store_ok st ->
  b_parents (e_body e) = Some [sp; op] ->
  b_creator (e_body e) = Some k ->
  (sp <> [] -> exists i, ev_find sp (ws_ev st) = Some (k, i)) ->
  (forall l b, b_bsigs (e_body e) = Some l -> In b l -> bs_validator b = Some k) ->
  event_valid e = true ->
  set_wire_info st e = inr e1 ->
  exists e2, wire_rt true st e1 = Some (inr e2) /\ same_public e2 e /\ same_wire_info e2 e1.
Proof. exact wire_roundtrip_json. Qed.
Print Assumptions C15_wire_roundtrip_json.

(* ---- same serialized part => same digest input => same hash under ANY hash function, also
   through the private Hex() cache, and the signature still verifies *)
Theorem C15_same_public_same_hash : forall (H : json -> Z) a b,
  same_public a b -> cache_coherent H a -> cache_coherent H b ->
  event_hash H a = event_hash H b /\ event_hex H a = event_hex H b /\ verify_preserved b a = true.
Proof. exact same_public_same_hash. Qed.
Print Assumptions C15_same_public_same_hash.

(* ---- database form: what comes back for ANY event (strings sanitized, maps listed by key, the
   consensus fields gone) *)
Theorem C15_db_roundtrip_general : forall e, db_rt e = Some (n_db e).
Proof. exact rt_wrapper. Qed.
Print Assumptions C15_db_roundtrip_general.

(* ---- database form, valid UTF-8: same serialized part; creatorID, otherParentCreatorID,
   selfParentIndex, otherParentIndex, topologicalIndex, lastAncestors, firstDescendants SURVIVE;
   round, lamportTimestamp, roundReceived are LOST *)
Theorem C15_db_roundtrip : forall e,
  event_valid e = true -> coords_valid (e_last e) = true -> coords_valid (e_first e) = true ->
  exists e', db_rt e = Some e' /\ same_public e' e /\ same_wire_info e' e /\
    e_topo e' = e_topo e /\ e_last e' = view_coords (e_last e) /\ e_first e' = view_coords (e_first e) /\
    e_round e' = None /\ e_lamport e' = None /\ e_rr e' = None.
Proof. exact db_roundtrip. Qed.
Print Assumptions C15_db_roundtrip.

(* ---- JSON transport: internal transactions (JoinRequest), blocks, frames *)
Theorem C15_json_roundtrip_itx : forall t, itx_valid t = true -> json_rt_itx t = Some t.
Proof. exact itx_roundtrip. Qed.
Print Assumptions C15_json_roundtrip_itx.

Theorem C15_json_roundtrip_block : forall b,
  block_valid b = true ->
  json_rt_block b = Some (view_block b) /\
  blockbody_digest (view_block b) = blockbody_digest b /\
  block_digest (view_block b) = block_digest b.
Proof. exact block_roundtrip. Qed.
Print Assumptions C15_json_roundtrip_block.

Theorem C15_json_roundtrip_frame : forall f,
  frame_valid f = true ->
  exists f', json_rt_frame f = Some f' /\ frame_digest f' = frame_digest f /\ f' = n_frame false f.
Proof. exact frame_json_roundtrip. Qed.
Print Assumptions C15_json_roundtrip_frame.

(* the events of a transported frame: same serialized part, NO private field (in particular the
   wire fields are zero; InsertFrameEvent recomputes them: C15_frame_event_rewire) *)
Theorem C15_json_roundtrip_frame_events : forall f l,
  frame_valid f = true -> f_events f = Some l ->
  f_events (n_frame false f) =
  Some (map (fun o => match o with
                      | None => None
                      | Some fe => Some {| fe_core := match fe_core fe with None => None | Some e => Some (event_clear e) end;
                                          fe_round := fe_round fe; fe_lamport := fe_lamport fe; fe_witness := fe_witness fe |}
                      end) l).
Proof. exact frame_events_roundtrip. Qed.
Print Assumptions C15_json_roundtrip_frame_events.

(* ---- database form of a frame (ugorji), when the writer terminates and no Root pointer is nil *)
Theorem C15_db_roundtrip_frame : forall f,
  frame_valid f = true -> no_nil_root f = true -> frame_digest f <> None ->
  exists f', ug_rt_frame f = Some (Some f') /\ frame_digest f' = frame_digest f /\ f' = n_frame true f.
Proof. exact frame_db_roundtrip. Qed.
Print Assumptions C15_db_roundtrip_frame.

(* ---- the frame digest does not depend on the order in which Roots and PeerSets were filled *)
Theorem C15_frame_canonical : forall f g, frame_perm f g -> frame_digest f = frame_digest g.
Proof. exact frame_canonical. Qed.
Print Assumptions C15_frame_canonical.

(* ---- the equality test used for the predicted "hash unchanged" bit decides equality *)
Theorem C15_json_eqb_decides : forall a b, json_eqb a b = true <-> a = b.
Proof. exact json_eqb_iff. Qed.
Print Assumptions C15_json_eqb_decides.

(* The full statement "for ALL frames the hash is defined and survives" is FALSE of the code.  *)

Definition C15_frame_hash_total_statement : Prop :=
  forall f, frame_valid f = true -> frame_digest f <> None.

(* FINDING (findings/wire C15-F1; KNOWN_FINDINGS.json, fixed by bc8842f): one valid UTF-8 moniker U+FFFD and Frame.Marshal / Frame.Hash do not
   return (ugorji v1.1.7 quoteStr).  Witness: WireWitness.frame_fffd; replayed on the real code by
   harness/cmd/wire (HANG0 lines, `wire -replay ufffd`). *)
Theorem C15_frame_hash_total_refuted :
  exists f, frame_valid f = true /\ frame_digest f = None.
Proof. exact frame_hash_total_refuted. Qed.
Print Assumptions C15_frame_hash_total_refuted.

(* invalid UTF-8 does not survive JSON: the receiver computes another hash (a hostile or
   misconfigured sender only: such an object cannot come out of a JSON decoder) *)
Theorem C15_invalid_utf8_changes_hash :
  exists t t', json_rt_itx t = Some t' /\ itx_digest t' <> itx_digest t.
Proof. exact invalid_utf8_changes_hash. Qed.
Print Assumptions C15_invalid_utf8_changes_hash.

(* a block signature of somebody else does not survive the wire form (the wire form drops the
   validator; ReadWireInfo attributes every signature to the creator): that hypothesis of
   C15_wire_roundtrip is needed.  core.go only ever puts the node's own signatures in its events. *)
Theorem C15_wire_foreign_signature_changes_hash :
  exists st e e1 e2, store_ok_b st = true /\ set_wire_info st e = inr e1 /\ read_wire st (to_wire e1) = inr e2 /\
                     event_digest e2 <> event_digest e.
Proof. exact wire_foreign_signature_changes_hash. Qed.
Print Assumptions C15_wire_foreign_signature_changes_hash.

(* Events received in a frame (findings/wire C15-F2, fixed in /repo by 5bf08c3).
     insert_frame_event(s)       Hashgraph.InsertFrameEvent / Reset as of 5bf08c3: topological index
                                 from the counter, creatorID from the repertoire, selfParentIndex =
                                 Index - 1, other-parent looked up in the store
     frame_other_parent_named    the other-parent is "" or in the receiving node's store
     rep_agree ds rs             peer ids are a function of the key (the two repertoires agree)
     truthful ds rs              what D recorded about an event (creator, index) is what the reader has
     reader_knows rs x           the reader has the event's parents (self-parent by the same creator at
                                 index - 1: admission invariant), the event itself, own block signatures *)

(* one event: after a JSON hop (no private field) and InsertFrameEvent on a node D, the wire form
   that D builds is read back by a reader that knows the parents: same serialized part, hence same
   hash and signature - provided D can name the other-parent *)
Theorem C15_frame_event_rewire : forall ds rs cid e sp op k e1,
  store_ok rs -> rep_agree ds rs -> truthful ds rs ->
  b_parents (e_body e) = Some [sp; op] ->
  b_creator (e_body e) = Some k ->
  id_of_key k (ws_rep ds) = Some cid ->
  (sp <> [] -> ev_find sp (ws_ev rs) = Some (k, b_index (e_body e) - 1)) ->
  (forall l b, b_bsigs (e_body e) = Some l -> In b l -> bs_validator b = Some k) ->
  frame_other_parent_named ds op = true ->
  e_body e1 = frame_event_wire_info ds cid e -> e_sig e1 = e_sig e ->
  exists e2, read_wire rs (to_wire e1) = inr e2 /\ same_public e2 e /\ same_wire_info e2 e1.
Proof. exact frame_event_rewire. Qed.
Print Assumptions C15_frame_event_rewire.

(* the explicit, counted exception: an other-parent below the frame is left out of the wire form;
   the reader builds the event without it (harness: other-parent-outside-frame) *)
Theorem C15_frame_event_rewire_residual : forall ds rs cid e sp op k e1,
  store_ok rs -> rep_agree ds rs ->
  b_parents (e_body e) = Some [sp; op] ->
  b_creator (e_body e) = Some k ->
  id_of_key k (ws_rep ds) = Some cid ->
  (sp <> [] -> ev_find sp (ws_ev rs) = Some (k, b_index (e_body e) - 1)) ->
  frame_other_parent_named ds op = false ->
  e_body e1 = frame_event_wire_info ds cid e ->
  op <> [] /\ exists e2, read_wire rs (to_wire e1) = inr e2 /\ b_parents (e_body e2) = Some [sp; []].
Proof. exact frame_event_rewire_residual. Qed.
Print Assumptions C15_frame_event_rewire_residual.

(* the whole frame in insertion order: every event whose other-parent could be named converts back *)
Theorem C15_frame_rewire_all : forall rs l ds n ds' n' out,
  store_ok rs -> rep_agree ds rs -> truthful ds rs ->
  Forall (reader_knows rs) l ->
  insert_frame_events ds n l = Some (ds', n', out) ->
  Forall2 (fun x r => snd r = true ->
                      exists e2, read_wire rs (to_wire (fst r)) = inr e2 /\
                                 same_public e2 (snd (snd x)) /\ same_wire_info e2 (fst r)) l out.
Proof. exact frame_rewire_all. Qed.
Print Assumptions C15_frame_rewire_all.

(* topological indexes follow the insertion order (consensus order: Lamport timestamps, so a parent
   is inserted before its child - C04): serving by topological index is parent-before-child *)
Theorem C15_frame_events_topological : forall l st n st' n' out i j a b,
  insert_frame_events st n l = Some (st', n', out) ->
  nth_error out i = Some a -> nth_error out j = Some b -> (i < j)%nat ->
  e_topo (fst a) < e_topo (fst b).
Proof. exact frame_events_topological. Qed.
Print Assumptions C15_frame_events_topological.

(* regression witness for 5bf08c3: the function BEFORE the fix leaves the arrived event without wire
   fields and the reader answers "Creator 0 not found"; the fixed function on the same input gives
   an event that reads back with the same hash *)
Theorem C15_frame_event_rewire_regression :
  exists rs ds n h fe e e_old e_new l,
    store_ok_b rs = true /\ event_valid e = true /\
    read_wire rs (to_wire e) = inr l /\ same_event_hash l e = true /\
    insert_frame_event_prefix ds n h fe (arrived e) = Some (store_add ds h 11 e_old, n, e_old) /\
    read_wire rs (to_wire e_old) = inl ECreator /\
    insert_frame_event ds n h fe (arrived e) = Some (store_add ds h 11 e_new, n + 1, e_new) /\
    (exists l', read_wire rs (to_wire e_new) = inr l' /\ same_event_hash l' e = true).
Proof. exact frame_event_rewire_regression. Qed.
Print Assumptions C15_frame_event_rewire_regression.

(* Text validation (findings/wire C15-F1; guard in /repo since bc8842f: common.EncodableString).
     encodable s        valid UTF-8 and no U+FFFD
     sig_decodes s      keys.DecodeSignature accepts s ("r|s", base-36 integers)
     itx_text_ok        the text part of InternalTransaction.Verify; event_text_ok: of Event.Verify
     frame_text_ok      Frame.ValidateText (core.checkFastForward, before frame.Hash()); per event:
                        event_frame_text_ok *)

(* the digest of a validated frame is defined: the codec's non-termination (C15_frame_hash_total_refuted,
   which stays true of the library) is not reachable through validated text *)
Theorem C15_frame_hash_total_validated : forall f, frame_text_ok f = true -> frame_digest f <> None.
Proof. exact frame_text_ok_digest_total. Qed.
Print Assumptions C15_frame_hash_total_validated.

(* typed characterisation: validated text = no U+FFFD anywhere in the document, and valid UTF-8
   (so that every round trip theorem above applies to a validated frame) *)
Theorem C15_validated_frame_no_fffd : forall f, frame_text_ok f = true -> jhas_fffd (j_frame raw f) = false.
Proof. exact frame_text_ok_no_fffd. Qed.
Print Assumptions C15_validated_frame_no_fffd.
Theorem C15_validated_frame_valid : forall f, frame_text_ok f = true -> frame_valid f = true.
Proof. exact frame_text_ok_valid. Qed.
Print Assumptions C15_validated_frame_valid.

(* a validated frame survives the JSON transport and the database form with the same digest *)
Theorem C15_validated_frame_roundtrip : forall f,
  frame_text_ok f = true ->
  frame_digest f <> None /\
  (exists f', json_rt_frame f = Some f' /\ frame_digest f' = frame_digest f) /\
  (no_nil_root f = true -> exists f', ug_rt_frame f = Some (Some f') /\ frame_digest f' = frame_digest f).
Proof. exact validated_frame_roundtrip. Qed.
Print Assumptions C15_validated_frame_roundtrip.

(* admission side.  A signature string that keys.DecodeSignature accepts is encodable; an internal
   transaction that passes InternalTransaction.Verify (gate of node.processJoinRequest) and an event
   that passes Event.Verify with parents that are "" or stored hashes (InsertEvent) pass the
   frame's check: whatever frame they end up in, they cannot stop its hash *)
Theorem C15_decodable_signature_encodable : forall s, sig_decodes s = true -> encodable s = true.
Proof. exact sig_decodes_encodable. Qed.
Print Assumptions C15_decodable_signature_encodable.
Theorem C15_verified_itx_text : forall t, itx_text_ok t = true -> itx_frame_text_ok t = true.
Proof. exact verified_itx_text. Qed.
Print Assumptions C15_verified_itx_text.
Theorem C15_admitted_event_text : forall st e,
  store_text_ok st -> event_text_ok e = true -> parents_known st e ->
  event_frame_text_ok e = true /\ event_valid e = true /\ jhas_fffd (j_event raw e) = false.
Proof. exact admitted_event_text. Qed.
Print Assumptions C15_admitted_event_text.

(* a frame assembled from validated peers (accepted internal transactions / peers.json), validated
   events and participant keys passes Frame.ValidateText by construction: its hash is defined *)
Theorem C15_assembled_frame_text : forall f,
  peers_text_ok (f_peers f) = true ->
  list_forall (fun kv : Z * option (list (option peer)) => peers_text_ok (snd kv)) (f_psets f) = true ->
  list_forall (fun kv : gostr * option root => encodable (fst kv) && opt_forall (fun r => fevents_text_ok (r_events r)) (snd kv)) (f_roots f) = true ->
  fevents_text_ok (f_events f) = true ->
  frame_text_ok f = true /\ frame_digest f <> None.
Proof. exact assembled_frame_text. Qed.
Print Assumptions C15_assembled_frame_text.

(* the checker used on the concrete stores is sound *)
Theorem C15_store_checker_sound : forall st, store_ok_b st = true -> store_ok st.
Proof. exact store_ok_b_sound. Qed.
Print Assumptions C15_store_checker_sound.

(* The hypotheses are satisfiable on non-trivial instances (vm_compute).  Witnesses: Model/WireWitness.v *)

(* wire round trip of an event with nil / empty / binary transactions, two parents, own signature,
   on a store that satisfies the invariant *)
Example C15_wire_example :
  store_ok_b st0 = true /\
  match set_wire_info st0 (ev1 own_sigs) with
  | inr e1 =>
    (b_cid (e_body e1), b_opcid (e_body e1), b_spi (e_body e1), b_opi (e_body e1)) = (11, 22, 0, 0) /\
    match wire_rt false st0 e1, wire_rt true st0 e1 with
    | Some (inr a), Some (inr b) =>
      same_event_hash a (ev1 own_sigs) = true /\ same_event_hash b (ev1 own_sigs) = true /\
      b_txs (e_body b) = Some [None; Some []; Some [0; 255]] /\ b_bsigs (e_body b) = own_sigs
    | _, _ => False
    end
  | inl _ => False
  end.
Proof. vm_compute. repeat split. Qed.

(* nil and empty slices have different digest inputs (null vs []): a conversion that turned one
   into the other would change the hash *)
Example C15_nil_vs_empty_differ :
  json_eqb (event_digest (ev1 None)) (event_digest (ev1 (Some []))) = false /\
  json_eqb (j_body escape (body1 None))
           (j_body escape {| b_txs := Some [Some []; Some []; Some [0; 255]]; b_itxs := Some []; b_parents := Some [hA0; hB0];
                             b_creator := Some kA; b_index := 1; b_bsigs := None; b_ts := -5;
                             b_cid := 0; b_opcid := 0; b_spi := 0; b_opi := 0 |}) = false.
Proof. vm_compute. split; reflexivity. Qed.

(* database form: the wire fields, topological index and coordinates come back (maps by key),
   round / lamport are gone *)
Example C15_db_example :
  match db_rt ev1w with
  | Some e' => same_event_hash e' ev1w = true /\ b_cid (e_body e') = 11 /\ b_opcid (e_body e') = 22 /\ e_topo e' = 7 /\
               e_last e' = Some [(name "0XA", (hA0, 0)); (name "0XB", (hB0, 0))] /\ e_first e' = Some [] /\
               e_round e' = None /\ e_lamport e' = None
  | None => False
  end /\ event_valid ev1w = true /\ coords_valid (e_last ev1w) = true.
Proof. vm_compute. repeat split. Qed.

(* canonical frames: two fill orders of Roots and PeerSets, same digest; a different content, another *)
Example C15_canonical_example :
  frame_perm (frame2 [(name "0XB", rootX); (name "0XA", rootY)] [(10, None); (2, Some []); (0, Some [None])])
             (frame2 [(name "0XA", rootY); (name "0XB", rootX)] [(0, Some [None]); (10, None); (2, Some [])]) /\
  same_frame_hash (frame2 [(name "0XB", rootX); (name "0XA", rootY)] [(10, None); (2, Some []); (0, Some [None])])
                  (frame2 [(name "0XA", rootY); (name "0XB", rootX)] [(0, Some [None]); (10, None); (2, Some [])]) = Some true /\
  same_frame_hash (frame2 [(name "0XB", rootX); (name "0XA", rootY)] [(10, None)])
                  (frame2 [(name "0XB", rootY); (name "0XA", rootX)] [(10, None)]) = Some false.
Proof.
  split; [|vm_compute; split; reflexivity].
  unfold frame_perm, frame2. cbn [f_round f_peers f_roots f_events f_psets f_ts].
  repeat split.
  - apply perm_swap.
  - repeat constructor; cbn; intuition discriminate.
  - repeat constructor; cbn; intuition discriminate.
  - eapply perm_trans; [apply perm_skip; apply perm_swap | apply perm_swap].
  - repeat constructor; cbn; intuition discriminate.
Qed.

(* a two-event frame inserted in order on a node that only has the repertoire: both events named,
   indexes 0 and 1, the second reads back with the same hash; the same event alone: residual *)
Example C15_frame_insert_example :
  match insert_frame_events ds0 0 frame_list2 with
  | Some (_, n, [(b, fb); (a, fa)]) =>
    n = 2 /\ fb = true /\ fa = true /\ e_topo b = 0 /\ e_topo a = 1 /\
    (b_cid (e_body a), b_opcid (e_body a), b_spi (e_body a), b_opi (e_body a)) = (11, 22, 0, 0) /\
    match read_wire st0 (to_wire a) with inr a' => same_event_hash a' ev1w = true | inl _ => False end
  | _ => False
  end /\
  match insert_frame_events ds0 0 frame_list1 with
  | Some (_, _, [(a, fa)]) =>
    fa = false /\
    match read_wire st0 (to_wire a) with
    | inr a' => b_parents (e_body a') = Some [hA0; []] /\ same_event_hash a' ev1w = false
    | inl _ => False
    end
  | _ => False
  end.
Proof. exact frame_insert_example. Qed.

Example C15_text_validation_example :
  frame_text_ok frame1 = true /\ frame_digest frame1 <> None /\
  frame_text_ok frame_fffd = false /\ itx_text_ok itx_bad = false.
Proof. exact text_validation_example. Qed.

(* frame and block through JSON on a non-trivial instance *)
Example C15_frame_example :
  frame_valid frame1 = true /\ no_nil_root frame1 = true /\ frame_digest frame1 <> None /\
  match json_rt_frame frame1, ug_rt_frame frame1 with
  | Some a, Some (Some b) => same_frame_hash a frame1 = Some true /\ same_frame_hash b frame1 = Some true
  | _, _ => False
  end.
Proof.
  split; [vm_compute; reflexivity|]. split; [vm_compute; reflexivity|].
  split; [exact (proj1 (proj2 text_validation_example))|]. vm_compute. split; reflexivity.
Qed.
