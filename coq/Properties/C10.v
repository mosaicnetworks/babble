(* C10 Validator-set history is a replayable function of the committed blocks.
   Statements only.  Model: HgImpl (PeerSetCache table [peersets], core.validators [validators],
   core.commit / processAcceptedInternalTransactions, GetFrame / NewBlockFromFrame); executable
   specification: Model/PeerSetSpec.v ([replay], [ps_lookup], [validators_at]).

   A node's life is an arbitrary list of operations [hop] (insertion attempts of arbitrary events,
   ProcessSigPool calls) from [init_hg self genesis oracle]; [self <> -1] = the node has an
   application (core.commit, not the dummy callback of a bare Hashgraph).  Join / leave requests, accepted or refused, successive or simultaneous, are the
   [e_itxs] of the inserted events: they are universally quantified. *)
From Coq Require Import ZArith List Bool Sorted.
From V Require Import Model.ZMap Model.Quorum Model.HgImpl Model.PeerSetSpec
  Proofs.BlockInv Proofs.HgBlockFrames Proofs.PeerSetProofs Proofs.TidyRR
  Proofs.AdmissionProofs Proofs.OrderProofs Proofs.Agreement Proofs.WindowWitness Model.Window Proofs.LrMono Proofs.WindowStable Proofs.GapWindow
  Proofs.FirstDesc Proofs.FirstDescD Proofs.CInvRunD.
Import ListNotations.
Open Scope Z_scope.

(* the table and core.validators are the replay of the node's own delivered blocks, always *)
Theorem C10_table_is_replay : forall self_ genesis oracle_ ops,
  self_ <> -1 ->
  (peersets (hrun (init_hg self_ genesis oracle_) ops), validators (hrun (init_hg self_ genesis oracle_) ops)) =
  replay [(0, genesis)] genesis (delivered (hrun (init_hg self_ genesis oracle_) ops)).
Proof. exact reach_table. Qed.
Print Assumptions C10_table_is_replay.

(* two nodes (any self, any schedules, any body identifiers) that delivered the same blocks
   report the same validator-set history *)
Theorem C10_same_blocks_same_history : forall self1 self2 genesis o1 o2 ops1 ops2,
  self1 <> -1 -> self2 <> -1 ->
  delivered (hrun (init_hg self1 genesis o1) ops1) = delivered (hrun (init_hg self2 genesis o2) ops2) ->
  tbl (hrun (init_hg self1 genesis o1) ops1) = tbl (hrun (init_hg self2 genesis o2) ops2).
Proof.
  exact (fun s1 s2 g o1 o2 ops1 ops2 H1 H2 E =>
           eq_trans (eq_trans (reach_table s1 g o1 ops1 H1) (f_equal (replay [(0, g)] g) E))
                    (eq_sym (reach_table s2 g o2 ops2 H2))).
Qed.
Print Assumptions C10_same_blocks_same_history.

(* nothing but a commit changes the table: whatever a node does next, if no new block is
   delivered, table and core.validators are unchanged *)
Theorem C10_only_commit : forall self_ genesis oracle_ ops ops',
  self_ <> -1 ->
  delivered (hrun (init_hg self_ genesis oracle_) (ops ++ ops')) = delivered (hrun (init_hg self_ genesis oracle_) ops) ->
  tbl (hrun (init_hg self_ genesis oracle_) (ops ++ ops')) = tbl (hrun (init_hg self_ genesis oracle_) ops).
Proof. exact reach_only_commit. Qed.
Print Assumptions C10_only_commit.

(* ... and function by function, in any state: InsertEvent, DivideRounds, DecideFame,
   DecideRoundReceived, GetFrame, ProcessSigPool never write them *)
Theorem C10_only_commit_functions : forall st,
  (forall e, tbl (snd (insert_event st e)) = tbl st) /\ tbl (divide_rounds st) = tbl st /\
  tbl (decide_fame st) = tbl st /\ tbl (decide_round_received st) = tbl st /\
  (forall rr, tbl (snd (get_frame st rr)) = tbl st) /\ tbl (process_sigpool st) = tbl st.
Proof.
  exact (fun st => conj (only_commit_insert st) (conj (only_commit_divide st) (conj (only_commit_fame st)
          (conj (only_commit_rr st) (conj (only_commit_get_frame st) (only_commit_sigpool st)))))).
Qed.
Print Assumptions C10_only_commit_functions.

(* the table is sorted by round with strictly increasing keys, and its first key is 0 *)
Theorem C10_table_wf : forall self_ genesis oracle_ ops,
  self_ <> -1 ->
  StronglySorted Z.lt (map fst (peersets (hrun (init_hg self_ genesis oracle_) ops))) /\
  hd_error (map fst (peersets (hrun (init_hg self_ genesis oracle_) ops))) = Some 0.
Proof. exact (fun s g o ops H => table_wf_sorted _ (c_wf _ _ (proj2 (hrun_c10inv s g o ops H)))). Qed.
Print Assumptions C10_table_wf.

(* lookup: for a round r >= 0 the answer exists and is the entry with the greatest key <= r *)
Theorem C10_lookup : forall self_ genesis oracle_ ops r,
  self_ <> -1 -> 0 <= r ->
  exists k ps, get_peerset (hrun (init_hg self_ genesis oracle_) ops) r = Some ps /\
               greatest_le r (peersets (hrun (init_hg self_ genesis oracle_) ops)) k ps.
Proof. exact (fun s g o ops r H Hr => get_greatest r _ (c_wf _ _ (proj2 (hrun_c10inv s g o ops H))) Hr). Qed.
Print Assumptions C10_lookup.

(* the same, against the executable lookup specification *)
Theorem C10_lookup_spec : forall self_ genesis oracle_ ops r,
  self_ <> -1 -> 0 <= r ->
  get_peerset (hrun (init_hg self_ genesis oracle_) ops) r = ps_lookup r (peersets (hrun (init_hg self_ genesis oracle_) ops)).
Proof. exact (fun s g o ops r H Hr => get_is_lookup r _ (c_wf _ _ (proj2 (hrun_c10inv s g o ops H))) Hr). Qed.
Print Assumptions C10_lookup_spec.

(* the quirk of PeerSetCache.Get -- "below all keys: return the FIRST entry" -- is dead code for
   rounds >= 0, because key 0 is always present: Get is the plain scan *)
Theorem C10_lookup_quirk_dead : forall self_ genesis oracle_ ops r,
  self_ <> -1 -> 0 <= r ->
  get_peerset (hrun (init_hg self_ genesis oracle_) ops) r =
  ps_table_get_le r (peersets (hrun (init_hg self_ genesis oracle_) ops)) None.
Proof. exact (fun s g o ops r H Hr => get_wf_no_below r _ (c_wf _ _ (proj2 (hrun_c10inv s g o ops H))) Hr). Qed.
Print Assumptions C10_lookup_quirk_dead.

(* the quirk is real on tables without key 0 (not reachable): inserting ABOVE r changes Get r *)
Example C10_quirk_exists :
  ps_table_get 1 (ps_table_insert 3 [mkPeer 9 9] [(5, [])]) <> ps_table_get 1 [(5, [])].
Proof. vm_compute. discriminate. Qed.

(* no retroactive change: whatever happens after a state (any further operations), the validator
   set of round r stays what it was, provided every block delivered in between has
   round-received + 6 > r.  (A block of round-received rr can only change rounds >= rr + 6.) *)
Theorem C10_no_retroactive : forall self_ genesis oracle_ ops ops' r,
  self_ <> -1 ->
  (forall l, delivered (hrun (init_hg self_ genesis oracle_) (ops ++ ops')) =
             delivered (hrun (init_hg self_ genesis oracle_) ops) ++ l -> Forall (fun d => r < b_rr d + 6) l) ->
  get_peerset (hrun (init_hg self_ genesis oracle_) (ops ++ ops')) r = get_peerset (hrun (init_hg self_ genesis oracle_) ops) r.
Proof. exact reach_no_retro. Qed.
Print Assumptions C10_no_retroactive.

(* the same on the table operations themselves: inserting at k changes no round below k
   (well-formed table) *)
Theorem C10_no_retroactive_table : forall t k ps r,
  table_wf t -> 0 <= k -> r < k -> ps_table_get r (ps_table_insert k ps t) = ps_table_get r t.
Proof. exact (fun t k ps r W Hk Hr => get_insert_wf r k ps t W Hk Hr). Qed.
Print Assumptions C10_no_retroactive_table.

(* peers hash: every delivered block carries (as b_peers, which stands for PeersHash) exactly the
   set that the table recorded in its frame gives for the block's round-received; GetFrame records
   the table of the moment it computes the frame (second theorem), frames are cached and never
   recomputed *)
Theorem C10_peers_hash : forall self_ genesis oracle_ ops d,
  self_ <> -1 -> In d (delivered (hrun (init_hg self_ genesis oracle_) ops)) ->
  0 <= b_rr d /\ b_rr d = f_round (b_frame d) /\ b_peers d = f_peers (b_frame d) /\
  ps_table_get (b_rr d) (f_peersets (b_frame d)) = Some (b_peers d).
Proof.
  exact (fun s g o ops d H HI =>
    match c_frames _ _ (proj2 (hrun_c10inv s g o ops H)) d HI with
    | conj (conj F0 F1) (conj Ep Er) =>
      conj (eq_ind_r (fun x => 0 <= x) F0 Er)
           (conj Er (conj Ep (eq_ind_r (fun x => ps_table_get x _ = Some (b_peers d))
                                       (eq_ind_r (fun p => ps_table_get _ _ = Some p) F1 Ep) Er)))
    end).
Qed.
Print Assumptions C10_peers_hash.

Theorem C10_peers_hash_source : forall st rr f st',
  zget rr (frames st) = None -> get_frame st rr = (Some f, st') ->
  f_round f = rr /\ f_peersets f = peersets st /\ get_peerset st rr = Some (f_peers f) /\ 0 <= rr /\
  frames st' = zset rr f (frames st).
Proof. exact get_frame_fresh. Qed.
Print Assumptions C10_peers_hash_source.

(* THE STATEMENT in its declarative form, for every reachable state and every round r >= 0: the
   validator set of round r is genesis modified, in block order, by exactly the accepted receipts
   of the delivered blocks with round-received + 6 <= r.  It rests on round-received increasing
   strictly along the delivered blocks (C02_rr_increasing, Proofs/RoundOrder.v): otherwise two blocks could claim the same effective round and the
   second change would be dropped by SetPeerSet (the "already in the table" branch of
   [replay_step]). *)
Definition rr_increasing (st : hg) : Prop := StronglySorted Z.lt (map b_rr (delivered st)).
Theorem C10_rr_increasing_holds : forall self_ genesis oracle_ ops,
  rr_increasing (hrun (init_hg self_ genesis oracle_) ops).
Proof. exact reach_rr_increasing. Qed.
Print Assumptions C10_rr_increasing_holds.

Theorem C10_lookup_is_effective_prefix : forall self_ genesis oracle_ ops r,
  self_ <> -1 -> 0 <= r ->
  get_peerset (hrun (init_hg self_ genesis oracle_) ops) r =
  Some (validators_at genesis (delivered (hrun (init_hg self_ genesis oracle_) ops)) r).
Proof. exact lookup_is_effective_prefix. Qed.
Print Assumptions C10_lookup_is_effective_prefix.

(* hence the "round already in the table" error branch of SetPeerSet (on which core.validators
   would keep its OLD value) is dead for the blocks a node delivers: the effective round of a
   new block is above every key of the table replayed from the earlier ones *)
Theorem C10_set_peerset_never_collides : forall genesis ds d,
  StronglySorted Z.lt (map b_rr (ds ++ [d])) -> 0 <= b_rr d ->
  table_has (b_rr d + 6) (fst (replay_genesis genesis ds)) = false.
Proof. exact replay_fresh_key. Qed.
Print Assumptions C10_set_peerset_never_collides.

(* membership gates, the parts local to one call: _witness (when it computes rather than reads
   its memo) answers true only for an event whose creator is in the peer set the table gives for
   the event's round; _stronglySee counts distinct keys of the given round's set only, against
   that set's supermajority.  (The signature gate is C09_recorded_valid.) *)
Theorem C10_witness_gate : forall fuel st x st',
  zget x (witness_memo st) = None -> witness_f fuel st x = (Some true, st') ->
  exists ex xr ps, get_event st x = Some ex /\ fst (round_f fuel st x) = Some xr /\
                   get_peerset st xr = Some ps /\ mem_key (e_creator (ev_e ex)) (keys ps) = true.
Proof. exact witness_gate. Qed.
Print Assumptions C10_witness_gate.

Theorem C10_quorum_gate : forall st x y ps,
  strongly_see st x y ps = Some true ->
  exists l, NoDup l /\ incl l (keys ps) /\ super_majority ps <= Z.of_nat (length l).
Proof. exact strongly_see_gate. Qed.
Print Assumptions C10_quorum_gate.

(* THE WINDOW PROPERTY IS FALSE.  The membership gates above are per-call facts; that every memoised
   witness flag / round and every quorum used by DecideFame / DecideRoundReceived was computed with
   the set the FINAL table gives for that round needs "a table entry is written only for a round that
   no event has been divided into yet" (core.processAcceptedInternalTransactions: effective round =
   round-received + 6, "all consistent hashgraphs will have decided the fame of round r witnesses by
   round r+5").  Nothing bounds last_round - last_consensus: in the history ww of
   Proofs/WindowWitness.v (4 validators, 142 valid fork-free gossip events, one accepted join in the
   first block, coin bit false on 5 events) the entry for round 7 is written when 21 events already
   sit in rounds 7..9, divided with the four-peer set.  Consequence: C01_agreement_dynamic_refuted
   (two nodes fed the same events in two orders deliver different blocks); the same fork is
   reproduced on the Go code (harness/cmd/winfork, KNOWN_FINDINGS C01/C10). *)
Definition C10_window_statement : Prop :=
  forall genesis all self_ oracle_ ops o r ps,
    ids_determine all -> fork_free all -> Forall (hop_ok all) (ops ++ [o]) ->
    let st := hrun (init_hg self_ genesis oracle_) ops in
    In (r, ps) (peersets (hstep st o)) -> ~ In r (map fst (peersets st)) -> last_round (hstep st o) < r.
Theorem C10_window_refuted : ~ C10_window_statement.
Proof. exact ww_window_refuted. Qed.
Print Assumptions C10_window_refuted.

(* ... and the window is exactly what is missing: when every step of a run writes table entries only
   for rounds above every round divided so far ([window_runb], executable; Model/Window.v), every
   validator-set lookup made during the run - for a round that exists at that point - returns what the
   FINAL table returns: the set that governs a round is final when the round is divided, so every
   memoised round / witness flag / quorum was computed with the set of the final table.  Nodes with an
   application (self <> -1); a bare Hashgraph never changes its table. *)
Theorem C10_window_lookup_final : forall self_ genesis oracle_ ops k r,
  self_ <> -1 -> window_runb (init_hg self_ genesis oracle_) ops = true ->
  r <= last_round (hrun (init_hg self_ genesis oracle_) (firstn k ops)) ->
  get_peerset (hrun (init_hg self_ genesis oracle_) (firstn k ops)) r =
  get_peerset (hrun (init_hg self_ genesis oracle_) ops) r.
Proof. exact (fun s g o ops k r Hs => window_lookup_final s g o Hs ops k r). Qed.
Print Assumptions C10_window_lookup_final.

(* the lookups made DURING step k - for the round the step creates as well, and against the table before
   the step - equal the final answer too *)
Theorem C10_window_lookup_final_step : forall self_ genesis oracle_ ops k r,
  self_ <> -1 -> window_runb (init_hg self_ genesis oracle_) ops = true -> (k < length ops)%nat ->
  r <= last_round (hrun (init_hg self_ genesis oracle_) (firstn (S k) ops)) ->
  get_peerset (hrun (init_hg self_ genesis oracle_) (firstn k ops)) r = get_peerset (hrun (init_hg self_ genesis oracle_) ops) r /\
  get_peerset (hrun (init_hg self_ genesis oracle_) (firstn (S k) ops)) r = get_peerset (hrun (init_hg self_ genesis oracle_) ops) r.
Proof. exact (fun s g o ops k r Hs => window_lookup_final_step s g o Hs ops k r). Qed.
Print Assumptions C10_window_lookup_final_step.

(* A sufficient condition a node can CHECK LOCALLY AND ENFORCE: after every step the last round is at most
   5 above the next round that was to be processed before the step ([gap_runb], Model/Window.v gap_stepb;
   the invariant of the gate "do not divide more than 6 rounds ahead of consensus").  It implies the window
   premise - the blocks a step delivers have a round-received above the previous last consensus round and
   write at round-received + 6 - and, unlike the window premise on the run so far, it constrains every
   future block as well. *)
Theorem C10_gap_implies_window : forall self_ genesis oracle_ ops,
  self_ <> -1 -> gap_runb (init_hg self_ genesis oracle_) ops = true ->
  window_runb (init_hg self_ genesis oracle_) ops = true.
Proof. exact (fun s g o ops Hs => gap_run_window s g o Hs ops []). Qed.
Print Assumptions C10_gap_implies_window.

Theorem C10_gap_lookup_final : forall self_ genesis oracle_ ops k r,
  self_ <> -1 -> gap_runb (init_hg self_ genesis oracle_) ops = true ->
  r <= last_round (hrun (init_hg self_ genesis oracle_) (firstn k ops)) ->
  get_peerset (hrun (init_hg self_ genesis oracle_) (firstn k ops)) r =
  get_peerset (hrun (init_hg self_ genesis oracle_) ops) r.
Proof. exact gap_lookup_final. Qed.
Print Assumptions C10_gap_lookup_final.

(* MEMBERSHIP GATES UNDER DYNAMIC MEMBERSHIP (no [no_accept]: join / leave requests are accepted or
   refused at will).  [psat st r] = the peer-set the table of [st] gives for round r.  For any run
   that respects the distance bound and has not failed:
   - every memoised round satisfies the round equation READ WITH THE FINAL TABLE: with spr, opr
     the parents' rounds and pr = max spr opr, round = pr + 1 iff the event strongly sees (with the
     set of pr) a super-majority (of the set of pr) of the round-pr witnesses, else pr;
   - every memoised witness flag = creator in the set of the event's own round && self-parent's
     round below it;
   whatever the table held when the value was memoised.  This is the whole division invariant
   [cinvD] (Proofs/FirstDescD.v: [cinv] of Proofs/FirstDesc.v with the single static set replaced by a
   function of the round), in every state of the run; the static invariant is the instance
   [cinv_cinvD].  Without the premise both gates fail: C10_window_witness, C01_dynamic_fork_witness. *)
Theorem C10_division_invariant_dynamic : forall self_ genesis oracle_ all ops k,
  self_ <> -1 -> ids_determine all -> Forall (hop_ok all) ops ->
  gap_runb (init_hg self_ genesis oracle_) ops = true ->
  failed (hrun (init_hg self_ genesis oracle_) (firstn k ops)) = false ->
  cinvD (psat (hrun (init_hg self_ genesis oracle_) ops)) None
        (hrun (init_hg self_ genesis oracle_) (firstn k ops)).
Proof. exact (fun s g o all ops k Hs ID H Hg => hrun_cinvD s g o all ops Hs ID H Hg k). Qed.
Print Assumptions C10_division_invariant_dynamic.

Theorem C10_round_gate_dynamic : forall self_ genesis oracle_ all ops x r,
  self_ <> -1 -> ids_determine all -> Forall (hop_ok all) ops ->
  gap_runb (init_hg self_ genesis oracle_) ops = true ->
  failed (hrun (init_hg self_ genesis oracle_) ops) = false ->
  rmemo (hrun (init_hg self_ genesis oracle_) ops) x = Some r ->
  0 <= r /\ exists ex, get_event (hrun (init_hg self_ genesis oracle_) ops) x = Some ex /\
    reqD (psat (hrun (init_hg self_ genesis oracle_) ops)) (hrun (init_hg self_ genesis oracle_) ops) x ex r.
Proof. exact (fun s g o all ops x r => gates_round_final s g o all ops x r). Qed.
Print Assumptions C10_round_gate_dynamic.

Theorem C10_witness_gate_dynamic : forall self_ genesis oracle_ all ops x w,
  self_ <> -1 -> ids_determine all -> Forall (hop_ok all) ops ->
  gap_runb (init_hg self_ genesis oracle_) ops = true ->
  failed (hrun (init_hg self_ genesis oracle_) ops) = false ->
  wmemo (hrun (init_hg self_ genesis oracle_) ops) x = Some w ->
  exists ex r, get_event (hrun (init_hg self_ genesis oracle_) ops) x = Some ex /\
    rmemo (hrun (init_hg self_ genesis oracle_) ops) x = Some r /\
    weq (psat (hrun (init_hg self_ genesis oracle_) ops) r) (hrun (init_hg self_ genesis oracle_) ops) ex r w.
Proof. exact (fun s g o all ops x w => gates_witness_final s g o all ops x w). Qed.
Print Assumptions C10_witness_gate_dynamic.

(* the static invariant is the constant-function instance *)
Theorem C10_division_invariant_static_instance : forall g E st, cinv g E st -> cinvD (fun _ => g) E st.
Proof. exact cinv_cinvD. Qed.
Print Assumptions C10_division_invariant_static_instance.

(* last_round never decreases along a run (used above; any events, any membership) *)
Theorem C10_last_round_monotone : forall st ops, last_round st <= last_round (hrun st ops).
Proof. exact (fun st ops => hrun_lrq_le ops st). Qed.
Print Assumptions C10_last_round_monotone.

(* the witness, spelled out: just before event 118 nothing has been committed and rounds up to 9
   exist; inserting 118 commits seven blocks at once and writes the five-peer set for round 7 *)
Example C10_window_witness :
  let st := hrun (init_hg 0 ww_g []) (map HInsert (firstn 118 ww_all)) in
  let st' := hstep st (HInsert (ww_ev (118, 2, 24, 112, 115))) in
  map fst (peersets st) = [0] /\ last_consensus st = None /\ last_round st = 9 /\
  map (fun p => (fst p, map pkey (snd p))) (peersets st') = [(0, [0; 1; 2; 3]); (7, [0; 1; 2; 3; 4])] /\
  last_round st' = 9 /\ last_consensus st' = Some 7.
Proof. exact (proj1 (proj1 ww_facts)). Qed.

(* non-vacuity: one validator; a join accepted and a join refused in the first block (round
   received 1 => effective at 7), then a leave of the joiner and a re-join of the refused peer in
   a later block *)
Definition c10_g : peerset := [mkPeer 100 0].
Definition c10_ev (id idx sp : Z) (txs : list Z) (itxs : list itx) : event :=
  mkEvent id 0 idx sp (-1) 0 true id txs itxs [] true.
Definition c10_ops : list hop :=
  [HInsert (c10_ev 0 0 (-1) [1] [mkItx 0 true (mkPeer 101 1) true true; mkItx 1 true (mkPeer 102 2) true false]);
   HInsert (c10_ev 1 1 0 [] []); HInsert (c10_ev 2 2 1 [] []); HSigPool;
   HInsert (c10_ev 3 3 2 [] [mkItx 2 false (mkPeer 101 1) true true; mkItx 3 true (mkPeer 102 2) true true]);
   HInsert (c10_ev 4 4 3 [] []); HInsert (c10_ev 5 5 4 [] []); HInsert (c10_ev 6 6 5 [] []); HSigPool].
Example C10_example :
  let st := hrun (init_hg 0 c10_g [7; 8; 9]) c10_ops in
  map (fun b => (b_index b, b_rr b)) (delivered st) = [(0, 1); (1, 4)] /\
  map (fun e => (fst e, keys (snd e))) (peersets st) = [(0, [0]); (7, [0; 1]); (10, [0; 2])] /\
  keys (validators st) = [0; 2] /\
  option_map keys (get_peerset st 9) = Some [0; 1] /\
  rr_increasing st.
Proof. vm_compute. repeat split; repeat constructor. Qed.
(* the statement of C10_lookup_is_effective_prefix evaluated on that history, rounds 0..12: the
   lookup and the declarative replay agree (sets [0] up to round 6, [0;1] for 7..9, [0;2] from 10) *)
Example C10_example_prefix :
  let st := hrun (init_hg 0 c10_g [7; 8; 9]) c10_ops in
  map (fun r => option_map keys (get_peerset st r)) (zrange 0 12) =
  map (fun r => Some (keys (validators_at c10_g (delivered st) r))) (zrange 0 12) /\
  map (fun r => keys (validators_at c10_g (delivered st) r)) [0; 6; 7; 9; 10; 12] =
  [[0]; [0]; [0; 1]; [0; 1]; [0; 2]; [0; 2]].
Proof. vm_compute. repeat split; reflexivity. Qed.

(* the premise of C10_window_lookup_final holds on the join/leave history above and fails on the
   window-fork history (node A of Proofs/WindowWitness.v) *)
Example C10_example_window :
  window_runb (init_hg 0 c10_g [7; 8; 9]) c10_ops = true /\
  gap_runb (init_hg 0 c10_g [7; 8; 9]) c10_ops = true /\
  window_runb (init_hg 0 ww_g []) (map HInsert ww_all) = false /\
  gap_runb (init_hg 0 ww_g []) (map HInsert ww_all) = false.
Proof.
  destruct (proj2 (proj2 ww_facts)) as [G [W _]].
  split; [vm_compute; reflexivity|]. split; [vm_compute; reflexivity|]. split; [exact W|exact G].
Qed.
