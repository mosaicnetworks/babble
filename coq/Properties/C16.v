(* C16 Store fidelity: the Badger-backed store (LRU caches + rolling participant windows in
   front of a key/value DB) against a plain-map reference.
   Statements only; every proof is `exact <lemma>`.

   Vocabulary (Model/Store.v, Model/StoreSpec.v):
     brun (binit cs) ops   run of the transliterated BadgerStore with cache size cs
     srun sinit ops        run of the plain-map reference
     wf_ops ops            admission discipline of the hashgraph: a NEW event id has a known
                           creator, index = #events of that creator so far, topological index =
                           #events so far; a KNOWN id keeps creator/index/topological index;
                           listing arguments in the callers' range (skip >= -1, start >= 0)
     writes_ok ops rs      every SetEvent of the run was acknowledged (no error returned)
     observe re ops rs     the results that are compared: everything except the cache-only reads
                           GetRound/GetFrame, and - once a close/reopen happened - except the
                           reads answered by the participant window / lastBlock counter
                           (ParticipantEvents, LastEventFrom, KnownEvents, LastBlockIndex)
     jrun                  joint run in which the reference skips the writes the store rejected *)
From Coq Require Import ZArith List Bool.
From V Require Import Model.Store Model.StoreSpec Model.StoreWitness Proofs.StoreProofs.
Import ListNotations.
Open Scope Z_scope.

(* ---- the invariant: a cache entry always equals the DB entry of the same key.
        ALL operation sequences (no discipline needed), ALL cache sizes *)
Theorem C16_cache_coherent : forall cs ops,
  let b := fst (brun (binit cs) ops) in
  (forall k e, In (k, e) (lru_items (b_events b)) -> db_get (b_db b) (KEvent k) = Some (VEvent e)) /\
  (forall k bl, In (k, bl) (lru_items (b_blocks b)) -> db_get (b_db b) (KBlock k) = Some (VBlock bl)) /\
  (forall k p, In (k, p) (lru_items (b_rounds b)) -> db_get (b_db b) (KRound k) = Some (VZ p)) /\
  (forall k p, In (k, p) (lru_items (b_frames b)) -> db_get (b_db b) (KFrame k) = Some (VZ p)).
Proof. exact cache_coherent_unfolded. Qed.
Print Assumptions C16_cache_coherent.

(* ---- refinement of the plain map, all cache sizes, also across close/reopen:
        if every write was acknowledged, every compared read (events, blocks, participant
        event by index, DB-level rounds/frames, topological listing; before the first reopen also
        participant listings, LastEventFrom, KnownEvents, LastBlockIndex) returns exactly what
        the plain map returns - from the cache, after eviction, and after reopen *)
Theorem C16_refines_map : forall cs ops,
  wf_ops ops = true ->
  writes_ok ops (snd (brun (binit cs) ops)) = true ->
  observe false ops (snd (brun (binit cs) ops)) = observe false ops (snd (srun sinit ops)).
Proof. exact refines_map. Qed.
Print Assumptions C16_refines_map.

(* ---- general form without the acknowledgement hypothesis: a rejected write changes nothing,
        and the store refines the plain map of the ACKNOWLEDGED writes (discipline checked
        against that map) *)
Theorem C16_refines_map_acked : forall cs ops,
  fst (fst (jrun (binit cs) sinit ops)) = true ->
  observe false ops (snd (fst (jrun (binit cs) sinit ops))) =
  observe false ops (snd (jrun (binit cs) sinit ops)).
Proof. exact refines_acked. Qed.
Print Assumptions C16_refines_map_acked.

Theorem C16_rejected_write_noop : forall b e b' x,
  bstep b (OSetEvent e) = (b', RErr x) -> b' = b.
Proof. exact rejected_write_noop. Qed.
Print Assumptions C16_rejected_write_noop.

(* ---- the store results of the joint run are the store results *)
Theorem C16_jrun_is_brun : forall ops b s, snd (fst (jrun b s ops)) = snd (brun b ops).
Proof. exact jrun_brun. Qed.
Print Assumptions C16_jrun_is_brun.

(* ---- REFUTED: the refinement as first asked for (wf_ops only).  A disciplined write CAN be
        rejected: witness w_reset_rejected, cache size 2 *)
Theorem C16_refines_map_unconditional_refuted :
  ~ (forall cs ops, wf_ops ops = true ->
       observe false ops (snd (brun (binit cs) ops)) = observe false ops (snd (srun sinit ops))).
Proof. exact refines_map_unconditional_refuted. Qed.
Print Assumptions C16_refines_map_unconditional_refuted.

(* ---- REFUTED: comparing the window-answered reads also after a reopen (even with every write
        acknowledged): witness w_listing_after_reopen *)
Theorem C16_refines_map_across_reopen_refuted :
  ~ (forall cs ops, wf_ops ops = true -> writes_ok ops (snd (brun (binit cs) ops)) = true ->
       observe_all ops (snd (brun (binit cs) ops)) = observe_all ops (snd (srun sinit ops))).
Proof. exact refines_map_across_reopen_refuted. Qed.
Print Assumptions C16_refines_map_across_reopen_refuted.

(* ---- before the first reopen a disciplined write is rejected only with TooLate and only when
        it UPDATES a known event (one that left both the LRU and the creator's window);
        new events are never rejected *)
Theorem C16_only_too_late : forall cs ops e,
  wf_ops (ops ++ [OSetEvent e]) = true -> no_reopen ops = true ->
  let b := fst (brun (binit cs) ops) in
  forall x, snd (bstep b (OSetEvent e)) = RErr x ->
    x = TooLate /\ sp_events (fst (srun sinit ops)) (ev_id e) <> None.
Proof. exact only_too_late. Qed.
Print Assumptions C16_only_too_late.

(* ---- listings.  listings_exact d says, for the DB d:
        (1) for every creator c the DB scan from skip = -1 is duplicate-free, holds every stored
            event of c at position = its index, and holds nothing else;
        (2) there is n such that for every N >= n the topological scan (0,N) returns n events,
            duplicate-free, every stored event at position = its topological index, nothing else;
        (3) any scan (0,N) reaches every stored event with topological index < N. *)
Theorem C16_listings_exact : forall cs ops,
  wf_ops ops = true ->
  writes_ok ops (snd (brun (binit cs) ops)) = true ->
  listings_exact (b_db (fst (brun (binit cs) ops))).
Proof. exact listings_exact_acked. Qed.
Print Assumptions C16_listings_exact.

(* without any acknowledgement hypothesis as long as the store was not reopened *)
Theorem C16_listings_exact_no_reopen : forall cs ops,
  wf_ops ops = true -> no_reopen ops = true ->
  listings_exact (b_db (fst (brun (binit cs) ops))).
Proof. exact listings_exact_no_reopen. Qed.
Print Assumptions C16_listings_exact_no_reopen.

(* and in general w.r.t. the acknowledged history *)
Theorem C16_listings_exact_acked : forall cs ops,
  fst (fst (jrun (binit cs) sinit ops)) = true ->
  listings_exact (b_db (fst (brun (binit cs) ops))).
Proof. exact listings_exact_general. Qed.
Print Assumptions C16_listings_exact_acked.

(* ---- REFUTED: gap-free listings for wf_ops alone.  Witness w_topo_gap: after a reopen a new
        event is rejected (SkippedIndex), its topological index is never used, and the scan
        stops at the gap although a later event is stored *)
Theorem C16_listings_exact_unconditional_refuted :
  ~ (forall cs ops, wf_ops ops = true -> listings_exact (b_db (fst (brun (binit cs) ops)))).
Proof. exact listings_exact_unconditional_refuted. Qed.
Print Assumptions C16_listings_exact_unconditional_refuted.

(* ---- model adequacy: the two "scan until the first missing key" loops are modelled with
        db_fuel d = (number of DB writes) + 1 iterations.  For every reachable DB - ANY operation
        sequence, disciplined or not - additional fuel changes nothing: the loop always ends on a
        missing key, never on the fuel *)
Theorem C16_fuel_irrelevant : forall cs ops c i t bound extra,
  let d := b_db (fst (brun (binit cs) ops)) in
  db_part_scan (db_fuel d + extra) d c i = db_part_scan (db_fuel d) d c i /\
  db_topo_scan (db_fuel d + extra) d t bound = db_topo_scan (db_fuel d) d t bound.
Proof. exact fuel_irrelevant. Qed.
Print Assumptions C16_fuel_irrelevant.

(* non-vacuity: eviction (cache sizes 1, 2, 3: almost everything is evicted), overwrite, reopen;
   hypotheses hold and ALL results, not only the compared ones, coincide except GetRound/GetFrame
   (absent here) *)
Example C16_example_good :
  wf_ops w_good = true /\ length w_good = 41%nat /\
  (forall cs, In cs [1; 2; 3; 50000] ->
     writes_ok w_good (snd (brun (binit cs) w_good)) = true /\
     observe false w_good (snd (brun (binit cs) w_good)) = observe false w_good (snd (srun sinit w_good))) /\
  (* the event LRU of size 1 holds one entry while 8 events are readable *)
  length (lru_items (b_events (fst (brun (binit 1) w_good)))) = 1%nat /\
  nth 39 (snd (brun (binit 1) w_good)) RUnit = REvent (mkev 104 7 4 6 1) /\
  nth 27 (snd (brun (binit 2) w_good)) RUnit = RUnit (* OReopen *) /\
  nth 29 (snd (brun (binit 2) w_good)) RUnit = REvent (mkev 103 7 3 5 9) (* overwritten, after reopen *).
Proof.
  split; [reflexivity|]. split; [reflexivity|]. split.
  - intros cs H. cbn in H. repeat (destruct H as [<-|H]; [vm_compute; split; reflexivity|]). contradiction.
  - vm_compute. repeat split.
Qed.

(* W1, cache size 2: the update of event 100 is rejected, the store keeps payload 1, the map has 2;
   with cache size 1 the rolling window never evicts (size/2 = 0) and the update is accepted *)
Example C16_reset_rejected_refuted :
  wf_ops w_reset_rejected = true /\
  snd (brun (binit 2) w_reset_rejected) =
    [RUnit; RUnit; RUnit; RUnit; RErr TooLate; REvent (mkev 100 7 0 0 1)] /\
  snd (srun sinit w_reset_rejected) =
    [RUnit; RUnit; RUnit; RUnit; RUnit; REvent (mkev 100 7 0 0 2)] /\
  snd (brun (binit 1) w_reset_rejected) = snd (srun sinit w_reset_rejected) /\
  b_rim (fst (brun (binit 1) w_reset_rejected)) = [(7, mkRi 1 2 [100; 101; 102])].
Proof. vm_compute. repeat split. Qed.

(* W2: after reopen the listing is empty WITHOUT error (no DB fall-back), LastEventFrom is Empty,
   KnownEvents says -1, LastBlockIndex -1; the single-event read falls back correctly *)
Example C16_listing_after_reopen_refuted :
  wf_ops w_listing_after_reopen = true /\
  skipn 5 (snd (brun (binit 5) w_listing_after_reopen)) =
    [RIds []; RId 101; RErr Empty; RKnown [(7, -1)]; RZ (-1)] /\
  skipn 5 (snd (srun sinit w_listing_after_reopen)) =
    [RIds [100; 101; 102]; RId 101; RId 102; RKnown [(7, 2)]; RZ (-1)].
Proof. vm_compute. repeat split. Qed.

(* W3: SkippedIndex after reopen, then a topological gap: event 103 is stored and readable but the
   topological scan returns only two events *)
Example C16_topo_gap_refuted :
  wf_ops w_topo_gap = true /\
  skipn 5 (snd (brun (binit 5) w_topo_gap)) =
    [RUnit; RErr SkippedIndex; RUnit;
     REvents [mkev 100 7 0 0 2; mkev 101 7 1 1 1]; REvent (mkev 103 8 0 3 1)].
Proof. vm_compute. repeat split. Qed.

(* W4, cache size 2: GetRound / GetFrame answer KeyNotFound after eviction although the DB has
   the value (by design they never fall back to the DB) *)
Example C16_round_frame_cache_only_refuted :
  snd (brun (binit 2) w_round_cache_only) =
    [RUnit; RUnit; RUnit; RErr KeyNotFound; RZ 11; RUnit; RUnit; RUnit; RErr KeyNotFound; RZ 11] /\
  snd (srun sinit w_round_cache_only) =
    [RUnit; RUnit; RUnit; RZ 11; RZ 11; RUnit; RUnit; RUnit; RZ 11; RZ 11].
Proof. vm_compute. repeat split. Qed.

(* W5: skip = -2 (outside wf_ops): the cache says TooLate, the DB scan starts at index -1, finds
   nothing: empty listing although two events exist *)
Example C16_negative_skip_refuted :
  wf_ops w_negative_skip = false /\
  nth 3 (snd (brun (binit 5) w_negative_skip)) RUnit = RIds [] /\
  nth 3 (snd (srun sinit w_negative_skip)) RUnit = RIds [100; 101].
Proof. vm_compute. repeat split. Qed.
