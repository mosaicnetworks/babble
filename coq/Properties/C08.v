(* C08 No network input can crash a node or alter its committed history.
   Statements only; every proof is `exact <lemma>`.

   Model/Hostile.v models the validation layer that remote values go through - the helpers
   (DecodeFromString, DecodeSignature, ToPublicKey, Verify, InternalTransaction/Event/Block.Verify,
   SelfParent/OtherParent, NewPeerSet, GetSignatures, SortedFrameEvents.Less, Frame.Hash's string
   encoder), core.fastForward's checks, ProcessSigPool, and the RPC handlers - as total functions into
   Ok | Err | Panic | Hang, parameterised by the set of repairs present ([asis] / [repaired]).
   `safe o` means: o is neither Panic nor Hang.  The quantifiers range over ALL values of the
   argument types (arbitrary byte strings, integers, null elements): a superset of the hostile
   grammar.  What an ECDSA signature check answers, what the store / consensus layer answers to a
   well-formed object, and hash comparisons are universally quantified booleans. *)
From Coq Require Import ZArith List Bool.
From V Require Import Model.Hostile Model.HostileWitness Proofs.HostileProofs Proofs.HostileRefuted.
Import ListNotations.
Open Scope Z_scope.

(* T1: no command / response, in no state, makes the node panic or hang *)
Theorem C08_no_panic : forall st c, ns_locked st = false -> safe (fst (handle repaired st c)).
Proof. exact handle_safe. Qed.
Print Assumptions C08_no_panic.

(* T2: only an ACCEPTED fast-forward response changes the delivered blocks or the application
   state; in particular a message that is answered with an error leaves both unchanged *)
Theorem C08_blocks_unchanged : forall st c o st',
  handle repaired st c = (o, st') ->
  (ns_blocks st' = ns_blocks st /\ ns_app st' = ns_app st) \/
  (o = Ok tt /\ exists f snap blocks, c = RFastForward f snap blocks).
Proof. exact handle_blocks_unchanged. Qed.
Print Assumptions C08_blocks_unchanged.

(* T3: any request that was answered without error before an arbitrary message c is answered
   without error after it (no poisoned signature pool, no lock left behind in the model's terms) *)
Theorem C08_still_serves : forall st c v,
  ns_locked st = false ->
  heads_ok (ns_known st) (ns_heads st) = true ->
  is_request v = true ->
  fst (handle repaired st v) = Ok tt ->
  fst (handle repaired (snd (handle repaired st c)) v) = Ok tt.
Proof. exact handle_still_serves. Qed.
Print Assumptions C08_still_serves.

(* T3b: every handler releases the core lock on every path (both versions of the code), and a sync
   request whose eventDiff fails - a Known index below -1, events rolled out of the cache - is answered
   with an error and is a no-op: together with T3 the next valid request is served *)
Theorem C08_lock_released : forall fx st c, ns_locked st = false -> ns_locked (snd (handle fx st c)) = false.
Proof. exact handle_releases_lock. Qed.
Print Assumptions C08_lock_released.

Theorem C08_sync_diff_error_noop : forall fx st limit,
  gate (ns_state st) true = true -> ns_locked st = false ->
  handle fx st (CSync limit true) = (Err, st).
Proof. exact sync_diff_error_is_noop. Qed.
Print Assumptions C08_sync_diff_error_noop.

(* T3c: core.heads. Every recorded head (the other-parent of the next self-event) is an event of the
   hashgraph: an invariant of every command in both versions of the code - it is the premise of T3 -
   and an event that is refused or silently skipped (validly signed but ill-chained: a fork of the
   sender's own chain with any index, a duplicate, a second first event) leaves the hashgraph unchanged
   and never becomes, or makes anything become, a head *)
Theorem C08_heads_known : forall fx st c,
  heads_ok (ns_known st) (ns_heads st) = true ->
  heads_ok (ns_known (snd (handle fx st c))) (ns_heads (snd (handle fx st c))) = true.
Proof. exact handle_heads_known. Qed.
Print Assumptions C08_heads_known.

Theorem C08_skipped_event_no_new_head : forall fx st e sigs m,
  we_rest_ok e = false ->
  let st' := snd (handle fx st (CEager e sigs m)) in
  ns_known st' = ns_known st /\
  forall k h, head_of (ns_heads st') k = Some (Some h) -> head_of (ns_heads st) k = Some (Some h).
Proof. exact skipped_event_no_new_head. Qed.
Print Assumptions C08_skipped_event_no_new_head.

(* T4: the helpers, for every value *)
Theorem C08_helpers_no_panic :
  (forall s, safe (decode_from_string repaired s)) /\
  (forall fx s, safe (decode_signature fx s)) /\
  (forall pk r s b, safe (keys_verify repaired pk r s b)) /\
  (forall t, safe (itx_verify repaired t)) /\
  (forall itxs bsigs creator sig b, safe (event_verify repaired itxs bsigs creator sig b)) /\
  (forall v sig b, safe (block_verify repaired v sig b)) /\
  (forall which n, safe (parent_at repaired which n)) /\
  (forall ks, safe (get_signatures repaired ks)) /\
  (forall st limit conf d, safe (sync_request repaired st limit conf d)) /\
  (forall st t present, safe (join_request repaired st t present)) /\
  (forall st e pool, safe (fst (eager_sync repaired st e pool))) /\
  (forall f, safe (ff_check repaired f)).
Proof.
  exact (conj decode_from_string_safe (conj decode_signature_safe (conj keys_verify_safe
        (conj itx_verify_safe (conj event_verify_safe (conj block_verify_safe (conj parent_at_safe
        (conj get_signatures_safe (conj sync_request_safe (conj join_request_safe
        (conj eager_sync_safe ff_check_safe))))))))))).
Qed.
Print Assumptions C08_helpers_no_panic.

(* T5: ProcessSigPool never fails, whatever is pending; and the comparator used to sort the events
   of a validated frame never dereferences nil *)
Theorem C08_sigpool_total : forall l, fst (process_sigpool repaired l) = Ok tt.
Proof. exact process_sigpool_repaired_ok. Qed.
Print Assumptions C08_sigpool_total.

Theorem C08_validated_frame_sortable : forall a b,
  fev_valid a = true -> fev_valid b = true -> safe (fe_less repaired a b).
Proof. exact fe_less_safe. Qed.
Print Assumptions C08_validated_frame_sortable.

(* T6: every string of an accepted internal transaction, and every block-signature string of an
   accepted event, is one on which the canonical JSON encoder terminates *)
Theorem C08_accepted_text_encodable :
  (forall t, itx_verify repaired t = Ok true ->
     quote_str (it_key t) = Ok tt /\ quote_str (it_addr t) = Ok tt /\ quote_str (it_moniker t) = Ok tt) /\
  (forall fx l, bsigs_wellformed fx l = Ok tt -> forall s, In s l -> quote_str s = Ok tt).
Proof. exact (conj itx_verify_repaired_encodable bsigs_wellformed_encodable). Qed.
Print Assumptions C08_accepted_text_encodable.

(* the code as it is ([asis]): REFUTED, one witness per site *)

Theorem C08_no_panic_refuted : ~ (forall st c, ns_locked st = false -> safe (fst (handle asis st c))).
Proof. exact no_panic_asis_refuted. Qed.
Print Assumptions C08_no_panic_refuted.

Theorem C08_blocks_unchanged_refuted : ~ blocks_unchanged_statement asis.
Proof. exact blocks_unchanged_asis_refuted. Qed.
Print Assumptions C08_blocks_unchanged_refuted.

Theorem C08_still_serves_refuted : ~ still_serves_statement asis.
Proof. exact still_serves_asis_refuted. Qed.
Print Assumptions C08_still_serves_refuted.

Theorem C08_site_hex_refuted : decode_from_string asis [] = Panic /\ decode_from_string asis [48] = Panic /\
                               decode_from_string repaired [] = Ok ([], false).
Proof. exact w_hex. Qed.
Print Assumptions C08_site_hex_refuted.

Theorem C08_site_signature_refuted :
  decode_signature asis s_bang = Ok (None, None) /\
  block_verify asis g_bytes s_bang false = Panic /\
  block_verify repaired g_bytes s_bang false = Err.
Proof. exact w_sig. Qed.
Print Assumptions C08_site_signature_refuted.

Theorem C08_site_key_refuted :
  to_public_key asis [] = KNil /\ to_public_key asis [4] = KXYNil /\
  block_verify asis [] s_one false = Panic /\ block_verify asis [4] s_one false = Panic /\
  block_verify repaired [] s_one false = Ok false /\ block_verify repaired [4] s_one false = Ok false.
Proof. exact w_key. Qed.
Print Assumptions C08_site_key_refuted.

Theorem C08_site_parents_refuted :
  parent_at asis 0 0 = Panic /\ parent_at asis 1 1 = Panic /\ parent_at asis 1 2 = Ok tt.
Proof. exact w_parents. Qed.
Print Assumptions C08_site_parents_refuted.

Theorem C08_site_sync_limit_refuted :
  sync_request asis 0 (-1) 1000 3 = Panic /\ sync_request asis 5 (-1) 1000 3 = Panic /\
  sync_request repaired 5 (-1) 1000 3 = Ok 0 /\ sync_request asis 0 (-1) 1000 0 = Ok 0.
Proof. exact w_limit. Qed.
Print Assumptions C08_site_sync_limit_refuted.

Theorem C08_site_less_refuted :
  fe_less asis (FEv 1 2 s_bang) (FEv 1 2 s_one) = Panic /\
  fe_less asis (FEv 1 2 s_abc) (FEv 1 2 s_one) = Panic /\
  fe_less asis (FEv 1 2 s_bang) (FEv 2 2 s_one) = Ok true /\
  fe_less repaired (FEv 1 2 s_bang) (FEv 1 2 s_one) = Ok true.
Proof. exact w_less. Qed.
Print Assumptions C08_site_less_refuted.

Theorem C08_site_join_refuted :
  join_request asis 0 (mkItx [] [] [] s_one false) false = Panic /\
  join_request repaired 0 (mkItx [] [] [] s_one false) false = Err.
Proof. exact w_join. Qed.
Print Assumptions C08_site_join_refuted.

Theorem C08_site_event_itx_refuted :
  event_verify asis [mkItx [48; 88] [] [] s_one false] [] g_bytes s_abc false = Panic /\
  fst (eager_sync asis 0 (mkWE true [mkItx [] [] [] s_one false] [] g_bytes s_abc false true) []) = Panic /\
  fst (eager_sync repaired 0 (mkWE true [mkItx [] [] [] s_one false] [] g_bytes s_abc false true) []) = Err.
Proof. exact w_event_itx. Qed.
Print Assumptions C08_site_event_itx_refuted.

Theorem C08_site_fast_forward_refuted :
  ff_check asis (with_peers good_ff [Some g_hex; None]) = Panic /\
  ff_check asis (with_sigs good_ff [([], false, s_one, false)]) = Panic /\
  ff_check asis (with_sigs good_ff [(g_hex, true, s_bang, false)]) = Panic /\
  ff_check asis (with_roots good_ff [None]) = Panic /\
  ff_check asis (with_events good_ff [FNil]) = Panic /\
  ff_check asis (with_events good_ff [FCoreNil 1]) = Panic /\
  ff_check asis (with_events good_ff [FEv 1 1 s_one]) = Panic /\
  ff_check asis (with_fffd good_ff) = Hang /\
  ff_check repaired (with_peers good_ff [Some g_hex; None]) = Err /\
  ff_check repaired (with_roots good_ff [None]) = Err /\
  ff_check repaired (with_events good_ff [FEv 1 1 s_one]) = Err /\
  ff_check repaired (with_fffd good_ff) = Err.
Proof. exact w_ff. Qed.
Print Assumptions C08_site_fast_forward_refuted.

Theorem C08_site_sigpool_refuted :
  process_sigpool asis [mkPE true true g_bytes s_abc false; good_entry] =
     (Err, [mkPE true true g_bytes s_abc false; good_entry]) /\
  fst (process_sigpool asis [mkPE true true g_bytes s_bang false]) = Panic /\
  process_sigpool repaired [mkPE true true g_bytes s_abc false; good_entry] = (Ok tt, []).
Proof. exact w_sigpool. Qed.
Print Assumptions C08_site_sigpool_refuted.

(* a malformed pending signature is NEVER removed: every call fails on it *)
Theorem C08_site_sigpool_stuck : forall e r,
  pe_known e = true -> pe_member e = true ->
  block_verify asis (pe_validator e) (pe_sig e) (pe_sigok e) = Err ->
  process_sigpool asis (e :: r) = (Err, e :: r).
Proof. exact process_sigpool_asis_stuck. Qed.
Print Assumptions C08_site_sigpool_stuck.

Theorem C08_site_encoder_hang_refuted :
  itx_verify asis (mkItx g_hex s_plain s_fffd s_one true) = Ok true /\
  join_request asis 0 (mkItx g_hex s_plain s_fffd s_one true) true = Ok true /\
  quote_str s_fffd = Hang /\
  itx_verify repaired (mkItx g_hex s_plain s_fffd s_one true) = Err.
Proof. exact w_moniker. Qed.
Print Assumptions C08_site_encoder_hang_refuted.

Theorem C08_site_restore_before_check_refuted :
  handle asis st_catching_up (RFastForward (with_frame_hash good_ff false) 99 [50]) =
    (Err, mkNS 1 1000 3 [10; 11] 99 [] false [1; 2] [] true) /\
  handle repaired st_catching_up (RFastForward (with_frame_hash good_ff false) 99 [50]) = (Err, st_catching_up).
Proof. exact w_restore_before_check. Qed.
Print Assumptions C08_site_restore_before_check_refuted.

Theorem C08_site_reset_not_atomic_refuted :
  handle asis st_catching_up (RFastForward (with_insert good_ff false) 99 [50]) =
    (Err, mkNS 1 1000 3 [] 99 [] false [] [] true) /\
  handle repaired st_catching_up (RFastForward (with_insert good_ff false) 99 [50]) = (Err, st_catching_up).
Proof. exact w_reset_not_atomic. Qed.
Print Assumptions C08_site_reset_not_atomic_refuted.

Theorem C08_site_wedge_refuted :
  fst (handle asis st_babbling (CEager good_event [] good_meta)) = Ok tt /\
  fst (handle asis st_babbling poison) = Err /\
  fst (handle asis (snd (handle asis st_babbling poison)) (CEager good_event [] good_meta)) = Err /\
  fst (handle asis (snd (handle asis (snd (handle asis st_babbling poison)) (CEager good_event [] good_meta))) (CEager good_event [] good_meta)) = Err /\
  fst (handle repaired (snd (handle repaired st_babbling poison)) (CEager good_event [] good_meta)) = Ok tt.
Proof. exact w_wedge. Qed.
Print Assumptions C08_site_wedge_refuted.

(* what the oracle's liveness probe detects: a handler that returned without releasing the core lock
   (no path of the model does; seeded change seeded/C08) makes every later request block *)
Theorem C08_leaked_lock_wedges :
  handle asis st_babbling (CSync 10 true) = (Err, st_babbling) /\
  handle repaired st_suspended (CSync 10 true) = (Err, st_suspended) /\
  fst (handle repaired (snd (handle repaired st_babbling (CSync 10 true))) (CSync 10 false)) = Ok tt /\
  fst (handle repaired (leak_lock st_babbling) (CSync 10 false)) = Hang /\
  fst (handle repaired (leak_lock st_babbling) (CEager good_event [] good_meta)) = Hang.
Proof. exact w_sync_diff_error. Qed.
Print Assumptions C08_leaked_lock_wedges.

(* what the probe after a Byzantine validator's ill-chained event detects: a head that is not in the
   hashgraph (no path of the model records one; seeded change seeded/C08-r2) makes every later valid
   push fail while the node is busy *)
Theorem C08_unknown_head_wedges :
  handle asis st_babbling (CEager fork_event [] fork_meta) = (Ok tt, st_babbling) /\
  handle repaired st_babbling (CEager fork_event [] fork_meta) = (Ok tt, st_babbling) /\
  fst (handle repaired (snd (handle repaired st_babbling (CEager fork_event [] fork_meta)))
                       (CEager good_event [] (mkEM 100 8 8 false))) = Ok tt /\
  heads_ok (ns_known (poison_head st_babbling 7 999)) (ns_heads (poison_head st_babbling 7 999)) = false /\
  fst (handle repaired (poison_head st_babbling 7 999) (CEager good_event [] (mkEM 100 8 8 false))) = Err /\
  fst (handle repaired (snd (handle repaired (poison_head st_babbling 7 999) (CEager good_event [] (mkEM 100 8 8 false))))
                       (CEager good_event [] (mkEM 101 8 8 false))) = Err.
Proof. exact w_ill_chained_event. Qed.
Print Assumptions C08_unknown_head_wedges.

(* honest objects are accepted by both versions: the repairs do not reject valid traffic *)
Example C08_honest_objects_accepted :
  to_public_key asis g_bytes = KPoint g_x g_y /\
  itx_verify asis good_itx = Ok true /\ itx_verify repaired good_itx = Ok true /\
  fst (eager_sync asis 0 good_event []) = Ok tt /\
  fst (eager_sync repaired 0 good_event [good_entry]) = Ok tt /\
  ff_check asis good_ff = Ok tt /\ ff_check repaired good_ff = Ok tt /\
  process_sigpool repaired [good_entry] = (Ok tt, []) /\
  handle repaired st_catching_up (RFastForward good_ff 99 [50]) = (Ok tt, mkNS 1 1000 3 [50] 99 [] false [] [] true) /\
  handle repaired st_babbling (CSync 2 false) = (Ok tt, st_babbling) /\
  frame_validate good_ff = true /\ fev_valid good_fev = true.
Proof. key_compute. repeat split. Qed.

(* base-36 / hex / UTF-8 corner cases of the value grammar *)
Example C08_grammar_corner_cases :
  set_string36 [45; 48] = Some 0 /\ set_string36 [43] = None /\ set_string36 [] = None /\
  set_string36 [90; 122] = Some (35 * 36 + 35) /\ set_string36 [49; 95; 48] = None /\
  split_bar [] = [[]] /\ split_bar [124] = [[]; []] /\
  hex_pairs [48; 52; 90; 90] = ([4], false) /\ hex_pairs [48; 52; 48] = ([4], false) /\
  utf8_valid [195; 169] = true /\ utf8_valid [255] = false /\ utf8_valid [239; 191] = false /\
  has_fffd [97; 239; 191; 189; 98] = true /\ has_fffd [239; 191; 188] = false /\
  encodable s_plain = true /\ encodable s_fffd = false.
Proof. vm_compute. repeat split. Qed.
