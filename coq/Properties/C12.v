(* C12 Fast-sync acceptance.  Statements only; every proof is `exact <term>`.

   Model: Model/FastSync.v.  The tree implements the REPAIRED rule (/repo a556752 CheckBlock counts a
   validator once; 52c591c Node.fastForward checks before proxy.Restore; a41e4c4 only signers the node
   already knows are counted): [ff_decide_fixed], [core_ff_fixed], [node_ff_fixed] with [known] = the
   keys of c.peers, c.genesisPeers, c.validators and the store's peer sets.  The headline theorems
   (part 1) are about that rule, and the correspondence (bin/props/ffcommon.py) REQUIRES the tree to
   implement it.

   Part 2 keeps, as REGRESSION WITNESSES, the refutations of the rule the code had before those
   commits ([ff_decide], [core_ff], [node_ff]): each documents why one repair matters, is replayed
   by harness/cmd/ff on every run, and is what the check reports again if the repair is lost.

   Part 3: what is still FALSE of the repaired tree (findings/fastsync/FINDINGS.md F4, open): a
   response that passes every check but whose frame Hashgraph.Reset cannot insert leaves the node
   emptied. *)
From Coq Require Import ZArith List Bool Permutation.
From V Require Import Model.Quorum Model.FastSync Model.FastSyncWitness Proofs.FastSyncProofs.
Import ListNotations.
Open Scope Z_scope.

(** * 1. The rule the tree implements *)

(* the specification-side signer set: the distinct members of the frame's validator set for which
   the block carries a verifying signature, each once *)
Theorem C12_signer_set_exact : forall ps sigs,
  NoDup (distinct_valid_signers ps sigs) /\
  forall v, In v (distinct_valid_signers ps sigs) <->
            member ps v = true /\ exists s, In s sigs /\ se_bytes s = v /\ se_verif s = 1.
Proof. exact (fun ps sigs => conj (distinct_valid_signers_NoDup ps sigs) (distinct_valid_signers_spec ps sigs)). Qed.
Print Assumptions C12_signer_set_exact.

(* THE PROPERTY: a response is adopted only if the frame hashes to the block's frame hash, the frame's
   validator set hashes to the block's peer-set hash, and more than one third of the DISTINCT members
   of that set have a verifying signature (accept_sound_statement, Proofs/FastSyncProofs.v) *)
Theorem C12_accept_sound : forall known, accept_sound_statement (ff_decide_fixed known).
Proof. exact accept_fixed_sound. Qed.
Print Assumptions C12_accept_sound.

(* the same for the boolean decision [accept_fixed], spelled out *)
Theorem C12_accept_sound_bool : forall known b f,
  accept_fixed known b f = true ->
  fb_frame_hash b = ff_hash f /\
  fb_peers_hash b = Some (peers_digest (ff_peers f)) /\
  3 * Z.of_nat (length (distinct_valid_signers (ff_peers f) (fb_sigs b))) > fs_len (ff_peers f).
Proof. exact (fun known b f H => accept_fixed_sound known b f (proj1 (is_ok_true _) H)). Qed.
Print Assumptions C12_accept_sound_bool.

(* tampering with the block BODY: signatures honest validators made over the original body do not
   verify on another body; if every entry that does verify was made with an adversary key and the
   adversary owns at most a third of the declared set, the response is refused *)
Theorem C12_tamper_refused : forall known, tamper_refused_statement (ff_decide_fixed known).
Proof. exact tamper_refused_fixed. Qed.
Print Assumptions C12_tamper_refused.

(* tampering with the FRAME: a block adopted with frame f is adopted with no frame that hashes
   differently (round, timestamp, roots, events and their annotations, peer-set history, peer
   addresses ...) nor with a frame declaring another validator key list *)
Theorem C12_frame_tamper_refused : forall known b f f',
  ff_hash f' <> ff_hash f \/ peers_digest (ff_peers f') <> peers_digest (ff_peers f) ->
  ff_decide_fixed known b f = FFOk -> ff_decide_fixed known b f' <> FFOk.
Proof. exact (fun known b f f' HD H => frame_tamper_refused_fixed known b f f' H HD). Qed.
Print Assumptions C12_frame_tamper_refused.

(* re-spelled or repeated entries change nothing: the decision only depends on the signature map as
   a multiset (Go iterates it in random order) *)
Theorem C12_decision_order_independent : forall known i rr ph fh s s' f,
  Permutation s s' ->
  ff_decide_fixed known (mkBlock i rr ph fh s) f = ff_decide_fixed known (mkBlock i rr ph fh s') f.
Proof. exact ff_decide_fixed_perm. Qed.
Print Assumptions C12_decision_order_independent.

(* core level: a response refused by CheckBlock or by the frame-hash test (or on which CheckBlock
   panics) leaves hashgraph, store, validator sets, peer selector and pools exactly as they were *)
Theorem C12_reject_noop_core : forall known st b f r st',
  core_ff_fixed known st b f = (r, st') ->
  r = FFWrongPeerSet \/ r = FFNotEnoughSigs \/ r = FFBadFrameHash \/ r = FFPanicCheck ->
  st' = st.
Proof. exact (core_ff_gen_reject_noop rule_fixed). Qed.
Print Assumptions C12_reject_noop_core.

(* node level: ... and the application and the node state as well *)
Theorem C12_reject_noop_node : forall known ns l r ns',
  node_ff_fixed known ns l = (Some r, ns') ->
  r = FFWrongPeerSet \/ r = FFNotEnoughSigs \/ r = FFBadFrameHash \/ r = FFPanicCheck ->
  ns' = ns.
Proof. exact node_ff_fixed_reject_noop. Qed.
Print Assumptions C12_reject_noop_node.

(* the application is only ever restored from the chosen response, after it passed every check *)
Theorem C12_restore_only_checked : forall known ns l r ns',
  node_ff_fixed known ns l = (r, ns') -> ns_app ns' <> ns_app ns ->
  exists x, best_response l = Some x /\ check_ff_fixed known (r_block x) (r_frame x) = FFOk /\
            ns_app ns' = r_snapshot x :: ns_app ns.
Proof. exact node_ff_fixed_restore_checked. Qed.
Print Assumptions C12_restore_only_checked.

(* an adopted response installs exactly the state Reset derives from (block, frame), the frame's
   validator set as peers (peer selector) and the latest set of the frame's peer-set history as
   validators (/repo 3b6a6ac); nothing else of the core is written *)
Theorem C12_accept_state : forall known st b f st',
  core_ff_fixed known st b f = (FFOk, st') ->
  st' = mkCore (HgReset b f) (new_validators f) (ff_peers f) (cs_rest st).
Proof. exact (core_ff_gen_accept_state rule_fixed). Qed.
Print Assumptions C12_accept_state.

(* Node.fastForward only ever considers an answer it received, with a block index > 0 *)
Theorem C12_best_response_received : forall l x,
  best_response l = Some x -> In (Some x) l /\ 0 < fb_index (r_block x).
Proof. exact best_response_in. Qed.
Print Assumptions C12_best_response_received.

(* the rule run by the correspondence (one switch per repair) IS the repaired rule when all switches
   are on and the pre-repair rule when all are off; with any combination of switches a response
   refused by the checks leaves the core untouched *)
Theorem C12_rule_switches_exact : forall known,
  (forall st b f, core_ff_gen rule_fixed known st b f = core_ff_fixed known st b f) /\
  (forall ns l, node_ff_gen rule_fixed known ns l = node_ff_fixed known ns l) /\
  (forall st b f, core_ff_gen rule_current known st b f = core_ff st b f) /\
  (forall ns l, node_ff_gen rule_current known ns l = node_ff ns l).
Proof.
  exact (fun known => conj (gen_fixed_core known) (conj (gen_fixed_node known)
           (conj (gen_current_core known) (gen_current_node known)))).
Qed.
Print Assumptions C12_rule_switches_exact.

Theorem C12_reject_noop_core_any_rule : forall rl known st b f r st',
  core_ff_gen rl known st b f = (r, st') ->
  r = FFWrongPeerSet \/ r = FFNotEnoughSigs \/ r = FFBadFrameHash \/ r = FFPanicCheck ->
  st' = st.
Proof. exact core_ff_gen_reject_noop. Qed.
Print Assumptions C12_reject_noop_core_any_rule.

(* SEQUENCES of interactions on one node.  Node.fastForward is retried while the node is CatchingUp;
   nothing of the decision is carried from one call to the next.  After any prefix of calls whose
   outcomes are "quiet" - the response was refused by the checks, or it passed them and
   proxy.Restore then failed, so that nothing was applied - the node, its application and the sets it
   knows are exactly as they were, and the next call answers exactly as it would on the untouched
   node.  (A tree that remembers "this block was already checked" and then skips the frame-hash test
   for a replayed block with another frame - seeded/C12 - breaks this: harness NS lines.) *)
Theorem C12_decision_independent_of_history : forall genesis known ns prefix s rs nsf kf,
  node_seq genesis known ns prefix = (rs, nsf, kf) ->
  Forall quiet rs ->
  (nsf = ns /\ kf = known) /\
  fst (fst (node_seq genesis known ns (prefix ++ [s]))) =
    rs ++ [fst (node_step known ns (st_answers s) (st_restore_ok s))] /\
  snd (fst (node_seq genesis known ns (prefix ++ [s]))) =
    snd (node_step known ns (st_answers s) (st_restore_ok s)).
Proof.
  exact (fun genesis known ns prefix s rs nsf kf H HQ =>
    conj (node_seq_quiet genesis prefix known ns rs nsf kf H HQ)
         (node_decision_independent_of_history genesis known ns prefix s rs nsf kf H HQ)).
Qed.
Print Assumptions C12_decision_independent_of_history.

(* one call with a succeeding Restore is Node.fastForward of the theorems above *)
Theorem C12_node_step_is_fast_forward : forall known ns l,
  node_step known ns l true =
    match node_ff_fixed known ns l with
    | (Some r, ns') => (NRes r, ns')
    | (None, ns') => (NNone, ns')
    end.
Proof. exact node_step_is_node_ff_fixed. Qed.
Print Assumptions C12_node_step_is_fast_forward.

(* core level: the decisions of a sequence of core.fastForward calls, and the known sets at its
   end, are a function of the responses and of the initially known sets alone - whatever the core's
   state; the known sets change by ADOPTIONS only, to
   known_after genesis f = [frame.Peers; genesis peers; latest set of frame.PeerSets] ++ frame.PeerSets
   (c.peers, c.genesisPeers - never written -, c.validators, the store's table after Store.Reset) *)
Theorem C12_core_decisions_independent_of_state : forall genesis known st1 st2 l,
  fst (fst (core_seq genesis known st1 l)) = fst (fst (core_seq genesis known st2 l)) /\
  snd (core_seq genesis known st1 l) = snd (core_seq genesis known st2 l).
Proof. exact core_seq_state_blind. Qed.
Print Assumptions C12_core_decisions_independent_of_state.

Theorem C12_known_sets_evolution : forall genesis f v,
  (mem_key v genesis = true -> in_known (known_after genesis f) v = true) /\
  (mem_key v (peers_digest (ff_peers f)) = true -> in_known (known_after genesis f) v = true).
Proof. exact (fun genesis f v => conj (known_after_genesis genesis f v) (known_after_peers genesis f v)). Qed.
Print Assumptions C12_known_sets_evolution.

(** * 2. Regression witnesses: the rule before a556752 / 52c591c / a41e4c4 *)

(* what that rule did guarantee: digests, and more than TrustCount verifying map ENTRIES *)
Theorem C12_old_rule_accept_checks : forall b f,
  ff_decide b f = FFOk ->
  fb_frame_hash b = ff_hash f /\
  fb_peers_hash b = Some (peers_digest (ff_peers f)) /\
  fs_tc (ff_peers f) < valid_sigs (ff_peers f) (fb_sigs b) /\
  3 * valid_sigs (ff_peers f) (fb_sigs b) > fs_len (ff_peers f).
Proof. exact ff_accept_checks. Qed.
Print Assumptions C12_old_rule_accept_checks.

(* before a556752: one validator listed under several spellings of its key ("0X<UPPER>",
   "0x<lower>", "zz<lower>") is counted once per spelling.  Witness w_dup_block: validator 1 of 4,
   three entries > TrustCount = 2.  harness kind sigs.reencode-1-signer; oracle class
   duplicate-signer-counted *)
Theorem C12_old_rule_counts_spellings : ~ accept_sound_statement ff_decide.
Proof. exact accept_sound_refuted. Qed.
Print Assumptions C12_old_rule_counts_spellings.

Theorem C12_old_rule_counts_spellings_witness : exists b f,
  NoDup (map se_key (fb_sigs b)) /\ ff_decide b f = FFOk /\
  distinct_valid_signers (ff_peers f) (fb_sigs b) = [1] /\ fs_len (ff_peers f) = 4 /\
  ff_decide_fixed w_known b f = FFNotEnoughSigs.
Proof.
  exact (ex_intro _ w_dup_block (ex_intro _ w_frame4
    (match distinct_signers_refuted_witness with conj a (conj b (conj c d)) => conj a (conj b (conj c (conj d eq_refl))) end))).
Qed.
Print Assumptions C12_old_rule_counts_spellings_witness.

(* ... so an adversary owning ONE key of four got a tampered body adopted *)
Theorem C12_old_rule_tamper_adopted : ~ tamper_refused_statement ff_decide.
Proof. exact tamper_refused_refuted. Qed.
Print Assumptions C12_old_rule_tamper_adopted.

(* before 52c591c: Node.fastForward called proxy.Restore before core.fastForward checked anything.
   Witness w_tampered as the only answer: refused with "not enough valid signatures" AFTER
   Restore(snapshot 7).  harness NF lines; oracle class restored-before-check *)
Theorem C12_old_rule_restores_before_check : exists ns l ns',
  node_ff ns l = (Some FFNotEnoughSigs, ns') /\ ns_core ns' = ns_core ns /\ ns_app ns' <> ns_app ns.
Proof. exact restore_before_check_refuted. Qed.
Print Assumptions C12_old_rule_restores_before_check.

Theorem C12_old_rule_reject_not_noop : ~ reject_noop_statement node_ff.
Proof. exact reject_noop_refuted. Qed.
Print Assumptions C12_old_rule_reject_not_noop.

(* the repairs only remove acceptances (on responses on which the old code did not panic) *)
Theorem C12_fixed_stricter : forall known b f,
  existsb se_short (fb_sigs b) = false ->
  existsb (verify_panics (ff_peers f)) (fb_sigs b) = false ->
  ff_decide_fixed known b f = FFOk -> ff_decide b f = FFOk.
Proof. exact fixed_implies_current. Qed.
Print Assumptions C12_fixed_stricter.

(** * 3. Still false of the repaired tree (F4, open) *)

(* "a refused response leaves the node untouched" (reject_noop_statement) fails for the class
   FFResetError: validators 1, 2, 3 - known to the node, more than a third - sign a frame that
   Hashgraph.Reset cannot insert (witness w_byz): every check passes, the application is restored,
   Reset clears hashgraph and store and then fails.  harness kinds byzantine.quorum-signs.*; oracle
   classes reject-not-noop / restored-then-reset-failed.  Not reachable by strangers any more
   (C14_no_strangers), nor with at most a third of Byzantine validators (C12_tamper_refused). *)
Theorem C12_reset_failure_not_noop : ~ reject_noop_statement (node_ff_fixed w_known).
Proof. exact reject_noop_fixed_refuted. Qed.
Print Assumptions C12_reset_failure_not_noop.

Theorem C12_reset_failure_not_noop_core : exists st b f st',
  core_ff st b f = (FFResetError, st') /\ st' <> st.
Proof. exact reset_failure_not_noop_refuted. Qed.
Print Assumptions C12_reset_failure_not_noop_core.

(** * Non-vacuity: an honest response (3 of 4 distinct known validators sign) is adopted; the
      respelled-signer response and the tampered one are refused, the latter without restoring the
      application; a checked response is restored from *)
Example C12_example :
  ff_decide_fixed w_known w_good_block w_frame4 = FFOk /\
  distinct_valid_signers w_set4 (fb_sigs w_good_block) = [3; 1; 2] /\
  ff_decide_fixed w_known w_dup_block w_frame4 = FFNotEnoughSigs /\
  node_ff_fixed w_known w_ns0 [None; Some w_tampered; None; None] = (Some FFNotEnoughSigs, w_ns0) /\
  ns_app (snd (node_ff_fixed w_known w_ns0 [None; Some (mkResp w_good_block w_frame4 9)])) = [9].
Proof. vm_compute. repeat split; reflexivity. Qed.

(* a two-step sequence: the honest response passes the checks but Restore fails (nothing applied); the
   same block with a frame that hashes differently is then refused, node untouched; the honest
   response again, Restore working, is adopted *)
Example C12_sequence_example :
  node_seq [0; 1; 2; 3] w_known w_ns0
    [mkStep [None; Some (mkResp w_good_block w_frame4 9)] false;
     mkStep [None; Some (mkResp w_good_block (mkFrame w_set4 77 1 [(0, w_set4)]) 9)] true;
     mkStep [None; Some (mkResp w_good_block w_frame4 9)] true]
  = ([NRestoreFailed; NRes FFBadFrameHash; NRes FFOk],
     mkNode (mkCore (HgReset w_good_block w_frame4) w_set4 w_set4 0) [9] true,
     known_after [0; 1; 2; 3] w_frame4).
Proof. vm_compute. reflexivity. Qed.
