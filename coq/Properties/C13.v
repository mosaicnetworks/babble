(* C13 Fast-sync continuity.  Statements only.

   Model: Model/HgReset.v (Hashgraph.Reset, InmemStore.Reset, InsertFrameEvent, Frame.SortedFrameEvents,
   core.fastForward after a successful checkFastForward, node.fastForward's receipts) on top of
   Model/HgImpl.v.  A transported frame = model [frame] + the bodies [cores] of the events it mentions
   (event identifiers stand for hashes, so a FrameEvent's Core is a function of its id).

   What is here:
   - frames on full-history nodes: computed once, carried by the block;
   - C13_reset_state / C13_reset_dag / C13_reset_validators: the state a fast-forward leaves behind,
     for EVERY victim state, block, frame whose event ids are distinct and non-negative and whose
     peer-set table is sorted (what an honest GetFrame produces; see frame_shape);
   - the serving side (C13_anchor_answer .. C13_reset_values_are_servers): what an honest peer answers
     in every reachable state, and that the reset node then holds the server's table, rounds, Lamport
     timestamps and witness flags;
   - honest responders under static membership: [frame_shape] is a theorem (C13_served_frame_shape,
     C13_anchor_frame_shape), so the reset-state theorems hold without a hypothesis on the frame
     (`_served`);
   - C02 and C07 for a node that fast-forwarded: the blocks delivered and the events admitted AFTER
     the reset (the C13_after_reset theorems), for honest responders (`_served`) and under the premises the
     runner evaluates on every fast-forward (C13_after_reset_checked);
   - C13_continuity_round_partial (+ witness flag, Lamport timestamp): an event inserted after the
     reset gets the same round on the reset node as on a full-history node PROVIDED roots_sufficient
     (the two nodes agree on what round() reads: the parent round's witnesses that the event strongly
     sees are known to the reset node, and the coordinate comparisons give the same answers);
   - C13_roots_insufficient_refuted: the unconditional statement is FALSE of the faithful model, as it
     is of the code (known finding C13-roots-insufficient): concrete history found and minimised on the
     real node.core objects (harness/cmd/resetwit), replayed here by vm_compute; the same witness shows
     that it is exactly roots_sufficient that fails.
   - C13_continuity_statement: the full block-level statement, as a Definition (asserted nowhere; it is
     false without roots_sufficient by the refutation, and its proof under roots_sufficient needs the
     order invariants re-established from a reset state: not done). *)
From Coq Require Import ZArith List Bool Sorted Permutation.
From V Require Import Model.ZMap Model.Quorum Model.HgImpl Model.HgReset Model.PeerSetSpec
  Proofs.ZMapFacts Proofs.AdmissionProofs Proofs.BlockInv Proofs.OrderProofs
  Proofs.PeerSetProofs Proofs.ResetProofs Proofs.ResetServer Proofs.ResetMemo Proofs.ResetRound Proofs.ResetWitness Proofs.ResetRefute Proofs.ResetWitnessOk Proofs.ResetExample Proofs.Static Proofs.ResetAfter Proofs.ResetOrder Proofs.ResetDag Proofs.ResetShape Proofs.ResetWitnessDeliv Proofs.ResetExampleDeliv.
Import ListNotations.
Open Scope Z_scope.

(* GetFrame returns the stored frame when there is one: a frame is never recomputed *)
Theorem C13_frame_computed_once : forall st rr f,
  zget rr (frames st) = Some f -> get_frame st rr = (Some f, st).
Proof. exact (fun st rr f H => ltac:(unfold get_frame; rewrite H; reflexivity)). Qed.
Print Assumptions C13_frame_computed_once.

(* a block built from a frame carries that frame (FrameHash), its round and its validator set (PeersHash) *)
Theorem C13_block_carries_frame : forall i f st,
  b_frame (block_of_frame i f st) = f /\ b_rr (block_of_frame i f st) = f_round f /\
  b_peers (block_of_frame i f st) = f_peers f /\ b_ts (block_of_frame i f st) = f_ts f.
Proof. exact (fun i f st => conj eq_refl (conj eq_refl (conj eq_refl eq_refl))). Qed.
Print Assumptions C13_block_carries_frame.

(* block store = the anchor block alone, frame cache = the frame alone, peer-set table = the frame's
   table, validators = the latest recorded set of that table, lower bound = last consensus round =
   the block's round-received, no undetermined events, no pending rounds, no anchor; signature
   pool, own signatures, delivered blocks untouched *)
Theorem C13_reset_state : forall v b f cores v1,
  frame_shape f -> core_fast_forward v b f cores = (true, v1) ->
  blocks v1 = zset (b_index b) b zempty /\ last_block v1 = Z.max (b_index b) (-1) /\
  frames v1 = zset (f_round f) f zempty /\
  peersets v1 = f_peersets f /\ validators v1 = ff_validators f /\
  lower_bound v1 = Some (b_rr b) /\ last_consensus v1 = Some (b_rr b) /\
  undetermined v1 = [] /\ pending v1 = [] /\ anchor v1 = None /\ pending_loaded v1 = 0 /\
  sigpool v1 = sigpool v /\ self_sigs v1 = self_sigs v /\ delivered v1 = delivered v /\ self v1 = self v.
Proof.
  exact (fun v b f cores v1 FS H =>
    let P := reset_hg_post v b f cores v1 FS H in
    conj (rp_blocks _ _ _ _ _ P) (conj (rp_last_block _ _ _ _ _ P) (conj (rp_frames _ _ _ _ _ P)
    (conj (rp_table _ _ _ _ _ P) (conj (rp_validators _ _ _ _ _ P) (conj (rp_lb _ _ _ _ _ P)
    (conj (rp_lc _ _ _ _ _ P) (conj (rp_und _ _ _ _ _ P) (conj (rp_pending _ _ _ _ _ P)
    (conj (rp_anchor _ _ _ _ _ P) (conj (rp_pl _ _ _ _ _ P) (conj (rp_sigpool _ _ _ _ _ P)
    (conj (rp_self_sigs _ _ _ _ _ P) (conj (rp_delivered _ _ _ _ _ P) (rp_self _ _ _ _ _ P))))))))))))))).
Qed.
Print Assumptions C13_reset_state.

(* the DAG of the reset node = the root events and the frame events, each with the body shipped in
   the frame, its recorded round / Lamport timestamp / witness flag in the event, in the memo
   tables and in the round table, no round-received, fame undecided, nothing received; nothing else
   is stored or memoised (except stale Lamport memo entries, which Reset keeps) *)
Theorem C13_reset_dag : forall v b f cores v1,
  frame_shape f -> core_fast_forward v b f cores = (true, v1) -> reset_dag f cores v v1.
Proof. exact (fun v b f cores v1 FS H => reset_post_dag v b f cores v1 (reset_hg_post v b f cores v1 FS H)). Qed.
Print Assumptions C13_reset_dag.

(* node.fastForward then applies the anchor block's receipts: table and validators are what
   core.commit computes on a full-history node from the same table (C10's replay_step) *)
Theorem C13_reset_validators : forall v b f cores v',
  frame_shape f -> node_fast_forward v b f cores = (true, v') ->
  (peersets v', validators v') = replay_step (f_peersets f, ff_validators f) (b_rr b) (b_itxs b).
Proof. exact node_fast_forward_table. Qed.
Print Assumptions C13_reset_validators.

(* InmemStore.Reset ranges over the Go map Frame.PeerSets, i.e. calls SetPeerSet in an arbitrary
   order: whatever permutation of the frame's entries is used, the recorded table is the frame's
   (sorted) table and every lookup -- for EVERY round, not only the rounds that are keys -- is the
   lookup in that table (PeerSetCache keeps its rounds sorted on every insertion) *)
Theorem C13_reset_table_order_independent : forall st f l s,
  Permutation.Permutation l (f_peersets f) -> StronglySorted Z.lt (map fst (f_peersets f)) ->
  set_peersets (store_clear st) l = (true, s) ->
  peersets s = f_peersets f /\ forall r, get_peerset s r = ps_table_get r (f_peersets f).
Proof. exact reset_table_any_order. Qed.
Print Assumptions C13_reset_table_order_independent.

(* after the fast-forward, for every round: the validator set the reset node uses is the one the
   frame's table gives *)
Theorem C13_reset_lookup : forall v b f cores v1 r,
  frame_shape f -> core_fast_forward v b f cores = (true, v1) ->
  get_peerset v1 r = ps_table_get r (f_peersets f).
Proof.
  exact (fun v b f cores v1 r FS H =>
    eq_ind_r (fun t => ps_table_get r t = ps_table_get r (f_peersets f)) eq_refl
             (rp_table _ _ _ _ _ (reset_hg_post v b f cores v1 FS H))).
Qed.
Print Assumptions C13_reset_lookup.

(* GetAnchorBlockWithFrame on any state a full-history node can reach (any schedule of insertion
   attempts of validly identified events and ProcessSigPool calls): the state is not changed, the
   block is the stored copy of a DELIVERED block (same body, at least its signatures), the frame is
   the one that block was built from, the event bodies are the server's stored events *)
Theorem C13_anchor_answer : forall all ss g os ops b f cores s',
  ids_determine all -> Forall (hop_ok all) ops -> ss <> -1 ->
  anchor_block_with_frame (hrun (init_hg ss g os) ops) = (Some (b, f, cores), s') ->
  s' = hrun (init_hg ss g os) ops /\ f = b_frame b /\ cores = frame_cores (hrun (init_hg ss g os) ops) f /\
  exists k d, nth_error (delivered (hrun (init_hg ss g os) ops)) k = Some d /\
              zget (Z.of_nat k) (blocks (hrun (init_hg ss g os) ops)) = Some b /\ body b = body d /\ sigs_incl d b.
Proof. exact anchor_answer. Qed.
Print Assumptions C13_anchor_answer.

(* the frame of every delivered block records the validator-set table that C10's replay gives for
   the blocks delivered BEFORE it *)
Theorem C13_frame_table_is_replay : forall g ss os ops ds1 d ds2,
  ss <> -1 -> delivered (hrun (init_hg ss g os) ops) = ds1 ++ d :: ds2 ->
  f_peersets (b_frame d) = fst (replay_genesis g ds1).
Proof. exact (fun g ss os ops ds1 d ds2 Hs H => si_dtab g _ (hrun_sinv g ss os ops Hs) ds1 d ds2 H). Qed.
Print Assumptions C13_frame_table_is_replay.

(* ... hence: a node (in ANY state v) that fast-forwards from the k-th delivered block of a
   full-history node and its frame ends with exactly the table and the core.validators that C10
   specifies for a node that delivered blocks 0..k: the reset node uses the validator sets a
   full-history node uses, pending changes inside the six-round window included *)
Theorem C13_reset_validators_replay : forall g ss os ops k d b v cores v',
  ss <> -1 ->
  nth_error (delivered (hrun (init_hg ss g os) ops)) k = Some d ->
  zget (Z.of_nat k) (blocks (hrun (init_hg ss g os) ops)) = Some b ->
  frame_shape (b_frame b) ->
  node_fast_forward v b (b_frame b) cores = (true, v') ->
  (peersets v', validators v') = replay_genesis g (firstn (S k) (delivered (hrun (init_hg ss g os) ops))).
Proof. exact reset_table_is_replay. Qed.
Print Assumptions C13_reset_validators_replay.

(* in every reachable state, every event of every cached frame -- root events included -- carries the
   serving node's memoised round and Lamport timestamp, and the witness flag of its entry in the
   RoundInfo of that round (memo entries are never overwritten, witness flags never change) *)
Theorem C13_frame_values_are_memo : forall all ss g os ops rr f,
  ids_determine all -> Forall (hop_ok all) ops ->
  zget rr (frames (hrun (init_hg ss g os) ops)) = Some f ->
  Forall (frame_event_ok (hrun (init_hg ss g os) ops)) (all_frame_events f).
Proof. exact (fun all ss g os ops rr f ID Ho H => proj1 (hrun_fmemo all ss g os ops ID Ho rr f H)). Qed.
Print Assumptions C13_frame_values_are_memo.

(* which past is shipped: every root of every cached frame holds at most ROOT_DEPTH + 1 = 11 events
   with consecutive indexes (the head and its self-ancestors), all but possibly the head by the
   root's participant; together with C13_reset_dag: the reset DAG is closed under nothing deeper *)
Theorem C13_root_depth : forall all ss g os ops rr f c l,
  ids_determine all -> Forall (hop_ok all) ops ->
  zget rr (frames (hrun (init_hg ss g os) ops)) = Some f -> In (c, l) (f_roots f) ->
  (length l <= S ROOT_DEPTH)%nat /\
  exists idx, forall k fe, nth_error l k = Some fe ->
    exists es, get_event (hrun (init_hg ss g os) ops) (fe_id fe) = Some es /\
               e_index (ev_e es) = idx + Z.of_nat k /\ ((S k < length l)%nat -> e_creator (ev_e es) = c).
Proof. exact (fun all ss g os ops rr f c l ID Ho H Hin => proj2 (hrun_fmemo all ss g os ops ID Ho rr f H) c l Hin). Qed.
Print Assumptions C13_root_depth.

(* ... hence the reset node stores every root / frame event with the serving node's round, Lamport
   timestamp and witness flag (event fields and memo tables) *)
Theorem C13_reset_values_are_servers : forall all ss g os ops rr f v b cores v1,
  ids_determine all -> Forall (hop_ok all) ops ->
  zget rr (frames (hrun (init_hg ss g os) ops)) = Some f ->
  frame_shape f -> core_fast_forward v b f cores = (true, v1) ->
  forall fe, In fe (all_frame_events f) ->
    exists es ri t,
      get_event v1 (fe_id fe) = Some es /\
      ev_round es = zget (fe_id fe) (round_memo (hrun (init_hg ss g os) ops)) /\
      ev_lt es = zget (fe_id fe) (lt_memo (hrun (init_hg ss g os) ops)) /\
      zget (fe_id fe) (round_memo v1) = zget (fe_id fe) (round_memo (hrun (init_hg ss g os) ops)) /\
      zget (fe_id fe) (lt_memo v1) = zget (fe_id fe) (lt_memo (hrun (init_hg ss g os) ops)) /\
      get_round (hrun (init_hg ss g os) ops) (fe_round fe) = Some ri /\
      aget (fe_id fe) (ri_created ri) = Some (fe_wit fe, t) /\
      zget (fe_id fe) (witness_memo v1) = Some (fe_wit fe).
Proof. exact reset_values_are_servers. Qed.
Print Assumptions C13_reset_values_are_servers.

(* every frame cached by a node that any sequence of insertion attempts (events of a universe with
   distinct identifiers, none carrying an accepted internal transaction = static membership) and
   ProcessSigPool calls can reach has the shape: the identifiers of its root events and events are
   pairwise distinct and non-negative, the rounds non-negative, the validator-set table sorted.
   (roots of different participants are chains of different creators; a root lies strictly below,
   in Lamport time, the first frame event of its participant) *)
Theorem C13_served_frame_shape : forall g all self_ oracle_ ops R f,
  ids_determine all -> no_accept all -> Forall (hop_ok all) ops ->
  zget R (frames (hrun (init_hg self_ g oracle_) ops)) = Some f -> frame_shape f.
Proof. exact (fun g all self_ oracle_ ops R f ID NA => served_frame_shape g all ID NA self_ oracle_ ops R f). Qed.
Print Assumptions C13_served_frame_shape.

(* in particular the frame of GetAnchorBlockWithFrame; the decision procedure the runner evaluates
   on every fast-forward answers true *)
Theorem C13_anchor_frame_shape : forall g all self_ oracle_ ops b f cores s',
  ids_determine all -> no_accept all -> Forall (hop_ok all) ops -> self_ <> -1 ->
  anchor_block_with_frame (hrun (init_hg self_ g oracle_) ops) = (Some (b, f, cores), s') ->
  frame_shape f /\ frame_shapeb f = true.
Proof.
  exact (fun g all self_ oracle_ ops b f cores s' ID NA Ho Hs H =>
    let FS := anchor_frame_shape g all ID NA self_ oracle_ ops b f cores s' Ho Hs H in
    conj FS (frame_shapeb_complete f FS)).
Qed.
Print Assumptions C13_anchor_frame_shape.

(* the reset-state theorems without any hypothesis on the frame: a node in ANY state that
   fast-forwards from the answer of an honest peer *)
Theorem C13_reset_state_served : forall g all ss os ops b f cores s' v v1,
  ids_determine all -> no_accept all -> Forall (hop_ok all) ops -> ss <> -1 ->
  anchor_block_with_frame (hrun (init_hg ss g os) ops) = (Some (b, f, cores), s') ->
  core_fast_forward v b f cores = (true, v1) ->
  blocks v1 = zset (b_index b) b zempty /\ last_block v1 = Z.max (b_index b) (-1) /\
  frames v1 = zset (f_round f) f zempty /\
  peersets v1 = f_peersets f /\ validators v1 = ff_validators f /\
  lower_bound v1 = Some (b_rr b) /\ last_consensus v1 = Some (b_rr b) /\
  undetermined v1 = [] /\ pending v1 = [] /\ anchor v1 = None /\ pending_loaded v1 = 0 /\
  sigpool v1 = sigpool v /\ self_sigs v1 = self_sigs v /\ delivered v1 = delivered v /\ self v1 = self v.
Proof.
  exact (fun g all ss os ops b f cores s' v v1 ID NA Ho Hs H =>
    C13_reset_state v b f cores v1 (anchor_frame_shape g all ID NA ss os ops b f cores s' Ho Hs H)).
Qed.
Print Assumptions C13_reset_state_served.

Theorem C13_reset_dag_served : forall g all ss os ops b f cores s' v v1,
  ids_determine all -> no_accept all -> Forall (hop_ok all) ops -> ss <> -1 ->
  anchor_block_with_frame (hrun (init_hg ss g os) ops) = (Some (b, f, cores), s') ->
  core_fast_forward v b f cores = (true, v1) -> reset_dag f cores v v1.
Proof.
  exact (fun g all ss os ops b f cores s' v v1 ID NA Ho Hs H =>
    C13_reset_dag v b f cores v1 (anchor_frame_shape g all ID NA ss os ops b f cores s' Ho Hs H)).
Qed.
Print Assumptions C13_reset_dag_served.

Theorem C13_reset_validators_served : forall g all ss os ops b f cores s' v v',
  ids_determine all -> no_accept all -> Forall (hop_ok all) ops -> ss <> -1 ->
  anchor_block_with_frame (hrun (init_hg ss g os) ops) = (Some (b, f, cores), s') ->
  node_fast_forward v b f cores = (true, v') ->
  (peersets v', validators v') = replay_step (f_peersets f, ff_validators f) (b_rr b) (b_itxs b).
Proof.
  exact (fun g all ss os ops b f cores s' v v' ID NA Ho Hs H =>
    C13_reset_validators v b f cores v' (anchor_frame_shape g all ID NA ss os ops b f cores s' Ho Hs H)).
Qed.
Print Assumptions C13_reset_validators_served.

(* consecutive indexes from the anchor's index + 1: for ANY victim state, block, frame (no
   hypothesis at all) and any continuation (insertion attempts of arbitrary events, ProcessSigPool).
   [delivered] keeps the callbacks made before the reset (Reset does not touch the list); the k-th
   new one has index max(anchor index, -1) + 1 + k and is stored under that index *)
Theorem C13_after_reset_consecutive : forall v b f cores v' ops,
  node_fast_forward v b f cores = (true, v') ->
  exists news, delivered (hrun v' ops) = delivered v ++ news /\
    last_block (hrun v' ops) = Z.max (b_index b) (-1) + Z.of_nat (length news) /\
    forall k d, nth_error news k = Some d ->
      b_index d = Z.max (b_index b) (-1) + 1 + Z.of_nat k /\
      exists sb, zget (b_index d) (blocks (hrun v' ops)) = Some sb /\ b_index sb = b_index d.
Proof. exact deliveries_after_reset_consecutive. Qed.
Print Assumptions C13_after_reset_consecutive.

(* round-received strictly increases along the new blocks and stays above the anchor's, provided
   the frame has the shape and records no round above the anchor's round-received (both are theorems
   for honest responders, below).  Proved with the queue invariant of C02 for
   roundLowerBound = Some lb (Proofs/ResetOrder.v: rinvR) *)
Theorem C13_after_reset_rr_increasing : forall v b f cores v' ops,
  frame_shape f -> Forall (fun fe => fe_round fe <= b_rr b) (all_frame_events f) -> 0 <= b_rr b ->
  node_fast_forward v b f cores = (true, v') ->
  exists news, delivered (hrun v' ops) = delivered v ++ news /\
    StronglySorted Z.lt (map b_rr news) /\ forall d, In d news -> b_rr b < b_rr d.
Proof. exact (fun v b f cores v' ops FS RB R0 FF => deliveries_after_reset_increasing v b f cores v' FS RB R0 FF ops). Qed.
Print Assumptions C13_after_reset_rr_increasing.

(* the queue invariant itself holds right after the fast-forward and in every later state in which
   no pass has hit a store error *)
Theorem C13_after_reset_queue_invariant : forall v b f cores v' ops,
  frame_shape f -> Forall (fun fe => fe_round fe <= b_rr b) (all_frame_events f) -> 0 <= b_rr b ->
  node_fast_forward v b f cores = (true, v') ->
  failed (hrun v' ops) = false -> rinvR (b_rr b) (last_round v') (delivered v) (hrun v' ops).
Proof.
  exact (fun v b f cores v' ops FS RB R0 FF =>
    proj2 (hrun_rtopR (b_rr b) (last_round v') (delivered v) (proj2 (reset_last_round v b f cores v' FS RB R0 FF)) ops v'
             (rinvR_rtopR _ _ _ v' (reset_rinvR v b f cores v' FS RB R0 FF)))).
Qed.
Print Assumptions C13_after_reset_queue_invariant.

(* honest responder (static membership), any victim, any continuation: C02's "0, or the block after
   a fast-sync anchor" as a theorem *)
Theorem C13_after_reset_served : forall g all ss os ops b f cores s' v v' ops',
  ids_determine all -> no_accept all -> Forall (hop_ok all) ops -> ss <> -1 ->
  anchor_block_with_frame (hrun (init_hg ss g os) ops) = (Some (b, f, cores), s') ->
  node_fast_forward v b f cores = (true, v') ->
  exists news, delivered (hrun v' ops') = delivered v ++ news /\
    (forall k d, nth_error news k = Some d -> b_index d = b_index b + 1 + Z.of_nat k) /\
    StronglySorted Z.lt (map b_rr news) /\ (forall d, In d news -> b_rr b < b_rr d).
Proof. exact after_reset_served. Qed.
Print Assumptions C13_after_reset_served.

(* the theorem above is not vacuous: on a history of real node.core objects
   (corpus/C13-after-reset-example.trace, 4 validators, 25 events; Proofs/ResetWitnessDeliv.v) its
   premises hold for the serving node 2 ([rd_server] = hrun (init_hg 2 ...) rd_server_ops), node 3
   ([rd_v0], nothing delivered yet) fast-forwards to the anchor block (index 0, round received 1),
   and the operations it performs afterwards deliver two more blocks: indexes 1, 2, rounds
   received 2, 3 *)
Theorem C13_after_reset_served_nonvacuous :
  (ids_determine rd_all /\ no_accept rd_all /\ Forall (hop_ok rd_all) rd_server_ops /\ rd_server_self <> -1) /\
  exists b f cores s' v',
    anchor_block_with_frame rd_server = (Some (b, f, cores), s') /\
    node_fast_forward rd_v0 b f cores = (true, v') /\
    b_index b = 0 /\ b_rr b = 1 /\
    map (fun d => (b_index d, b_rr d)) (delivered v') = [] /\
    map (fun d => (b_index d, b_rr d)) (delivered (hrun v' rd_victim_ops_after)) = [(1, 2); (2, 3)].
Proof. exact (conj rd_premises rd_example). Qed.
Print Assumptions C13_after_reset_served_nonvacuous.

(* InsertFrameEvent checks nothing (no signature check, parents may be absent, a creator's
   RollingIndex starts at the index of its first root event), so the frame's own events are exempt.
   Premises: the frame has the shape; the bodies shipped with it have non-negative indexes and
   belong to the universe [all] the later insertion attempts are drawn from, in which identifiers
   determine bodies ([cores_ok]; a theorem for honest responders, below).  Then every event x stored
   later that is not one of the frame's events: comes from an attempt, is stored under its own
   identifier, is signed, its self-parent is a stored event of the same creator with index + 1 (or
   it is a first event, index 0), its other-parent is stored, and it is listed in its creator's
   index at position (index - first index of the window) *)
Theorem C13_after_reset_admission : forall v b f cores v' all ops,
  frame_shape f -> cores_ok all cores f -> ids_determine all -> Forall (hop_ok all) ops ->
  node_fast_forward v b f cores = (true, v') ->
  forall x es, get_event (hrun v' ops) x = Some es -> ~ In x (map fe_id (all_frame_events f)) ->
    In (ev_e es) all /\ e_id (ev_e es) = x /\ e_sigok (ev_e es) = true /\
    ((e_sp (ev_e es) = -1 /\ e_index (ev_e es) = 0) \/
     exists ps, get_event (hrun v' ops) (e_sp (ev_e es)) = Some ps /\ e_creator (ev_e ps) = e_creator (ev_e es) /\
                e_index (ev_e es) = e_index (ev_e ps) + 1) /\
    (e_op (ev_e es) = -1 \/ exists po, get_event (hrun v' ops) (e_op (ev_e es)) = Some po) /\
    exists p, zget (e_creator (ev_e es)) (pevents (hrun v' ops)) = Some p /\ 0 <= firstix p <= e_index (ev_e es) /\
              nth_error (pi_items p) (Z.to_nat (e_index (ev_e es) - firstix p)) = Some x.
Proof. exact admitted_after_reset_event. Qed.
Print Assumptions C13_after_reset_admission.

(* the per-creator windows (frame events included): every listed item is a stored event of that
   creator whose index is the window's first index + its position ("indexes = heights relative to
   the frame's roots"); and the windows the reset built are only ever extended at the end, their
   first index does not move *)
Theorem C13_after_reset_index_windows : forall v b f cores v' all ops,
  frame_shape f -> cores_ok all cores f -> ids_determine all -> Forall (hop_ok all) ops ->
  node_fast_forward v b f cores = (true, v') ->
  (forall c p, zget c (pevents (hrun v' ops)) = Some p ->
     (pi_items p = [] -> pi_last p = -1) /\ 0 <= firstix p /\
     forall i x, nth_error (pi_items p) i = Some x ->
       exists es, get_event (hrun v' ops) x = Some es /\ e_creator (ev_e es) = c /\
                  e_index (ev_e es) = firstix p + Z.of_nat i) /\
  (forall c p0, zget c (pevents v') = Some p0 ->
     exists p more, zget c (pevents (hrun v' ops)) = Some p /\ pi_items p = pi_items p0 ++ more /\
                    (pi_items p0 <> [] -> firstix p = firstix p0)).
Proof. exact admitted_after_reset_windows. Qed.
Print Assumptions C13_after_reset_index_windows.

(* no fork among the events admitted after the reset *)
Theorem C13_after_reset_no_fork : forall v b f cores v' all ops,
  frame_shape f -> cores_ok all cores f -> ids_determine all -> Forall (hop_ok all) ops ->
  node_fast_forward v b f cores = (true, v') ->
  forall x y ex ey, get_event (hrun v' ops) x = Some ex -> get_event (hrun v' ops) y = Some ey ->
    ~ In x (map fe_id (all_frame_events f)) -> ~ In y (map fe_id (all_frame_events f)) ->
    e_creator (ev_e ex) = e_creator (ev_e ey) -> e_index (ev_e ex) = e_index (ev_e ey) -> x = y.
Proof. exact admitted_after_reset_no_fork. Qed.
Print Assumptions C13_after_reset_no_fork.

(* honest responder (static membership): [frame_shape] and [cores_ok] are theorems; the admission
   invariant relative to an exempt set (Proofs/ResetDag.v: dag_okR, exempt set = the frame's events) holds in every
   state the reset node reaches, all its events come from attempts, its windows only grow *)
Theorem C13_after_reset_admission_served : forall g all ss os ops b f cores s' v v' ops',
  ids_determine all -> no_accept all -> Forall (hop_ok all) ops -> ss <> -1 ->
  anchor_block_with_frame (hrun (init_hg ss g os) ops) = (Some (b, f, cores), s') ->
  node_fast_forward v b f cores = (true, v') -> Forall (hop_ok all) ops' ->
  dag_okR (frame_ids f) (hrun v' ops') /\ from_attempts (hrun v' ops') all /\ grows v' (hrun v' ops').
Proof. exact admitted_after_reset_served. Qed.
Print Assumptions C13_after_reset_admission_served.

(* not vacuous: on corpus/C13-after-reset-example.trace the reset node's later operations are drawn
   from the same universe and event 24 (created by the reset node after the reset) is stored at the
   end and is not one of the frame's events *)
Theorem C13_after_reset_admission_nonvacuous :
  Forall (hop_ok rd_all) rd_victim_ops_after /\
  exists b f cores s' v' es,
    anchor_block_with_frame rd_server = (Some (b, f, cores), s') /\
    node_fast_forward rd_v0 b f cores = (true, v') /\
    get_event (hrun v' rd_victim_ops_after) 24 = Some es /\ ~ In 24 (map fe_id (all_frame_events f)).
Proof. exact (conj rd_victim_ops_ok rd_admitted_example). Qed.
Print Assumptions C13_after_reset_admission_nonvacuous.

(* [frame_shapeb] (kind RS) and [after_reset_premisesb] (kind RP: anchor's round-received >= 0, no
   recorded round above it, non-negative indexes of the shipped bodies) are computed by the runner on
   the block / frame / bodies every reset node actually received, dynamic membership included.  Under
   them: C02 for the new deliveries, and C07 for the later admissions for every universe [all] that
   contains the shipped bodies *)
Theorem C13_after_reset_checked : forall v b f cores v' ops,
  frame_shapeb f = true -> after_reset_premisesb b f cores = true ->
  node_fast_forward v b f cores = (true, v') ->
  (exists news, delivered (hrun v' ops) = delivered v ++ news /\
     (forall k d, nth_error news k = Some d -> b_index d = Z.max (b_index b) (-1) + 1 + Z.of_nat k) /\
     StronglySorted Z.lt (map b_rr news) /\ (forall d, In d news -> b_rr b < b_rr d)) /\
  (forall all, (forall fe e, In fe (all_frame_events f) -> core_of cores (fe_id fe) = Some e -> In e all) ->
     ids_determine all -> Forall (hop_ok all) ops ->
     dag_okR (frame_ids f) (hrun v' ops) /\ from_attempts (hrun v' ops) all /\ grows v' (hrun v' ops)).
Proof. exact after_reset_checked. Qed.
Print Assumptions C13_after_reset_checked.

(* y: an event stored in both nodes with the same body, not yet divided, whose parents have the same
   memoised rounds on both; pr: the parent round.  If the peer set of pr is the same and the roots
   are sufficient for y, _round(y) returns the same value on the reset node v and the full node s *)
Theorem C13_continuity_round_partial : forall fv fs v s y ev es spr opr,
  zget y (round_memo v) = None -> zget y (round_memo s) = None ->
  get_event v y = Some ev -> get_event s y = Some es -> ev_e ev = ev_e es ->
  parent_round v (e_sp (ev_e ev)) = Some spr -> parent_round s (e_sp (ev_e es)) = Some spr ->
  parent_round v (e_op (ev_e ev)) = Some opr -> parent_round s (e_op (ev_e es)) = Some opr ->
  get_peerset v (if spr <? opr then opr else spr) = get_peerset s (if spr <? opr then opr else spr) ->
  (forall pps, get_peerset s (if spr <? opr then opr else spr) = Some pps ->
               roots_sufficient v s y (if spr <? opr then opr else spr) pps) ->
  fst (round_f (S fv) v y) = fst (round_f (S fs) s y).
Proof. exact round_f_agree. Qed.
Print Assumptions C13_continuity_round_partial.

(* the same at the level of DivideRounds ("ev.round == nil" block: _round, SetRound on the event,
   _witness, AddCreatedEvent): with the same validator-set table and sufficient roots, the reset
   node and the full node record for y the same memoised round and witness flag, the same round
   field and the same RoundInfo entry ([divided]); both fail when _round / _witness fail *)
Theorem C13_continuity_divide_partial : forall v s y ev es spr opr,
  0 <= y ->
  zget y (round_memo v) = None -> zget y (round_memo s) = None ->
  zget y (witness_memo v) = None -> zget y (witness_memo s) = None ->
  get_event v y = Some ev -> get_event s y = Some es -> ev_e ev = ev_e es ->
  ev_round ev = None -> ev_round es = None ->
  parent_round v (e_sp (ev_e ev)) = Some spr -> parent_round s (e_sp (ev_e es)) = Some spr ->
  parent_round v (e_op (ev_e ev)) = Some opr -> parent_round s (e_op (ev_e es)) = Some opr ->
  e_sp (ev_e ev) <> y ->
  (forall r ri, get_round v r = Some ri -> aget y (ri_created ri) = None) ->
  (forall r ri, get_round s r = Some ri -> aget y (ri_created ri) = None) ->
  (forall r, get_peerset v r = get_peerset s r) ->
  (forall pps, get_peerset s (if spr <? opr then opr else spr) = Some pps ->
               roots_sufficient v s y (if spr <? opr then opr else spr) pps) ->
  divided (divide_round v y) y = divided (divide_round s y) y.
Proof. exact divide_round_agree. Qed.
Print Assumptions C13_continuity_divide_partial.

(* the coordinate part of roots_sufficient, from the coordinates themselves: strongly-see only
   compares, validator by validator of the peer set, the index of y's last ancestor with the index
   of w's first descendant *)
Theorem C13_strongly_see_reads_indexes : forall v s y w pps yv ys wv ws,
  get_event v y = Some yv -> get_event s y = Some ys -> get_event v w = Some wv -> get_event s w = Some ws ->
  (forall p, In p (keys pps) -> ss_test (ev_la yv) (ev_fd wv) p = ss_test (ev_la ys) (ev_fd ws) p) ->
  strongly_see v y w pps = strongly_see s y w pps.
Proof. exact strongly_see_agree. Qed.
Print Assumptions C13_strongly_see_reads_indexes.

(* same round, same self-parent round, same peer set at that round: same witness flag *)
Theorem C13_continuity_witness_partial : forall fv fs v s y ev es xr spr,
  zget y (witness_memo v) = None -> zget y (witness_memo s) = None ->
  get_event v y = Some ev -> get_event s y = Some es -> ev_e ev = ev_e es ->
  zget y (round_memo v) = Some xr -> zget y (round_memo s) = Some xr ->
  parent_round v (e_sp (ev_e ev)) = Some spr -> parent_round s (e_sp (ev_e es)) = Some spr ->
  get_peerset v xr = get_peerset s xr ->
  fst (witness_f fv v y) = fst (witness_f fs s y).
Proof. exact witness_f_agree. Qed.
Print Assumptions C13_continuity_witness_partial.

(* same parents' timestamps (the other-parent stored in both nodes): same Lamport timestamp *)
Theorem C13_continuity_lamport_partial : forall fv fs v s y ev es plt opt,
  zget y (lt_memo v) = None -> zget y (lt_memo s) = None ->
  get_event v y = Some ev -> get_event s y = Some es -> ev_e ev = ev_e es ->
  ResetRound.parent_lt v (e_sp (ev_e ev)) = Some plt -> ResetRound.parent_lt s (e_sp (ev_e es)) = Some plt ->
  (e_op (ev_e ev) = -1 \/
   (get_event v (e_op (ev_e ev)) <> None /\ get_event s (e_op (ev_e ev)) <> None /\
    zget (e_op (ev_e ev)) (lt_memo v) = Some opt /\ zget (e_op (ev_e ev)) (lt_memo s) = Some opt)) ->
  fst (lamport_f (S fv) v y) = fst (lamport_f (S fs) s y).
Proof. exact lamport_f_agree. Qed.
Print Assumptions C13_continuity_lamport_partial.

(* for all histories of a serving node, a fast-forwarding node (before and after its reset) and a
   full-history node, made of validly signed events with distinct identifiers: an event has the same
   round on the reset node and on the full-history node.  REFUTED. *)
Theorem C13_roots_insufficient_refuted : ~ C13_continuity_round_statement.
Proof. exact continuity_round_refuted. Qed.
Print Assumptions C13_roots_insufficient_refuted.

(* ... and on that witness it is roots_sufficient that fails: the full-history node's event strongly
   sees a parent-round witness that is not in the reset node's store *)
Theorem C13_refutation_is_roots_insufficient :
  exists v1 pps,
    reset_from (hrun (init_hg rw_victim_self rw_genesis rw_victim_oracle) rw_victim_ops_before)
               (hrun (init_hg rw_server_self rw_genesis rw_server_oracle) rw_server_ops) = Some v1 /\
    get_peerset (hrun (init_hg rw_full_self rw_genesis rw_full_oracle) rw_full_ops) rw_parent_round = Some pps /\
    ~ roots_sufficient (hrun v1 rw_victim_ops_after) (hrun (init_hg rw_full_self rw_genesis rw_full_oracle) rw_full_ops)
        rw_event rw_parent_round pps.
Proof. exact roots_insufficient_witness. Qed.
Print Assumptions C13_refutation_is_roots_insufficient.

(* NOT PROVED (a Definition, asserted nowhere).  Every block the reset node delivers after its reset is the block with the same index that the
   full-history node delivered (payload view: round-received, transactions, internal transactions,
   frame), provided every event the reset node inserted after the reset had sufficient roots.
   Missing for a proof: the order invariants (Proofs/RoundOrder, OrderProofs) re-established from a
   reset state, where lower_bound = Some _ and ancestors below the roots are absent. *)
Definition C13_continuity_statement : Prop :=
  forall genesis all ss os ops_s sv ov ops_v ops_v' sf of ops_f v1 d,
    ids_determine all -> (forall e, In e all -> e_sigok e = true) ->
    Forall (hop_ok all) ops_s -> Forall (hop_ok all) ops_v -> Forall (hop_ok all) ops_v' -> Forall (hop_ok all) ops_f ->
    reset_from (hrun (init_hg sv genesis ov) ops_v) (hrun (init_hg ss genesis os) ops_s) = Some v1 ->
    (forall y ey, get_event (hrun v1 ops_v') y = Some ey -> get_event v1 y = None ->
       forall pr pps, get_peerset (hrun (init_hg sf genesis of) ops_f) pr = Some pps ->
         roots_sufficient (hrun v1 ops_v') (hrun (init_hg sf genesis of) ops_f) y pr pps) ->
    In d (delivered (hrun v1 ops_v')) -> ~ In d (delivered v1) ->
    exists d', In d' (delivered (hrun (init_hg sf genesis of) ops_f)) /\ b_index d' = b_index d /\ pv d' = pv d.

(* the fast-forward of the witness history: honest frame, frame_shape holds, the reset succeeds *)
Example C13_reset_hypotheses_satisfiable :
  match anchor_block_with_frame (hrun (init_hg rw_server_self rw_genesis rw_server_oracle) rw_server_ops) with
  | (Some (b, f, cores), _) =>
    frame_shapeb f = true /\
    fst (node_fast_forward (hrun (init_hg rw_victim_self rw_genesis rw_victim_oracle) rw_victim_ops_before) b f cores) = true /\
    (length (root_events f) = 18 /\ length (f_events f) = 7)%nat
  | _ => False
  end.
Proof.
  destruct (ff_observe_elim _ _ _ rw_facts) as (b & f & cores & s' & v1 & A & N & Sh & L & _).
  rewrite A, N. exact (conj Sh (conj eq_refl L)).
Qed.

(* the hypotheses of C13_continuity_round_partial, roots_sufficient included, hold on a real history
   (corpus/C13-continuity-example.trace, 4 validators, 17 events: node 3 fast-forwards from node 1
   and then receives event 4, whose parents are root events of round 0): on both nodes the event
   strongly sees the three round-0 witnesses and gets round 1 *)
Example C13_continuity_hypotheses_satisfiable :
  is_some ro_v1 = true /\
  zget 4 (round_memo ro_v) = None /\ zget 4 (round_memo ro_s) = None /\
  (exists ev es, get_event ro_v 4 = Some ev /\ get_event ro_s 4 = Some es /\ ev_e ev = ev_e es /\
     parent_round ro_v (e_sp (ev_e ev)) = Some 0 /\ parent_round ro_s (e_sp (ev_e es)) = Some 0 /\
     parent_round ro_v (e_op (ev_e ev)) = Some 0 /\ parent_round ro_s (e_op (ev_e es)) = Some 0) /\
  get_peerset ro_v 0 = get_peerset ro_s 0 /\
  (forall pps, get_peerset ro_s 0 = Some pps -> roots_sufficient ro_v ro_s 4 0 pps) /\
  round_witnesses_at ro_v 0 = [0; 1; 2] /\
  fst (round_f 1 ro_v 4) = Some 1 /\ fst (round_f 1 ro_s 4) = Some 1.
Proof.
  destruct ro_facts as (V1 & Mv & Ms & Ev & Es & SPv & SPs & OPv & OPs & Pv & Ps & R & W & Fv & Fs).
  destruct (option_map_Some _ _ _ Ev) as (ev & Gv & Ev'). destruct (option_map_Some _ _ _ Es) as (es & Gs & Es').
  rewrite <- Ev' in SPv, OPv. rewrite <- Es' in SPs, OPs, Ev'.
  split; [exact V1|]. split; [exact Mv|]. split; [exact Ms|].
  split; [exists ev, es; exact (conj Gv (conj Gs (conj Ev' (conj SPv (conj SPs (conj OPv OPs))))))|].
  split; [exact (eq_trans Pv (eq_sym Ps))|].
  split; [intros pps H; injection (eq_trans (eq_sym Ps) H) as <-; exact (roots_sufficientb_sound _ _ _ _ _ R)|].
  split; [exact W|]. split; [exact Fv|exact Fs].
Qed.
