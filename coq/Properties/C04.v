(* C04 Committed order extends causality; events are committed whole and once.
   Statements only.  Model: HgImpl.  A node's life is a list of operations [hop] (insertion
   attempts of arbitrary events, valid or not, in any order, interleaved with ProcessSigPool
   calls) from any genesis set.  Hypotheses on the attempted events: identifiers (hashes)
   determine events ([ids_determine], SHA-256 collision freedom) and are numbered from 0.
   [frames] is the frame cache (Store.GetFrame), [delivered] the commit callbacks, [rcv st r] the
   received list of round r (RoundInfo.ReceivedEvents), [ev_lt]/[ev_rr] the lamportTimestamp and
   roundReceived fields of a stored event, [lt_memo] the timestamp cache used by frames.
   The theorems about one state's tables (C04_invariant .. C04_block_respects_ancestry) need no more;
   those that relate round-received to ancestry carry [no_accept] (static membership) or, in their
   `_dynamic` form, the distance bound [gap_runb] and failed = false. *)
From Coq Require Import ZArith List Bool Sorted Permutation.
From V Require Import Model.ZMap Model.Quorum Model.HgImpl Proofs.AdmissionProofs Proofs.BlockInv
  Proofs.OrderSort Proofs.OrderFrames Proofs.OrderProofs Proofs.Static Proofs.Agreement Proofs.RoundReceived
  Proofs.Committed Proofs.CausalityWitness Model.Window Proofs.GapWindow Proofs.CommittedD
  Proofs.BlockAgree Proofs.BlockAgreeD Proofs.OrderAgreeD.
From V Require Import Proofs.RoundReceivedD.
Import ListNotations.
Open Scope Z_scope.

Definition reach (all : list event) (st : hg) : Prop :=
  exists self_ genesis oracle_ ops,
    ids_determine all /\ Forall (hop_ok all) ops /\ st = hrun (init_hg self_ genesis oracle_) ops.

(* the global invariant (DAG well-formedness, timestamp tables, received lists, frames, delivered
   blocks) holds in every reachable state *)
Theorem C04_invariant : forall all st, reach all st -> ginv all st.
Proof.
  exact (fun all st R =>
    match R with ex_intro _ s (ex_intro _ g (ex_intro _ o (ex_intro _ ops (conj ID (conj H E))))) =>
      eq_ind_r (ginv all) (hrun_ginv all s g o ops ID H) E end).
Qed.
Print Assumptions C04_invariant.

(* Lamport timestamps: an event's timestamp is 1 + the maximum of its parents' timestamps (-1 for
   an absent parent); in particular every parent in the DAG carries a strictly smaller one *)
Theorem C04_lamport_strict : forall all st x ex t,
  reach all st -> get_event st x = Some ex -> ev_lt ex = Some t ->
  exists a b, parent_ts st (e_sp (ev_e ex)) = Some a /\ parent_ts st (e_op (ev_e ex)) = Some b /\
              -1 <= a /\ -1 <= b /\ t = 1 + Z.max a b.
Proof. exact (fun all st x ex t R => lamport_strict all st x ex t (C04_invariant all st R)). Qed.
Print Assumptions C04_lamport_strict.

Theorem C04_lamport_parent : forall all st x ex t p,
  reach all st -> get_event st x = Some ex -> ev_lt ex = Some t ->
  (p = e_sp (ev_e ex) \/ p = e_op (ev_e ex)) -> p <> -1 ->
  exists ep tp, get_event st p = Some ep /\ ev_lt ep = Some tp /\ tp < t.
Proof. exact (fun all st x ex t p R => lamport_parent_lt all st x ex t p (C04_invariant all st R)). Qed.
Print Assumptions C04_lamport_parent.

(* every ancestor (chain of parents through stored events) has a strictly smaller timestamp *)
Theorem C04_lamport_ancestor : forall all st a b eb tb,
  reach all st -> anc st a b -> get_event st b = Some eb -> ev_lt eb = Some tb ->
  exists ta, zget a (lt_memo st) = Some ta /\ ta < tb.
Proof. exact (fun all st a b eb tb R => lamport_ancestor_lt all st a b eb tb (C04_invariant all st R)). Qed.
Print Assumptions C04_lamport_ancestor.

(* SortedFrameEvents: the model's sort returns the permutation of its input that is sorted by
   (Lamport timestamp, signature rank); when these pairs are pairwise distinct it is the only such
   permutation, so Go's unstable sort.Sort yields the same list *)
Theorem C04_sort_spec : forall st l,
  Permutation (fe_sort st l) l /\ StronglySorted (fe_le st) (fe_sort st l) /\
  (NoDup (map (fe_key st) l) ->
   forall l', Permutation l' l -> StronglySorted (fe_le st) l' -> l' = fe_sort st l).
Proof.
  exact (fun st l => conj (fe_sort_perm st l) (conj (fe_sort_sorted st l)
           (fun N l' P S => fe_sort_unique st l l' N P S))).
Qed.
Print Assumptions C04_sort_spec.

(* in a cached frame an event never precedes one of its ancestors *)
Theorem C04_frame_respects_ancestry : forall all st rr f i j a b,
  reach all st -> zget rr (frames st) = Some f ->
  nth_error (f_events f) i = Some a -> nth_error (f_events f) j = Some b ->
  anc st (fe_id a) (fe_id b) -> (i < j)%nat.
Proof. exact (fun all st rr f i j a b R => frame_respects_ancestry all st rr f i j a b (C04_invariant all st R)). Qed.
Print Assumptions C04_frame_respects_ancestry.

(* every cached frame of a reachable state is sorted by the full key; with pairwise distinct keys
   it is the only sorted arrangement of its events *)
Theorem C04_frame_sorted : forall all st rr f,
  reach all st -> zget rr (frames st) = Some f ->
  StronglySorted (fe_le st) (f_events f) /\
  (NoDup (map (fe_key st) (f_events f)) ->
   forall l', Permutation l' (f_events f) -> StronglySorted (fe_le st) l' -> l' = f_events f).
Proof. exact (fun all st rr f R => frame_sorted all st rr f (C04_invariant all st R)). Qed.
Print Assumptions C04_frame_sorted.

(* a block built from a frame carries the frame events' transactions, concatenated in frame order *)
Theorem C04_block_payload : forall index f st,
  b_txs (block_of_frame index f st) = flat_map (txs_of st) (f_events f) /\
  b_itxs (block_of_frame index f st) = flat_map (itxs_of st) (f_events f) /\
  b_rr (block_of_frame index f st) = f_round f.
Proof. exact (fun index f st => conj eq_refl (conj eq_refl eq_refl)). Qed.
Print Assumptions C04_block_payload.

(* every delivered block is the block of the cached frame of its round-received: exactly the
   payload of the events of one round-received *)
Theorem C04_delivered_payload : forall all st d,
  reach all st -> In d (delivered st) ->
  zget (b_rr d) (frames st) = Some (b_frame d) /\
  b_txs d = flat_map (txs_of st) (f_events (b_frame d)) /\
  b_itxs d = flat_map (itxs_of st) (f_events (b_frame d)).
Proof. exact (fun all st d R => delivered_block_payload all st d (C04_invariant all st R)). Qed.
Print Assumptions C04_delivered_payload.

(* an event's transactions are contiguous in the block and in the creator's order *)
Theorem C04_event_contiguous : forall all st d l1 fe l2,
  reach all st -> In d (delivered st) -> f_events (b_frame d) = l1 ++ fe :: l2 ->
  b_txs d = flat_map (txs_of st) l1 ++ txs_of st fe ++ flat_map (txs_of st) l2.
Proof. exact (fun all st d l1 fe l2 R => delivered_event_segment all st d l1 fe l2 (C04_invariant all st R)). Qed.
Print Assumptions C04_event_contiguous.

(* the events of a frame were received in that round and carry the frame's timestamps *)
Theorem C04_frame_events : forall all st rr f fe,
  reach all st -> zget rr (frames st) = Some f -> In fe (f_events f) ->
  f_round f = rr /\ zget (fe_id fe) (lt_memo st) = Some (fe_lt fe) /\
  exists ex, get_event st (fe_id fe) = Some ex /\ ev_rr ex = Some rr /\
             (failed st = false -> ev_lt ex = Some (fe_lt fe)).
Proof. exact (fun all st rr f fe R => frame_events_received all st rr f fe (C04_invariant all st R)). Qed.
Print Assumptions C04_frame_events.

(* round-received is assigned once: whatever the continuation, the value stays *)
Theorem C04_rr_once : forall all self_ genesis oracle_ ops ops' x ex r,
  ids_determine all -> Forall (hop_ok all) (ops ++ ops') ->
  get_event (hrun (init_hg self_ genesis oracle_) ops) x = Some ex -> ev_rr ex = Some r ->
  exists ex', get_event (hrun (init_hg self_ genesis oracle_) (ops ++ ops')) x = Some ex' /\ ev_rr ex' = Some r.
Proof.
  exact (fun all s g o ops ops' x ex r ID H Hx Hr =>
    eq_ind_r (fun st => exists ex', get_event st x = Some ex' /\ ev_rr ex' = Some r)
      (rr_stable all _ ops' x ex r ID (proj2 (proj1 (Forall_app _ _ _) H))
         (hrun_ginv all s g o ops ID (proj1 (proj1 (Forall_app _ _ _) H))) Hx Hr)
      (hrun_app _ ops ops')).
Qed.
Print Assumptions C04_rr_once.

(* an event is listed in the received list of exactly its round-received, once *)
Theorem C04_received_lists : forall all st,
  reach all st ->
  (forall r x, In x (rcv st r) <-> exists ex, get_event st x = Some ex /\ ev_rr ex = Some r) /\
  (forall r, NoDup (rcv st r)) /\
  (forall r r' x, In x (rcv st r) -> In x (rcv st r') -> r = r').
Proof.
  exact (fun all st R => let G := C04_invariant all st R in
    conj (fun r x => received_iff all st r x G)
      (conj (fun r => received_nodup all st r G) (fun r r' x => received_one_round all st r r' x G))).
Qed.
Print Assumptions C04_received_lists.

(* hence it appears in the frame of at most one round, once *)
Theorem C04_frames_disjoint : forall all st rr rr' f f' x,
  reach all st -> zget rr (frames st) = Some f -> zget rr' (frames st) = Some f' ->
  In x (map fe_id (f_events f)) -> In x (map fe_id (f_events f')) ->
  rr = rr' /\ NoDup (map fe_id (f_events f)).
Proof.
  exact (fun all st rr rr' f f' x R H H' Hx Hx' => let G := C04_invariant all st R in
    conj (frame_one_round all st rr rr' f f' x G H H' Hx Hx') (frame_nodup all st rr f G H)).
Qed.
Print Assumptions C04_frames_disjoint.

(* every event is committed at most once: the k-th and k'-th commit callbacks share an event only
   if k = k', and no event occurs twice in the frame of a delivered block *)
Theorem C04_committed_once : forall all self_ genesis oracle_ ops k k' d d' x,
  ids_determine all -> Forall (hop_ok all) ops ->
  let st := hrun (init_hg self_ genesis oracle_) ops in
  nth_error (delivered st) k = Some d -> nth_error (delivered st) k' = Some d' ->
  In x (map fe_id (f_events (b_frame d))) -> In x (map fe_id (f_events (b_frame d'))) ->
  k = k' /\ NoDup (map fe_id (f_events (b_frame d))).
Proof. exact committed_once. Qed.
Print Assumptions C04_committed_once.

(* inside a delivered block an ancestor is committed before its descendant *)
Theorem C04_block_respects_ancestry : forall all st d i j a b,
  reach all st -> In d (delivered st) ->
  nth_error (f_events (b_frame d)) i = Some a -> nth_error (f_events (b_frame d)) j = Some b ->
  anc st (fe_id a) (fe_id b) -> (i < j)%nat.
Proof. exact (fun all st d i j a b R => delivered_block_respects_ancestry all st d i j a b (C04_invariant all st R)). Qed.
Print Assumptions C04_block_respects_ancestry.

(* round-received is monotone along ancestry: PROVED for static membership (no attempted event carries an
   accepted internal transaction), by the famous-witness argument: an event seen by all famous
   witnesses of round i has all its ancestors seen by them too, and the first such round is what
   round-received means (Proofs/RoundReceivedD.v: rr_spec_run) *)
Theorem C04_rr_monotone_static : forall genesis all self_ oracle_ ops a b ea eb ra rb,
  ids_determine all -> no_accept all -> Forall (hop_ok all) ops ->
  let st := hrun (init_hg self_ genesis oracle_) ops in
  anc st a b -> get_event st a = Some ea -> get_event st b = Some eb ->
  ev_rr ea = Some ra -> ev_rr eb = Some rb -> ra <= rb.
Proof. exact rr_monotone_oanc_hrun. Qed.
Print Assumptions C04_rr_monotone_static.

(* NOT PROVED for every reachable state (a Definition, asserted nowhere): round-received is monotone
   along ancestry with no premise on membership.  It is proved with [no_accept] (C04_rr_monotone_static
   above) and, without it, for runs that respect the distance bound (C04_rr_monotone_dynamic below).
   The oracle of the check (orderOracle) tests on every history that no event is committed before a
   parent. *)
Definition C04_rr_monotone_statement : Prop :=
  forall all st a b ea eb ra rb,
    reach all st -> anc st a b -> get_event st a = Some ea -> get_event st b = Some eb ->
    ev_rr ea = Some ra -> ev_rr eb = Some rb -> ra <= rb.

(* THE COMMITTED ORDER EXTENDS CAUSALITY (static membership).  A block is delivered only for a frame
   that carries at least one transaction or internal transaction (Hashgraph.ProcessDecidedRounds /
   process_frame), so the property is about ancestors WITH A PAYLOAD: if b is in the k-th delivered
   block and a is a proper ancestor of b carrying a transaction, then a is in a delivered block too,
   an earlier one, or the same one at an earlier position.  (The transactions of a are then
   delivered before those of b: C04_event_contiguous, C04_delivered_payload.) *)
Theorem C04_order_extends_causality : forall genesis all self_ oracle_ ops k d j b a ea,
  ids_determine all -> no_accept all -> Forall (hop_ok all) ops ->
  let st := hrun (init_hg self_ genesis oracle_) ops in
  nth_error (delivered st) k = Some d -> nth_error (f_events (b_frame d)) j = Some b ->
  anc st a (fe_id b) -> get_event st a = Some ea ->
  (e_txs (ev_e ea) <> [] \/ e_itxs (ev_e ea) <> []) ->
  exists k' d' i fa, nth_error (delivered st) k' = Some d' /\
    nth_error (f_events (b_frame d')) i = Some fa /\ fe_id fa = a /\
    ((k' < k)%nat \/ (k' = k /\ (i < j)%nat)).
Proof. exact order_extends_causality_static. Qed.
Print Assumptions C04_order_extends_causality.

(* the same for the frame cache (Store.GetFrame), for every ancestor, payload or not: an ancestor of
   an event of the cached frame of round R is in the cached frame of a round R' <= R *)
Theorem C04_frames_extend_causality : forall genesis all self_ oracle_ ops R f b a,
  ids_determine all -> no_accept all -> Forall (hop_ok all) ops ->
  let st := hrun (init_hg self_ genesis oracle_) ops in
  zget R (frames st) = Some f -> In b (f_events f) -> anc st a (fe_id b) ->
  exists R' f' fa, zget R' (frames st) = Some f' /\ In fa (f_events f') /\ fe_id fa = a /\ R' <= R.
Proof. exact frames_extend_causality_static. Qed.
Print Assumptions C04_frames_extend_causality.

(* an ancestor of an event received in a PROCESSED round (at or below the last consensus round) is
   received, and not later *)
Theorem C04_committed_ancestor : forall genesis all self_ oracle_ ops a b eb R,
  ids_determine all -> no_accept all -> Forall (hop_ok all) ops ->
  let st := hrun (init_hg self_ genesis oracle_) ops in
  anc st a b -> get_event st b = Some eb -> ev_rr eb = Some R ->
  (exists l, last_consensus st = Some l /\ R <= l) ->
  exists ea R', get_event st a = Some ea /\ ev_rr ea = Some R' /\ R' <= R.
Proof. exact committed_ancestor_o. Qed.
Print Assumptions C04_committed_ancestor.

(* every event received in a processed round is in the cached frame of that round, and, if it
   carries a payload, in the frame of a delivered block of that round: the received set of a
   processed round is complete and final *)
Theorem C04_processed_rounds_complete : forall genesis all self_ oracle_ ops x ex R,
  ids_determine all -> no_accept all -> Forall (hop_ok all) ops ->
  let st := hrun (init_hg self_ genesis oracle_) ops in
  get_event st x = Some ex -> ev_rr ex = Some R -> (exists l, last_consensus st = Some l /\ R <= l) ->
  exists f, zget R (frames st) = Some f /\ In x (map fe_id (f_events f)) /\
    ((e_txs (ev_e ex) <> [] \/ e_itxs (ev_e ex) <> []) ->
     exists d, In d (delivered st) /\ b_rr d = R /\ b_frame d = f).
Proof. exact (fun g all s o ops x ex R ID NA H => pi_db _ (hrun_pinv g all ID NA s o ops H) x ex R). Qed.
Print Assumptions C04_processed_rounds_complete.

(* THE SAME UNDER DYNAMIC MEMBERSHIP (no [no_accept]: join / leave requests accepted or refused at will), for every node
   that respects the distance bound [gap_runb] (Proofs/GapWindow.v) and has not failed; code after fix 05eda0b.
   Proofs/FirstDescD .. Proofs/CommittedD: the division invariant, the voting loop, the sticky flags, round-received and
   the processed rounds with the validator set of each round read from the node's own final table. *)
Theorem C04_rr_monotone_dynamic : forall genesis all self_ oracle_ ops a b ea eb ra rb,
  self_ <> -1 -> ids_determine all -> Forall (hop_ok all) ops ->
  gap_runb (init_hg self_ genesis oracle_) ops = true ->
  let st := hrun (init_hg self_ genesis oracle_) ops in
  failed st = false ->
  anc st a b -> get_event st a = Some ea -> get_event st b = Some eb ->
  ev_rr ea = Some ra -> ev_rr eb = Some rb -> ra <= rb.
Proof.
  exact (fun g all s o ops a b ea eb ra rb Hs ID H B F Hanc =>
    rr_monotone_gap s g o all ops Hs ID H B F a b ea eb ra rb (oanc_anc _ a b Hanc)).
Qed.
Print Assumptions C04_rr_monotone_dynamic.

Theorem C04_order_extends_causality_dynamic : forall genesis all self_ oracle_ ops k d j b a ea,
  self_ <> -1 -> ids_determine all -> Forall (hop_ok all) ops ->
  gap_runb (init_hg self_ genesis oracle_) ops = true ->
  let st := hrun (init_hg self_ genesis oracle_) ops in
  failed st = false ->
  nth_error (delivered st) k = Some d -> nth_error (f_events (b_frame d)) j = Some b ->
  anc st a (fe_id b) -> get_event st a = Some ea ->
  (e_txs (ev_e ea) <> [] \/ e_itxs (ev_e ea) <> []) ->
  exists k' d' i fa, nth_error (delivered st) k' = Some d' /\
    nth_error (f_events (b_frame d')) i = Some fa /\ fe_id fa = a /\
    ((k' < k)%nat \/ (k' = k /\ (i < j)%nat)).
Proof.
  exact (fun g all s o ops k d j b a ea Hs ID H B F =>
    order_extends_causalityD s g o all ops Hs ID H B F k d j b a ea).
Qed.
Print Assumptions C04_order_extends_causality_dynamic.

Theorem C04_frames_extend_causality_dynamic : forall genesis all self_ oracle_ ops R f b a,
  self_ <> -1 -> ids_determine all -> Forall (hop_ok all) ops ->
  gap_runb (init_hg self_ genesis oracle_) ops = true ->
  let st := hrun (init_hg self_ genesis oracle_) ops in
  failed st = false ->
  zget R (frames st) = Some f -> In b (f_events f) -> anc st a (fe_id b) ->
  exists R' f' fa, zget R' (frames st) = Some f' /\ In fa (f_events f') /\ fe_id fa = a /\ R' <= R.
Proof.
  exact (fun g all s o ops R f b a Hs ID H B F =>
    frames_extend_causalityD s g o all ops Hs ID H B F R f b a).
Qed.
Print Assumptions C04_frames_extend_causality_dynamic.

Theorem C04_committed_ancestor_dynamic : forall genesis all self_ oracle_ ops a b eb R,
  self_ <> -1 -> ids_determine all -> Forall (hop_ok all) ops ->
  gap_runb (init_hg self_ genesis oracle_) ops = true ->
  let st := hrun (init_hg self_ genesis oracle_) ops in
  failed st = false ->
  anc st a b -> get_event st b = Some eb -> ev_rr eb = Some R ->
  (exists l, last_consensus st = Some l /\ R <= l) ->
  exists ea R', get_event st a = Some ea /\ ev_rr ea = Some R' /\ R' <= R.
Proof.
  exact (fun g all s o ops a b eb R Hs ID H B F =>
    committed_ancestor_oD s g o all ops Hs ID H B F a b eb R).
Qed.
Print Assumptions C04_committed_ancestor_dynamic.

Theorem C04_processed_rounds_complete_dynamic : forall genesis all self_ oracle_ ops x ex R,
  self_ <> -1 -> ids_determine all -> Forall (hop_ok all) ops ->
  gap_runb (init_hg self_ genesis oracle_) ops = true ->
  let st := hrun (init_hg self_ genesis oracle_) ops in
  failed st = false ->
  get_event st x = Some ex -> ev_rr ex = Some R -> (exists l, last_consensus st = Some l /\ R <= l) ->
  exists f, zget R (frames st) = Some f /\ In x (map fe_id (f_events f)) /\
    ((e_txs (ev_e ex) <> [] \/ e_itxs (ev_e ex) <> []) ->
     exists d, In d (delivered st) /\ b_rr d = R /\ b_frame d = f).
Proof.
  exact (fun g all s o ops x ex R Hs ID H B F =>
    pi_db _ (hrun_pinvD s g o all ops Hs ID H B F) x ex R).
Qed.
Print Assumptions C04_processed_rounds_complete_dynamic.

(* THE COMMITTED ORDER AGREES BETWEEN NODES under dynamic membership.  Two nodes started from the same genesis set
   -- any selfs, oracles, operation sequences over one fork-free universe, joins and leaves accepted at will -- that
   both respect the distance bound and have not failed: their k-th delivered blocks list the same events with the same
   Lamport timestamps in the same order ([kl f] = the (event, Lamport) pairs of the frame, Proofs/BlockAgreeD.v), hence
   the committed order ([corder st] = the concatenation over the delivered blocks) of the node with fewer blocks is
   a prefix of the other's: an event committed at position (k, j) by one node is committed at (k, j) by every node
   that has a k-th block.  With C04_order_extends_causality_dynamic: one order, shared by all such nodes, that
   extends causality. *)
Theorem C04_block_events_agree_dynamic : forall all genesis self1 self2 oracle1 oracle2 ops1 ops2 k d1 d2,
  ids_determine all -> sigkeys_determine all -> fork_free all -> self1 <> -1 -> self2 <> -1 ->
  Forall (hop_ok all) ops1 -> Forall (hop_ok all) ops2 ->
  gap_runb (init_hg self1 genesis oracle1) ops1 = true -> gap_runb (init_hg self2 genesis oracle2) ops2 = true ->
  let st1 := hrun (init_hg self1 genesis oracle1) ops1 in
  let st2 := hrun (init_hg self2 genesis oracle2) ops2 in
  failed st1 = false -> failed st2 = false ->
  nth_error (delivered st1) k = Some d1 -> nth_error (delivered st2) k = Some d2 ->
  map (fun fe => (fe_id fe, fe_lt fe)) (f_events (b_frame d1)) = map (fun fe => (fe_id fe, fe_lt fe)) (f_events (b_frame d2)).
Proof.
  exact (fun all g s1 s2 o1 o2 ops1 ops2 k d1 d2 ID SK FF S1 S2 H1 H2 B1 B2 F1 F2 =>
           block_events_agree_gap all g ID SK FF s1 s2 o1 o2 ops1 ops2 S1 S2 H1 H2 B1 B2 F1 F2 k d1 d2).
Qed.
Print Assumptions C04_block_events_agree_dynamic.

Theorem C04_committed_order_prefix_dynamic : forall all genesis self1 self2 oracle1 oracle2 ops1 ops2,
  ids_determine all -> sigkeys_determine all -> fork_free all -> self1 <> -1 -> self2 <> -1 ->
  Forall (hop_ok all) ops1 -> Forall (hop_ok all) ops2 ->
  gap_runb (init_hg self1 genesis oracle1) ops1 = true -> gap_runb (init_hg self2 genesis oracle2) ops2 = true ->
  let st1 := hrun (init_hg self1 genesis oracle1) ops1 in
  let st2 := hrun (init_hg self2 genesis oracle2) ops2 in
  failed st1 = false -> failed st2 = false ->
  (length (delivered st1) <= length (delivered st2))%nat ->
  exists l, corder st2 = corder st1 ++ l.
Proof.
  exact (fun all g s1 s2 o1 o2 ops1 ops2 ID SK FF => corder_prefix_gap all g ID SK FF s1 s2 o1 o2 ops1 ops2).
Qed.
Print Assumptions C04_committed_order_prefix_dynamic.

(* REFUTED: the literal form "every ancestor of a committed event is in a delivered block" (without
   the payload premise).  Frames without transactions produce no block; in the 15-event, two-validator
   history Proofs/CausalityWitness.v (cw) the only delivered block holds events 2..6 and the parents
   0, 1 of event 2 (received in round 1, frame without transactions) are in no block. *)
Definition C04_order_extends_causality_statement : Prop :=
  forall all st k d j b a,
    reach all st -> nth_error (delivered st) k = Some d ->
    nth_error (f_events (b_frame d)) j = Some b -> anc st a (fe_id b) ->
    exists k' d' i fa, nth_error (delivered st) k' = Some d' /\
      nth_error (f_events (b_frame d')) i = Some fa /\ fe_id fa = a /\
      ((k' < k)%nat \/ (k' = k /\ (i < j)%nat)).
Theorem C04_order_extends_causality_statement_refuted : ~ C04_order_extends_causality_statement.
Proof. exact cw_literal_refuted. Qed.
Print Assumptions C04_order_extends_causality_statement_refuted.

(* REFUTED: "an ancestor of an event that has a round-received number has one too" (for rounds not
   yet processed).  DecideRoundReceived stops, for an event of round r, at the first undecided round
   above r; when round 2 is held undecided by a late witness and round 3 is decided, the events of
   round 2 are received in round 3 while their round-1 ancestors still wait for round 2.  55-event,
   four-validator history found by build/sim (seed 1): Proofs/CausalityWitness.v (aw), event 18 has
   round-received 3, its self-parent 17 has none.  Nothing is committed from round 3 before round 2
   (C02 queue order), which is why C04_committed_ancestor holds. *)
Definition C04_ancestor_received_statement : Prop :=
  forall genesis all self_ oracle_ ops a b eb r,
    ids_determine all -> no_accept all -> fork_free all -> Forall (hop_ok all) ops ->
    let st := hrun (init_hg self_ genesis oracle_) ops in
    anc st a b -> get_event st b = Some eb -> ev_rr eb = Some r ->
    exists ea r', get_event st a = Some ea /\ ev_rr ea = Some r'.
Theorem C04_ancestor_received_statement_refuted : ~ C04_ancestor_received_statement.
Proof. exact aw_ancestor_refuted. Qed.
Print Assumptions C04_ancestor_received_statement_refuted.

(* non-vacuity: two validators gossiping in ping-pong; event k has self-parent k-2 and
   other-parent k-1, carries transaction k.  Nine blocks are delivered; each frame holds two events,
   the ancestor first, timestamps 1 + max of the parents'. *)
Definition c04_g : peerset := [mkPeer 100 0; mkPeer 101 1].
Definition c04_ev (k : Z) : event :=
  mkEvent k (k mod 2) (k / 2) (if k <? 2 then -1 else k - 2) (if k =? 0 then -1 else k - 1) k
          (Z.even (k / 3)) (100 - k) [k] [] [] true.
Definition c04_all : list event := map c04_ev (zseq 0 24).
Definition c04_ops : list hop := map HInsert c04_all.
Definition c04_st : hg := hrun (init_hg 0 c04_g [7; 8; 9; 10; 11; 12; 13; 14; 15]) c04_ops.

Example C04_example_reach : reach c04_all c04_st.
Proof.
  exists 0, c04_g, [7; 8; 9; 10; 11; 12; 13; 14; 15], c04_ops.
  split; [apply ids_determine_distinct; vm_compute; reflexivity|].
  split; [apply hop_ok_inserts; vm_compute; reflexivity|reflexivity].
Qed.

Example C04_example :
  failed c04_st = false /\
  map (fun b => (b_index b, b_rr b, b_txs b, map fe_id (f_events (b_frame b)), map fe_lt (f_events (b_frame b))))
      (firstn 3 (delivered c04_st))
  = [(0, 1, [0; 1], [0; 1], [0; 1]); (1, 2, [2; 3], [2; 3], [2; 3]); (2, 3, [4; 5], [4; 5], [4; 5])] /\
  length (delivered c04_st) = 9%nat /\
  match get_event c04_st 5 with Some e => (ev_lt e, ev_rr e, e_sp (ev_e e), e_op (ev_e e)) | None => (None, None, 0, 0) end
  = (Some 5, Some 3, 3, 4) /\
  rcv c04_st 3 = [4; 5].
Proof. vm_compute. repeat split; reflexivity. Qed.
