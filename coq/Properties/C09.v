(* C09 Block signatures: only valid validator signatures count; anchor needs > 1/3.
   Statements only.  Model: HgImpl (SigPool [sigpool], ProcessSigPool [process_sig],
   SetAnchorBlock, core.commit / signBlock / selfBlockSignatures [self_sigs]).

   A signature is [bsig] = (validator key, block index, identifier of the body it verifies
   against): "verifies against this node's own body of block i" is [bs_over s = b_bodyid b], a
   datum supplied per signature by the harness (keys.Verify on the real hashes), never an axiom.
   Adversarial payloads are the universally quantified [e_sigs] of the inserted events:
   signatures over other bodies, by keys outside any validator set, by removed / not yet
   effective validators, duplicates, for unknown or future indexes; malformed encodings are
   signatures that verify against no body ([bs_over] = an identifier no block has).
   [self_ <> -1]: a node with an application (core), not a bare Hashgraph. *)
From Coq Require Import ZArith List Bool Sorted.
From V Require Import Model.ZMap Model.Quorum Model.HgImpl Model.PeerSetSpec
  Proofs.BlockInv Proofs.PeerSetProofs Proofs.SigProofs Proofs.TidyRR.
Import ListNotations.
Open Scope Z_scope.

(* round-received increases strictly along the delivered blocks, in every reachable state
   (Proofs/RoundOrder.v, C02_rr_increasing); the theorems below use it and do not carry it as a
   hypothesis *)
Definition rr_increasing (st : hg) : Prop := StronglySorted Z.lt (map b_rr (delivered st)).
Theorem C09_rr_increasing_holds : forall self_ genesis oracle_ ops,
  rr_increasing (hrun (init_hg self_ genesis oracle_) ops).
Proof. exact reach_rr_increasing. Qed.
Print Assumptions C09_rr_increasing_holds.

(* every recorded signature is over this node's own body of the block (re-export of binv) *)
Theorem C09_recorded_over_own_body : forall self_ genesis oracle_ ops i b v o,
  zget i (blocks (hrun (init_hg self_ genesis oracle_) ops)) = Some b -> aget v (b_sigs b) = Some o -> o = b_bodyid b.
Proof. exact (fun s g o ops i b v o' Hb Hv => b_valid _ (hrun_binv s g o ops) i b Hb v o' Hv). Qed.
Print Assumptions C09_recorded_over_own_body.

(* at recording time: in any reachable state, ProcessSigPool either ignores a signature, or the
   signature is for a stored block, verifies against the node's own body of it, its signer is in
   the peer set that get_peerset returns NOW for the block's round-received, and the only change
   to the block store is that signature added to that block *)
Theorem C09_recorded_at_recording_time : forall self_ genesis oracle_ ops s,
  let st := hrun (init_hg self_ genesis oracle_) ops in
  process_sig st s = st \/
  exists b ps, sig_accepts st s b ps /\
    (forall i, zget i (blocks (process_sig st s)) = if i =? bs_index s then Some (sig_recorded b s) else zget i (blocks st)) /\
    last_block (process_sig st s) = last_block st /\
    anchor (process_sig st s) =
      (if (trust_count ps <? Z.of_nat (length (b_sigs (sig_recorded b s)))) &&
          (match anchor st with None => true | Some a => a <? bs_index s end)
       then Some (bs_index s) else anchor st) /\
    sigpool (process_sig st s) = filter (fun t => negb (sig_key_eq t s)) (sigpool st).
Proof. exact (fun s g o ops sg => process_sig_spec _ sg (hrun_binv s g o ops)). Qed.
Print Assumptions C09_recorded_at_recording_time.

(* the node's own signature is put on a block by commit exactly when the node is in the peer set
   of the block's round-received (as the table stands at commit), over the committed body *)
Theorem C09_commit_signs_iff_member : forall genesis s f,
  binv s -> frame_ok f -> c10inv genesis s ->
  let b := block_of_frame (last_block s + 1) f s in
  exists bps bf, commit_post s b (commit (store_set_block s b) b) bps bf /\
    b_sigs b = [] /\ b_index b = last_block s + 1 /\ 0 <= b_rr b /\
    b_index bf = b_index b /\ b_rr bf = b_rr b /\ b_bodyid bf = hd (-1) (oracle s) /\
    b_sigs bf = (if mem_key (self s) (keys bps) then [(self s, hd (-1) (oracle s))] else []) /\
    (forall r, r < b_rr b + 6 -> get_peerset (commit (store_set_block s b) b) r = get_peerset s r).
Proof. exact commit_facts. Qed.
Print Assumptions C09_commit_signs_iff_member.

(* for all histories and all payloads: the signer of every recorded signature is a member of a
   validator set of the node's table (the one in force for the block's round when recorded),
   signers are pairwise distinct, and -- round-received increasing along the delivered blocks
   (C02_rr_increasing), so that by C10_no_retroactive later commits cannot have changed the set
   of an earlier block's round -- the signer is in the set the FINAL table gives for the block's
   round *)
Theorem C09_recorded_valid : forall self_ genesis oracle_ ops i b v o,
  self_ <> -1 ->
  zget i (blocks (hrun (init_hg self_ genesis oracle_) ops)) = Some b -> aget v (b_sigs b) = Some o ->
  o = b_bodyid b /\
  NoDup (map fst (b_sigs b)) /\
  (exists k ps, In (k, ps) (peersets (hrun (init_hg self_ genesis oracle_) ops)) /\ mem_key v (keys ps) = true) /\
  (exists ps, get_peerset (hrun (init_hg self_ genesis oracle_) ops) (b_rr b) = Some ps /\ mem_key v (keys ps) = true).
Proof. exact recorded_valid. Qed.
Print Assumptions C09_recorded_valid.

(* the last conjunct on its own: the signer of every recorded signature is in the set the FINAL
   peer-set table gives for the block's round-received *)
Theorem C09_recorded_member_final : forall self_ genesis oracle_ ops i b v o, self_ <> -1 ->
  zget i (blocks (hrun (init_hg self_ genesis oracle_) ops)) = Some b -> aget v (b_sigs b) = Some o ->
  exists ps, get_peerset (hrun (init_hg self_ genesis oracle_) ops) (b_rr b) = Some ps /\ mem_key v (keys ps) = true.
Proof. exact recorded_member_final. Qed.
Print Assumptions C09_recorded_member_final.

(* when every inserted event carries only signatures keyed by its own creator (what ReadWireInfo
   builds: wevent.BlockSignatures(creatorBytes)), every pool entry was carried by an inserted
   event and is keyed by that event's creator, and every recorded signature is either the node's
   own (signBlock) or was carried, for that index and body, by an event of its signer *)
Theorem C09_attribution : forall self_ genesis oracle_ ops,
  self_ <> -1 -> wire_attributed ops ->
  let st := hrun (init_hg self_ genesis oracle_) ops in
  (forall s, In s (sigpool st) ->
     exists e, In e (events_of ops) /\ In s (e_sigs e) /\ bs_validator s = e_creator e) /\
  (forall i b v o, zget i (blocks st) = Some b -> aget v (b_sigs b) = Some o ->
     v = self st \/ exists e, In e (events_of ops) /\ In (mkBsig v i o) (e_sigs e) /\ v = e_creator e).
Proof.
  exact (fun s g o ops Hs W =>
    let I := reach_c09inv_attr s g o ops Hs W in conj (s_pool _ _ _ _ I) (s_attr _ _ _ _ I)).
Qed.
Print Assumptions C09_attribution.

(* provenance without any assumption: nothing enters the pool or a block except through the
   payload of an inserted event or the node's own signBlock *)
Theorem C09_provenance : forall self_ genesis oracle_ ops,
  self_ <> -1 ->
  let st := hrun (init_hg self_ genesis oracle_) ops in
  (forall s, In s (sigpool st) -> exists e, In e (events_of ops) /\ In s (e_sigs e) /\ True) /\
  (forall i b v o, zget i (blocks st) = Some b -> aget v (b_sigs b) = Some o ->
     v = self st \/ exists e, In e (events_of ops) /\ In (mkBsig v i o) (e_sigs e) /\ True).
Proof.
  exact (fun s g o ops Hs => let I := reach_c09inv s g o ops Hs in conj (s_pool _ _ _ _ I) (s_attr _ _ _ _ I)).
Qed.
Print Assumptions C09_provenance.

(* the anchor block is stored and carries more signatures than the TrustCount of a validator set
   of the table (the set of its round when the anchor was set / the signature added), hence from
   more than a third of that set's distinct validators -- the signers being distinct members
   (C09_recorded_valid); and the same for the set the final table gives for the block's round *)
Theorem C09_anchor_trusted : forall self_ genesis oracle_ ops a,
  self_ <> -1 -> anchor (hrun (init_hg self_ genesis oracle_) ops) = Some a ->
  exists b, zget a (blocks (hrun (init_hg self_ genesis oracle_) ops)) = Some b /\
    (exists k ps, In (k, ps) (peersets (hrun (init_hg self_ genesis oracle_) ops)) /\
                  trust_count ps < Z.of_nat (length (b_sigs b))) /\
    (exists ps, get_peerset (hrun (init_hg self_ genesis oracle_) ops) (b_rr b) = Some ps /\
                trust_count ps < Z.of_nat (length (b_sigs b))).
Proof. exact anchor_trusted. Qed.
Print Assumptions C09_anchor_trusted.

(* the headline: the anchor block carries signatures over the node's own body of it, by pairwise
   distinct members of the validator set that the table gives for the block's round, and they are
   more than a third of that set *)
Theorem C09_anchor_third_of_validators : forall self_ genesis oracle_ ops a,
  self_ <> -1 -> anchor (hrun (init_hg self_ genesis oracle_) ops) = Some a ->
  exists b ps, zget a (blocks (hrun (init_hg self_ genesis oracle_) ops)) = Some b /\
    get_peerset (hrun (init_hg self_ genesis oracle_) ops) (b_rr b) = Some ps /\
    NoDup (map fst (b_sigs b)) /\
    (forall v, In v (map fst (b_sigs b)) -> In v (keys ps) /\ aget v (b_sigs b) = Some (b_bodyid b)) /\
    3 * Z.of_nat (length (map fst (b_sigs b))) > ps_len ps.
Proof. exact anchor_third_reach. Qed.
Print Assumptions C09_anchor_third_of_validators.

(* "> TrustCount" means more than a third of the distinct validators; a single signature
   suffices for a set of at most one peer *)
Theorem C09_trust_count_third : forall ps k, trust_count ps < k -> 3 * k > ps_len ps.
Proof. exact trust_gt_third. Qed.
Print Assumptions C09_trust_count_third.
Theorem C09_trust_count_single : forall ps k, ps_slice_len ps <= 1 -> 1 <= k -> trust_count ps < k.
Proof. exact trust_single. Qed.
Print Assumptions C09_trust_count_single.

(* between resets (no reset operation exists in hrun) the anchor index never decreases *)
Theorem C09_anchor_monotone : forall self_ genesis oracle_ ops ops' a,
  self_ <> -1 -> anchor (hrun (init_hg self_ genesis oracle_) ops) = Some a ->
  exists a', anchor (hrun (init_hg self_ genesis oracle_) (ops ++ ops')) = Some a' /\ a <= a'.
Proof. exact anchor_monotone. Qed.
Print Assumptions C09_anchor_monotone.

(* the node holds a signature of its own for index i only if it delivered block i to its
   application, and the signature is over that delivered block's body (which includes the state
   hash returned by the application: b_bodyid is assigned at commit) *)
Theorem C09_signs_only_delivered : forall self_ genesis oracle_ ops s,
  self_ <> -1 -> In s (self_sigs (hrun (init_hg self_ genesis oracle_) ops)) ->
  bs_validator s = self (hrun (init_hg self_ genesis oracle_) ops) /\ 0 <= bs_index s /\
  exists d, nth_error (delivered (hrun (init_hg self_ genesis oracle_) ops)) (Z.to_nat (bs_index s)) = Some d /\
            b_index d = bs_index s /\ bs_over s = b_bodyid d.
Proof. exact (fun s g o ops sg Hs HI => s_self _ _ _ _ (reach_c09inv s g o ops Hs) sg HI). Qed.
Print Assumptions C09_signs_only_delivered.

(* non-vacuity: validators 0 (self) and 1; the events of validator 1 carry adversarial payloads:
   a signature over another body (99), one for a future block (index 3), a duplicate, and a
   correct one (body 7 of block 0).  Only the correct ones are recorded; the anchor is set once
   block 0 has 2 > TrustCount = 1 signatures. *)
Definition c09_g : peerset := [mkPeer 100 0; mkPeer 101 1].
Definition c09_ev (id c idx sp op : Z) (txs : list Z) (sigs : list bsig) : event :=
  mkEvent id c idx sp op 0 true id txs [] sigs true.
Definition c09_ops : list hop :=
  [HInsert (c09_ev 0 0 0 (-1) (-1) [1] []); HInsert (c09_ev 1 1 0 (-1) (-1) [] []);
   HInsert (c09_ev 2 0 1 0 1 [] []); HInsert (c09_ev 3 1 1 1 2 [] []);
   HInsert (c09_ev 4 0 2 2 3 [] []); HInsert (c09_ev 5 1 2 3 4 [] []);
   HInsert (c09_ev 6 0 3 4 5 [] []); HInsert (c09_ev 7 1 3 5 6 [] []);
   HInsert (c09_ev 8 0 4 6 7 [] []); HSigPool;
   HInsert (c09_ev 9 1 4 7 8 [] [mkBsig 1 0 99; mkBsig 1 3 7; mkBsig 1 3 7]); HSigPool;
   HInsert (c09_ev 10 0 5 8 9 [] []); HSigPool;
   HInsert (c09_ev 11 1 5 9 10 [] [mkBsig 1 0 7]); HSigPool].
Example C09_example :
  let st k := hrun (init_hg 0 c09_g [7; 8; 9]) (firstn k c09_ops) in
  (* after the adversarial payload and a ProcessSigPool: nothing recorded but the own signature,
     no anchor (1 signature is not > TrustCount = 1), both bad signatures still pending *)
  option_map b_sigs (zget 0 (blocks (st 12%nat))) = Some [(0, 7)] /\ anchor (st 12%nat) = None /\
  sigpool (st 12%nat) = [mkBsig 1 0 99; mkBsig 1 3 7] /\
  (* after the correct signature: recorded, anchor set, the future-block signature still pending *)
  option_map b_sigs (zget 0 (blocks (st 16%nat))) = Some [(0, 7); (1, 7)] /\ anchor (st 16%nat) = Some 0 /\
  sigpool (st 16%nat) = [mkBsig 1 3 7] /\ self_sigs (st 16%nat) = [mkBsig 0 0 7] /\
  wire_attributed c09_ops /\ rr_increasing (st 16%nat).
Proof.
  intros st.
  assert (F : let s12 := st 12%nat in let s16 := st 16%nat in
    option_map b_sigs (zget 0 (blocks s12)) = Some [(0, 7)] /\ anchor s12 = None /\
    sigpool s12 = [mkBsig 1 0 99; mkBsig 1 3 7] /\
    option_map b_sigs (zget 0 (blocks s16)) = Some [(0, 7); (1, 7)] /\ anchor s16 = Some 0 /\
    sigpool s16 = [mkBsig 1 3 7] /\ self_sigs s16 = [mkBsig 0 0 7] /\
    wire_attributed c09_ops /\ rr_increasing s16).
  { vm_compute. repeat split; repeat constructor; intros s H; repeat (destruct H as [<-|H]; [reflexivity|]); destruct H. }
  exact F.
Qed.
