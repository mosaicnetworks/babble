(* C01 Agreement.  Statements only.
   The core of agreement is that two honest views never decide the fame of a witness differently
   and that a decision, once reached on a view, is the decision of every larger view; everything
   after fame (round-received, frames, blocks) is a deterministic function of the decided famous
   witnesses and the ancestry.
   (1) `_partial` theorems: on the model's voting loop for ALL views satisfying the quorum
       hypotheses [view_ok] / [same_history] (unbounded rounds and witnesses; n >= 1 validators);
       `_partial_dynamic`: the same for set sizes that change from round to round ([view_okD] /
       [same_historyD]).
   (2) Static membership, fame (Proofs/FirstDesc .. Proofs/AgreementU): those hypotheses HOLD in
       every reachable state of the per-event pipeline, and no consensus pass ever fails there
       (C01_no_pass_fails), so fame agreement and decision stability are stated below without
       view hypotheses: C01_fame_agreement, C01_fame_decision_stable.  Remaining explicit premises:
       - ids_determine all (hash collision freedom), no_accept all (static membership: no attempted
         event carries an internal transaction with a positive receipt),
       - no_cross_fork st1 st2: the two nodes do not hold different events of one creator at one
         index (each node is fork free by C07; the abstract quorum argument needs |G j| <= n).
   (3) Static membership, blocks (Proofs/UndeterminedD, CommittedD, FrameFn, FrameInv, BlockShape,
       BlockAgree): the full block-level statement, C01_agreement / C01_agreement_prefix /
       C01_frames_agree, with the premises ids_determine, sigkeys_determine (distinct signature R
       values: the tie-break of the consensus order; C01_agreement_needs_distinct_signatures shows
       it cannot be dropped), no_accept, fork_free.
   (4) Dynamic membership (accepted internal transactions; no no_accept).  With the other premises
       of C01_agreement alone the statement is false: C01_agreement_dynamic_refuted,
       C01_dynamic_fork_by_scheduling.  With the distance bound [gap_runb] and failed = false as
       premises on both runs (same genesis set) the delivered blocks agree in the same seven fields:
       C01_agreement_full_dynamic_gap, C01_agreement_full_prefix_dynamic_gap, over
       C01_rounds_agree_dynamic .. C01_tables_agree_dynamic.  Nothing is proved about runs that
       violate the bound.
   The check's oracle evaluates the statement on every history, after every action. *)
From Coq Require Import ZArith List Bool Permutation.
From V Require Import Model.ZMap Model.Quorum Model.Voting Model.VotingRef Model.HgImpl Model.PeerSetSpec
  Proofs.VotingProofs Proofs.VotingTheorems Proofs.FameBridge Proofs.AdmissionProofs Proofs.BlockInv
  Proofs.OrderProofs Proofs.Static Proofs.FirstDesc Proofs.CInvRun Proofs.SameHistory Proofs.Agreement
  Proofs.NoFail Proofs.AgreementU Proofs.FameInv Proofs.FamousSet Proofs.DecidedFlag Proofs.RoundReceived
  Proofs.BlockAgree Proofs.AgreementWitness Proofs.WindowWitness Model.Window Proofs.WindowStable
  Proofs.GapWindow Proofs.RoundAgreeD Proofs.ShrinkWitness Model.VotingRefD Proofs.VotingProofsD
  Proofs.RoundOrder Proofs.CInvRunD Proofs.ViewOk Proofs.ViewOkD Proofs.SameHistoryD Proofs.AgreementD
  Proofs.FameInvD Proofs.LateWitnessD Proofs.FamousSetD Proofs.DecidedFlagD Proofs.RoundReceivedD
  Proofs.UndeterminedD Proofs.BlockAgreeD Proofs.BlockPeersD Proofs.FrameAgreeD.
Import ListNotations.
Open Scope Z_scope.

(* two nodes that both decide the fame of witness x of round r decide the same value *)
Theorem C01_fame_agreement_partial : forall n st1 st2 x r G v1 v2,
  (forall j, In j (zrange (r + 1) (last_round st1)) -> round_witnesses st1 j <> None) ->
  (forall j, In j (zrange (r + 1) (last_round st2)) -> round_witnesses st2 j <> None) ->
  view_ok n r (vparams_of st1 x) (view_witnesses st1) (last_round st1) ->
  view_ok n r (vparams_of st2 x) (view_witnesses st2) (last_round st2) ->
  same_history n r (vparams_of st1 x) (view_witnesses st1) (last_round st1)
                   (vparams_of st2 x) (view_witnesses st2) (last_round st2) G ->
  fame_of st1 x r = Some (Some v1) -> fame_of st2 x r = Some (Some v2) -> v1 = v2.
Proof.
  exact (fun n st1 st2 x r G v1 v2 H1 H2 V1 V2 SH F1 F2 =>
    VOTE_T3_decisions_agree n r _ _ _ _ _ _ G v1 v2 V1 V2 SH
      (eq_trans (eq_sym (fame_of_as_view st1 x r H1)) F1)
      (eq_trans (eq_sym (fame_of_as_view st2 x r H2)) F2)).
Qed.
Print Assumptions C01_fame_agreement_partial.

(* a lagging node's decision is the decision of every node that knows more *)
Theorem C01_fame_decision_stable_partial : forall n st1 st2 x r G v,
  (forall j, In j (zrange (r + 1) (last_round st1)) -> round_witnesses st1 j <> None) ->
  (forall j, In j (zrange (r + 1) (last_round st2)) -> round_witnesses st2 j <> None) ->
  view_ok n r (vparams_of st1 x) (view_witnesses st1) (last_round st1) ->
  view_ok n r (vparams_of st2 x) (view_witnesses st2) (last_round st2) ->
  same_history n r (vparams_of st1 x) (view_witnesses st1) (last_round st1)
                   (vparams_of st2 x) (view_witnesses st2) (last_round st2) G ->
  last_round st1 <= last_round st2 ->
  (forall j, r + 1 <= j <= last_round st1 -> incl (view_witnesses st1 j) (view_witnesses st2 j)) ->
  fame_of st1 x r = Some (Some v) -> fame_of st2 x r = Some (Some v).
Proof.
  exact (fun n st1 st2 x r G v H1 H2 V1 V2 SH HJ HI F1 =>
    eq_trans (fame_of_as_view st2 x r H2)
      (VOTE_T4_decision_monotone n r _ _ _ _ _ _ G v V1 V2 SH HJ HI
         (eq_trans (eq_sym (fame_of_as_view st1 x r H1)) F1))).
Qed.
Print Assumptions C01_fame_decision_stable_partial.

(* a supermajority tally forces every later vote: the "decided stays decided" rule *)
Theorem C01_supermajority_forces_unanimity : forall n r P W J, view_ok n r P W J ->
  forall j y v t, r + 2 <= j <= J -> In y (W j) -> 0 < (j - r) mod 4 ->
  tallyf (Vz P W r (sm n) (j - 1)) (ssset P W j y) = (v, t) -> sm n <= t ->
  (forall y', In y' (W j) -> Vz P W r (sm n) j y' = v) /\
  (forall j' y'', j < j' <= J -> In y'' (W j') -> Vz P W r (sm n) j' y'' = v).
Proof. exact VOTE_T2_supermajority_forces_unanimity. Qed.
Print Assumptions C01_supermajority_forces_unanimity.

(* each node's own delivery sequence is well formed (C02), which is what makes "block i of
   node a" and "block i of node b" comparable *)
Theorem C01_delivery_indexed : forall self_ genesis oracle_ ops k d,
  nth_error (delivered (hrun (init_hg self_ genesis oracle_) ops)) k = Some d -> b_index d = Z.of_nat k.
Proof. exact (fun s g o ops k d H => binv_consecutive _ (hrun_binv s g o ops) k d H). Qed.
Print Assumptions C01_delivery_indexed.

(* no consensus pass returns an error: the model's `failed` flag is never set under static membership *)
Theorem C01_no_pass_fails : forall genesis all self_ oracle_ ops,
  ids_determine all -> no_accept all -> Forall (hop_ok all) ops ->
  failed (hrun (init_hg self_ genesis oracle_) ops) = false.
Proof. exact hrun_not_failed. Qed.
Print Assumptions C01_no_pass_fails.

(* the premises of the two `_partial` theorems about one state: for every stored candidate x and
   every round r, the lookups of DecideFame form a well-formed view *)
Theorem C01_view_ok_reachable : forall genesis all self_ oracle_ ops x r ex,
  ids_determine all -> no_accept all -> Forall (hop_ok all) ops ->
  let st := hrun (init_hg self_ genesis oracle_) ops in
  1 <= ps_len genesis -> -1 <= r <= last_round st -> get_event st x = Some ex ->
  view_ok (ps_len genesis) r (vparams_of st x) (view_witnesses st) (last_round st) /\
  (forall j, In j (zrange (r + 1) (last_round st)) -> round_witnesses st j <> None).
Proof. exact (fun g all s o ops x r ex ID NA H => u_view_ok g all ID NA s o ops H x r ex). Qed.
Print Assumptions C01_view_ok_reachable.

(* the coordinate / division invariant of every reachable state (first descendants sound,
   complete and with the walk-stop rule; memoised rounds and witness flags satisfy their
   equations read in the current state; memoised events = events listed in the round tables) *)
Theorem C01_coordinate_invariant : forall genesis all self_ oracle_ ops,
  ids_determine all -> no_accept all -> Forall (hop_ok all) ops ->
  cinv genesis None (hrun (init_hg self_ genesis oracle_) ops).
Proof. exact (fun g all s o ops ID NA H => u_cinv g all ID NA s o ops H). Qed.
Print Assumptions C01_coordinate_invariant.

(* AGREEMENT ON FAME: any two nodes (any self, any oracle), any two attempt sequences over one
   universe, per-event mode, static membership: whenever both have decided the fame of x as a
   candidate of round r, the decisions are equal *)
Theorem C01_fame_agreement : forall genesis all self1 self2 oracle1 oracle2 ops1 ops2 x r v1 v2,
  ids_determine all -> no_accept all -> Forall (hop_ok all) ops1 -> Forall (hop_ok all) ops2 ->
  let st1 := hrun (init_hg self1 genesis oracle1) ops1 in
  let st2 := hrun (init_hg self2 genesis oracle2) ops2 in
  no_cross_fork st1 st2 ->
  fame_of st1 x r = Some (Some v1) -> fame_of st2 x r = Some (Some v2) -> v1 = v2.
Proof.
  exact (fun g all s1 s2 o1 o2 ops1 ops2 x r v1 v2 ID NA H1 H2 =>
           u_fame_agreement g all ID NA s1 s2 o1 o2 ops1 ops2 H1 H2 x r v1 v2).
Qed.
Print Assumptions C01_fame_agreement.

(* the same with fork freedom stated on the universe of attempted events *)
Theorem C01_fame_agreement_fork_free_universe :
  forall genesis all self1 self2 oracle1 oracle2 ops1 ops2 x r v1 v2,
  ids_determine all -> fork_free all -> no_accept all -> Forall (hop_ok all) ops1 -> Forall (hop_ok all) ops2 ->
  let st1 := hrun (init_hg self1 genesis oracle1) ops1 in
  let st2 := hrun (init_hg self2 genesis oracle2) ops2 in
  fame_of st1 x r = Some (Some v1) -> fame_of st2 x r = Some (Some v2) -> v1 = v2.
Proof.
  exact (fun g all s1 s2 o1 o2 ops1 ops2 x r v1 v2 ID FF NA H1 H2 =>
           u_fame_agreement_universe g all ID NA s1 s2 o1 o2 ops1 ops2 H1 H2 x r v1 v2 FF).
Qed.
Print Assumptions C01_fame_agreement_fork_free_universe.

(* DECISION STABILITY: the decision of a node is the decision of every node that stores at least
   the same events (in particular of the same node later on) *)
Theorem C01_fame_decision_stable : forall genesis all self1 self2 oracle1 oracle2 ops1 ops2 x r v,
  ids_determine all -> no_accept all -> Forall (hop_ok all) ops1 -> Forall (hop_ok all) ops2 ->
  let st1 := hrun (init_hg self1 genesis oracle1) ops1 in
  let st2 := hrun (init_hg self2 genesis oracle2) ops2 in
  no_cross_fork st1 st2 ->
  (forall y e, get_event st1 y = Some e -> get_event st2 y <> None) ->
  fame_of st1 x r = Some (Some v) -> fame_of st2 x r = Some (Some v).
Proof.
  exact (fun g all s1 s2 o1 o2 ops1 ops2 x r v ID NA H1 H2 =>
           u_fame_stable g all ID NA s1 s2 o1 o2 ops1 ops2 H1 H2 x r v).
Qed.
Print Assumptions C01_fame_decision_stable.

(* a fame value recorded in a round table is the value of the voting loop read in the current state
   (it was computed in an earlier state; decisions are stable) *)
Theorem C01_recorded_fame_is_vote : forall genesis all self_ oracle_ ops r ri x (v : bool),
  ids_determine all -> no_accept all -> Forall (hop_ok all) ops ->
  let st := hrun (init_hg self_ genesis oracle_) ops in
  get_round st r = Some ri -> aget x (ri_created ri) = Some (true, if v then TTrue else TFalse) ->
  fame_of st x r = Some (Some v).
Proof. exact recorded_fame_is_vote_hrun. Qed.
Print Assumptions C01_recorded_fame_is_vote.

(* two nodes that have each decided all the round-r witnesses they know (>= supermajority: the
   condition under which WitnessesDecided sets its flag) hold the same famous witnesses of round r;
   in particular a witness one of them learns later cannot be famous *)
Theorem C01_famous_witnesses_agree :
  forall genesis all self1 self2 oracle1 oracle2 ops1 ops2 r ri1 ri2 x,
  ids_determine all -> no_accept all -> Forall (hop_ok all) ops1 -> Forall (hop_ok all) ops2 ->
  let st1 := hrun (init_hg self1 genesis oracle1) ops1 in
  let st2 := hrun (init_hg self2 genesis oracle2) ops2 in
  no_cross_fork st1 st2 ->
  full_dec genesis st1 r -> full_dec genesis st2 r ->
  get_round st1 r = Some ri1 -> get_round st2 r = Some ri2 ->
  (In x (famous_witnesses ri1) <-> In x (famous_witnesses ri2)).
Proof. exact famous_witnesses_agree_hrun. Qed.
Print Assumptions C01_famous_witnesses_agree.

(* the same in terms of the model's sticky flag: two nodes whose round r is flagged "witnesses
   decided" hold the same famous witnesses of round r, whenever each flag was set (the flag was set in
   a state of the run where the round was fully decided: flag_historyD; the famous witnesses have not
   changed since: famous_stableD) *)
Theorem C01_famous_witnesses_agree_decided :
  forall genesis all self1 self2 oracle1 oracle2 ops1 ops2 r ri1 ri2 x,
  ids_determine all -> no_accept all -> Forall (hop_ok all) ops1 -> Forall (hop_ok all) ops2 ->
  let st1 := hrun (init_hg self1 genesis oracle1) ops1 in
  let st2 := hrun (init_hg self2 genesis oracle2) ops2 in
  no_cross_fork st1 st2 ->
  get_round st1 r = Some ri1 -> get_round st2 r = Some ri2 ->
  ri_decided ri1 = true -> ri_decided ri2 = true ->
  (In x (famous_witnesses ri1) <-> In x (famous_witnesses ri2)).
Proof. exact famous_witnesses_agree_decided_hrun. Qed.
Print Assumptions C01_famous_witnesses_agree_decided.

(* what a round-received value means, read in the current state: x has round r; the rounds r+1..i are
   flagged decided; i is the first of them whose famous witnesses all see x and are a supermajority *)
Theorem C01_round_received_spec : forall genesis all self_ oracle_ ops x ex i,
  ids_determine all -> no_accept all -> Forall (hop_ok all) ops ->
  let st := hrun (init_hg self_ genesis oracle_) ops in
  get_event st x = Some ex -> ev_rr ex = Some i ->
  exists r, ev_round ex = Some r /\ rrspec genesis st x r i.
Proof. exact rr_spec_hrun. Qed.
Print Assumptions C01_round_received_spec.

(* ROUND-RECEIVED AGREEMENT: two nodes that have both assigned a round-received to x assigned the same *)
Theorem C01_round_received_agreement :
  forall genesis all self1 self2 oracle1 oracle2 ops1 ops2 x e1 e2 i1 i2,
  ids_determine all -> no_accept all -> Forall (hop_ok all) ops1 -> Forall (hop_ok all) ops2 ->
  let st1 := hrun (init_hg self1 genesis oracle1) ops1 in
  let st2 := hrun (init_hg self2 genesis oracle2) ops2 in
  no_cross_fork st1 st2 ->
  get_event st1 x = Some e1 -> get_event st2 x = Some e2 ->
  ev_rr e1 = Some i1 -> ev_rr e2 = Some i2 -> i1 = i2.
Proof. exact rr_agreement_hrun. Qed.
Print Assumptions C01_round_received_agreement.

Theorem C01_round_received_agreement_fork_free_universe :
  forall genesis all self1 self2 oracle1 oracle2 ops1 ops2 x e1 e2 i1 i2,
  ids_determine all -> fork_free all -> no_accept all -> Forall (hop_ok all) ops1 -> Forall (hop_ok all) ops2 ->
  let st1 := hrun (init_hg self1 genesis oracle1) ops1 in
  let st2 := hrun (init_hg self2 genesis oracle2) ops2 in
  get_event st1 x = Some e1 -> get_event st2 x = Some e2 ->
  ev_rr e1 = Some i1 -> ev_rr e2 = Some i2 -> i1 = i2.
Proof. exact rr_agreement_universe. Qed.
Print Assumptions C01_round_received_agreement_fork_free_universe.

(* non-vacuity: the two-validator ping-pong DAG of 24 events; node 0 has inserted all of them, node 1
   (other self, no oracle) the first 17; every premise holds and both nodes have decided the fame of
   the witnesses of rounds 0..5 *)
Definition c01_g : peerset := [mkPeer 100 0; mkPeer 101 1].
Definition c01_ev (k : Z) : event :=
  mkEvent k (k mod 2) (k / 2) (if k <? 2 then -1 else k - 2) (if k =? 0 then -1 else k - 1) k
          (Z.even (k / 3)) (100 - k) [k] [] [] true.
Definition c01_all : list event := map c01_ev (zseq 0 24).
Definition c01_st1 : hg := hrun (init_hg 0 c01_g [7; 8; 9; 10; 11; 12; 13; 14; 15]) (map HInsert c01_all).
Definition c01_st2 : hg := hrun (init_hg 1 c01_g []) (map HInsert (firstn 17 c01_all)).

(* everything the examples below read off the two states, evaluated once *)
Lemma c01_facts :
  (length (delivered c01_st2) = 6%nat /\ length (delivered c01_st1) = 9%nat /\
   map cbody (delivered c01_st2) = firstn 6 (map cbody (delivered c01_st1)) /\
   map (fun d => (b_index d, b_rr d, b_txs d)) (delivered c01_st2) =
     [(0, 1, [0; 1]); (1, 2, [2; 3]); (2, 3, [4; 5]); (3, 4, [6; 7]); (4, 5, [8; 9]); (5, 6, [10; 11])]) /\
  (full_decb c01_g c01_st1 3 = true /\ full_decb c01_g c01_st2 3 = true /\
   option_map famous_witnesses (get_round c01_st1 3) = Some [6; 7] /\
   option_map famous_witnesses (get_round c01_st2 3) = Some [6; 7]) /\
  (map (fun x => match get_event c01_st1 x with Some e => ev_rr e | None => None end) (zseq 0 12)
   = map (fun x => match get_event c01_st2 x with Some e => ev_rr e | None => None end) (zseq 0 12) /\
   match get_event c01_st2 11 with Some e => ev_rr e | None => None end = Some 6) /\
  (last_round c01_st1, last_round c01_st2) = (11, 8) /\
  map (fun x => (fame_of c01_st1 x (x / 2), fame_of c01_st2 x (x / 2))) (zseq 0 12)
  = repeat (Some (Some true), Some (Some true)) 12.
Proof. vm_compute. repeat split; reflexivity. Qed.

Example C01_example_premises :
  ids_determine c01_all /\ fork_free c01_all /\ no_accept c01_all /\
  Forall (hop_ok c01_all) (map HInsert c01_all) /\ Forall (hop_ok c01_all) (map HInsert (firstn 17 c01_all)).
Proof.
  split; [apply ids_determine_distinct; vm_compute; reflexivity|].
  split; [apply fork_freeb_sound; vm_compute; reflexivity|].
  split; [apply no_acceptb_sound; vm_compute; reflexivity|].
  split; [apply hop_ok_inserts; vm_compute; reflexivity|].
  apply hop_ok_inserts_firstn; vm_compute; reflexivity.
Qed.

Example C01_example_full_dec :
  full_dec c01_g c01_st1 3 /\ full_dec c01_g c01_st2 3 /\
  option_map famous_witnesses (get_round c01_st1 3) = Some [6; 7] /\
  option_map famous_witnesses (get_round c01_st2 3) = Some [6; 7].
Proof.
  destruct c01_facts as [_ [[D1 [D2 W]] _]]. exact (conj (full_decb_sound _ _ _ D1) (conj (full_decb_sound _ _ _ D2) W)).
Qed.

Example C01_example_rr :
  map (fun x => match get_event c01_st1 x with Some e => ev_rr e | None => None end) (zseq 0 12)
  = map (fun x => match get_event c01_st2 x with Some e => ev_rr e | None => None end) (zseq 0 12) /\
  match get_event c01_st2 11 with Some e => ev_rr e | None => None end = Some 6.
Proof. exact (proj1 (proj2 (proj2 c01_facts))). Qed.

Example C01_example :
  (last_round c01_st1, last_round c01_st2) = (11, 8) /\
  map (fun x => (fame_of c01_st1 x (x / 2), fame_of c01_st2 x (x / 2))) (zseq 0 12)
  = repeat (Some (Some true), Some (Some true)) 12.
Proof. exact (proj2 (proj2 (proj2 c01_facts))). Qed.

(* AGREEMENT ON THE FRAMES: two nodes that were offered events of one fork-free universe (any
   events, in any order, valid or not, interleaved with ProcessSigPool calls) have THE SAME cached
   frame for every round for which both have one (= every round both have processed): round,
   peers, roots (per creator, with ROOT_DEPTH events below the head), events with their round /
   Lamport timestamp / witness flag in consensus order, peer-set table, median timestamp.
   Premises: ids_determine (hash collision freedom), sigkeys_determine (no two attempted events
   carry the same signature R value: the tie-break of the consensus order, see
   C01_agreement_needs_distinct_signatures), no_accept (static membership), fork_free. *)
Theorem C01_frames_agree : forall genesis all self1 self2 oracle1 oracle2 ops1 ops2 R f1 f2,
  ids_determine all -> sigkeys_determine all -> no_accept all -> fork_free all ->
  Forall (hop_ok all) ops1 -> Forall (hop_ok all) ops2 ->
  let st1 := hrun (init_hg self1 genesis oracle1) ops1 in
  let st2 := hrun (init_hg self2 genesis oracle2) ops2 in
  zget R (frames st1) = Some f1 -> zget R (frames st2) = Some f2 -> f1 = f2.
Proof.
  exact (fun g all s1 s2 o1 o2 ops1 ops2 R f1 f2 ID SK NA FF H1 H2 =>
           frames_agree g all ID SK NA FF s1 s2 o1 o2 ops1 ops2 H1 H2 R f1 f2).
Qed.
Print Assumptions C01_frames_agree.

(* AGREEMENT ON THE BLOCKS: the k-th delivered blocks of the two nodes are equal in index,
   round-received, timestamp, transactions, internal transactions, frame (stands for FrameHash:
   the whole frame as above) and peers (PeersHash).  NOT claimed equal: b_sigs (each node collects
   signatures at its own pace), b_bodyid (the body hash after the application filled in its
   state hash: environment), b_committed / b_receipts (set by the node's own commit callback; with
   no_accept the receipts of a committed block are (id, false) for each internal transaction). *)
Theorem C01_agreement : forall genesis all self1 self2 oracle1 oracle2 ops1 ops2 k d1 d2,
  ids_determine all -> sigkeys_determine all -> no_accept all -> fork_free all ->
  Forall (hop_ok all) ops1 -> Forall (hop_ok all) ops2 ->
  let st1 := hrun (init_hg self1 genesis oracle1) ops1 in
  let st2 := hrun (init_hg self2 genesis oracle2) ops2 in
  nth_error (delivered st1) k = Some d1 -> nth_error (delivered st2) k = Some d2 ->
  (b_index d1, b_rr d1, b_ts d1, b_txs d1, b_itxs d1, b_frame d1, b_peers d1) =
  (b_index d2, b_rr d2, b_ts d2, b_txs d2, b_itxs d2, b_frame d2, b_peers d2).
Proof.
  exact (fun g all s1 s2 o1 o2 ops1 ops2 k d1 d2 ID SK NA FF H1 H2 =>
           blocks_agree g all ID SK NA FF s1 s2 o1 o2 ops1 ops2 k d1 d2 H1 H2).
Qed.
Print Assumptions C01_agreement.

(* ... hence the shorter delivered sequence is a prefix of the longer one
   ([cbody d], Proofs/BlockAgree.v, is the 7-tuple of C01_agreement) *)
Theorem C01_agreement_prefix : forall genesis all self1 self2 oracle1 oracle2 ops1 ops2,
  ids_determine all -> sigkeys_determine all -> no_accept all -> fork_free all ->
  Forall (hop_ok all) ops1 -> Forall (hop_ok all) ops2 ->
  let st1 := hrun (init_hg self1 genesis oracle1) ops1 in
  let st2 := hrun (init_hg self2 genesis oracle2) ops2 in
  (length (delivered st1) <= length (delivered st2))%nat ->
  map cbody (delivered st1) = firstn (length (delivered st1)) (map cbody (delivered st2)).
Proof.
  exact (fun g all s1 s2 o1 o2 ops1 ops2 ID SK NA FF H1 H2 =>
           blocks_prefix g all ID SK NA FF s1 s2 o1 o2 ops1 ops2 H1 H2).
Qed.
Print Assumptions C01_agreement_prefix.

(* a block of one node is delivered by the other as soon as the other has processed its round *)
Theorem C01_block_transfer : forall genesis all self1 self2 oracle1 oracle2 ops1 ops2 d1,
  ids_determine all -> sigkeys_determine all -> no_accept all -> fork_free all ->
  Forall (hop_ok all) ops1 -> Forall (hop_ok all) ops2 ->
  let st1 := hrun (init_hg self1 genesis oracle1) ops1 in
  let st2 := hrun (init_hg self2 genesis oracle2) ops2 in
  In d1 (delivered st1) -> (exists l, last_consensus st2 = Some l /\ b_rr d1 <= l) ->
  exists d2, In d2 (delivered st2) /\ b_rr d2 = b_rr d1 /\ b_frame d2 = b_frame d1.
Proof.
  exact (fun g all s1 s2 o1 o2 ops1 ops2 d1 ID SK NA FF H1 H2 =>
           block_transfer g all ID SK NA FF s1 s2 o1 o2 ops1 ops2 d1 H1 H2).
Qed.
Print Assumptions C01_block_transfer.

(* REFUTED without the premise on signature keys: two parentless events with the same Lamport
   timestamp and the same signature key are committed in the order in which each node received
   them (Proofs/AgreementWitness.v: first blocks [0;1;2] and [1;0;2]).  In babble the key is the R
   component of the ECDSA signature; two honest signatures with equal R are a nonce reuse. *)
Definition C01_agreement_without_sigkeys_statement : Prop :=
  forall genesis all self1 self2 oracle1 oracle2 ops1 ops2 k d1 d2,
    ids_determine all -> no_accept all -> fork_free all ->
    Forall (hop_ok all) ops1 -> Forall (hop_ok all) ops2 ->
    let st1 := hrun (init_hg self1 genesis oracle1) ops1 in
    let st2 := hrun (init_hg self2 genesis oracle2) ops2 in
    nth_error (delivered st1) k = Some d1 -> nth_error (delivered st2) k = Some d2 -> b_txs d1 = b_txs d2.
Theorem C01_agreement_needs_distinct_signatures : ~ C01_agreement_without_sigkeys_statement.
Proof. exact tw_refuted. Qed.
Print Assumptions C01_agreement_needs_distinct_signatures.

(* REFUTED without the static-membership premise (no_accept): DYNAMIC MEMBERSHIP BREAKS AGREEMENT.
   Two nodes fed the same 142 valid, fork-free events (4 validators, one accepted join in the first
   block, effective at round 1 + 6 = 7) in two topological orders: the fame of the low rounds stalls
   until round 9 exists, node A has by then divided events into rounds 7..9 with the four-peer set,
   node B divides some of them after the commit, with the five-peer set; events 114 and 116 get
   round 9 in A and 8 in B, and the blocks of index 8 (round-received 9) carry different
   transactions.  Proofs/WindowWitness.v; reproduced on two real cores by harness/cmd/winfork
   (KNOWN_FINDINGS C01 window-fork).  All other premises of C01_agreement are kept. *)
Definition C01_agreement_dynamic_statement : Prop :=
  forall genesis all self1 self2 oracle1 oracle2 ops1 ops2 k d1 d2,
    ids_determine all -> sigkeys_determine all -> fork_free all ->
    Forall (hop_ok all) ops1 -> Forall (hop_ok all) ops2 ->
    let st1 := hrun (init_hg self1 genesis oracle1) ops1 in
    let st2 := hrun (init_hg self2 genesis oracle2) ops2 in
    nth_error (delivered st1) k = Some d1 -> nth_error (delivered st2) k = Some d2 -> b_txs d1 = b_txs d2.
Theorem C01_agreement_dynamic_refuted : ~ C01_agreement_dynamic_statement.
Proof. exact ww_agreement_refuted. Qed.
Print Assumptions C01_agreement_dynamic_refuted.

Example C01_dynamic_fork_witness :
  let sa := hrun (init_hg 0 ww_g []) (map HInsert ww_all) in
  let sb := hrun (init_hg 1 ww_g []) (map HInsert ww_all') in
  failed sa = false /\ failed sb = false /\
  map (fun x => (match get_event sa x with Some e => ev_round e | None => None end,
                 match get_event sb x with Some e => ev_round e | None => None end)) [114; 116]
    = [(Some 9, Some 8); (Some 9, Some 8)] /\
  map (fun b => (b_index b, b_rr b, b_txs b)) (firstn 8 (delivered sa)) = map (fun b => (b_index b, b_rr b, b_txs b)) (firstn 8 (delivered sb)) /\
  option_map (fun b => (b_index b, b_rr b, b_txs b)) (nth_error (delivered sa) 8) = Some (8, 9, [104; 106; 105; 107; 110; 108; 113]) /\
  option_map (fun b => (b_index b, b_rr b, b_txs b)) (nth_error (delivered sb) 8)
    = Some (8, 9, [104; 106; 105; 109; 107; 110; 108; 111; 113; 112; 115]).
Proof. exact (proj1 (proj1 (proj2 ww_facts))). Qed.

(* THE SAME FORK BY SCHEDULING ALONE: in the 82-event history ws of Proofs/WindowWitness.v EVERY coin bit is
   true (no event hash with a zero middle byte), i.e. nothing but the order of delivery is adversarial:
   event 54 gets round 8 / 7 and the blocks of index 7 differ.  corpus/C01-window-fork-sched.json replays it
   on two real cores. *)
Example C01_dynamic_fork_by_scheduling :
  forallb e_coin ws_all = true /\
  distinctb (map e_id ws_all) = true /\ distinctb (map e_sigkey ws_all) = true /\ fork_freeb ws_all = true /\
  (length ws_ordb = 82%nat /\ forallb (fun i => existsb (Z.eqb i) ws_ordb) (zseq 0 82) = true) /\
  let sa := hrun (init_hg 0 ww_g []) (map HInsert ws_all) in
  let sb := hrun (init_hg 1 ww_g []) (map HInsert ws_all') in
  failed sa = false /\ failed sb = false /\
  map (fun p => (fst p, length (snd p))) (peersets sa) = [(0, 4%nat); (7, 5%nat)] /\
  map (fun p => (fst p, length (snd p))) (peersets sb) = [(0, 4%nat); (7, 5%nat)] /\
  (rnd sa 54, rnd sb 54) = (Some 8, Some 7) /\
  map (fun b => (b_index b, b_rr b, b_txs b)) (firstn 7 (delivered sa)) = map (fun b => (b_index b, b_rr b, b_txs b)) (firstn 7 (delivered sb)) /\
  option_map (fun b => (b_index b, b_rr b, b_txs b)) (nth_error (delivered sa) 7) = Some (7, 8, [46; 47; 49; 50; 51; 52; 53]) /\
  option_map (fun b => (b_index b, b_rr b, b_txs b)) (nth_error (delivered sb) 7) = Some (7, 8, [46; 47; 49; 48; 50; 51; 52; 53; 55]).
Proof.
  do 4 (split; [vm_compute; reflexivity|]). split; [vm_compute; split; reflexivity|]. exact (proj1 ws_facts).
Qed.

(* DYNAMIC MEMBERSHIP, POSITIVE PART (no [no_accept]; Proofs/FirstDescD .. Proofs/RoundAgreeD).  Premise on each node: the distance bound [gap_runb] (every step leaves last_round at
   most 5 above the next round to decide; locally checkable; it is what a commit gate would enforce; the C10_gap theorems).
   Two such nodes -- any selfs, any schedules, even different genesis sets -- whose validator-set tables give the
   same answer for the rounds both have ([tables_agree]) assign the same round and the same witness flag to every
   event they share, and strongly-see (with any set) between shared events has the same value.  In both fork
   witnesses above the tables ARE equal and the rounds differ: there the distance bound is violated on both
   nodes (C01_dynamic_fork_violates_bound).  The step from here to the blocks (fame, round-received, the events
   of the frames, and the induction that discharges [tables_agree]) is proved further down: C01_tables_agree_dynamic and
   C01_agreement_dynamic_gap.  Before fix 05eda0b it was false (C01_fame_threshold_regression below: fame was decided with
   the super-majority of the NEXT round's set). *)
Theorem C01_rounds_agree_dynamic : forall all self1 self2 genesis1 genesis2 oracle1 oracle2 ops1 ops2 x e1 e2,
  ids_determine all -> self1 <> -1 -> self2 <> -1 ->
  Forall (hop_ok all) ops1 -> Forall (hop_ok all) ops2 ->
  gap_runb (init_hg self1 genesis1 oracle1) ops1 = true -> gap_runb (init_hg self2 genesis2 oracle2) ops2 = true ->
  let st1 := hrun (init_hg self1 genesis1 oracle1) ops1 in
  let st2 := hrun (init_hg self2 genesis2 oracle2) ops2 in
  failed st1 = false -> failed st2 = false -> tables_agree st1 st2 ->
  get_event st1 x = Some e1 -> get_event st2 x = Some e2 ->
  ev_round e1 = ev_round e2 /\ ev_round e1 <> None /\
  zget x (round_memo st1) = zget x (round_memo st2) /\ zget x (witness_memo st1) = zget x (witness_memo st2).
Proof. exact (fun all s1 s2 g1 g2 o1 o2 ops1 ops2 x e1 e2 ID S1 S2 H1 H2 B1 B2 F1 F2 T =>
                gap_round_agree all s1 s2 g1 g2 o1 o2 ops1 ops2 ID S1 S2 H1 H2 B1 B2 F1 F2 T x e1 e2). Qed.
Print Assumptions C01_rounds_agree_dynamic.

Theorem C01_strongly_see_agree_dynamic :
  forall all self1 self2 genesis1 genesis2 oracle1 oracle2 ops1 ops2 g x w e1x e2x e1w e2w,
  ids_determine all -> self1 <> -1 -> self2 <> -1 ->
  Forall (hop_ok all) ops1 -> Forall (hop_ok all) ops2 ->
  gap_runb (init_hg self1 genesis1 oracle1) ops1 = true -> gap_runb (init_hg self2 genesis2 oracle2) ops2 = true ->
  let st1 := hrun (init_hg self1 genesis1 oracle1) ops1 in
  let st2 := hrun (init_hg self2 genesis2 oracle2) ops2 in
  failed st1 = false -> failed st2 = false -> tables_agree st1 st2 ->
  get_event st1 x = Some e1x -> get_event st2 x = Some e2x ->
  get_event st1 w = Some e1w -> get_event st2 w = Some e2w ->
  strongly_see st1 x w g = strongly_see st2 x w g /\ strongly_see st1 x w g <> None.
Proof. exact (fun all s1 s2 g1 g2 o1 o2 ops1 ops2 g x w e1x e2x e1w e2w ID S1 S2 H1 H2 B1 B2 F1 F2 T =>
                gap_strongly_see_agree all s1 s2 g1 g2 o1 o2 ops1 ops2 ID S1 S2 H1 H2 B1 B2 F1 F2 T g x w e1x e2x e1w e2w). Qed.
Print Assumptions C01_strongly_see_agree_dynamic.

(* the table premise holds in particular when the two nodes have delivered the same blocks *)
Theorem C01_same_blocks_tables_agree : forall self1 self2 genesis oracle1 oracle2 ops1 ops2,
  self1 <> -1 -> self2 <> -1 ->
  delivered (hrun (init_hg self1 genesis oracle1) ops1) = delivered (hrun (init_hg self2 genesis oracle2) ops2) ->
  tables_agree (hrun (init_hg self1 genesis oracle1) ops1) (hrun (init_hg self2 genesis oracle2) ops2).
Proof. exact same_blocks_tables_agree. Qed.
Print Assumptions C01_same_blocks_tables_agree.

Example C01_dynamic_fork_violates_bound :
  let ia := init_hg 0 ww_g [] in let ib := init_hg 1 ww_g [] in
  (gap_runb ia (map HInsert ws_all), gap_runb ib (map HInsert ws_all'),
   gap_runb ia (map HInsert ww_all), gap_runb ib (map HInsert ww_all')) = (false, false, false, false) /\
  peersets (hrun ia (map HInsert ws_all)) = peersets (hrun ib (map HInsert ws_all')).
Proof.
  destruct (proj2 ws_facts) as [P [G1 G2]]. destruct (proj2 (proj2 ww_facts)) as [G3 [_ G4]].
  cbv zeta. rewrite G1, G2, G3, G4. split; [reflexivity|exact P].
Qed.

(* FAME AGREEMENT UNDER DYNAMIC MEMBERSHIP (code after fix 05eda0b: the quorum of voting round j is the
   super-majority of the voters' set, round j - 1).
   (1) The abstract voting loop is safe for ANY sequence of set sizes: n q = size of the set of round q,
       [view_okD] = at most n j witnesses in round j, quorum of round j = smd n j = 2 * n (j - 1) / 3 + 1, every
       round-j witness strongly sees at least that many round-(j-1) witnesses (Proofs/VotingProofsD.v).  With the pre-fix quorum (2 * n j / 3 + 1) this is false: C01_fame_threshold_regression.
   (2) These hypotheses hold in every state of a node that respects the distance bound (Proofs/ViewOkD.v,
       SameHistoryD.v over the division invariant cinvD), so: two nodes -- no [no_accept], any selfs, schedules,
       genesis sets -- that respect the distance bound and whose tables agree on the rounds both have never decide the
       fame of a witness differently (C01_fame_agreement_dynamic).  [tables_agree] itself is discharged by induction
       over the two runs in C01_tables_agree_dynamic (same genesis set). *)
Theorem C01_fame_agreement_partial_dynamic : forall n st1 st2 x r G v1 v2,
  (forall j, In j (zrange (r + 1) (last_round st1)) -> round_witnesses st1 j <> None) ->
  (forall j, In j (zrange (r + 1) (last_round st2)) -> round_witnesses st2 j <> None) ->
  view_okD n r (vparams_of st1 x) (view_witnesses st1) (last_round st1) ->
  view_okD n r (vparams_of st2 x) (view_witnesses st2) (last_round st2) ->
  same_historyD n r (vparams_of st1 x) (view_witnesses st1) (last_round st1)
                    (vparams_of st2 x) (view_witnesses st2) (last_round st2) G ->
  fame_of st1 x r = Some (Some v1) -> fame_of st2 x r = Some (Some v2) -> v1 = v2.
Proof.
  exact (fun n st1 st2 x r G v1 v2 H1 H2 V1 V2 SH F1 F2 =>
    decisions_agreeD n r _ _ _ _ _ _ G v1 v2 V1 V2 SH
      (eq_trans (eq_sym (fame_of_as_view st1 x r H1)) F1)
      (eq_trans (eq_sym (fame_of_as_view st2 x r H2)) F2)).
Qed.
Print Assumptions C01_fame_agreement_partial_dynamic.

Theorem C01_fame_decision_stable_partial_dynamic : forall n st1 st2 x r G v,
  (forall j, In j (zrange (r + 1) (last_round st1)) -> round_witnesses st1 j <> None) ->
  (forall j, In j (zrange (r + 1) (last_round st2)) -> round_witnesses st2 j <> None) ->
  view_okD n r (vparams_of st1 x) (view_witnesses st1) (last_round st1) ->
  view_okD n r (vparams_of st2 x) (view_witnesses st2) (last_round st2) ->
  same_historyD n r (vparams_of st1 x) (view_witnesses st1) (last_round st1)
                    (vparams_of st2 x) (view_witnesses st2) (last_round st2) G ->
  last_round st1 <= last_round st2 ->
  (forall j, r + 1 <= j <= last_round st1 -> incl (view_witnesses st1 j) (view_witnesses st2 j)) ->
  fame_of st1 x r = Some (Some v) -> fame_of st2 x r = Some (Some v).
Proof.
  exact (fun n st1 st2 x r G v H1 H2 V1 V2 SH HJ HI F1 =>
    eq_trans (fame_of_as_view st2 x r H2)
      (decision_monotoneD n r _ _ _ _ _ _ G v V1 V2 SH HJ HI
         (eq_trans (eq_sym (fame_of_as_view st1 x r H1)) F1))).
Qed.
Print Assumptions C01_fame_decision_stable_partial_dynamic.

Theorem C01_supermajority_forces_unanimity_dynamic : forall n r P W J, view_okD n r P W J ->
  forall j y v t, r + 2 <= j <= J -> In y (W j) -> 0 < (j - r) mod 4 ->
  tallyf (VzD P W r (smd n) (j - 1)) (ssset P W j y) = (v, t) -> smd n j <= t ->
  (forall y', In y' (W j) -> VzD P W r (smd n) j y' = v) /\
  (forall j' y'', j < j' <= J -> In y'' (W j') -> VzD P W r (smd n) j' y'' = v).
Proof. exact supermajority_forces_unanimityD. Qed.
Print Assumptions C01_supermajority_forces_unanimity_dynamic.

(* the view hypotheses hold in every state of a node that respects the distance bound, with the sizes of the sets its
   own final table gives *)
Theorem C01_view_ok_dynamic : forall genesis all self_ oracle_ ops x r ex,
  self_ <> -1 -> ids_determine all -> Forall (hop_ok all) ops ->
  gap_runb (init_hg self_ genesis oracle_) ops = true ->
  let st := hrun (init_hg self_ genesis oracle_) ops in
  failed st = false -> -1 <= r <= last_round st -> get_event st x = Some ex ->
  view_okD (nD (psat st)) r (vparams_of st x) (view_witnesses st) (last_round st).
Proof.
  exact (fun g all s o ops x r ex Hs ID H B F Hr Hx =>
    view_ok_reachD (psat (hrun (init_hg s g o) ops)) (hrun (init_hg s g o) ops)
      (proj1 (gap_goodD s g o all ops Hs ID H B F))
      (rinv_contig _ (proj2 (hrun_rtop s g o ops) F))
      (fun q _ => psat_some s g o ops q Hs) x r ex Hr Hx).
Qed.
Print Assumptions C01_view_ok_dynamic.

Theorem C01_fame_agreement_dynamic :
  forall all self1 self2 genesis1 genesis2 oracle1 oracle2 ops1 ops2 x r v1 v2,
  ids_determine all -> self1 <> -1 -> self2 <> -1 ->
  Forall (hop_ok all) ops1 -> Forall (hop_ok all) ops2 ->
  gap_runb (init_hg self1 genesis1 oracle1) ops1 = true -> gap_runb (init_hg self2 genesis2 oracle2) ops2 = true ->
  let st1 := hrun (init_hg self1 genesis1 oracle1) ops1 in
  let st2 := hrun (init_hg self2 genesis2 oracle2) ops2 in
  failed st1 = false -> failed st2 = false -> tables_agree st1 st2 -> no_cross_fork st1 st2 ->
  fame_of st1 x r = Some (Some v1) -> fame_of st2 x r = Some (Some v2) -> v1 = v2.
Proof. exact (fun all s1 s2 g1 g2 o1 o2 ops1 ops2 x r v1 v2 ID S1 S2 H1 H2 B1 B2 F1 F2 T NF =>
                gap_fame_agreement all s1 s2 g1 g2 o1 o2 ops1 ops2 ID S1 S2 H1 H2 B1 B2 F1 F2 T NF x r v1 v2). Qed.
Print Assumptions C01_fame_agreement_dynamic.

Theorem C01_fame_agreement_dynamic_fork_free_universe :
  forall all self1 self2 genesis1 genesis2 oracle1 oracle2 ops1 ops2 x r v1 v2,
  ids_determine all -> fork_free all -> self1 <> -1 -> self2 <> -1 ->
  Forall (hop_ok all) ops1 -> Forall (hop_ok all) ops2 ->
  gap_runb (init_hg self1 genesis1 oracle1) ops1 = true -> gap_runb (init_hg self2 genesis2 oracle2) ops2 = true ->
  failed (hrun (init_hg self1 genesis1 oracle1) ops1) = false -> failed (hrun (init_hg self2 genesis2 oracle2) ops2) = false ->
  tables_agree (hrun (init_hg self1 genesis1 oracle1) ops1) (hrun (init_hg self2 genesis2 oracle2) ops2) ->
  fame_of (hrun (init_hg self1 genesis1 oracle1) ops1) x r = Some (Some v1) ->
  fame_of (hrun (init_hg self2 genesis2 oracle2) ops2) x r = Some (Some v2) -> v1 = v2.
Proof. exact gap_fame_agreement_universe. Qed.
Print Assumptions C01_fame_agreement_dynamic_fork_free_universe.

(* the fame values RECORDED in the round tables: in a node that respects the distance bound, a recorded value is the
   value of the voting loop read in the current state (computed in an earlier state, with a table that had fewer
   entries: decisions are stable and the entries written since lie above every round the loop visits), hence two such
   nodes whose tables agree never record different fame for one witness -- what the shrink fork violated *)
Theorem C01_recorded_fame_is_vote_dynamic : forall genesis all self_ oracle_ ops r ri x (v : bool),
  self_ <> -1 -> ids_determine all -> Forall (hop_ok all) ops ->
  gap_runb (init_hg self_ genesis oracle_) ops = true ->
  failed (hrun (init_hg self_ genesis oracle_) ops) = false ->
  get_round (hrun (init_hg self_ genesis oracle_) ops) r = Some ri ->
  aget x (ri_created ri) = Some (true, if v then TTrue else TFalse) ->
  fame_of (hrun (init_hg self_ genesis oracle_) ops) x r = Some (Some v).
Proof. exact recorded_fame_is_vote_gap. Qed.
Print Assumptions C01_recorded_fame_is_vote_dynamic.

Theorem C01_recorded_fame_agreement_dynamic :
  forall all self1 self2 genesis1 genesis2 oracle1 oracle2 ops1 ops2 r x ri1 ri2 (v1 v2 : bool),
  ids_determine all -> self1 <> -1 -> self2 <> -1 ->
  Forall (hop_ok all) ops1 -> Forall (hop_ok all) ops2 ->
  gap_runb (init_hg self1 genesis1 oracle1) ops1 = true -> gap_runb (init_hg self2 genesis2 oracle2) ops2 = true ->
  failed (hrun (init_hg self1 genesis1 oracle1) ops1) = false -> failed (hrun (init_hg self2 genesis2 oracle2) ops2) = false ->
  tables_agree (hrun (init_hg self1 genesis1 oracle1) ops1) (hrun (init_hg self2 genesis2 oracle2) ops2) ->
  no_cross_fork (hrun (init_hg self1 genesis1 oracle1) ops1) (hrun (init_hg self2 genesis2 oracle2) ops2) ->
  get_round (hrun (init_hg self1 genesis1 oracle1) ops1) r = Some ri1 ->
  aget x (ri_created ri1) = Some (true, if v1 then TTrue else TFalse) ->
  get_round (hrun (init_hg self2 genesis2 oracle2) ops2) r = Some ri2 ->
  aget x (ri_created ri2) = Some (true, if v2 then TTrue else TFalse) ->
  v1 = v2.
Proof. exact recorded_fame_agreement_gap. Qed.
Print Assumptions C01_recorded_fame_agreement_dynamic.

(* two such nodes that have each decided all the round-r witnesses they know (at least a super-majority of the set
   their table gives for round r: the condition under which WitnessesDecided sets its flag) hold the same famous
   witnesses of round r; a witness one of them learns later cannot be famous (late-witness lemma, LateWitnessD.v) *)
Theorem C01_famous_witnesses_agree_dynamic :
  forall all self1 self2 genesis1 genesis2 oracle1 oracle2 ops1 ops2 r ri1 ri2 x,
  ids_determine all -> self1 <> -1 -> self2 <> -1 ->
  Forall (hop_ok all) ops1 -> Forall (hop_ok all) ops2 ->
  gap_runb (init_hg self1 genesis1 oracle1) ops1 = true -> gap_runb (init_hg self2 genesis2 oracle2) ops2 = true ->
  let st1 := hrun (init_hg self1 genesis1 oracle1) ops1 in
  let st2 := hrun (init_hg self2 genesis2 oracle2) ops2 in
  failed st1 = false -> failed st2 = false -> tables_agree st1 st2 -> no_cross_fork st1 st2 ->
  full_decD (psat st1 r) st1 r -> full_decD (psat st2 r) st2 r ->
  get_round st1 r = Some ri1 -> get_round st2 r = Some ri2 ->
  (In x (famous_witnesses ri1) <-> In x (famous_witnesses ri2)).
Proof. exact famous_witnesses_agree_gap. Qed.
Print Assumptions C01_famous_witnesses_agree_dynamic.

(* the same in terms of the model's sticky flag: two such nodes whose round r is flagged "witnesses decided" hold the
   same famous witnesses of round r, whenever each flag was set (a flag that is set was set in a state of the run in
   which the round was fully decided against the set the table gives for round r: flag_historyD; the famous witnesses
   have not changed since: famous_stableD) *)
Theorem C01_famous_witnesses_agree_decided_dynamic :
  forall all self1 self2 genesis1 genesis2 oracle1 oracle2 ops1 ops2 r ri1 ri2 x,
  ids_determine all -> self1 <> -1 -> self2 <> -1 ->
  Forall (hop_ok all) ops1 -> Forall (hop_ok all) ops2 ->
  gap_runb (init_hg self1 genesis1 oracle1) ops1 = true -> gap_runb (init_hg self2 genesis2 oracle2) ops2 = true ->
  let st1 := hrun (init_hg self1 genesis1 oracle1) ops1 in
  let st2 := hrun (init_hg self2 genesis2 oracle2) ops2 in
  failed st1 = false -> failed st2 = false -> tables_agree st1 st2 -> no_cross_fork st1 st2 ->
  get_round st1 r = Some ri1 -> get_round st2 r = Some ri2 ->
  ri_decided ri1 = true -> ri_decided ri2 = true ->
  (In x (famous_witnesses ri1) <-> In x (famous_witnesses ri2)).
Proof. exact famous_witnesses_agree_decided_gap. Qed.
Print Assumptions C01_famous_witnesses_agree_decided_dynamic.

(* ROUND-RECEIVED UNDER DYNAMIC MEMBERSHIP.  What a round-received value means, read in the current state of a node
   that respects the distance bound: x has round r; the rounds r+1..i are flagged decided; i is the first of them whose
   famous witnesses all see x and number at least a super-majority OF THE SET THE TABLE GIVES FOR THAT ROUND
   ([rrspecD (psat st)]: [rcond (psat st j) st j x] for round j).  Two such nodes whose tables agree on the rounds both
   have, and that have both assigned a round-received to x, assigned the same. *)
Theorem C01_round_received_spec_dynamic : forall genesis all self_ oracle_ ops x ex i,
  self_ <> -1 -> ids_determine all -> Forall (hop_ok all) ops ->
  gap_runb (init_hg self_ genesis oracle_) ops = true ->
  let st := hrun (init_hg self_ genesis oracle_) ops in
  failed st = false -> get_event st x = Some ex -> ev_rr ex = Some i ->
  exists r, ev_round ex = Some r /\ rrspecD (psat st) st x r i.
Proof. exact rr_spec_gap. Qed.
Print Assumptions C01_round_received_spec_dynamic.

Theorem C01_round_received_agreement_dynamic :
  forall all self1 self2 genesis1 genesis2 oracle1 oracle2 ops1 ops2 x e1 e2 i1 i2,
  ids_determine all -> self1 <> -1 -> self2 <> -1 ->
  Forall (hop_ok all) ops1 -> Forall (hop_ok all) ops2 ->
  gap_runb (init_hg self1 genesis1 oracle1) ops1 = true -> gap_runb (init_hg self2 genesis2 oracle2) ops2 = true ->
  let st1 := hrun (init_hg self1 genesis1 oracle1) ops1 in
  let st2 := hrun (init_hg self2 genesis2 oracle2) ops2 in
  failed st1 = false -> failed st2 = false -> tables_agree st1 st2 -> no_cross_fork st1 st2 ->
  get_event st1 x = Some e1 -> get_event st2 x = Some e2 ->
  ev_rr e1 = Some i1 -> ev_rr e2 = Some i2 -> i1 = i2.
Proof. exact rr_agreement_gap. Qed.
Print Assumptions C01_round_received_agreement_dynamic.

Theorem C01_round_received_agreement_dynamic_fork_free_universe :
  forall all self1 self2 genesis1 genesis2 oracle1 oracle2 ops1 ops2 x e1 e2 i1 i2,
  ids_determine all -> fork_free all -> self1 <> -1 -> self2 <> -1 ->
  Forall (hop_ok all) ops1 -> Forall (hop_ok all) ops2 ->
  gap_runb (init_hg self1 genesis1 oracle1) ops1 = true -> gap_runb (init_hg self2 genesis2 oracle2) ops2 = true ->
  let st1 := hrun (init_hg self1 genesis1 oracle1) ops1 in
  let st2 := hrun (init_hg self2 genesis2 oracle2) ops2 in
  failed st1 = false -> failed st2 = false -> tables_agree st1 st2 ->
  get_event st1 x = Some e1 -> get_event st2 x = Some e2 ->
  ev_rr e1 = Some i1 -> ev_rr e2 = Some i2 -> i1 = i2.
Proof. exact rr_agreement_gap_universe. Qed.
Print Assumptions C01_round_received_agreement_dynamic_fork_free_universe.

(* DecideRoundReceived is COMPLETE under dynamic membership: in a node that respects the distance bound, a stored event
   x without round-received is in the undetermined list, and there is a round j0 above its round whose flag is not set
   (and which is not fully decided), while every round strictly between is flagged decided and does not receive x
   ([ustopD (psat st) st x]): nothing that could be received is left behind. *)
Theorem C01_round_received_complete_dynamic : forall genesis all self_ oracle_ ops x,
  self_ <> -1 -> ids_determine all -> Forall (hop_ok all) ops ->
  gap_runb (init_hg self_ genesis oracle_) ops = true ->
  let st := hrun (init_hg self_ genesis oracle_) ops in
  failed st = false -> get_event st x <> None -> rr_of st x = None ->
  In x (undetermined st) /\ ustopD (psat st) st x.
Proof.
  exact (fun g all s o ops x Hs ID H B F Hx Hr =>
    conj (uD_un _ _ (hrun_uinvD s g o all ops Hs ID H B F) x Hx Hr)
         (uD_u _ _ (hrun_uinvD s g o all ops Hs ID H B F) x Hx Hr)).
Qed.
Print Assumptions C01_round_received_complete_dynamic.

(* AGREEMENT UNDER DYNAMIC MEMBERSHIP (no [no_accept], NO premise on the tables).  Two nodes started from the same
   genesis set -- any selfs, any oracles, any operation sequences over one fork-free universe of events, joins and
   leaves accepted at will -- that both respect the distance bound ([gap_runb]: every step leaves last_round at most 5
   above the next round to decide; locally checkable; what a commit gate would enforce) and have not failed:
   (1) their validator-set tables give the same set for every round both have (C01_tables_agree_dynamic).  Proved by
       induction on the total number of steps of the two runs (Proofs/BlockAgreeD.v [ta_step]): a step of node 1 adds a
       table entry only by delivering a block of some round R with an accepted internal transaction; with the tables of
       the shorter runs agreeing, fame / famous witnesses / round-received agree (the theorems above), so the events
       of R's frame and their Lamport order agree with those of node 2 whenever node 2 has processed R, so both blocks
       carry the same internal transactions and write the same entry at R + 6; when node 2 has not processed R, the
       distance bound says it has no round R + 6 yet;
   (2) hence every premise [tables_agree] above is discharged: rounds, witness flags, fame and round-received of shared
       events agree (C01_consensus_values_agree_dynamic);
   (3) the k-th delivered blocks have the same index, round-received, timestamp, transactions, internal transactions
       and peers (C01_agreement_dynamic_gap): the ledgers of the two nodes -- and the sequences of membership changes --
       are prefix-comparable (C01_agreement_prefix_dynamic_gap).  The timestamp is the median over the timestamps of
       the famous witnesses of the round received (C18), which agree as sets; the peers field is the table entry of the
       round received (C01_block_peers_dynamic), and the tables agree.
   (4) THE FRAMES AGREE TOO, hence the whole 7-tuple of the static C01_agreement: C01_agreement_full_dynamic_gap,
       C01_agreement_full_prefix_dynamic_gap (Proofs/FsvD.v, FrameD.v, FrameAgreeD.v).  The frame of round R is built
       exactly once, while R is processed: its table snapshot is genesis replayed over the delivered blocks with
       round-received below R; repertoire and first rounds are a function of that snapshot; its roots are a pure
       function of the stored events, the frames of the lower rounds and the snapshot.
   Without the distance bound the statement is false: C01_agreement_dynamic_refuted, C01_dynamic_fork_by_scheduling
   (open known finding C01-window-fork).  With the pre-fix fame quorum it was false even under the bound:
   C01_fame_threshold_regression. *)
Theorem C01_tables_agree_dynamic : forall all genesis self1 self2 oracle1 oracle2 ops1 ops2,
  ids_determine all -> sigkeys_determine all -> fork_free all -> self1 <> -1 -> self2 <> -1 ->
  Forall (hop_ok all) ops1 -> Forall (hop_ok all) ops2 ->
  gap_runb (init_hg self1 genesis oracle1) ops1 = true -> gap_runb (init_hg self2 genesis oracle2) ops2 = true ->
  failed (hrun (init_hg self1 genesis oracle1) ops1) = false -> failed (hrun (init_hg self2 genesis oracle2) ops2) = false ->
  tables_agree (hrun (init_hg self1 genesis oracle1) ops1) (hrun (init_hg self2 genesis oracle2) ops2).
Proof. exact (fun all g s1 s2 o1 o2 ops1 ops2 ID SK FF => gap_tables_agree all g ID SK FF s1 s2 o1 o2 ops1 ops2). Qed.
Print Assumptions C01_tables_agree_dynamic.

Theorem C01_consensus_values_agree_dynamic : forall all genesis self1 self2 oracle1 oracle2 ops1 ops2,
  ids_determine all -> sigkeys_determine all -> fork_free all -> self1 <> -1 -> self2 <> -1 ->
  Forall (hop_ok all) ops1 -> Forall (hop_ok all) ops2 ->
  gap_runb (init_hg self1 genesis oracle1) ops1 = true -> gap_runb (init_hg self2 genesis oracle2) ops2 = true ->
  let st1 := hrun (init_hg self1 genesis oracle1) ops1 in
  let st2 := hrun (init_hg self2 genesis oracle2) ops2 in
  failed st1 = false -> failed st2 = false ->
  (forall x e1 e2, get_event st1 x = Some e1 -> get_event st2 x = Some e2 ->
     ev_round e1 = ev_round e2 /\ ev_round e1 <> None /\
     (forall i1 i2, ev_rr e1 = Some i1 -> ev_rr e2 = Some i2 -> i1 = i2)) /\
  (forall x r v1 v2, fame_of st1 x r = Some (Some v1) -> fame_of st2 x r = Some (Some v2) -> v1 = v2) /\
  (forall q, get_round st1 q <> None -> get_round st2 q <> None -> get_peerset st1 q = get_peerset st2 q).
Proof. exact gap_consensus_agree. Qed.
Print Assumptions C01_consensus_values_agree_dynamic.

Theorem C01_agreement_dynamic_gap : forall all genesis self1 self2 oracle1 oracle2 ops1 ops2 k d1 d2,
  ids_determine all -> sigkeys_determine all -> fork_free all -> self1 <> -1 -> self2 <> -1 ->
  Forall (hop_ok all) ops1 -> Forall (hop_ok all) ops2 ->
  gap_runb (init_hg self1 genesis oracle1) ops1 = true -> gap_runb (init_hg self2 genesis oracle2) ops2 = true ->
  let st1 := hrun (init_hg self1 genesis oracle1) ops1 in
  let st2 := hrun (init_hg self2 genesis oracle2) ops2 in
  failed st1 = false -> failed st2 = false ->
  nth_error (delivered st1) k = Some d1 -> nth_error (delivered st2) k = Some d2 ->
  (b_index d1, b_rr d1, b_ts d1, b_txs d1, b_itxs d1, b_peers d1) =
  (b_index d2, b_rr d2, b_ts d2, b_txs d2, b_itxs d2, b_peers d2).
Proof.
  exact (fun all g s1 s2 o1 o2 ops1 ops2 k d1 d2 ID SK FF S1 S2 H1 H2 B1 B2 F1 F2 =>
           blocks_agree_gap_full all g ID SK FF s1 s2 o1 o2 ops1 ops2 S1 S2 H1 H2 B1 B2 F1 F2 k d1 d2).
Qed.
Print Assumptions C01_agreement_dynamic_gap.

(* ... hence the shorter delivered sequence is a prefix of the longer one ([cbodyD d], Proofs/BlockPeersD.v, is the
   6-tuple of C01_agreement_dynamic_gap) *)
Theorem C01_agreement_prefix_dynamic_gap : forall all genesis self1 self2 oracle1 oracle2 ops1 ops2,
  ids_determine all -> sigkeys_determine all -> fork_free all -> self1 <> -1 -> self2 <> -1 ->
  Forall (hop_ok all) ops1 -> Forall (hop_ok all) ops2 ->
  gap_runb (init_hg self1 genesis oracle1) ops1 = true -> gap_runb (init_hg self2 genesis oracle2) ops2 = true ->
  let st1 := hrun (init_hg self1 genesis oracle1) ops1 in
  let st2 := hrun (init_hg self2 genesis oracle2) ops2 in
  failed st1 = false -> failed st2 = false ->
  (length (delivered st1) <= length (delivered st2))%nat ->
  map cbodyD (delivered st1) = firstn (length (delivered st1)) (map cbodyD (delivered st2)).
Proof.
  exact (fun all g s1 s2 o1 o2 ops1 ops2 ID SK FF => blocks_prefix_gap all g ID SK FF s1 s2 o1 o2 ops1 ops2).
Qed.
Print Assumptions C01_agreement_prefix_dynamic_gap.

(* ... and in ALL fields, the frame included: the statement of C01_agreement with the distance bound (and non-failure)
   in place of [no_accept] *)
Theorem C01_agreement_full_dynamic_gap : forall all genesis self1 self2 oracle1 oracle2 ops1 ops2 k d1 d2,
  ids_determine all -> sigkeys_determine all -> fork_free all -> self1 <> -1 -> self2 <> -1 ->
  Forall (hop_ok all) ops1 -> Forall (hop_ok all) ops2 ->
  gap_runb (init_hg self1 genesis oracle1) ops1 = true -> gap_runb (init_hg self2 genesis oracle2) ops2 = true ->
  let st1 := hrun (init_hg self1 genesis oracle1) ops1 in
  let st2 := hrun (init_hg self2 genesis oracle2) ops2 in
  failed st1 = false -> failed st2 = false ->
  nth_error (delivered st1) k = Some d1 -> nth_error (delivered st2) k = Some d2 ->
  (b_index d1, b_rr d1, b_ts d1, b_txs d1, b_itxs d1, b_frame d1, b_peers d1) =
  (b_index d2, b_rr d2, b_ts d2, b_txs d2, b_itxs d2, b_frame d2, b_peers d2).
Proof.
  exact (fun all g s1 s2 o1 o2 ops1 ops2 k d1 d2 ID SK FF S1 S2 H1 H2 B1 B2 F1 F2 =>
           blocks_agree_gap_cbody all g ID SK FF s1 s2 o1 o2 ops1 ops2 S1 S2 H1 H2 B1 B2 F1 F2 k d1 d2).
Qed.
Print Assumptions C01_agreement_full_dynamic_gap.

Theorem C01_agreement_full_prefix_dynamic_gap : forall all genesis self1 self2 oracle1 oracle2 ops1 ops2,
  ids_determine all -> sigkeys_determine all -> fork_free all -> self1 <> -1 -> self2 <> -1 ->
  Forall (hop_ok all) ops1 -> Forall (hop_ok all) ops2 ->
  gap_runb (init_hg self1 genesis oracle1) ops1 = true -> gap_runb (init_hg self2 genesis oracle2) ops2 = true ->
  let st1 := hrun (init_hg self1 genesis oracle1) ops1 in
  let st2 := hrun (init_hg self2 genesis oracle2) ops2 in
  failed st1 = false -> failed st2 = false ->
  (length (delivered st1) <= length (delivered st2))%nat ->
  map cbody (delivered st1) = firstn (length (delivered st1)) (map cbody (delivered st2)).
Proof.
  exact (fun all g s1 s2 o1 o2 ops1 ops2 ID SK FF => blocks_prefix_gap_cbody all g ID SK FF s1 s2 o1 o2 ops1 ops2).
Qed.
Print Assumptions C01_agreement_full_prefix_dynamic_gap.

(* the peers field of a delivered block, in EVERY run that has not failed (no distance bound, no second node): it is
   the validator set the table of the node gives for the block's round-received, which is genesis modified, in block
   order, by exactly the accepted receipts of the delivered blocks with round-received + 6 <= that round *)
Theorem C01_block_peers_dynamic : forall all self_ genesis oracle_ ops d,
  self_ <> -1 -> ids_determine all -> Forall (hop_ok all) ops ->
  let st := hrun (init_hg self_ genesis oracle_) ops in
  failed st = false -> In d (delivered st) ->
  b_peers d = validators_at genesis (delivered st) (b_rr d) /\ get_peerset st (b_rr d) = Some (b_peers d).
Proof. exact block_peers_spec. Qed.
Print Assumptions C01_block_peers_dynamic.

(* REGRESSION WITNESS for fix 05eda0b (known finding C01-fame-threshold-after-shrink): A SECOND FORK UNDER
   DYNAMIC MEMBERSHIP, INDEPENDENT OF THE WINDOW, in the code before the fix.  DecideFame decided at a round-j witness
   with the super-majority of the peer-set of round j (`t >= jPeerSet.SuperMajority()`), but the votes it counts are
   those of the round j-1 witnesses (up to |set(j-1)| of them, strongly-seen with set(j-1)).  When the set shrinks from
   5 to 4 at round j (a leave accepted 6 rounds earlier) three equal votes out of five decided: one round-7 witness
   counts 3 no / 2 yes and decided NOT famous; the three others count 2 no / 2 yes (tie = yes) and a round-8 witness
   decides FAMOUS with their 3 yes.  64 events, 5 validators, every coin bit true, both nodes respect the distance
   bound and the window, same table, same rounds on both; node B receives one event (60) later than node A.
   [fame_old] = the voting loop with the pre-fix quorum (Proofs/ShrinkWitness.v, used only there): "not famous" on A's
   view after event 60, "famous" on B's view (everything but 60); before the fix the blocks of index 4 differed on two
   real cores (corpus/C01-shrink-fork.json, replayed on every run: it must not fork any more).  With the fix (quorum =
   super-majority of the voters' set, round j-1; Model/HgImpl.v [vparams_of]) event 60 does not decide and both nodes
   decide "famous" at 62; the recorded history gives the same six blocks on both nodes. *)
Example C01_fame_threshold_regression :
  let a60 := hrun (init_hg 0 sh_g []) (map HInsert (firstn 61 sh_all)) in
  let b63 := hrun (init_hg 1 sh_g []) (map HInsert (firstn 63 sh_all')) in
  nth_error sh_all 60 = Some (sh_ev (60, 0, 11, 44, 59)) /\ nth_error sh_all' 63 = Some (sh_ev (60, 0, 11, 44, 59)) /\
  failed a60 = false /\ failed b63 = false /\ last_round a60 = 7 /\ last_round b63 = 8 /\
  fame_old a60 35 5 = Some (Some false) /\ fame_old b63 35 5 = Some (Some true) /\
  fame_of a60 35 5 = Some None /\ fame_of b63 35 5 = Some (Some true) /\
  fame_of (hrun (init_hg 0 sh_g []) (map HInsert sh_all)) 35 5 = Some (Some true).
Proof. exact (proj1 sh_facts). Qed.

Example C01_shrink_fork_witness :
  forallb e_coin sh_all = true /\
  gap_runb (init_hg 0 sh_g []) (map HInsert sh_all) = true /\ gap_runb (init_hg 1 sh_g []) (map HInsert sh_all') = true /\
  window_runb (init_hg 0 sh_g []) (map HInsert sh_all) = true /\ window_runb (init_hg 1 sh_g []) (map HInsert sh_all') = true /\
  let sa := hrun (init_hg 0 sh_g []) (map HInsert sh_all) in
  let sb := hrun (init_hg 1 sh_g []) (map HInsert sh_all') in
  failed sa = false /\ failed sb = false /\
  peersets sa = peersets sb /\ map (fun p => (fst p, length (snd p))) (peersets sa) = [(0, 5%nat); (7, 4%nat)] /\
  map (rnd sa) (zseq 0 64) = map (rnd sb) (zseq 0 64) /\
  fame_row sa 5 = [(35, TTrue); (36, TTrue); (37, TTrue); (38, TTrue); (39, TTrue)] /\
  fame_row sb 5 = [(35, TTrue); (36, TTrue); (37, TTrue); (38, TTrue); (39, TTrue)] /\
  length (delivered sa) = 6%nat /\
  map (fun b => (b_index b, b_rr b, b_txs b)) (delivered sa) = map (fun b => (b_index b, b_rr b, b_txs b)) (delivered sb) /\
  option_map (fun b => (b_index b, b_rr b, b_txs b)) (nth_error (delivered sa) 4) = Some (4, 5, [28; 29; 30; 31; 32; 33]).
Proof. exact (proj2 sh_facts). Qed.

(* non-vacuity on the two nodes above: node 1 (17 events) has delivered 6 blocks, node 0 (24 events) 9;
   the six are the first six of the nine *)
Example C01_example_blocks :
  sigkeys_determine c01_all /\
  length (delivered c01_st2) = 6%nat /\ length (delivered c01_st1) = 9%nat /\
  map cbody (delivered c01_st2) = firstn 6 (map cbody (delivered c01_st1)) /\
  map (fun d => (b_index d, b_rr d, b_txs d)) (delivered c01_st2) =
    [(0, 1, [0; 1]); (1, 2, [2; 3]); (2, 3, [4; 5]); (3, 4, [6; 7]); (4, 5, [8; 9]); (5, 6, [10; 11])].
Proof. split; [apply sigkeys_determine_distinct; vm_compute; reflexivity|]. exact (proj1 c01_facts). Qed.
