(* C11 Crash recovery: bootstrap from the database reproduces the same chain.  Statements only.

   Model (Model/Recovery.v): the Badger database is the LOG of the node's committed write
   transactions; a crash leaves the database denoted by a PREFIX of that log (ASSUMED of Badger:
   per-transaction atomicity, durability in commit order); [bootstrap] is Hashgraph.Bootstrap after
   newCore on the reopened store (peer set 0, topological events 0,1,2,.. until the first missing key,
   batches of 100 through the unchanged HgImpl pipeline with DB writes off, ProcessSigPool after every
   batch with BadgerStore.GetBlock's cache-then-database lookup behind the LastBlockIndex test of fix
   d90db55), [head_seq] is core.setHeadAndSeq.  [bootstrap_cur] / [recovered] are the code as it stands;
   [recovered_unguarded] is the same with the ProcessSigPool of before d90db55 (regression witness only).

   A node's life is a list of operations [nop] (insertion attempts of arbitrary events, valid or not, and
   ProcessSigPool calls) from any genesis set; [node_log] is what it writes (the entries Bootstrap can
   read back; the others are shown invisible); the crash point k ranges over EVERY entry of the log,
   i.e. also between the several writes of one operation.  [ops_started .. k] operations had written
   their first entry; [pre_state .. k] is the node as it was when those operations completed (the new
   event of an insertion is written BEFORE its consensus passes and commits run, so everything the node
   delivered before the crash was delivered by those operations: it is an initial segment of
   [delivered (pre_state .. k)], theorem C11_delivered_before_is_prefix).

   Premise [wf]: event identifiers (hash ordinals) determine the events offered to the node, and are
   non-negative (SHA-256 collision freedom on the history; the premise of C07).
   What the DB form of an event loses (round, lamport timestamp, round-received: recomputed) and what it
   keeps but Bootstrap overwrites (topological index, coordinates) is stated in Model/Recovery.v.
   NOT covered: a node that fast-forwarded (Hashgraph.Reset restarts the topological counter: "WE CAN ONLY
   BOOTSTRAP FROM 0"), cache eviction (store cache larger than the history, as in HgImpl). *)
From Coq Require Import ZArith List Bool.
From V Require Import Model.ZMap Model.Quorum Model.HgImpl Model.Recovery
  Proofs.AdmissionProofs Proofs.BlockInv Proofs.HgSim Proofs.RecoveryProofs Proofs.RecoveryWitness.
Import ListNotations.
Open Scope Z_scope.

(* Bootstrap never fails on a database left by a crash: no topological gap, every replayed event is
   admitted again *)
Theorem C11_bootstrap_succeeds : forall self_ genesis oracle_ ops k, wf (op_events ops) ->
  br_ok (recovered self_ genesis oracle_ ops k) = true.
Proof. exact (recover_ok true). Qed.
Print Assumptions C11_bootstrap_succeeds.

(* the recovered DAG is exactly the written one: the event table (with the RECOMPUTED rounds, lamport
   timestamps, round-received, coordinates, topological indexes), the per-creator indexes and
   KnownEvents equal those of the node when the started operations completed; an event is known
   iff its record is in the crashed database, with the same body *)
Theorem C11_known_exact : forall self_ genesis oracle_ ops k, wf (op_events ops) ->
  let r := recovered self_ genesis oracle_ ops k in
  let pre := pre_state self_ genesis oracle_ ops k in
  let d := crash_db self_ genesis oracle_ ops k in
  events (br_st r) = events pre /\ pevents (br_st r) = pevents pre /\ known_events (br_st r) = known_events pre /\
  (forall x es, get_event (br_st r) x = Some es -> zget x (db_ev d) = Some (ev_e es)) /\
  (forall x e, zget x (db_ev d) = Some e -> exists es, get_event (br_st r) x = Some es /\ ev_e es = e).
Proof. exact (recover_known_exact true). Qed.
Print Assumptions C11_known_exact.

(* HEADLINE.  For every history and EVERY crash point, the blocks delivered to the reset application
   during bootstrap are exactly the blocks of the node when the operations that had started completed
   (same bodies, same indexes, same order; the last block index too), hence (next theorem) every block
   delivered before the crash reappears identically at the same position; ProcessSigPool never
   consults a block of the previous life *)
Theorem C11_redelivers : forall self_ genesis oracle_ ops k, wf (op_events ops) ->
  br_db_block (recovered self_ genesis oracle_ ops k) = false /\
  delivered (br_st (recovered self_ genesis oracle_ ops k)) = delivered (pre_state self_ genesis oracle_ ops k) /\
  last_block (br_st (recovered self_ genesis oracle_ ops k)) = last_block (pre_state self_ genesis oracle_ ops k).
Proof. exact recover_redelivers_cur. Qed.
Print Assumptions C11_redelivers.

(* every delivery list of the node's past is an initial segment of the later ones: what was delivered
   before the crash (during the first i <= j operations) reappears identically, at the same positions *)
Theorem C11_delivered_before_is_prefix : forall self_ genesis oracle_ ops i j, (i <= j)%nat ->
  exists l, delivered (nrun (init_hg self_ genesis oracle_) (firstn j ops)) =
            delivered (nrun (init_hg self_ genesis oracle_) (firstn i ops)) ++ l.
Proof. exact delivered_before_is_prefix. Qed.
Print Assumptions C11_delivered_before_is_prefix.

(* run over a prefix of the insertion order delivers a prefix of the blocks *)
Theorem C11_run_prefix_delivered : forall st l1 l2, binv st ->
  exists l, delivered (run st (l1 ++ l2)) = delivered (run st l1) ++ l.
Proof. exact run_prefix_delivered. Qed.
Print Assumptions C11_run_prefix_delivered.

(* setHeadAndSeq after bootstrap: the head is the node's own recorded event of greatest index and seq is
   that index, so the next self-event (index seq+1) sits at a height no recorded own event occupies;
   without own events head/seq are ""/-1.  Every own event another node can have seen was written
   before it could be gossiped (Store.SetEvent inside InsertEvent precedes the return of
   addSelfEvent): environment fact, checked by the harness at every crash point *)
Theorem C11_no_self_fork : forall self_ genesis oracle_ ops k, wf (op_events ops) ->
  let rec := br_st (recovered self_ genesis oracle_ ops k) in
  let evs := pre_events self_ genesis oracle_ ops k in
  (forall e, In e evs -> e_creator e = self rec -> e_index e <= snd (head_seq rec)) /\
  ((head_seq rec = (-1, -1) /\ forall e, In e evs -> e_creator e <> self rec) \/
   exists e, In e evs /\ e_creator e = self rec /\ head_seq rec = (e_id e, e_index e)).
Proof. exact (recover_head_seq true). Qed.
Print Assumptions C11_no_self_fork.

(* resuming: on ANY continuation (insertion attempts and ProcessSigPool calls) the recovered node keeps
   the admission invariant of C07 and the block-store invariant of C02, delivers exactly the blocks the
   node that never crashed delivers, and stays equal to it in every component but blocks' collected
   signatures, anchor block and pending signatures ([simr true]).  Agreement with the rest of the
   network is therefore inherited from the un-crashed node *)
Theorem C11_continues : forall all self_ genesis oracle_ ops k ops',
  wf all -> incl (op_events ops) all -> incl (op_events ops') all ->
  let rec := br_st (recovered self_ genesis oracle_ ops k) in
  let pre := pre_state self_ genesis oracle_ ops k in
  dag_ok (nrun rec ops') /\ binv (nrun rec ops') /\ simr true (nrun rec ops') (nrun pre ops') /\
  delivered (nrun rec ops') = delivered (nrun pre ops').
Proof. exact recover_continues_cur. Qed.
Print Assumptions C11_continues.

(* the writes of the real node that are not in [node_log] (rounds, frames, later peer sets, rewrites of
   an already written event record) do not change what Bootstrap computes *)
Theorem C11_bootstrap_ignores_other_writes : forall self_ genesis oracle_ d evs w,
  dbev_ok d evs -> invisible d w ->
  bootstrap_cur self_ genesis oracle_ (db_apply d w) = bootstrap_cur self_ genesis oracle_ d.
Proof. exact (bootstrap_ignores true). Qed.
Print Assumptions C11_bootstrap_ignores_other_writes.

(* the running node's ProcessSigPool (HgImpl.process_sig, no database) is unchanged by the test added in
   d90db55: no block is ever stored above the last block index *)
Theorem C11_guard_redundant_in_memory : forall st s, binv st ->
  process_sig st s = if last_block st <? bs_index s then st else process_sig st s.
Proof. exact process_sig_guard_redundant. Qed.
Print Assumptions C11_guard_redundant_in_memory.

(* regression witness for ProcessSigPool before fix d90db55: 115 events of one validator, event 1 carries a signature of block 105; after a clean
   shutdown the replay reached the first ProcessSigPool (after 100 events) with blocks 0..96 re-created,
   found block 105 of the previous life in the DATABASE, stored it, and numbered the next blocks
   106, 107, ... .  On the real code: harness/cmd/crash -byz (scenario early-signature), which every run
   of the check stages and which must show identical re-delivery; reverting d90db55 makes it fail *)
Theorem C11_unguarded_bootstrap_redelivers_shifted : exists self_ genesis oracle_ ops k, wf (op_events ops) /\
  map b_index (delivered (br_st (recovered_unguarded self_ genesis oracle_ ops k))) <>
  map b_index (delivered (pre_state self_ genesis oracle_ ops k)).
Proof. exact (ex_intro _ 0 (ex_intro _ w_genesis (ex_intro _ w_oracle (ex_intro _ (w_ops 115) (ex_intro _ 1000%nat (conj (w_wf 115) w_unguarded_shifted)))))). Qed.
Print Assumptions C11_unguarded_bootstrap_redelivers_shifted.

(* the unguarded function failed exactly when it took a block from the database *)
Theorem C11_unguarded_bootstrap_exact_unless_db_block : forall self_ genesis oracle_ ops k, wf (op_events ops) ->
  br_db_block (recovered_unguarded self_ genesis oracle_ ops k) = false ->
  delivered (br_st (recovered_unguarded self_ genesis oracle_ ops k)) = delivered (pre_state self_ genesis oracle_ ops k).
Proof. exact (fun s g o ops k W E => proj1 (proj2 (recover_redelivers false s g o ops k W (or_intror E)))). Qed.
Print Assumptions C11_unguarded_bootstrap_exact_unless_db_block.

(* non-vacuity: the witness history crashed in the middle of its 52nd operation (150 log entries):
   premises hold, 49 blocks re-delivered, head/seq restored; and the regression history with the code as
   it stands: same indexes as before the shutdown, the early signature attached to the re-created block *)
Example C11_example :
  let r := recovered 0 w_genesis w_oracle (w_ops 115) 150 in
  ops_started 0 w_genesis w_oracle (w_ops 115) 150 = 52%nat /\
  br_ok r = true /\ br_db_block r = false /\
  length (delivered (br_st r)) = 49%nat /\
  map b_index (delivered (br_st r)) = map b_index (delivered (pre_state 0 w_genesis w_oracle (w_ops 115) 150)) /\
  head_seq (br_st r) = (51, 51) /\ known_events (br_st r) = [(0, 51)].
Proof. exact w_example. Qed.

Example C11_example_regression_history :
  let r := recovered 0 w_genesis w_oracle (w_ops 115) 1000 in
  br_ok r = true /\ br_db_block r = false /\
  map b_index (skipn 95 (delivered (br_st r))) =
    [95; 96; 97; 98; 99; 100; 101; 102; 103; 104; 105; 106; 107; 108; 109; 110; 111] /\
  option_map b_sigs (zget 105 (blocks (br_st r))) = Some [(0, 105)].
Proof. exact w_guarded_same. Qed.
