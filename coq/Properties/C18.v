(* C18 Block timestamps are Byzantine-tolerant medians.
   Statements only; every proof is `exact <lemma>`.

   Go code: src/common/median.go ; executable model: Model/Median.v (wrap64, sortZ, median).

   NOTE ON THE RANGE PREMISE.  With the closed range  -2^62 <= h <= 2^62  on the honest values
   the statement is FALSE: two honest values equal to 2^62 sum to 2^63, which wraps to -2^63 in
   int64, and the "median" becomes -2^62 (see C18_closed_range_refuted / C18_corner_value below).
   The premise is therefore  -2^62 <= h <= 2^62 - 1  (i.e. -2^62 <= h < 2^62): exactly the
   condition that the sum of two honest values stays in the int64 range [-2^63, 2^63 - 1].
   No assumption whatsoever is made on the Byzantine values (arbitrary Z).

   The C18_block_timestamp theorems tie the median to the hashgraph model (Model/HgImpl.v get_frame /
   block_of_frame / commit): the timestamp of every delivered block IS that median, over the famous witnesses of
   the block's round-received, in every reachable state (Proofs/TidyC18.v). *)
From Coq Require Import ZArith List Bool Sorted Permutation.
From V Require Import Model.ZMap Model.Quorum Model.Median Model.MedianAux Model.HgImpl
  Proofs.MedianProofs Proofs.AdmissionProofs Proofs.BlockInv Proofs.OrderProofs Proofs.TidyC18.
Import ListNotations.
Open Scope Z_scope.

Theorem C18_sortZ_sorted : forall l, Sorted Z.le (sortZ l).
Proof. exact sortZ_sorted. Qed.
Print Assumptions C18_sortZ_sorted.

Theorem C18_sortZ_strongly_sorted : forall l, StronglySorted Z.le (sortZ l).
Proof. exact sortZ_ssorted. Qed.
Print Assumptions C18_sortZ_strongly_sorted.

Theorem C18_sortZ_perm : forall l, Permutation (sortZ l) l.
Proof. exact sortZ_perm. Qed.
Print Assumptions C18_sortZ_perm.

Theorem C18_sortZ_perm_invariant : forall l l', Permutation l l' -> sortZ l = sortZ l'.
Proof. exact sortZ_perm_invariant. Qed.
Print Assumptions C18_sortZ_perm_invariant.

(* the median does not depend on the order of its input *)
Theorem C18_median_order_independent : forall l l', Permutation l l' -> median l = median l'.
Proof. exact median_perm_invariant. Qed.
Print Assumptions C18_median_order_independent.

Theorem C18_median_bft : forall (hon byz l : list Z),
  Permutation l (hon ++ byz) ->
  (2 * length byz < length hon + length byz)%nat ->
  (forall h, In h hon -> - 2 ^ 62 <= h <= 2 ^ 62 - 1) ->
  forall lo hi, (forall h, In h hon -> lo <= h <= hi) ->
  lo <= median l <= hi.
Proof. exact median_bft. Qed.
Print Assumptions C18_median_bft.

(* for an odd number of famous witnesses no range premise is needed at all *)
Theorem C18_median_bft_odd : forall (hon byz l : list Z) m,
  Permutation l (hon ++ byz) ->
  length l = (2 * m + 1)%nat ->
  (2 * length byz < length hon + length byz)%nat ->
  forall lo hi, (forall h, In h hon -> lo <= h <= hi) ->
  lo <= median l <= hi.
Proof. exact median_bft_odd. Qed.
Print Assumptions C18_median_bft_odd.

(* the key positional facts on the sorted list *)
Theorem C18_sorted_nth_between : forall l hon byz lo hi k,
  Permutation l (hon ++ byz) ->
  (forall h, In h hon -> lo <= h <= hi) ->
  (length byz <= k)%nat -> (k + length byz < length l)%nat ->
  lo <= nth k (sortZ l) 0 <= hi.
Proof. exact sorted_nth_between. Qed.
Print Assumptions C18_sorted_nth_between.

Theorem C18_third_corollary : forall (hon byz l : list Z),
  Permutation l (hon ++ byz) ->
  (3 * length byz < length hon + length byz)%nat ->
  (forall h, In h hon -> - 2 ^ 62 <= h <= 2 ^ 62 - 1) ->
  forall lo hi, (forall h, In h hon -> lo <= h <= hi) ->
  lo <= median l <= hi.
Proof. exact median_bft_third. Qed.
Print Assumptions C18_third_corollary.

(* instantiated at the smallest and largest honest time *)
Theorem C18_third_minmax : forall (hon byz l : list Z),
  Permutation l (hon ++ byz) ->
  (3 * length byz < length hon + length byz)%nat ->
  (forall h, In h hon -> - 2 ^ 62 <= h <= 2 ^ 62 - 1) ->
  list_min hon <= median l <= list_max hon.
Proof. exact median_bft_minmax. Qed.
Print Assumptions C18_third_minmax.

Theorem C18_median_singleton : forall x, median [x] = x.
Proof. exact median_singleton. Qed.
Print Assumptions C18_median_singleton.

Theorem C18_median_odd_In : forall l m, length l = (2 * m + 1)%nat -> In (median l) l.
Proof. exact median_odd_In. Qed.
Print Assumptions C18_median_odd_In.

Theorem C18_median_in_int64 : forall l,
  (forall x, In x l -> in_int64 x) -> in_int64 (median l).
Proof. exact median_in_int64. Qed.
Print Assumptions C18_median_in_int64.

(* two honest values 2^62+1, no Byzantine value at all: the "median" is negative *)
Example C18_wrap_needed :
  median [2 ^ 62 + 1; 2 ^ 62 + 1] = - (2 ^ 62 - 1) /\ median [2 ^ 62 + 1; 2 ^ 62 + 1] < 0.
Proof. vm_compute. split; reflexivity. Qed.

Theorem C18_wrap_needed_full :
  let hon := [2 ^ 62 + 1; 2 ^ 62 + 1] in
  let byz := @nil Z in
  Permutation hon (hon ++ byz) /\
  (2 * length byz < length hon + length byz)%nat /\
  (forall h, In h hon -> 2 ^ 62 + 1 <= h <= 2 ^ 62 + 1) /\
  median hon = - (2 ^ 62 - 1) /\ median hon < 0 /\
  ~ (2 ^ 62 + 1 <= median hon <= 2 ^ 62 + 1).
Proof. exact median_wrap_needed. Qed.
Print Assumptions C18_wrap_needed_full.

(* the corner case: honest values in the CLOSED range [-2^62, 2^62] are not enough *)
Example C18_corner_value : median [2 ^ 62; 2 ^ 62] = - 2 ^ 62.
Proof. vm_compute. reflexivity. Qed.

Theorem C18_closed_range_refuted : ~ median_bft_closed_range_statement.
Proof. exact median_bft_closed_range_refuted. Qed.
Print Assumptions C18_closed_range_refuted.

(* the lower corner is fine: -2^62 + -2^62 = -2^63 does not wrap *)
Example C18_lower_corner_value : median [- 2 ^ 62; - 2 ^ 62] = - 2 ^ 62.
Proof. vm_compute. reflexivity. Qed.

Example C18_example_low : 100 <= median [101; - 2 ^ 63; 100; 102] <= 102.
Proof.
  exact (C18_median_bft [100; 101; 102] [- 2 ^ 63] [101; - 2 ^ 63; 100; 102]
           (sortZ_eq_perm [101; - 2 ^ 63; 100; 102] ([100; 101; 102] ++ [- 2 ^ 63]) eq_refl)
           (proj1 (Nat.leb_le 3 4) eq_refl)
           hon_example_range 100 102 hon_example_bounds).
Qed.

Example C18_example_high : 100 <= median [2 ^ 63 - 1; 102; 100; 101] <= 102.
Proof.
  exact (C18_median_bft [100; 101; 102] [2 ^ 63 - 1] [2 ^ 63 - 1; 102; 100; 101]
           (sortZ_eq_perm [2 ^ 63 - 1; 102; 100; 101] ([100; 101; 102] ++ [2 ^ 63 - 1]) eq_refl)
           (proj1 (Nat.leb_le 3 4) eq_refl)
           hon_example_range 100 102 hon_example_bounds).
Qed.

Example C18_example_third :
  list_min [100; 101; 102; 103; 104] <= median [2 ^ 63 - 1; 102; 104; 100; - 2 ^ 63; 103; 101]
    <= list_max [100; 101; 102; 103; 104].
Proof. exact median_example_third. Qed.

(* the actual values *)
Example C18_example_values :
  median [101; - 2 ^ 63; 100; 102] = 100 /\ median [2 ^ 63 - 1; 102; 100; 101] = 101 /\
  median [2 ^ 63 - 1; 102; 104; 100; - 2 ^ 63; 103; 101] = 102 /\
  sortZ [3; -1; 2; -1] = [-1; -1; 2; 3] /\ median [3; -1; 2; -1] = 0 /\ median [-3; -4] = -3.
Proof. vm_compute. repeat split. Qed.

(* [hrun]: any sequence of insertion attempts (valid or not) and ProcessSigPool calls from any
   genesis; hypotheses as in C04 (identifiers determine events, numbered from 0).
   [fws st r]  = the famous witnesses of round r as the round table of st reports them,
   [ets st w]  = Body.Timestamp of the stored event w.
   The timestamp of every delivered block is the median of the timestamps of the famous witnesses
   of its round-received -- read in the state at hand, at delivery or at any later time: the set
   is frozen once the round has been processed and stored events keep their body --, it is the
   frame's timestamp, and these witnesses are stored (admitted) events. *)
Theorem C18_block_timestamp_is_median : forall all self_ genesis oracle_ ops d,
  ids_determine all -> Forall (hop_ok all) ops ->
  let st := hrun (init_hg self_ genesis oracle_) ops in
  In d (delivered st) ->
  b_ts d = median (map (ets st) (fws st (b_rr d))) /\
  b_ts d = f_ts (b_frame d) /\
  (forall w, In w (fws st (b_rr d)) -> exists ex, get_event st w = Some ex /\ ets st w = e_ts (ev_e ex)).
Proof. exact block_timestamp_is_median. Qed.
Print Assumptions C18_block_timestamp_is_median.

(* [fws] is the famous-witness list of the RoundInfo, which exists for every delivered block's
   round when no pass returned a store error *)
Theorem C18_famous_witnesses_of_round : forall all self_ genesis oracle_ ops d,
  ids_determine all -> Forall (hop_ok all) ops ->
  let st := hrun (init_hg self_ genesis oracle_) ops in
  failed st = false -> In d (delivered st) ->
  exists ri, get_round st (b_rr d) = Some ri.
Proof. exact delivered_round_present. Qed.
Print Assumptions C18_famous_witnesses_of_round.
Theorem C18_fws_is_round_info : forall st r ri, get_round st r = Some ri -> fws st r = famous_witnesses ri.
Proof. exact fws_round. Qed.
Print Assumptions C18_fws_is_round_info.

(* THE PROPERTY.  [is_byz] marks the Byzantine famous witnesses of the block's round (arbitrary
   timestamps); the others are honest.  Fewer than half Byzantine + honest timestamps in the
   no-wrap range => the block timestamp lies between the smallest and the largest honest one. *)
Theorem C18_block_timestamp_in_honest_range : forall all self_ genesis oracle_ ops d (is_byz : Z -> bool),
  ids_determine all -> Forall (hop_ok all) ops ->
  let st := hrun (init_hg self_ genesis oracle_) ops in
  In d (delivered st) ->
  let fw := fws st (b_rr d) in
  let hon := map (ets st) (filter (fun w => negb (is_byz w)) fw) in
  (2 * length (filter is_byz fw) < length fw)%nat ->
  (forall h, In h hon -> - 2 ^ 62 <= h <= 2 ^ 62 - 1) ->
  list_min hon <= b_ts d <= list_max hon.
Proof. exact block_timestamp_in_honest_range. Qed.
Print Assumptions C18_block_timestamp_in_honest_range.

(* a fortiori with fewer than a third Byzantine (the protocol's assumption) *)
Theorem C18_block_timestamp_in_honest_range_third : forall all self_ genesis oracle_ ops d (is_byz : Z -> bool),
  ids_determine all -> Forall (hop_ok all) ops ->
  let st := hrun (init_hg self_ genesis oracle_) ops in
  In d (delivered st) ->
  let fw := fws st (b_rr d) in
  let hon := map (ets st) (filter (fun w => negb (is_byz w)) fw) in
  (3 * length (filter is_byz fw) < length fw)%nat ->
  (forall h, In h hon -> - 2 ^ 62 <= h <= 2 ^ 62 - 1) ->
  list_min hon <= b_ts d <= list_max hon.
Proof. exact block_timestamp_in_honest_range_third. Qed.
Print Assumptions C18_block_timestamp_in_honest_range_third.

(* with an odd number of famous witnesses no range premise is needed *)
Theorem C18_block_timestamp_in_honest_range_odd : forall all self_ genesis oracle_ ops d (is_byz : Z -> bool) m,
  ids_determine all -> Forall (hop_ok all) ops ->
  let st := hrun (init_hg self_ genesis oracle_) ops in
  In d (delivered st) ->
  let fw := fws st (b_rr d) in
  let hon := map (ets st) (filter (fun w => negb (is_byz w)) fw) in
  length fw = (2 * m + 1)%nat ->
  (2 * length (filter is_byz fw) < length fw)%nat ->
  list_min hon <= b_ts d <= list_max hon.
Proof. exact block_timestamp_in_honest_range_odd. Qed.
Print Assumptions C18_block_timestamp_in_honest_range_odd.

(* non-vacuity: three validators gossiping in a ring; event k is created by validator k mod 3;
   validators 0 and 1 stamp 1000 + 10k, validator 2 is Byzantine and stamps nearly 2^63.  Five
   blocks are delivered; each round has three famous witnesses, one of them Byzantine; every block
   timestamp is an honest one (the larger of the two, the median of three with one huge value). *)
Definition c18_g : peerset := [mkPeer 100 0; mkPeer 101 1; mkPeer 102 2].
Definition c18_ev (k : Z) : event :=
  mkEvent k (k mod 3) (k / 3) (if k <? 3 then -1 else k - 3) (if k =? 0 then -1 else k - 1)
          (if k mod 3 =? 2 then 2 ^ 63 - 1 - k else 1000 + 10 * k)
          (Z.even (k / 3)) (100 - k) [k] [] [] true.
Definition c18_all : list event := map c18_ev (zseq 0 30).
Definition c18_ops : list hop := map HInsert c18_all ++ [HSigPool].
Definition c18_st : hg := hrun (init_hg 0 c18_g [7; 8; 9; 10; 11; 12; 13; 14; 15]) c18_ops.
Definition c18_byz (w : Z) : bool := w mod 3 =? 2.

Example C18_example_blocks :
  ids_determine c18_all /\ Forall (hop_ok c18_all) c18_ops /\ failed c18_st = false /\
  map (fun d => (b_index d, b_rr d, b_ts d, fws c18_st (b_rr d), map (ets c18_st) (fws c18_st (b_rr d))))
      (delivered c18_st)
  = [(0, 1, 1060, [4; 5; 6], [1040; 9223372036854775802; 1060]);
     (1, 2, 1100, [8; 9; 10], [9223372036854775799; 1090; 1100]);
     (2, 3, 1130, [12; 13; 14], [1120; 1130; 9223372036854775793]);
     (3, 4, 1180, [16; 17; 18], [1160; 9223372036854775790; 1180]);
     (4, 5, 1220, [20; 21; 22], [9223372036854775787; 1210; 1220])] /\
  (* the hypotheses of C18_block_timestamp_in_honest_range hold for every delivered block *)
  forallb (fun d => let fw := fws c18_st (b_rr d) in
                    (2 * Z.of_nat (length (filter c18_byz fw)) <? Z.of_nat (length fw)) &&
                    forallb (fun h => (- 2 ^ 62 <=? h) && (h <=? 2 ^ 62 - 1))
                            (map (ets c18_st) (filter (fun w => negb (c18_byz w)) fw)))
          (delivered c18_st) = true.
Proof.
  split; [apply ids_determine_distinct; vm_compute; reflexivity|].
  split; [apply Forall_app; split; [apply hop_ok_inserts; vm_compute; reflexivity|repeat constructor]|].
  vm_compute. repeat split; reflexivity.
Qed.
