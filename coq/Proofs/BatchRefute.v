(* C03: for a fixed validator set the results DO depend on how insertions are batched between
   consensus passes.  Witness found by harness/cmd/sim -c03witness on the real code (15 events,
   2 validators, passes every 3 insertions) and evaluated here on the model. *)
From Coq Require Import ZArith List Bool.
From V Require Import Model.ZMap Model.Quorum Model.HgImpl Model.HgBatch.
Import ListNotations.
Open Scope Z_scope.

Definition bw (id c idx sp op : Z) (coin : bool) : event := mkEvent id c idx sp op 0 coin id [] [] [] true.
Definition bw_genesis : peerset := [mkPeer 100 0; mkPeer 101 1].
Definition bw_events : list event :=
  [bw 0 1 0 (-1) (-1) true; bw 1 1 1 (0) (-1) true; bw 2 1 2 (1) (-1) true; bw 3 0 0 (-1) (2) true;
   bw 4 1 3 (2) (3) true; bw 5 1 4 (4) (-1) true; bw 6 1 5 (5) (-1) true; bw 7 1 6 (6) (-1) true;
   bw 8 0 1 (3) (7) true; bw 9 1 7 (7) (8) true; bw 10 0 2 (8) (9) true; bw 11 1 8 (9) (10) true;
   bw 12 0 3 (10) (11) true; bw 13 1 9 (11) (12) true; bw 14 0 4 (12) (13) true].

Definition bw_per_event := run (init_hg (-1) bw_genesis []) bw_events.
Definition bw_batched := run_batched 3 (init_hg (-1) bw_genesis []) bw_events.

Definition bw_rounds (st : hg) : list (option Z) := map (fun e => round_of_event st (e_id e)) bw_events.

(* the runs are written out: [exact] against a statement that names them only unfolds the names *)
Lemma bw_facts :
  let a := run (init_hg (-1) bw_genesis []) bw_events in let b := run_batched 3 (init_hg (-1) bw_genesis []) bw_events in
  bw_rounds a <> bw_rounds b /\ round_of_event a 13 = Some 4 /\ round_of_event b 13 = Some 3.
Proof. vm_compute. split; [discriminate|split; reflexivity]. Qed.

Lemma batching_changes_rounds : bw_rounds bw_per_event <> bw_rounds bw_batched.
Proof. exact (proj1 bw_facts). Qed.

Lemma batching_witness :
  exists genesis evs k x r1 r2,
    round_of_event (run (init_hg (-1) genesis []) evs) x = Some r1 /\
    round_of_event (run_batched k (init_hg (-1) genesis []) evs) x = Some r2 /\ r1 <> r2.
Proof.
  exists bw_genesis, bw_events, 3%nat, 13, 4, 3.
  split; [exact (proj1 (proj2 bw_facts))|]. split; [exact (proj2 (proj2 bw_facts))|discriminate].
Qed.
