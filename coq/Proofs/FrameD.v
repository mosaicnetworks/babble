(* Dynamic membership: what GetFrame computes, for a node that respects the distance bound.  Every cached frame
   satisfies the frame equations FED relative to the state at the end of the step that built it: its events are the
   frame events of that state; its roots are the pure function roots_fn of (i) the stored events, their rounds,
   witness flags and Lamport timestamps, (ii) the self-parent chains, (iii) the last consensus events of the frames of
   the lower rounds, (iv) the repertoire and first-round table, which are a function of the table snapshot f_peersets
   recorded in the frame itself (Proofs/FsvD.v). *)
From Coq Require Import ZArith List Bool Lia.
From RecordUpdate Require Import RecordSet.
From V Require Import Model.ZMap Model.Quorum Model.HgImpl Proofs.ZMapFacts Proofs.HgDagFrames Proofs.AdmissionProofs
  Proofs.HgBlockFrames Proofs.BlockInv Proofs.RoundOrder Proofs.OrderProofs Proofs.Static Proofs.CInvRun
  Proofs.Committed Proofs.FsvFrames Proofs.FrameFn Proofs.FrameInv Proofs.PeerSetProofs Proofs.GapWindow
  Proofs.FirstDescD Proofs.InsertInvD Proofs.CInvRunD Proofs.FameInvD Proofs.CommittedD Proofs.FsvD Proofs.BlockPeersD.
Import ListNotations RecordSetNotations.
Open Scope Z_scope.

Definition FED (S : hg) (R : Z) (f : frame) : Prop :=
  FE0 (fst (fsv_tbl (f_peersets f))) (snd (fsv_tbl (f_peersets f))) S R f.

Lemma freadyD_ext P s s' : cw s' = cw s -> lt_memo s' = lt_memo s -> dag_ok s' -> freadyD P s -> freadyD P s'.
Proof.
  intros Cw Lt OK [_ I Hl]. constructor; [exact OK|apply (cinvD_ckeepD P None s s' I (ckeepD_cw s s' Cw))|].
  destruct (cw_fields _ _ Cw) as [Ev _]. intros x ex. unfold get_event. rewrite Ev, Lt. apply Hl.
Qed.

(* the repertoire and the first-round table of the state are those of its validator-set table ([J]), which the new
   frame records *)
Definition KB (g : peerset) (s : hg) : Prop :=
  rinvA s /\ binv s /\ PeerSetProofs.finv s /\ c10inv g s /\ FPI g s /\ J s.
Definition KD (g : peerset) (P : Z -> peerset) (s0 s : hg) : Prop := freadyD P s0 /\ KB g s.

Lemma KD_round g P s0 s p R rest :
  pfoldD s0 ((R, true) :: rest) s -> KD g P s0 s -> pf2 (fun _ => FED) s0 s ->
  failed (fst (fst (process_round (s, p, false) (R, true)))) = false ->
  KD g P s0 (fst (fst (process_round (s, p, false) (R, true)))) /\
  forall f s1, zget R (frames s) = None -> get_frame s R = (Some f, s1) ->
    last_cons_ev s = lce_fn (creator_of s) (frames s) (Z.to_nat R) -> FED s R f.
Proof.
  intros PF [Fr0 [KA [KOK [KFI [KC [KFP KJ]]]]]] P2 _.
  pose proof (pf_above _ _ _ PF R (or_introl eq_refl)) as HlcR.
  split.
  - split; [exact Fr0|].
    destruct (process_round_lift (c10inv g) (fun st st' E _ => c10inv_ext g st st' E) (c10inv_commit g) s p false (R, true) KOK KFI KC) as [KFI' KC'].
    destruct (process_round_fp g s p false (R, true) KA HlcR KC (pf_fr _ _ _ PF) KFP KJ) as [_ [KFP' KJ']].
    split; [exact (proj1 (process_round_spec s p false (R, true) KA HlcR))|].
    split; [exact (process_round_binv s p false (R, true) KOK)|]. auto.
  - intros f s1 Hz Egf Hlce.
    pose proof (freadyD_ext P s0 s (q_cw _ _ _ P2) (q_lt _ _ _ P2) (q_dag _ _ _ P2) Fr0) as Fr.
    destruct (get_frame_new_spec s R f s1 Hz Egf) as [_ [_ [_ [_ [_ [_ [Hpsets _]]]]]]].
    unfold FED. rewrite Hpsets, <- KJ.
    exact (get_frame_FE0 P s R f s1 Fr (q_st _ _ _ P2) Hz Egf Hlce).
Qed.

Lemma kb_bview g s s' : bview s' = bview s -> fsv s' = fsv s ->
  binv s /\ PeerSetProofs.finv s /\ c10inv g s /\ FPI g s /\ J s ->
  binv s' /\ PeerSetProofs.finv s' /\ c10inv g s' /\ FPI g s' /\ J s'.
Proof.
  intros B F [A1 [A2 [A3 [A4 A5]]]].
  split; [apply (binv_bview s); auto|]. split; [apply (PeerSetProofs.finv_frames s); [apply bview_frames; exact B|exact A2]|].
  split; [apply (c10inv_ext g s); [apply bview_pview; exact B|exact A3]|]. split.
  - destruct (Committed.bview_fields _ _ B) as [Dl [Fr _]]. unfold FPI. rewrite Fr, Dl. exact A4.
  - apply (J_bview s); auto.
Qed.

Section RunF.
  Variables (self_ : Z) (genesis : peerset) (oracle_ : list Z) (all : list event) (ops : list hop).
  Hypothesis Hs : self_ <> -1.
  Hypothesis ID : ids_determine all.
  Hypothesis H : Forall (hop_ok all) ops.
  Hypothesis Hg : gap_runb (init_hg self_ genesis oracle_) ops = true.
  Variable P : Z -> peerset.
  Hypothesis HP : forall q, 0 <= q <= last_round (hrun (init_hg self_ genesis oracle_) ops) ->
    P q = psat (hrun (init_hg self_ genesis oracle_) ops) q.
  Let pre (k : nat) := hrun (init_hg self_ genesis oracle_) (firstn k ops).

  Record finv2D (k : nat) : Prop := {
    g2_fc : forall R', 0 <= R' -> lcle (pre k) R' -> zget R' (frames (pre k)) <> None;
    g2_lce : forall n, (forall R' f', zget R' (frames (pre k)) = Some f' -> R' < Z.of_nat n) ->
             last_cons_ev (pre k) = lce_fn (creator_of (pre k)) (frames (pre k)) n;
    g2_fe : forall R f, zget R (frames (pre k)) = Some f ->
            exists j, (j <= k)%nat /\ FED (pre j) R f /\ zget R (frames (pre j)) = Some f
  }.

  Theorem finv2_preD k : failed (pre k) = false -> finv2D k.
  Proof.
    pose proof (pinv_preD self_ genesis oracle_ all ops Hs ID H Hg P HP) as PIN. cbv zeta in PIN.
    pose proof (gap_along self_ genesis oracle_ all ops P Hs ID H Hg HP) as Al.
    unfold pre in *. revert k. apply (along_ind_k P all self_ genesis oracle_ ops Al finv2D); unfold prefix.
    - destruct (init_frames_lce self_ genesis oracle_) as [Fr [Le Lc]].
      assert (Z0 : forall R, zget R (frames (init_hg self_ genesis oracle_)) = None) by (intros R; rewrite Fr; apply zget_empty).
      constructor; unfold pre; cbn [firstn hrun fold_left].
      + intros R' _ [l [Hl _]]. rewrite Lc in Hl. discriminate.
      + intros n _. rewrite Le. symmetry. apply lce_fn_nil. exact Z0.
      + intros R f Hz. rewrite Z0 in Hz. discriminate.
    - intros k E [Fc Le Fe]. unfold pre in Fc, Le, Fe.
      constructor; unfold pre; rewrite E; [exact Fc|exact Le|].
      intros R f Hz. destruct (Fe R f Hz) as [j [Hj X]]. exists j. split; [lia|exact X].
    - intros k o ES Sd [Fc Le Fe]. unfold pre in Fc, Le, Fe.
      pose proof (stepD_nf _ _ _ _ Sd) as Hfk. pose proof (sd_f _ _ _ _ Sd) as Hf.
      destruct (along_facts P all self_ genesis oracle_ ops Al (S k)) as [Gi' _]; [unfold prefix; rewrite ES; exact Hf|].
      unfold prefix in Gi'. rewrite ES in Gi'. destruct Sd as [_ Ho Gi LA R Hne I _ Tq].
      pose proof (hrun_KP genesis (firstn k ops) _ (KP_init self_ genesis oracle_ Hs) Hfk) as [_ KOK KFI KC _ KFP KJ].
      set (st := hrun (init_hg self_ genesis oracle_) (firstn k ops)) in *.
      assert (Kins : forall e s, o = HInsert e -> insert_event st e = (InsOk, s) ->
                let s3 := decide_round_received (decide_fame (divide_rounds s)) in
                rinv s3 -> dag_ok s3 /\ KD genesis P s3 s3 /\ forall R0 f, FED (hstep st o) R0 f -> FED (hstep st o) R0 f).
      { intros e s -> E s3 R3. destruct Ho as [Hin Hid].
        pose proof (g_dag _ _ (gi_core _ _ Gi)) as OK. pose proof (g_from _ _ (gi_core _ _ Gi)) as FA.
        pose proof (insert_event_bview st e) as Bv. pose proof (insert_event_rstep st e) as Sr. pose proof (insert_event_fsv st e) as Fv.
        rewrite E in Bv, Sr, Fv. cbn [snd] in Bv, Sr, Fv.
        destruct (insert_event_inv st e all InsOk s OK FA ID Hin Hid E) as [OK' _].
        destruct (insert_cinvD P all st e s OK LA FA ID Hin Hid I E) as [Is Hund].
        assert (Est' : hstep st (HInsert e) = run_consensus s) by (cbn [hstep]; unfold step, insert_and_run; rewrite E; reflexivity).
        assert (Hf'' : failed (run_consensus s) = false) by (rewrite <- Est'; exact Hf).
        assert (Hpss : forall q, 0 <= q <= last_round (run_consensus s) -> get_peerset s q = Some (P q)).
        { intros q Hq. rewrite (get_peerset_bview _ _ q Bv). apply Tq. rewrite Est'. exact Hq. }
        destruct (run_consensus_stagesD P s (e_id e) OK' (rinv_rstep st s R Sr) ltac:(rewrite (bview_peersets _ _ Bv); exact Hne) Hpss Is Hund Hf'')
          as [_ [_ [_ [E4 [_ [_ [I3 _]]]]]]]. fold s3 in E4, I3.
        assert (OK3 : dag_ok s3).
        { eapply dag_ok_frame; [|apply decide_round_received_frame]. eapply dag_ok_frame; [|apply decide_fame_frame].
          eapply dag_ok_frame; [exact OK'|apply divide_rounds_frame]. }
        split; [exact OK3|]. split; [|auto]. split.
        - constructor; [exact OK3|exact I3|].
          destruct (cw_fields _ _ (cw_process_decided_rounds s3)) as [Ev4 _].
          intros x ex Hx. rewrite <- (process_decided_rounds_ltm s3), <- E4, <- Est'.
          assert (Hx' : get_event (hstep st (HInsert e)) x = Some ex) by (rewrite Est', E4; unfold get_event; rewrite Ev4; exact Hx).
          destruct (ev_lt ex) as [t|] eqn:Et; [|exfalso; apply (gi_all _ _ Gi' Hf x ex Hx' Et)].
          rewrite (l_ev _ (g_l _ _ (gi_core _ _ Gi')) x ex t Hx' Et). discriminate.
        - split; [exact (proj1 R3)|].
          assert (B3 : bview s3 = bview st).
          { unfold s3. rewrite decide_round_received_bview, decide_fame_bview, divide_rounds_bview. exact Bv. }
          assert (F3 : fsv s3 = fsv st).
          { unfold s3. rewrite decide_round_received_fsv, decide_fame_fsv, divide_rounds_fsv. exact Fv. }
          apply (kb_bview genesis st s3 B3 F3). auto. }
      destruct (hstep_finv3 (fun _ => FED) (KD genesis P) (fun _ s s' R0 f C => FE0_ctx s s' C _ _ R0 f) (KD_round genesis P)
                  all st o _ (FED (hstep st o)) ID Ho Gi R (PIN k Hfk) Hf Kins (Build_finv3 _ _ Fc Le Fe)) as [A B C].
      constructor; unfold pre; rewrite ES; [exact A|exact B|].
      intros R0 f Hz. destruct (C R0 f Hz) as [[j [Hj X]]|Hfe].
      + exists j. split; [lia|exact X].
      + exists (S k). split; [lia|]. rewrite ES. auto.
  Qed.
End RunF.
