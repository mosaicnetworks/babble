(* Round-received: the specification read in one state ([rcond], [rrspec]), and what does not depend on the validator
   sets.  The development over it is in Proofs/RoundReceivedD.v. *)
From Coq Require Import ZArith List Bool Lia ZifyBool Permutation.
From RecordUpdate Require Import RecordSet.
From V Require Import Model.ZMap Model.Quorum Model.HgImpl Proofs.ZMapFacts Proofs.Ancestry Proofs.RoundOrder
  Proofs.OrderFrames Proofs.OrderProofs Proofs.DivInv Proofs.StronglySee Proofs.FameInv Proofs.DecidedFlag.
Import ListNotations RecordSetNotations.
Open Scope Z_scope.

Definition fam_of (l : list (Z * (bool * trilean))) : list Z :=
  map fst (filter (fun e => match snd e with (true, TTrue) => true | _ => false end) l).
Definition fam (st : hg) (j : Z) : list Z := match crt st j with Some l => fam_of l | None => [] end.

Lemma fam_get_round st j rj : get_round st j = Some rj -> fam st j = famous_witnesses rj.
Proof. intros H. unfold fam, crt. rewrite H. reflexivity. Qed.

(* all famous witnesses of round j see x, and they are a supermajority *)
Definition rcond (g : peerset) (st : hg) (j x : Z) : Prop :=
  (forall w, In w (fam st j) -> see st w x = Some true) /\ super_majority g <= Z.of_nat (length (fam st j)).

(* x, of round r, is received in round i *)
Definition rrspec (g : peerset) (st : hg) (x r i : Z) : Prop :=
  r < i /\ (forall j, r < j <= i -> flag st j) /\ (forall j, r < j < i -> ~ rcond g st j x) /\ rcond g st i x.

Lemma rcond_keep g s s' j x : crt s' j = crt s j -> (forall w, see s' w x = see s w x) -> rcond g s j x -> rcond g s' j x.
Proof. intros C S [A B]. unfold rcond, fam. rewrite C. split; [intros w Hw; rewrite S; apply A; exact Hw|exact B]. Qed.

Lemma sees_fold_count st x fws : forall n s,
  fold_left (fun (acc : option Z) w =>
               match acc, see st w x with
               | Some n, Some b => Some (if b then n + 1 else n)
               | _, _ => None
               end) fws (Some n) = Some s ->
  n <= s <= n + Z.of_nat (length fws) /\ (s = n + Z.of_nat (length fws) <-> forall w, In w fws -> see st w x = Some true).
Proof.
  induction fws as [|w l IH]; intros n s; cbn [fold_left length].
  - intros E; inversion E; subst. split; [lia|]. split; [intros _ w []|lia].
  - destruct (see st w x) as [[|]|] eqn:Es.
    + intros H. destruct (IH _ _ H) as [A B]. split; [lia|]. split.
      * intros E w' [<-|Hw']; [exact Es|]. apply B; [lia|exact Hw'].
      * intros Hall. assert (s = n + 1 + Z.of_nat (length l)) by (apply B; intros w' Hw'; apply Hall; right; exact Hw'). lia.
    + intros H. destruct (IH _ _ H) as [A B]. split; [lia|]. split.
      * intros E. lia.
      * intros Hall. specialize (Hall w (or_introl eq_refl)). congruence.
    + intros H. exfalso. clear -H. induction l as [|z l IHl]; cbn [fold_left] in H; [discriminate|auto].
Qed.

Lemma see_set_rr st x ex i w y : get_event st x = Some ex ->
  see (set_evst st x (ex <| ev_rr := Some i |>)) w y = see st w y.
Proof.
  intros Hx. unfold see, ancestor. destruct (w =? y); [reflexivity|].
  rewrite !get_event_set_evst.
  assert (H0 : 0 <= x) by (eapply zget_some_nonneg; exact Hx). replace (0 <=? x) with true by lia. rewrite !andb_true_r.
  destruct (Z.eqb_spec x w) as [<-|]; destruct (Z.eqb_spec x y) as [<-|]; rewrite ?Hx;
    try reflexivity; reflexivity.
Qed.

Lemma crt_events_only st st' : rounds st' = rounds st -> forall j, crt st' j = crt st j.
Proof. intros E j. unfold crt, get_round. rewrite E. reflexivity. Qed.

Lemma see_events_only st st' : events st' = events st -> forall w y, see st' w y = see st w y.
Proof. intros E w y. unfold see, ancestor, get_event. rewrite E. reflexivity. Qed.

Lemma flag_zset st i tr' : 0 <= i -> ri_decided tr' = true -> flag (st <| rounds := zset i tr' (rounds st) |>) i.
Proof.
  intros Hi Hd. exists tr'. split; [|exact Hd].
  rewrite (get_round_zset st _ i tr' i Hi) by (reflexivity). rewrite Z.eqb_refl. reflexivity.
Qed.

Definition rr_of (st : hg) (x : Z) : option Z := match get_event st x with Some ex => ev_rr ex | None => None end.

Lemma zrange_zseq lo hi : zrange lo hi = zseq lo (Z.to_nat (hi - lo + 1)).
Proof. reflexivity. Qed.

Lemma decide_rr_one_rinv s und x : rinv s -> rinv (fst (decide_rr_one (s, und) x)).
Proof. intros R. eapply rinv_rstep; [exact R|]. apply decide_rr_one_rstep. apply (proj1 (rinv_bounded _ R)). Qed.

Lemma rr_of_qkeep s s' x : qkeep s s' -> rr_of s' x = rr_of s x.
Proof.
  intros Q. pose proof (q_ev _ _ Q x) as E. unfold rr_of.
  destruct (get_event s' x), (get_event s x); cbn in E; try discriminate; [|reflexivity].
  unfold ev_r in E. inversion E. reflexivity.
Qed.

Lemma rcond_same g s s' j x :
  NoDup (fam s j) -> NoDup (fam s' j) -> (forall w, In w (fam s' j) <-> In w (fam s j)) ->
  (forall w, In w (fam s j) -> see s' w x = see s w x) -> (rcond g s j x <-> rcond g s' j x).
Proof.
  intros N N' E S.
  assert (L : length (fam s' j) = length (fam s j)).
  { apply Permutation_length. apply NoDup_Permutation; assumption. }
  unfold rcond. rewrite L. split; intros [A B]; (split; [|exact B]).
  - intros w Hw. apply E in Hw. rewrite (S w Hw). apply A. exact Hw.
  - intros w Hw. rewrite <- (S w Hw). apply A. apply E. exact Hw.
Qed.

(* the "proper ancestor" relation of Proofs/OrderProofs.v is contained in Ancestry.anc *)
Lemma oanc_anc st a b : OrderProofs.anc st a b -> Ancestry.anc st b a.
Proof.
  induction 1 as [a b [eb [Hb [Hn Hp]]]|a b c Hab IH [ec [Hc [Hn Hp]]]].
  - apply Ancestry.anc_step with a; [exists eb; split; [exact Hb|split; [exact Hn|destruct Hp; auto]]|constructor].
  - apply Ancestry.anc_step with b; [exists ec; split; [exact Hc|split; [exact Hn|destruct Hp; auto]]|exact IH].
Qed.
