(* Footprints of the HgImpl functions: which components of the state each function may change.
   A footprint is the equality of a tuple of the components the function leaves alone ([ord_rest]
   for the ordering passes, [blk_rest] and its refinements for the block passes), and what another
   file needs of it is a projection of that tuple; a property that is not such an equality is
   carried along the passes as a relation between states that holds across each kind of write they
   make ([ord_ok] for InsertEvent and the ordering passes, Section PeerSetSteps for the block
   passes).  Everything else in Proofs/ about HgImpl is built on these lemmas. *)
From Coq Require Import ZArith List Bool Lia.
From RecordUpdate Require Import RecordSet.
From V Require Import Model.ZMap Model.Quorum Model.Voting Model.HgImpl Model.PeerSetSpec Proofs.ZMapFacts.
Import ListNotations RecordSetNotations.
Open Scope Z_scope.

(** * Folds *)
Lemma fold_left_preorder {S A} (R : S -> S -> Prop) (f : S -> A -> S) :
  (forall s, R s s) -> (forall a b c, R a b -> R b c -> R a c) -> (forall s a, R s (f s a)) ->
  forall l s, R s (fold_left f l s).
Proof.
  intros Hr Ht Hf. induction l as [|a l IH]; intros s; cbn [fold_left]; [apply Hr|].
  eapply Ht; [apply Hf|apply IH].
Qed.

Lemma fold_left_view {S A V} (v : S -> V) (f : S -> A -> S) :
  (forall s a, v (f s a) = v s) -> forall l s, v (fold_left f l s) = v s.
Proof.
  intros Hf. apply (fold_left_preorder (fun s s' => v s' = v s)); [reflexivity| |exact Hf].
  intros a b c H1 H2. rewrite H2. exact H1.
Qed.

(** * The memo tables *)

(* the state with the round and witness memo tables erased, with the Lamport memo table erased,
   with all three erased *)
Definition nort (st : hg) : hg := st <| round_memo := zempty |> <| witness_memo := zempty |>.
Definition nolt (st : hg) : hg := st <| lt_memo := zempty |>.
Definition nomemo (st : hg) : hg :=
  st <| round_memo := zempty |> <| witness_memo := zempty |> <| lt_memo := zempty |>.

Lemma nomemo_nort st st' : nort st' = nort st -> nomemo st' = nomemo st.
Proof. intros H. exact (f_equal (fun s => s <| lt_memo := zempty |>) H). Qed.
Lemma nomemo_nolt st st' : nolt st' = nolt st -> nomemo st' = nomemo st.
Proof. intros H. exact (f_equal nort H). Qed.

(* reads that ignore the memo tables *)
Lemma get_event_nomemo st x : get_event (nomemo st) x = get_event st x.
Proof. reflexivity. Qed.
Lemma get_round_nomemo st r : get_round (nomemo st) r = get_round st r.
Proof. reflexivity. Qed.
Lemma get_peerset_nomemo st r : get_peerset (nomemo st) r = get_peerset st r.
Proof. reflexivity. Qed.

Lemma nomemo_eq_events st st' : nomemo st' = nomemo st -> events st' = events st.
Proof. intros H. exact (f_equal events H). Qed.
Lemma nomemo_eq_rounds st st' : nomemo st' = nomemo st -> rounds st' = rounds st.
Proof. intros H. exact (f_equal rounds H). Qed.
Lemma nomemo_eq_peersets st st' : nomemo st' = nomemo st -> peersets st' = peersets st.
Proof. intros H. exact (f_equal peersets H). Qed.
Lemma nomemo_eq_topo st st' : nomemo st' = nomemo st -> topo st' = topo st.
Proof. intros H. exact (f_equal topo H). Qed.

(** round_f / witness_f write only the round and witness memo tables, lamport_f only its own *)
Lemma nort_set_round_memo st m : nort (st <| round_memo := m |>) = nort st.
Proof. reflexivity. Qed.
Lemma nort_set_witness_memo st m : nort (st <| witness_memo := m |>) = nort st.
Proof. reflexivity. Qed.
Lemma nolt_set_lt_memo st m : nolt (st <| lt_memo := m |>) = nolt st.
Proof. reflexivity. Qed.

Lemma round_f_nort fuel : forall st x, nort (snd (round_f fuel st x)) = nort st.
Proof.
  induction fuel as [|f IH]; intros st x; cbn [round_f].
  - destruct (zget x (round_memo st)); reflexivity.
  - destruct (zget x (round_memo st)); [reflexivity|].
    destruct (get_event st x) as [ex|]; [|reflexivity].
    assert (P : forall y s, nort (snd (if y =? -1 then (Some (-1), s) else round_f f s y)) = nort s).
    { intros y s. destruct (y =? -1); [reflexivity|apply IH]. }
    pose proof (P (e_sp (ev_e ex)) st) as H1.
    destruct (if e_sp (ev_e ex) =? -1 then _ else _) as [[spr|] st1]; cbn [snd] in H1; [|exact H1].
    pose proof (P (e_op (ev_e ex)) st1) as H2.
    destruct (if e_op (ev_e ex) =? -1 then _ else _) as [[opr|] st2]; cbn [snd] in H2;
      rewrite <- H1, <- H2; [|reflexivity].
    destruct (_ =? -1); [apply nort_set_round_memo|].
    destruct (get_round st2 _); [|reflexivity].
    destruct (get_peerset st2 _); [|reflexivity].
    destruct (fold_left _ _ _); [apply nort_set_round_memo|reflexivity].
Qed.

Lemma witness_f_nort fuel st x : nort (snd (witness_f fuel st x)) = nort st.
Proof.
  unfold witness_f.
  destruct (zget x (witness_memo st)); [reflexivity|].
  destruct (get_event st x) as [ex|]; [|reflexivity].
  pose proof (round_f_nort fuel st x) as H1.
  destruct (round_f fuel st x) as [[xr|] st1]; cbn [snd] in H1; [|exact H1].
  destruct (get_peerset st1 xr); [|exact H1].
  destruct (negb _); cbn [snd]; [rewrite nort_set_witness_memo; exact H1|].
  destruct (e_sp (ev_e ex) =? -1); cbn [snd]; [rewrite nort_set_witness_memo; exact H1|].
  pose proof (round_f_nort fuel st1 (e_sp (ev_e ex))) as H2.
  destruct (round_f fuel st1 (e_sp (ev_e ex))) as [[spr|] st2]; cbn [snd] in *;
    rewrite ?nort_set_witness_memo, H2; exact H1.
Qed.

Lemma lamport_f_nolt fuel : forall st x, nolt (snd (lamport_f fuel st x)) = nolt st.
Proof.
  induction fuel as [|f IH]; intros st x; cbn [lamport_f].
  - destruct (zget x (lt_memo st)); reflexivity.
  - destruct (zget x (lt_memo st)); [reflexivity|].
    destruct (get_event st x) as [ex|]; [|reflexivity].
    assert (H1 : nolt (snd (if e_sp (ev_e ex) =? -1 then (Some (-1), st)
                            else lamport_f f st (e_sp (ev_e ex)))) = nolt st).
    { destruct (e_sp (ev_e ex) =? -1); [reflexivity|apply IH]. }
    destruct (if e_sp (ev_e ex) =? -1 then _ else _) as [[plt|] st1]; cbn [snd] in H1; [|exact H1].
    destruct (e_op (ev_e ex) =? -1); cbn [snd]; [rewrite nolt_set_lt_memo; exact H1|].
    destruct (get_event st1 (e_op (ev_e ex))); cbn [snd]; [|rewrite nolt_set_lt_memo; exact H1].
    pose proof (IH st1 (e_op (ev_e ex))) as H2.
    destruct (lamport_f f st1 (e_op (ev_e ex))) as [[t|] s]; cbn [snd] in *;
      rewrite ?nolt_set_lt_memo, H2; exact H1.
Qed.

Lemma round_f_nomemo fuel st x : nomemo (snd (round_f fuel st x)) = nomemo st.
Proof. apply nomemo_nort, round_f_nort. Qed.
Lemma witness_f_nomemo fuel st x : nomemo (snd (witness_f fuel st x)) = nomemo st.
Proof. apply nomemo_nort, witness_f_nort. Qed.
Lemma lamport_f_nomemo fuel st x : nomemo (snd (lamport_f fuel st x)) = nomemo st.
Proof. apply nomemo_nolt, lamport_f_nolt. Qed.

Lemma round_f_events fuel st x : events (snd (round_f fuel st x)) = events st.
Proof. apply nomemo_eq_events, round_f_nomemo. Qed.
Lemma witness_f_events fuel st x : events (snd (witness_f fuel st x)) = events st.
Proof. apply nomemo_eq_events, witness_f_nomemo. Qed.
Lemma lamport_f_events fuel st x : events (snd (lamport_f fuel st x)) = events st.
Proof. apply nomemo_eq_events, lamport_f_nomemo. Qed.


(** * InsertEvent and the ordering passes: DivideRounds, DecideFame, DecideRoundReceived.
   The passes write events, rounds, last_round, pending, undetermined, the memo tables and failed;
   InsertEvent writes topo, events, pevents, the round and witness memo tables, undetermined,
   pending_loaded and sigpool. *)

(* what neither they nor InsertEvent write *)
Definition ins_rest_t : Type :=
  list (Z * peerset) * list peer * list (Z * Z) * option Z * option Z * zmap block * Z * zmap frame *
  list (Z * Z) * Z * option Z * Z * peerset * list bsig * list block * list Z.
Definition ins_rest (st : hg) : ins_rest_t :=
  (peersets st, repertoire st, first_rounds st, last_consensus st, lower_bound st, blocks st,
   last_block st, frames st, last_cons_ev st, cons_count st, anchor st, self st, validators st,
   self_sigs st, delivered st, oracle st).
(* what the passes do not write *)
Definition ord_rest_t : Type := ins_rest_t * (zmap pidx * Z * Z * list bsig).
Definition ord_rest (st : hg) : ord_rest_t :=
  (ins_rest st, (pevents st, topo st, pending_loaded st, sigpool st)).

Lemma ord_rest_nomemo st st' : nomemo st' = nomemo st -> ord_rest st' = ord_rest st.
Proof. intros H. exact (f_equal ord_rest H). Qed.
Lemma ins_rest_ord_rest st st' : ord_rest st' = ord_rest st -> ins_rest st' = ins_rest st.
Proof. intros H. exact (f_equal fst H). Qed.

(** ** What InsertEvent does *)

(* Store.SetEvent writes the event map and the participant indexes, nothing else *)
Lemma store_set_event_footprint st es st2 :
  store_set_event st es = Some st2 -> exists P, st2 = set_evst (st <| pevents := P |>) (e_id (ev_e es)) es.
Proof.
  unfold store_set_event. destruct (get_event _ _); [intros [= <-]; exists (pevents st); reflexivity|].
  destruct (zget _ _); [|discriminate]. destruct (pidx_set _ _ _); [|discriminate]. intros [= <-]. eauto.
Qed.

Lemma check_self_parent_not_store st e : check_self_parent st e <> InsStore.
Proof.
  unfold check_self_parent. destruct (zget _ _); [|discriminate].
  destruct (pidx_last p); [destruct (_ =? _); [destruct (get_event _ _); [destruct (_ =? _)|]|]; discriminate|].
  destruct (_ =? _); [destruct (_ =? _)|]; discriminate.
Qed.
Lemma check_other_parent_not_store st e : check_other_parent st e <> InsStore.
Proof. unfold check_other_parent. destruct (_ =? _); [discriminate|]. destruct (get_event _ _); discriminate. Qed.

(* a rejection leaves the state alone; otherwise all three checks passed *)
Lemma insert_event_cases st e r st' :
  insert_event st e = (r, st') ->
  (st' = st /\ r <> InsOk /\ r <> InsStore) \/
  (e_sigok e = true /\ check_self_parent st e = InsOk /\ check_other_parent st e = InsOk /\
   insert_admitted st e = (r, st')).
Proof.
  assert (Rej : forall r0, r0 <> InsOk -> r0 <> InsStore -> (r0, st) = (r, st') ->
                st' = st /\ r <> InsOk /\ r <> InsStore) by (intros r0 ? ? [= <- <-]; auto).
  pose proof (check_self_parent_not_store st e) as Ns. pose proof (check_other_parent_not_store st e) as No.
  unfold insert_event. intros H. destruct (e_sigok e); cbn [negb] in H; [|left; revert H; apply Rej; discriminate].
  destruct (check_self_parent st e); try (left; revert H; apply Rej; [discriminate|exact Ns]).
  destruct (check_other_parent st e); try (left; revert H; apply Rej; [discriminate|exact No]).
  right. auto.
Qed.

(* the rest of InsertEvent once Store.SetEvent succeeded: first descendants, UndeterminedEvents,
   PendingLoadedEvents, SigPool.  Kept folded in the proofs: unfolded, every record update shows its
   29 fields and the state before it several times, and each step on such a goal is slow to check. *)
Definition after_store (st2 : hg) (e : event) (la : coords) : hg :=
  let st3 := update_ancestor_fd st2 e la in
  let st4 := st3 <| undetermined := undetermined st3 ++ [e_id e] |> in
  let st5 := if is_loaded e then st4 <| pending_loaded := pending_loaded st4 + 1 |> else st4 in
  st5 <| sigpool := fold_left sigpool_add (e_sigs e) (sigpool st5) |>.

Lemma insert_admitted_eq st e :
  insert_admitted st e =
  let st1 := st <| topo := topo st + 1 |> in
  let c := init_coords st e in
  match store_set_event st1 (mkEvst e None None None (fst c) (snd c) (topo st)) with
  | None => (InsStore, st1)
  | Some st2 => (InsOk, after_store st2 e (fst c))
  end.
Proof. exact eq_refl. Qed.

Lemma insert_admitted_result st e r st' :
  insert_admitted st e = (r, st') -> r = InsOk \/ (r = InsStore /\ st' = st <| topo := topo st + 1 |>).
Proof.
  rewrite insert_admitted_eq. cbv zeta.
  destruct (store_set_event _ _); intros [= <- <-]; auto.
Qed.

(** ** Relations kept by every write *)

(* the part of a stored event that the ordering passes never touch *)
Definition ev_static (es : evst) : event * coords * Z := (ev_e es, ev_la es, ev_topo es).

(** A preorder [R] on states that holds across each kind of write the ordering passes make: a call
   of _round, _witness or _lamportTimestamp (they write memo tables), an event updated in place
   outside its static part, the failure flag, the two queues, and a RoundInfo replaced by one that
   is [Q]-related to it (to a new one for a new round), where [Q] is a preorder kept by the four
   ways in which the passes change a RoundInfo. *)
Record ord_ok (R : hg -> hg -> Prop) (Q : rinfo -> rinfo -> Prop) : Prop := {
  o_refl : forall s, R s s;
  o_trans : forall a b c, R a b -> R b c -> R a c;
  o_round_f : forall fuel st x, R st (snd (round_f fuel st x));
  o_witness_f : forall fuel st x, R st (snd (witness_f fuel st x));
  o_lamport_f : forall fuel st x, R st (snd (lamport_f fuel st x));
  o_evst : forall st x es es', get_event st x = Some es -> ev_static es' = ev_static es -> R st (set_evst st x es');
  o_round : forall st r ri, Q (round_or_new st r) ri -> R st (set_round st r ri);
  o_rounds : forall st r ri ri', get_round st r = Some ri -> Q ri ri' -> R st (st <| rounds := zset r ri' (rounds st) |>);
  o_fail : forall st, R st (fail st);
  o_pending : forall st v, R st (st <| pending := v |>);
  o_undetermined : forall st v, R st (st <| undetermined := v |>);
  q_refl : forall ri, Q ri ri;
  q_trans : forall a b c, Q a b -> Q b c -> Q a c;
  q_add_created : forall ri x w, Q ri (add_created ri x w);
  q_set_fame : forall ri x f, Q ri (set_fame ri x f);
  q_decided : forall ri ps, Q ri (snd (witnesses_decided ri ps));
  q_received : forall ri l, Q ri (ri <| ri_received := l |>)
}.

(* a relation that holds between states that differ in the memo tables only, and across every
   write of a round *)
Lemma ord_ok_plain (R : hg -> hg -> Prop) :
  (forall s, R s s) -> (forall a b c, R a b -> R b c -> R a c) ->
  (forall st st', nomemo st' = nomemo st -> R st st') ->
  (forall st x es es', get_event st x = Some es -> ev_static es' = ev_static es -> R st (set_evst st x es')) ->
  (forall st r ri, R st (set_round st r ri)) -> (forall st, R st (fail st)) ->
  (forall st v, R st (st <| pending := v |>)) -> (forall st v, R st (st <| rounds := v |>)) ->
  (forall st v, R st (st <| undetermined := v |>)) -> ord_ok R (fun _ _ => True).
Proof.
  intros Hr Ht Hm He Hs Hf Hp Hro Hu. constructor; auto.
  - intros fuel st x. apply Hm, round_f_nomemo.
  - intros fuel st x. apply Hm, witness_f_nomemo.
  - intros fuel st x. apply Hm, lamport_f_nomemo.
Qed.

Lemma maybe_queue_rounds st r ri : rounds (maybe_queue st r ri) = rounds st.
Proof. unfold maybe_queue. destruct (_ && _ && _); reflexivity. Qed.

(* DecideFame's fold over the witnesses of a round: a preorder on RoundInfos that holds across
   set_fame holds across the fold *)
Lemma fame_fold_steps (Q : rinfo -> rinfo -> Prop) :
  (forall ri, Q ri ri) -> (forall a b c, Q a b -> Q b c -> Q a c) -> (forall ri x f, Q ri (set_fame ri x f)) ->
  forall s r ws ri ri',
  fold_left (fun (a : option rinfo) x =>
     match a with
     | None => None
     | Some ri' =>
       if is_decided ri' x then Some ri'
       else match fame_of s x r with
            | None => None
            | Some None => Some ri'
            | Some (Some v) => Some (set_fame ri' x v)
            end
     end) ws (Some ri) = Some ri' -> Q ri ri'.
Proof.
  intros Qr Qt Qf s r. induction ws as [|x ws IH]; intros ri ri'; cbn [fold_left]; [intros [= <-]; apply Qr|].
  destruct (is_decided ri x); [apply IH|].
  destruct (fame_of s x r) as [[v|]|]; [|apply IH|].
  - intros H. exact (Qt _ _ _ (Qf ri x v) (IH _ _ H)).
  - clear IH. intros H. exfalso. induction ws as [|y ws IHw]; cbn [fold_left] in H; [discriminate|auto].
Qed.

(** Such a relation holds across every ordering pass, and across InsertEvent when it also holds
   across the writes of topo, of Store.SetEvent, of pending_loaded and of sigpool. *)
Section OrderingSteps.
  Variables (R : hg -> hg -> Prop) (Q : rinfo -> rinfo -> Prop).
  Hypothesis OK : ord_ok R Q.
  Let Rr := o_refl R Q OK.
  Let Rt := o_trans R Q OK.
  Let Rf := o_fail R Q OK.

  Lemma fold_steps {S A} (p : S -> hg) (f : S -> A -> S) :
    (forall s a, R (p s) (p (f s a))) -> forall l s, R (p s) (p (fold_left f l s)).
  Proof.
    apply (fold_left_preorder (fun s s' => R (p s) (p s'))); [intros s; apply Rr|].
    intros a b c. apply Rt.
  Qed.

  Lemma fd_walk_steps fuel : forall st c index x ah, R st (fd_walk fuel st c index x ah).
  Proof.
    induction fuel as [|f IH]; intros st c index x ah; cbn [fd_walk]; [apply Rr|].
    destruct (get_event st ah) as [a|] eqn:Ha; [|apply Rr].
    destruct (aget c (ev_fd a)); [apply Rr|].
    set (st1 := set_evst st ah _).
    assert (F1 : R st st1) by (apply (o_evst R Q OK _ _ a); [exact Ha|reflexivity]).
    pose proof (Rt _ _ _ F1 (o_witness_f R Q OK (fuel_of st1) st1 ah)) as F2. clearbody st1.
    destruct (witness_f (fuel_of st1) st1 ah) as [[[|]|] st2]; cbn [snd] in F2;
      [exact F2|exact (Rt _ _ _ F2 (IH _ _ _ _ _))..].
  Qed.

  Lemma update_ancestor_fd_steps st e la : R st (update_ancestor_fd st e la).
  Proof. apply (fold_steps (fun s => s)). intros s ce. apply fd_walk_steps. Qed.

  Lemma set_event_round_steps st x r : R st (set_event_round st x r).
  Proof.
    unfold set_event_round. destruct (get_event st x) eqn:H; [|apply Rr].
    apply (o_evst R Q OK _ _ _ _ H). reflexivity.
  Qed.
  Lemma set_event_lt_steps st x t : R st (set_event_lt st x t).
  Proof.
    unfold set_event_lt. destruct (get_event st x) eqn:H; [|apply Rr].
    apply (o_evst R Q OK _ _ _ _ H). reflexivity.
  Qed.
  Lemma maybe_queue_steps st r ri : R st (maybe_queue st r ri).
  Proof. unfold maybe_queue. destruct (_ && _ && _); [apply (o_pending R Q OK)|apply Rr]. Qed.

  Lemma divide_round_steps st x : R st (divide_round st x).
  Proof.
    unfold divide_round.
    pose proof (o_round_f R Q OK (fuel_of st) st x) as F1.
    destruct (round_f (fuel_of st) st x) as [[r|] s]; cbn [snd] in F1; [|exact (Rt _ _ _ F1 (Rf s))].
    cbv zeta. set (s1 := set_event_round s x r).
    pose proof (Rt _ _ _ F1 (set_event_round_steps s x r : R s s1)) as F2. clearbody s1.
    set (ri := round_or_new s1 r). set (s2 := maybe_queue s1 r ri).
    assert (E2 : rounds s2 = rounds s1) by apply maybe_queue_rounds.
    pose proof (Rt _ _ _ F2 (maybe_queue_steps s1 r ri : R s1 s2)) as F3. clearbody s2.
    pose proof (Rt _ _ _ F3 (o_witness_f R Q OK (fuel_of s2) s2 x)) as F4.
    pose proof (nomemo_eq_rounds _ _ (witness_f_nomemo (fuel_of s2) s2 x)) as E3.
    destruct (witness_f (fuel_of s2) s2 x) as [[w|] s']; cbn [snd] in *; [|exact (Rt _ _ _ F4 (Rf s'))].
    apply (Rt _ _ _ F4), (o_round R Q OK).
    replace (round_or_new s' r) with ri; [apply (q_add_created R Q OK)|].
    unfold ri, round_or_new, get_round. rewrite E3, E2. reflexivity.
  Qed.

  Lemma divide_lt_steps st x : R st (divide_lt st x).
  Proof.
    unfold divide_lt. pose proof (o_lamport_f R Q OK (fuel_of st) st x) as F.
    destruct (lamport_f (fuel_of st) st x) as [[t|] s]; cbn [snd] in F; apply (Rt _ _ _ F);
      [apply set_event_lt_steps|apply Rf].
  Qed.

  Lemma divide_one_steps st x : R st (divide_one st x).
  Proof.
    unfold divide_one. destruct (failed st); [apply Rr|].
    destruct (get_event st x) as [ev|]; [|apply Rf].
    cbv zeta. set (st1 := match ev_round ev with Some _ => st | None => divide_round st x end).
    assert (F1 : R st st1) by (subst st1; destruct (ev_round ev); [apply Rr|apply divide_round_steps]).
    clearbody st1. destruct (failed st1); [exact F1|].
    destruct (get_event st1 x) as [ev1|]; [|exact (Rt _ _ _ F1 (Rf st1))].
    destruct (ev_lt ev1); [exact F1|exact (Rt _ _ _ F1 (divide_lt_steps st1 x))].
  Qed.

  Lemma divide_rounds_steps st : R st (divide_rounds st).
  Proof. apply (fold_steps (fun s => s)), divide_one_steps. Qed.

  Lemma decide_fame_round_steps s dec pr : R s (fst (decide_fame_round (s, dec) pr)).
  Proof.
    unfold decide_fame_round. destruct (failed s); [apply Rr|].
    destruct (get_round s (fst pr)) as [ri|] eqn:Hr; [|apply Rf].
    destruct (get_peerset s (fst pr)) as [rps|]; [|apply Rf].
    destruct (fold_left _ _ _) as [ri'|] eqn:Ef; [|apply Rf].
    pose proof (q_trans R Q OK _ _ _ (fame_fold_steps Q (q_refl R Q OK) (q_trans R Q OK) (q_set_fame R Q OK) _ _ _ _ _ Ef) (q_decided R Q OK ri' rps)) as L.
    destruct (witnesses_decided ri' rps) as [d ri'']. cbn [fst snd] in *.
    apply (o_round R Q OK). unfold round_or_new. rewrite Hr. exact L.
  Qed.

  Lemma decide_fame_steps st : R st (decide_fame st).
  Proof.
    unfold decide_fame.
    pose proof (fold_steps fst decide_fame_round (fun '(s, dec) => decide_fame_round_steps s dec)
                  (pending st) (st, [])) as F.
    destruct (fold_left decide_fame_round (pending st) (st, [])) as [s decided]. cbn [fst] in F.
    destruct (failed s); [exact F|exact (Rt _ _ _ F (o_pending R Q OK _ _))].
  Qed.

  Lemma rr_loop_steps x : forall is_ st, R st (fst (rr_loop st x is_)).
  Proof.
    induction is_ as [|i rest IH]; intros st; cbn [rr_loop]; [apply Rr|].
    destruct (get_round st i) as [tr|] eqn:Hr.
    2:{ destruct (lower_bound st) as [lb|]; [|apply Rr]. destruct (i <=? lb); [apply IH|apply Rr]. }
    destruct (get_peerset st i) as [tps|]; [|apply Rf].
    pose proof (q_decided R Q OK tr tps) as L.
    destruct (witnesses_decided tr tps) as [d tr']. cbn [snd] in L.
    set (st1 := st <| rounds := zset i tr' (rounds st) |>).
    assert (F1 : R st st1) by exact (o_rounds R Q OK _ _ _ _ Hr L).
    assert (G1 : get_round st1 i = Some tr') by (apply zget_zset_same; eapply zget_some_nonneg; exact Hr).
    clearbody st1. destruct d; cbn [negb].
    - destruct (fold_left _ _ _); [|exact (Rt _ _ _ F1 (Rf st1))].
      destruct (_ && _); [|exact (Rt _ _ _ F1 (IH st1))].
      destruct (get_event st1 x) as [ex|] eqn:Hx; cbn [fst]; apply (Rt _ _ _ F1); [|apply Rf].
      apply (Rt _ (set_evst st1 x (ex <| ev_rr := Some i |>))); [apply (o_evst R Q OK _ _ _ _ Hx); reflexivity|].
      apply (o_round R Q OK). unfold round_or_new.
      change (get_round (set_evst st1 x (ex <| ev_rr := Some i |>)) i) with (get_round st1 i).
      rewrite G1. apply (q_received R Q OK).
    - destruct (lower_bound st1) as [lb|]; [|exact F1].
      destruct (lb <? i); [exact F1|exact (Rt _ _ _ F1 (IH st1))].
  Qed.

  Lemma decide_rr_one_steps s und x : R s (fst (decide_rr_one (s, und) x)).
  Proof.
    unfold decide_rr_one. destruct (failed s); [apply Rr|].
    pose proof (o_round_f R Q OK (fuel_of s) s x) as F1.
    destruct (round_f (fuel_of s) s x) as [[r|] s1]; cbn [snd] in F1; [|exact (Rt _ _ _ F1 (Rf s1))].
    pose proof (rr_loop_steps x (zrange (r + 1) (last_round s1)) s1) as F2.
    destruct (rr_loop s1 x (zrange (r + 1) (last_round s1))) as [s' received]. exact (Rt _ _ _ F1 F2).
  Qed.

  Lemma decide_round_received_steps st : R st (decide_round_received st).
  Proof.
    unfold decide_round_received.
    pose proof (fold_steps fst decide_rr_one (fun '(s, und) => decide_rr_one_steps s und)
                  (undetermined st) (st, [])) as F.
    destruct (fold_left decide_rr_one (undetermined st) (st, [])) as [s und]. cbn [fst] in F.
    destruct (failed s); [exact F|exact (Rt _ _ _ F (o_undetermined R Q OK _ _))].
  Qed.

  Hypothesis R_pending_loaded : forall st v, R st (st <| pending_loaded := v |>).
  Hypothesis R_sigpool : forall st v, R st (st <| sigpool := v |>).

  Lemma after_store_steps st e la : R st (after_store st e la).
  Proof.
    unfold after_store. generalize (update_ancestor_fd_steps st e la).
    generalize (update_ancestor_fd st e la). intros s3 F. cbv zeta.
    eapply Rt; [|apply R_sigpool].
    destruct (is_loaded e); [eapply Rt; [|apply R_pending_loaded]|]; exact (Rt _ _ _ F (o_undetermined R Q OK _ _)).
  Qed.

  Hypothesis R_topo : forall st v, R st (st <| topo := v |>).
  Hypothesis R_store : forall st es st', store_set_event st es = Some st' -> R st st'.

  Lemma insert_event_steps st e : R st (snd (insert_event st e)).
  Proof.
    destruct (insert_event st e) as [r s] eqn:Ev. cbn [snd].
    destruct (insert_event_cases _ _ _ _ Ev) as [[-> _]|(_ & _ & _ & A)]; [apply Rr|].
    rewrite insert_admitted_eq in A. cbv zeta in A.
    destruct (store_set_event _ _) as [st2|] eqn:E; injection A as <- <-; [|apply R_topo].
    exact (Rt _ _ _ (Rt _ _ _ (R_topo _ _) (R_store _ _ _ E)) (after_store_steps _ _ _)).
  Qed.
End OrderingSteps.

(** ** The footprints *)
Lemma ord_rest_ok : ord_ok (fun s s' => ord_rest s' = ord_rest s) (fun _ _ => True).
Proof.
  apply ord_ok_plain; try reflexivity.
  - intros a b c H1 H2. rewrite H2. exact H1.
  - intros st st'. apply ord_rest_nomemo.
Qed.

Lemma update_ancestor_fd_ord_rest st e la : ord_rest (update_ancestor_fd st e la) = ord_rest st.
Proof. exact (update_ancestor_fd_steps _ _ ord_rest_ok st e la). Qed.
Lemma divide_round_ord_rest st x : ord_rest (divide_round st x) = ord_rest st.
Proof. exact (divide_round_steps _ _ ord_rest_ok st x). Qed.
Lemma divide_one_ord_rest st x : ord_rest (divide_one st x) = ord_rest st.
Proof. exact (divide_one_steps _ _ ord_rest_ok st x). Qed.
Lemma divide_rounds_ord_rest st : ord_rest (divide_rounds st) = ord_rest st.
Proof. exact (divide_rounds_steps _ _ ord_rest_ok st). Qed.
Lemma decide_fame_round_ord_rest s dec pr :
  ord_rest (fst (decide_fame_round (s, dec) pr)) = ord_rest s.
Proof. exact (decide_fame_round_steps _ _ ord_rest_ok s dec pr). Qed.
Lemma decide_fame_ord_rest st : ord_rest (decide_fame st) = ord_rest st.
Proof. exact (decide_fame_steps _ _ ord_rest_ok st). Qed.
Lemma decide_rr_one_ord_rest s und x : ord_rest (fst (decide_rr_one (s, und) x)) = ord_rest s.
Proof. exact (decide_rr_one_steps _ _ ord_rest_ok s und x). Qed.
Lemma decide_round_received_ord_rest st :
  ord_rest (decide_round_received st) = ord_rest st.
Proof. exact (decide_round_received_steps _ _ ord_rest_ok st). Qed.

Lemma ins_rest_ok : ord_ok (fun s s' => ins_rest s' = ins_rest s) (fun _ _ => True).
Proof.
  apply ord_ok_plain; try reflexivity.
  - intros a b c H1 H2. rewrite H2. exact H1.
  - intros st st' H. apply ins_rest_ord_rest, ord_rest_nomemo, H.
Qed.

Lemma store_set_event_ins_rest st es st' :
  store_set_event st es = Some st' -> ins_rest st' = ins_rest st.
Proof. intros H. destruct (store_set_event_footprint _ _ _ H) as [P ->]. reflexivity. Qed.

Lemma insert_event_ins_rest st e : ins_rest (snd (insert_event st e)) = ins_rest st.
Proof.
  exact (insert_event_steps _ _ ins_rest_ok (fun _ _ => eq_refl) (fun _ _ => eq_refl) (fun _ _ => eq_refl)
           store_set_event_ins_rest st e).
Qed.

(** * The block passes: ProcessDecidedRounds and ProcessSigPool *)

(* what they do not write *)
Definition blk_rest_t : Type :=
  zmap evst * zmap rinfo * Z * list Z * zmap Z * zmap bool * zmap Z * option Z * Z * Z.
Definition blk_rest (st : hg) : blk_rest_t :=
  (events st, rounds st, last_round st, undetermined st, round_memo st, witness_memo st,
   lt_memo st, lower_bound st, topo st, self st).
(* the participant tables: of the block passes' functions only SetPeerSet writes them
   (processAcceptedInternalTransactions, inside commit) *)
Definition psv_t : Type := zmap pidx * list peer * list (Z * Z).
Definition psv (st : hg) : psv_t := (pevents st, repertoire st, first_rounds st).
(* what commit and ProcessSigPool do not write, SetPeerSet included *)
Definition commit_rest_t : Type := blk_rest_t * (zmap frame * option Z * list (Z * bool) * bool).
Definition commit_rest (st : hg) : commit_rest_t :=
  (blk_rest st, (frames st, last_consensus st, pending st, failed st)).
(* what they do not write, SetPeerSet left out *)
Definition sig_rest (st : hg) : commit_rest_t * psv_t := (commit_rest st, psv st).
(* what ProcessDecidedRounds does not write, SetPeerSet left out *)
Definition round_rest (st : hg) : blk_rest_t * psv_t := (blk_rest st, psv st).
(* what commit alone does not write, SetPeerSet left out: [sig_rest], the bookkeeping of the
   consensus events and the signature pool *)
Definition commit_keep (st : hg) :=
  (sig_rest st, (last_cons_ev st, cons_count st, pending_loaded st, sigpool st)).

Lemma commit_rest_sig_rest st st' : sig_rest st' = sig_rest st -> commit_rest st' = commit_rest st.
Proof. intros H. exact (f_equal fst H). Qed.
Lemma blk_rest_commit_rest st st' : commit_rest st' = commit_rest st -> blk_rest st' = blk_rest st.
Proof. intros H. exact (f_equal fst H). Qed.
Lemma blk_rest_round_rest st st' : round_rest st' = round_rest st -> blk_rest st' = blk_rest st.
Proof. intros H. exact (f_equal fst H). Qed.
Lemma round_rest_sig_rest st st' : sig_rest st' = sig_rest st -> round_rest st' = round_rest st.
Proof. intros H. exact (f_equal (fun v => (fst (fst v), snd v)) H). Qed.
Lemma psv_sig_rest st st' : sig_rest st' = sig_rest st -> psv st' = psv st.
Proof. intros H. exact (f_equal snd H). Qed.
Lemma psv_round_rest st st' : round_rest st' = round_rest st -> psv st' = psv st.
Proof. intros H. exact (f_equal snd H). Qed.
Lemma psv_ord_rest st st' : ord_rest st' = ord_rest st -> psv st' = psv st.
Proof.
  intros H.
  exact (f_equal (fun '(_, rep, fr, _, _, _, _, _, _, _, _, _, _, _, _, _, (pe, _, _, _)) =>
                    (pe, rep, fr)) H).
Qed.

(** ** What each function of the block passes computes, as one equation on a variable state.
   A component of the result is read off by rewriting with the equation in a goal that mentions
   the result once. *)

(* SetPeerSet for one participant of the new set: repertoire, first round, per-creator index *)
Definition sp_step (r : Z) (s : hg) (p : peer) : hg :=
  let s := s <| repertoire := if rep_mem (pkey p) (repertoire s) then repertoire s else repertoire s ++ [p] |> in
  let s := s <| first_rounds := add_first_round (pid p) r (first_rounds s) |> in
  if zmem (pkey p) (pevents s) then s else s <| pevents := zset (pkey p) new_pidx (pevents s) |>.

Lemma set_peerset_unfold st r ps :
  set_peerset st r ps =
  if table_has r (peersets st) then None
  else Some (fold_left (sp_step r) ps (st <| peersets := ps_table_insert r ps (peersets st) |>)).
Proof. exact eq_refl. Qed.

(* a relation that holds across the table update and across each participant holds across SetPeerSet *)
Lemma set_peerset_steps (R : hg -> hg -> Prop) :
  (forall a b c, R a b -> R b c -> R a c) ->
  (forall st t, R st (st <| peersets := t |>)) -> (forall r s p, R s (sp_step r s p)) ->
  forall st r ps st', set_peerset st r ps = Some st' -> R st st'.
Proof.
  intros Ht Htab Hstep st r ps st'. rewrite set_peerset_unfold.
  destruct (table_has r (peersets st)); [discriminate|]. intros [= <-].
  apply (fold_left_preorder (fun s s' => R st s -> R st s') (sp_step r)); [auto| | |apply Htab].
  - intros a b c F G H. exact (G (F H)).
  - intros s p H. exact (Ht _ _ _ H (Hstep r s p)).
Qed.

(* the states that differ from [st] in the three peer indexes only *)
Definition reindexed (st st' : hg) : Prop :=
  exists R F P, st' = st <| repertoire := R |> <| first_rounds := F |> <| pevents := P |>.

Lemma reindexed_refl st : reindexed st st.
Proof. exists (repertoire st), (first_rounds st), (pevents st). destruct st; reflexivity. Qed.
Lemma reindexed_trans a b c : reindexed a b -> reindexed b c -> reindexed a c.
Proof.
  intros (R1 & F1 & P1 & E1) (R & F & P & E2). exists R, F, P.
  exact (eq_trans E2 (f_equal (fun s => s <| repertoire := R |> <| first_rounds := F |> <| pevents := P |>) E1)).
Qed.
Lemma sp_step_eq r s p : sp_step r s p =
  s <| repertoire := if rep_mem (pkey p) (repertoire s) then repertoire s else repertoire s ++ [p] |>
    <| first_rounds := add_first_round (pid p) r (first_rounds s) |>
    <| pevents := if zmem (pkey p) (pevents s) then pevents s else zset (pkey p) new_pidx (pevents s) |>.
Proof.
  unfold sp_step. cbv zeta. change (zmem (pkey p) (pevents _)) with (zmem (pkey p) (pevents s)).
  destruct (zmem _ _); reflexivity.
Qed.
Lemma sp_step_reindexed r s p : reindexed s (sp_step r s p).
Proof. eexists _, _, _. apply sp_step_eq. Qed.

(* SetPeerSet writes the table and the three peer indexes *)
Lemma set_peerset_eq st r ps : exists R F P,
  set_peerset st r ps =
  if table_has r (peersets st) then None
  else Some (st <| peersets := ps_table_insert r ps (peersets st) |>
                <| repertoire := R |> <| first_rounds := F |> <| pevents := P |>).
Proof.
  rewrite set_peerset_unfold. set (st1 := st <| peersets := _ |>).
  destruct (fold_left_preorder reindexed (sp_step r) reindexed_refl reindexed_trans (sp_step_reindexed r) ps st1)
    as (R & F & P & ->).
  exists R, F, P. reflexivity.
Qed.

(* processAcceptedInternalTransactions is one step of the replay on (table, core.validators) *)
Lemma process_receipts_eq st rr itxs : exists R F P,
  process_receipts st rr itxs =
  st <| peersets := fst (replay_step (peersets st, validators st) rr itxs) |>
     <| validators := snd (replay_step (peersets st, validators st) rr itxs) |>
     <| repertoire := R |> <| first_rounds := F |> <| pevents := P |>.
Proof.
  unfold process_receipts, replay_step, apply_receipts, apply_receipt. cbn [fst snd].
  destruct (fold_left _ itxs (validators st, false)) as [vals changed]. cbn [fst snd].
  destruct (set_peerset_eq st (rr + 6) vals) as (R & F & P & ->).
  destruct changed; [destruct (table_has (rr + 6) (peersets st)); [|exists R, F, P; reflexivity]|];
    exists (repertoire st), (first_rounds st), (pevents st); destruct st; reflexivity.
Qed.

Definition new_anchor (st : hg) (b : block) : option Z :=
  match get_peerset st (b_rr b) with
  | None => anchor st
  | Some ps =>
    if (trust_count ps <? Z.of_nat (length (b_sigs b))) &&
       (match anchor st with None => true | Some a => a <? b_index b end)
    then Some (b_index b) else anchor st
  end.

Lemma set_anchor_block_eq st b : set_anchor_block st b = st <| anchor := new_anchor st b |>.
Proof.
  unfold set_anchor_block, new_anchor. destruct (get_peerset st (b_rr b)); [|destruct st; reflexivity].
  destruct (_ && _); destruct st; reflexivity.
Qed.

(* signBlock: when the node is a validator of the block's round, the signed block is stored and the
   own signature remembered *)
Lemma sign_block_eq st b bps :
  let signed := mem_key (self st) (keys bps) in
  let b' := b <| b_sigs := if signed then aset (self st) (b_bodyid b) (b_sigs b) else b_sigs b |> in
  sign_block st b bps =
  (b', st <| blocks := if signed then zset (b_index b) b' (blocks st) else blocks st |>
          <| last_block := if signed then Z.max (b_index b) (last_block st) else last_block st |>
          <| self_sigs := if signed then sigpool_add (self_sigs st) (mkBsig (self st) (b_index b) (b_bodyid b))
                          else self_sigs st |>).
Proof. cbv zeta. unfold sign_block. destruct (mem_key _ _); [reflexivity|destruct b, st; reflexivity]. Qed.

(* the part of commit after signBlock: SetAnchorBlock, receipts, callback bookkeeping *)
Definition commit_tail (st : hg) (bf : block) : hg :=
  deliver (process_receipts (set_anchor_block st bf) (b_rr bf) (b_itxs bf)) bf.

Lemma commit_tail_eq st bf : exists R F P,
  commit_tail st bf =
  st <| anchor := new_anchor st bf |>
     <| peersets := fst (replay_block (peersets st, validators st) bf) |>
     <| validators := snd (replay_block (peersets st, validators st) bf) |>
     <| repertoire := R |> <| first_rounds := F |> <| pevents := P |> <| delivered := delivered st ++ [bf] |>.
Proof.
  unfold commit_tail. rewrite set_anchor_block_eq.
  destruct (process_receipts_eq (st <| anchor := new_anchor st bf |>) (b_rr bf) (b_itxs bf)) as (R & F & P & ->).
  exists R, F, P. reflexivity.
Qed.

(* commit: the dummy callback, or the committed copy of the block (state hash and receipts
   filled in) is stored, signed by a validator of its round, and delivered *)
Lemma commit_unfold st b :
  commit st b =
  if self st =? -1 then deliver st b else
  let b1 := b <| b_committed := true |> <| b_receipts := map (fun t => (itx_id t, itx_accept t)) (b_itxs b) |>
              <| b_bodyid := hd (-1) (oracle st) |> in
  let st1 := store_set_block (st <| oracle := tl (oracle st) |>) b1 in
  match get_peerset st1 (b_rr b1) with
  | None => deliver st1 b1
  | Some bps => let bs := sign_block st1 b1 bps in commit_tail (snd bs) (fst bs)
  end.
Proof. exact eq_refl. Qed.

(* what commit leaves of the block it is given: all but the application's answer and the signatures *)
Definition made (b : block) := (b_index b, b_rr b, b_ts b, b_txs b, b_itxs b, b_frame b, b_peers b).

Lemma sign_block_delivers st b bps :
  made (fst (sign_block st b bps)) = made b /\ delivered (snd (sign_block st b bps)) = delivered st.
Proof. rewrite sign_block_eq. split; reflexivity. Qed.

Lemma commit_delivers st b : exists bf, delivered (commit st b) = delivered st ++ [bf] /\ made bf = made b.
Proof.
  rewrite commit_unfold. destruct (self st =? -1); [exists b; split; reflexivity|]. cbv zeta.
  set (b1 := b <| b_committed := true |> <| b_receipts := _ |> <| b_bodyid := _ |>). change (made b) with (made b1).
  set (st1 := store_set_block _ b1). change (delivered st) with (delivered st1). clearbody st1 b1.
  destruct (get_peerset st1 (b_rr b1)) as [bps|]; [|exists b1; split; reflexivity].
  destruct (sign_block_delivers st1 b1 bps) as [M2 F2]. destruct (sign_block st1 b1 bps) as [b2 st2]. cbn [fst snd] in *.
  destruct (commit_tail_eq st2 b2) as (R & F & P & E). exists b2. rewrite <- F2. split; [exact (f_equal delivered E)|exact M2].
Qed.

(* a frame whose block is empty delivers nothing; otherwise the block made from it is committed *)
Lemma process_frame_delivers_or_empty s f :
  let s1 := fold_left add_consensus_event (f_events f) s in
  let b := block_of_frame (last_block s1 + 1) f s1 in
  delivered (process_frame s f) = delivered s /\ b_txs b = [] /\ b_itxs b = [] \/
  exists bf, delivered (process_frame s f) = delivered s ++ [bf] /\ made bf = made b.
Proof.
  cbv zeta. unfold process_frame. destruct (f_events f) as [|fe rest] eqn:Hfe.
  { left. unfold block_of_frame. cbn [b_txs b_itxs]. rewrite Hfe. auto. }
  cbv zeta. set (s1 := fold_left add_consensus_event (fe :: rest) s).
  assert (E1 : delivered s1 = delivered s) by (apply fold_left_view; reflexivity).
  set (b := block_of_frame _ _ _).
  destruct (commit_delivers (store_set_block s1 b) b) as [bf [E Hm]].
  change (delivered (store_set_block s1 b)) with (delivered s1) in E. rewrite E1 in E.
  destruct (b_txs b), (b_itxs b); [left; auto|right; exists bf; auto ..].
Qed.

Lemma process_frame_delivers s f :
  let s1 := fold_left add_consensus_event (f_events f) s in
  delivered (process_frame s f) = delivered s \/
  exists bf, delivered (process_frame s f) = delivered s ++ [bf] /\
             made bf = made (block_of_frame (last_block s1 + 1) f s1).
Proof. destruct (process_frame_delivers_or_empty s f) as [[E _]|H]; [left; exact E|right; exact H]. Qed.

(* ProcessSigPool on one signature: nothing, or the signature is recorded in the stored block, the
   anchor is re-evaluated for that block and the pool entry dropped *)
Lemma process_sig_cases st s :
  process_sig st s = st \/
  exists b ps, zget (bs_index s) (blocks st) = Some b /\ get_peerset st (b_rr b) = Some ps /\
    mem_key (bs_validator s) (keys ps) = true /\ bs_over s = b_bodyid b /\
    let b' := b <| b_sigs := aset (bs_validator s) (bs_over s) (b_sigs b) |> in
    let st1 := store_set_block st b' in
    process_sig st s =
    st1 <| anchor := new_anchor st1 b' |> <| sigpool := filter (fun t => negb (sig_key_eq t s)) (sigpool st) |>.
Proof.
  unfold process_sig.
  destruct (zget (bs_index s) (blocks st)) as [b|] eqn:Hb; [|left; reflexivity].
  destruct (get_peerset st (b_rr b)) as [ps|] eqn:Hp; [|left; reflexivity].
  destruct (mem_key (bs_validator s) (keys ps)) eqn:Hm; cbn [negb]; [|left; reflexivity].
  destruct (Z.eqb_spec (bs_over s) (b_bodyid b)) as [Ho|]; cbn [negb]; [|left; reflexivity].
  right. exists b, ps. do 4 (split; [auto|]). cbv zeta. rewrite set_anchor_block_eq. reflexivity.
Qed.

(* GetFrame returns the cached frame, or fails, or computes and caches a frame for the requested
   round that records the current table and carries get_peerset of that round (C10_peers_hash, at
   the source) *)
Lemma get_frame_inv st rr :
  match zget rr (frames st) with
  | Some f0 => get_frame st rr = (Some f0, st)
  | None => get_frame st rr = (None, st) \/
            exists f, get_frame st rr = (Some f, st <| frames := zset rr f (frames st) |>) /\
                      f_round f = rr /\ f_peersets f = peersets st /\ get_peerset st rr = Some (f_peers f) /\ 0 <= rr
  end.
Proof.
  unfold get_frame. destruct (zget rr (frames st)); [reflexivity|].
  destruct (get_round st rr) as [ri|] eqn:Hr; [|left; reflexivity].
  destruct (get_peerset st rr) as [ps|]; [|left; reflexivity].
  destruct (fold_left _ (ri_received ri) _); [|left; reflexivity].
  destruct (fold_left _ (repertoire st) _); [|left; reflexivity].
  right. eexists. split; [reflexivity|]. repeat split. apply zget_some_nonneg in Hr. exact Hr.
Qed.

(** ** The footprints, read off the equations *)
Lemma sig_rest_store_set_block st b : sig_rest (store_set_block st b) = sig_rest st.
Proof. reflexivity. Qed.
Lemma sig_rest_deliver st b : sig_rest (deliver st b) = sig_rest st.
Proof. reflexivity. Qed.
Lemma set_anchor_block_keep st b : commit_keep (set_anchor_block st b) = commit_keep st.
Proof. rewrite set_anchor_block_eq. reflexivity. Qed.
Lemma sign_block_keep st b bps : commit_keep (snd (sign_block st b bps)) = commit_keep st.
Proof. rewrite sign_block_eq. reflexivity. Qed.
Lemma set_anchor_block_sig_rest st b : sig_rest (set_anchor_block st b) = sig_rest st.
Proof. exact (f_equal fst (set_anchor_block_keep st b)). Qed.
Lemma sign_block_sig_rest st b bps : sig_rest (snd (sign_block st b bps)) = sig_rest st.
Proof. exact (f_equal fst (sign_block_keep st b bps)). Qed.

Lemma add_consensus_events_sig_rest l s :
  sig_rest (fold_left add_consensus_event l s) = sig_rest s.
Proof. apply fold_left_view. reflexivity. Qed.

Lemma process_sig_sig_rest st s : sig_rest (process_sig st s) = sig_rest st.
Proof. destruct (process_sig_cases st s) as [->|(b & ps & _ & _ & _ & _ & ->)]; reflexivity. Qed.

Lemma process_sigpool_sig_rest st : sig_rest (process_sigpool st) = sig_rest st.
Proof. apply fold_left_view, process_sig_sig_rest. Qed.

Lemma set_peerset_commit_rest st r ps st' :
  set_peerset st r ps = Some st' -> commit_rest st' = commit_rest st.
Proof.
  apply (set_peerset_steps (fun a b => commit_rest b = commit_rest a)).
  - intros a b c H1 H2. rewrite H2. exact H1.
  - reflexivity.
  - intros r0 s p. destruct (sp_step_reindexed r0 s p) as (R & F & P & ->). reflexivity.
Qed.

Lemma round_rest_fail st : round_rest (fail st) = round_rest st.
Proof. reflexivity. Qed.
Lemma round_rest_set_pending st v : round_rest (st <| pending := v |>) = round_rest st.
Proof. reflexivity. Qed.

Lemma get_frame_round_rest st rr : round_rest (snd (get_frame st rr)) = round_rest st.
Proof.
  pose proof (get_frame_inv st rr) as C.
  destruct (zget rr (frames st)); [|destruct C as [C|(f & C & _)]]; rewrite C; reflexivity.
Qed.

Lemma bump_last_consensus_round_rest s r : round_rest (bump_last_consensus s r) = round_rest s.
Proof.
  unfold bump_last_consensus. destruct (last_consensus s) as [l|]; [destruct (l <? r)|]; reflexivity.
Qed.

(** Any transitive relation that holds across a SetPeerSet and between states with the same
   [commit_keep] holds across commit; if it holds between states with the same [sig_rest], across
   the commit of a frame; if it holds between states with the same [round_rest], across
   ProcessDecidedRounds as well. *)
Section PeerSetSteps.
  Variable R : hg -> hg -> Prop.
  Hypothesis R_trans : forall a b c, R a b -> R b c -> R a c.
  Hypothesis R_set_peerset : forall st r ps st', set_peerset st r ps = Some st' -> R st st'.

  Section Commit.
  Hypothesis R_same : forall st st', commit_keep st' = commit_keep st -> R st st'.

  Lemma process_receipts_steps st rr itxs : R st (process_receipts st rr itxs).
  Proof.
    unfold process_receipts. destruct (fold_left _ _ _) as [vals changed].
    destruct changed; [|apply R_same; reflexivity].
    destruct (set_peerset st (rr + 6) vals) eqn:E; [|apply R_same; reflexivity].
    eapply R_trans; [exact (R_set_peerset _ _ _ _ E)|apply R_same; reflexivity].
  Qed.

  Lemma commit_steps st b : R st (commit st b).
  Proof.
    rewrite commit_unfold. destruct (self st =? -1); [apply R_same; reflexivity|]. cbv zeta.
    set (b1 := b <| b_committed := true |> <| b_receipts := _ |> <| b_bodyid := _ |>).
    set (st1 := store_set_block _ b1).
    assert (F1 : commit_keep st1 = commit_keep st) by reflexivity. clearbody st1 b1.
    destruct (get_peerset st1 _) as [bps|]; [|apply R_same; rewrite <- F1; reflexivity].
    eapply R_trans; [|eapply R_trans; [apply process_receipts_steps|apply R_same; reflexivity]].
    apply R_same. rewrite set_anchor_block_keep, sign_block_keep. exact F1.
  Qed.
  End Commit.

  Section Frame.
  Hypothesis R_same : forall st st', sig_rest st' = sig_rest st -> R st st'.

  Lemma process_frame_steps s f : R s (process_frame s f).
  Proof.
    unfold process_frame. destruct (f_events f) as [|fe rest]; [apply R_same; reflexivity|].
    cbv zeta. set (s1 := fold_left add_consensus_event (fe :: rest) s).
    assert (F1 : R s s1) by apply R_same, add_consensus_events_sig_rest.
    set (b := block_of_frame _ _ _).
    destruct (b_txs b), (b_itxs b); try exact F1;
      (eapply R_trans; [exact F1|]; eapply R_trans; [|apply commit_steps; intros st st' H; exact (R_same _ _ (f_equal fst H))];
       apply R_same, sig_rest_store_set_block).
  Qed.
  End Frame.

  Hypothesis R_same : forall st st', round_rest st' = round_rest st -> R st st'.

  Lemma process_round_steps s processed stop pr :
    R s (fst (fst (process_round (s, processed, stop) pr))).
  Proof.
    unfold process_round.
    destruct (stop || failed s); [apply R_same; reflexivity|].
    destruct (negb (snd pr)); [apply R_same; reflexivity|].
    destruct (get_round s (fst pr)); [|apply R_same, round_rest_fail].
    pose proof (R_same _ _ (get_frame_round_rest s (fst pr))) as F.
    destruct (get_frame s (fst pr)) as [[f|] s1]; cbn [fst snd] in *.
    - eapply R_trans; [exact F|]. eapply R_trans; [|apply R_same, bump_last_consensus_round_rest].
      apply process_frame_steps. intros st st' H. apply R_same, round_rest_sig_rest, H.
    - eapply R_trans; [exact F|apply R_same, round_rest_fail].
  Qed.

  Lemma process_decided_rounds_steps st : R st (process_decided_rounds st).
  Proof.
    unfold process_decided_rounds.
    pose proof (fold_left_preorder (fun acc acc' => R (fst (fst acc)) (fst (fst acc'))) process_round) as F.
    specialize (F (fun acc => R_same _ _ eq_refl) (fun a b c => R_trans _ _ _)
                  (fun acc pr => let '(s, p, b) := acc in process_round_steps s p b pr)
                  (pending st) (st, [], false)).
    destruct (fold_left process_round (pending st) (st, [], false)) as [[s processed] stop].
    eapply R_trans; [exact F|apply R_same, round_rest_set_pending].
  Qed.
End PeerSetSteps.

(* the footprints of commit and ProcessDecidedRounds, SetPeerSet included *)
Lemma commit_rest_trans (a b c : hg) :
  commit_rest b = commit_rest a -> commit_rest c = commit_rest b -> commit_rest c = commit_rest a.
Proof. intros H1 H2. rewrite H2. exact H1. Qed.

Lemma commit_commit_rest st b : commit_rest (commit st b) = commit_rest st.
Proof.
  exact (commit_steps _ commit_rest_trans set_peerset_commit_rest
           (fun _ _ H => commit_rest_sig_rest _ _ (f_equal fst H)) st b).
Qed.
Lemma process_frame_commit_rest s f : commit_rest (process_frame s f) = commit_rest s.
Proof.
  exact (process_frame_steps _ commit_rest_trans set_peerset_commit_rest commit_rest_sig_rest s f).
Qed.

Lemma process_decided_rounds_blk_rest st : blk_rest (process_decided_rounds st) = blk_rest st.
Proof.
  apply (process_decided_rounds_steps (fun s s' => blk_rest s' = blk_rest s)).
  - intros a b c H1 H2. rewrite H2. exact H1.
  - intros s r ps s' H. apply blk_rest_commit_rest, (set_peerset_commit_rest _ _ _ _ H).
  - apply blk_rest_round_rest.
Qed.

(** * RunConsensus is the four passes in turn *)
Lemma run_consensus_preorder (R : hg -> hg -> Prop) :
  (forall a b c, R a b -> R b c -> R a c) ->
  (forall s, R s (divide_rounds s)) -> (forall s, R s (decide_fame s)) ->
  (forall s, R s (decide_round_received s)) -> (forall s, R s (process_decided_rounds s)) ->
  forall st, R st (run_consensus st).
Proof.
  intros Ht H1 H2 H3 H4 st. unfold run_consensus.
  pose proof (H1 st) as F1. destruct (failed (divide_rounds st)); [exact F1|].
  pose proof (Ht _ _ _ F1 (H2 _)) as F2. destruct (failed (decide_fame _)); [exact F2|].
  pose proof (Ht _ _ _ F2 (H3 _)) as F3. destruct (failed (decide_round_received _)); [exact F3|].
  exact (Ht _ _ _ F3 (H4 _)).
Qed.

Definition lrv (st : hg) := last_round st.

Lemma lrv_blk_rest st st' : blk_rest st' = blk_rest st -> lrv st' = lrv st.
Proof. intros H. exact (f_equal (fun '(_, _, lr, _, _, _, _, _, _, _) => lr) H). Qed.

Lemma lrv_process_decided_rounds st : lrv (process_decided_rounds st) = lrv st.
Proof. apply lrv_blk_rest, process_decided_rounds_blk_rest. Qed.
Lemma lrv_process_sigpool st : lrv (process_sigpool st) = lrv st.
Proof. apply lrv_blk_rest, blk_rest_commit_rest, commit_rest_sig_rest, process_sigpool_sig_rest. Qed.

Definition undv (st : hg) := undetermined st.

Lemma undv_blk_rest st st' : blk_rest st' = blk_rest st -> undv st' = undv st.
Proof. intros H. exact (f_equal (fun '(_, _, _, und, _, _, _, _, _, _) => und) H). Qed.

Lemma undv_process_decided_rounds st : undv (process_decided_rounds st) = undv st.
Proof. apply undv_blk_rest, process_decided_rounds_blk_rest. Qed.
Lemma undv_process_sigpool st : undv (process_sigpool st) = undv st.
Proof. apply undv_blk_rest, blk_rest_commit_rest, commit_rest_sig_rest, process_sigpool_sig_rest. Qed.

Definition lcev (st : hg) := last_cons_ev st.

Lemma lcev_ins_rest st st' : ins_rest st' = ins_rest st -> lcev st' = lcev st.
Proof.
  intros H. exact (f_equal (fun '(_, _, _, _, _, _, _, _, lce, _, _, _, _, _, _, _) => lce) H).
Qed.
Lemma lcev_ord_rest st st' : ord_rest st' = ord_rest st -> lcev st' = lcev st.
Proof. intros H. apply lcev_ins_rest, ins_rest_ord_rest, H. Qed.

Lemma insert_event_lcev st e : lcev (snd (insert_event st e)) = lcev st.
Proof. apply lcev_ins_rest, insert_event_ins_rest. Qed.
Lemma divide_rounds_lcev st : lcev (divide_rounds st) = lcev st.
Proof. apply lcev_ord_rest, divide_rounds_ord_rest. Qed.
Lemma decide_fame_lcev st : lcev (decide_fame st) = lcev st.
Proof. apply lcev_ord_rest, decide_fame_ord_rest. Qed.
Lemma decide_round_received_lcev st : lcev (decide_round_received st) = lcev st.
Proof. apply lcev_ord_rest, decide_round_received_ord_rest. Qed.

Definition spool (st : hg) := sigpool st.

Lemma spool_ord_rest st st' : ord_rest st' = ord_rest st -> spool st' = spool st.
Proof. intros H. exact (f_equal (fun v : ord_rest_t => snd (snd v)) H). Qed.

Lemma store_set_event_spool st es st' : store_set_event st es = Some st' -> spool st' = spool st.
Proof. intros H. destruct (store_set_event_footprint _ _ _ H) as [P ->]. reflexivity. Qed.

Lemma after_store_spool st e la :
  spool (after_store st e la) = fold_left sigpool_add (e_sigs e) (spool st).
Proof.
  rewrite <- (spool_ord_rest _ _ (update_ancestor_fd_ord_rest st e la)).
  unfold after_store. generalize (update_ancestor_fd st e la). intros s3. cbv zeta.
  destruct (is_loaded e); reflexivity.
Qed.

(* InsertEvent: either the pool is untouched (rejected event) or the event's signatures are added *)
Lemma insert_event_spool st e :
  spool (snd (insert_event st e)) = spool st \/
  (fst (insert_event st e) = InsOk /\
   spool (snd (insert_event st e)) = fold_left sigpool_add (e_sigs e) (spool st)).
Proof.
  destruct (insert_event st e) as [r s] eqn:Ev. cbn [fst snd].
  destruct (insert_event_cases _ _ _ _ Ev) as [[-> _]|(_ & _ & _ & A)]; [left; reflexivity|].
  rewrite insert_admitted_eq in A. cbv zeta in A.
  destruct (store_set_event _ _) as [st2|] eqn:E; injection A as <- <-; [right|left; reflexivity].
  split; [reflexivity|]. rewrite after_store_spool. f_equal. exact (store_set_event_spool _ _ _ E).
Qed.

(** DivideRounds / DecideFame / DecideRoundReceived *)
Lemma divide_rounds_spool st : spool (divide_rounds st) = spool st.
Proof. apply spool_ord_rest, divide_rounds_ord_rest. Qed.
Lemma decide_fame_spool st : spool (decide_fame st) = spool st.
Proof. apply spool_ord_rest, decide_fame_ord_rest. Qed.
Lemma decide_round_received_spool st : spool (decide_round_received st) = spool st.
Proof. apply spool_ord_rest, decide_round_received_ord_rest. Qed.
