From Coq Require Import ZArith List Bool Lia ZifyBool Permutation.
From V Require Import Model.Quorum.
Import ListNotations.
Open Scope Z_scope.
Ltac Zify.zify_post_hook ::= Z.div_mod_to_equations.

Lemma sm_least n : 0 <= n -> 3 * sm n > 2 * n /\ 3 * (sm n - 1) <= 2 * n.
Proof. unfold sm; intros; lia. Qed.

Lemma sm_is_least n m : 0 <= n -> 3 * m > 2 * n -> sm n <= m.
Proof. unfold sm; intros; lia. Qed.

Lemma sm_le_n n : 1 <= n -> sm n <= n.
Proof. unfold sm; intros; lia. Qed.

Lemma sm_two_gt n a b i : 0 <= n -> sm n <= a -> sm n <= b -> a + b <= n + i -> 3 * i > n.
Proof. unfold sm; intros; lia. Qed.

Lemma sm_gt_two_faulty n f : 0 <= f -> 3 * f < n -> sm n > 2 * f.
Proof. unfold sm; intros; lia. Qed.

Lemma tc_ceil sl n : 1 < sl -> 0 <= n -> 3 * tc sl n >= n /\ 3 * (tc sl n - 1) < n.
Proof. unfold tc; intros; destruct (sl <=? 1) eqn:E; lia. Qed.

Lemma trusted_gt_third k sl n : 1 <= n -> n <= sl -> trusted k sl n = true -> 3 * k > n.
Proof. unfold trusted, tc; intros; destruct (sl <=? 1) eqn:E; lia. Qed.

(* exact characterisation: for n >= 2 the code needs k > ceil(n/3), i.e. 3(k-1) >= n,
   which is slightly stricter than 3k > n (e.g. n = 4 needs 3 signatures). *)
Lemma trusted_iff k sl n : 2 <= n -> n = sl -> (trusted k sl n = true <-> 3 * (k - 1) >= n).
Proof. unfold trusted, tc; intros; destruct (sl <=? 1) eqn:E; lia. Qed.

Lemma trusted_one_iff sl n : 1 <= n -> n = sl -> (trusted 1 sl n = true <-> n = 1).
Proof. unfold trusted, tc; intros; destruct (sl <=? 1) eqn:E; lia. Qed.

Lemma trusted_exceeds_faulty k sl n f :
  1 <= n -> n <= sl -> 0 <= f -> 3 * f < n -> trusted k sl n = true -> k > f.
Proof. intros; pose proof (trusted_gt_third k sl n); lia. Qed.

(** * Finite sets as duplicate-free lists of keys *)

Lemma mem_key_In k l : mem_key k l = true <-> In k l.
Proof.
  induction l as [|x r IH]; simpl; [split; [discriminate|tauto]|].
  destruct (Z.eqb_spec x k); [split; auto|]. rewrite IH; split; [auto|intros [?|?]; [contradiction|auto]].
Qed.

Lemma mem_key_false k l : mem_key k l = false <-> ~ In k l.
Proof. rewrite <- mem_key_In; destruct (mem_key k l); split; congruence. Qed.

Lemma dedup_In k l : In k (dedup l) <-> In k l.
Proof.
  induction l as [|x r IH]; simpl; [tauto|].
  destruct (mem_key x r) eqn:E.
  - rewrite IH; split; [auto|intros [->|?]; [apply mem_key_In; auto|auto]].
  - simpl; rewrite IH; tauto.
Qed.

Lemma dedup_NoDup l : NoDup (dedup l).
Proof.
  induction l as [|x r IH]; simpl; [constructor|].
  destruct (mem_key x r) eqn:E; [auto|].
  constructor; [rewrite dedup_In; apply mem_key_false; auto|auto].
Qed.

Lemma dedup_id l : NoDup l -> dedup l = l.
Proof.
  induction 1 as [|x r Hx Hr IH]; simpl; [reflexivity|].
  apply mem_key_false in Hx; rewrite Hx, IH; reflexivity.
Qed.

Definition inter (a b : list Z) : list Z := filter (fun x => mem_key x b) a.
Definition diff (a b : list Z) : list Z := filter (fun x => negb (mem_key x b)) a.

Lemma filter_split {A} (f : A -> bool) l :
  length l = (length (filter f l) + length (filter (fun x => negb (f x)) l))%nat.
Proof. induction l as [|x r IH]; simpl; [reflexivity|]; destruct (f x); simpl; lia. Qed.

Lemma NoDup_filter {A} (f : A -> bool) l : NoDup l -> NoDup (filter f l).
Proof.
  induction 1 as [|x r Hx Hr IH]; simpl; [constructor|].
  destruct (f x); [constructor; [rewrite filter_In; tauto|auto]|auto].
Qed.

Lemma NoDup_app_intro {A} (l1 l2 : list A) :
  NoDup l1 -> NoDup l2 -> (forall x, In x l1 -> ~ In x l2) -> NoDup (l1 ++ l2).
Proof.
  induction 1 as [|x r Hx Hr IH]; simpl; intros H2 Hd; [auto|].
  constructor.
  - rewrite in_app_iff; intros [?|?]; [contradiction|]. apply (Hd x); simpl; auto.
  - apply IH; [auto|]. intros y Hy; apply Hd; simpl; auto.
Qed.

(* inclusion-exclusion, as an inequality *)
Lemma inter_lower (u a b : list Z) :
  NoDup a -> NoDup b -> incl a u -> incl b u ->
  (length a + length b <= length u + length (inter a b))%nat.
Proof.
  intros Ha Hb Hau Hbu.
  assert (Hnd : NoDup (b ++ diff a b)).
  { apply NoDup_app_intro; auto.
    - apply NoDup_filter; auto.
    - intros x Hx Hx'. apply filter_In in Hx' as [_ Hx'].
      apply mem_key_In in Hx. rewrite Hx in Hx'. discriminate. }
  assert (Hin : incl (b ++ diff a b) u).
  { intros x Hx; apply in_app_iff in Hx as [Hx|Hx]; [auto|].
    apply filter_In in Hx as [Hx _]; auto. }
  pose proof (NoDup_incl_length Hnd Hin) as Hl.
  rewrite app_length in Hl.
  pose proof (filter_split (fun x => mem_key x b) a) as Hs.
  unfold inter, diff in *. lia.
Qed.

Lemma inter_incl_l a b : incl (inter a b) a.
Proof. intros x Hx; apply filter_In in Hx; tauto. Qed.
Lemma inter_incl_r a b : incl (inter a b) b.
Proof. intros x Hx; apply filter_In in Hx as [_ Hx]; apply mem_key_In; auto. Qed.

(** Any two supermajorities of an n-set share more than n/3 members. *)
Lemma sm_intersect (u a b : list Z) :
  NoDup u -> NoDup a -> NoDup b -> incl a u -> incl b u ->
  let n := Z.of_nat (length u) in
  sm n <= Z.of_nat (length a) -> sm n <= Z.of_nat (length b) ->
  3 * Z.of_nat (length (inter a b)) > n.
Proof.
  intros Hu Ha Hb Hau Hbu n H1 H2.
  pose proof (inter_lower u a b Ha Hb Hau Hbu) as Hl.
  apply (sm_two_gt n (Z.of_nat (length a)) (Z.of_nat (length b))); subst n; lia.
Qed.

(** A supermajority contains more honest than faulty members when 3f < n. *)
Lemma sm_honest_majority (u a flt : list Z) :
  NoDup u -> NoDup a -> NoDup flt -> incl a u -> incl flt u ->
  let n := Z.of_nat (length u) in
  3 * Z.of_nat (length flt) < n -> sm n <= Z.of_nat (length a) ->
  Z.of_nat (length (diff a flt)) > Z.of_nat (length (inter a flt)).
Proof.
  intros Hu Ha Hf Hau Hfu n Hf3 Hsm.
  pose proof (filter_split (fun x => mem_key x flt) a) as Hs.
  assert (Hle : (length (inter a flt) <= length flt)%nat).
  { apply NoDup_incl_length; [apply NoDup_filter; auto|apply inter_incl_r]. }
  pose proof (sm_gt_two_faulty n (Z.of_nat (length flt))).
  unfold inter, diff in *. lia.
Qed.

(** A trusted block (k distinct valid signers out of the n-set) has an honest signer. *)
Lemma trusted_has_honest (u signers flt : list Z) :
  NoDup u -> NoDup signers -> NoDup flt -> incl signers u -> incl flt u ->
  let n := Z.of_nat (length u) in
  1 <= n -> 3 * Z.of_nat (length flt) < n ->
  trusted (Z.of_nat (length signers)) n n = true ->
  exists s, In s signers /\ ~ In s flt.
Proof.
  intros Hu Hs Hf Hsu Hfu n Hn Hf3 Ht.
  pose proof (trusted_exceeds_faulty _ n n (Z.of_nat (length flt)) Hn ltac:(lia) ltac:(lia) Hf3 Ht) as Hk.
  destruct (diff signers flt) as [|s r] eqn:E.
  - exfalso.
    pose proof (filter_split (fun x => mem_key x flt) signers) as Hsp.
    assert (Hle : (length (inter signers flt) <= length flt)%nat).
    { apply NoDup_incl_length; [apply NoDup_filter; auto|apply inter_incl_r]. }
    unfold diff in E. unfold inter in Hle. cbv beta in Hsp. rewrite E in Hsp. simpl in Hsp. lia.
  - exists s. assert (Hin : In s (diff signers flt)) by (rewrite E; simpl; auto).
    apply filter_In in Hin as [H1 H2]. split; auto.
    apply mem_key_false. destruct (mem_key s flt); [discriminate|reflexivity].
Qed.

(** * Peer sets built by any add/remove sequence have distinct keys (the id of a peer being a
    function of its key, [idfun]), so the thresholds are computed on the number of distinct
    validators. *)

Definition id_of_key_fun (ps : peerset) : Prop :=
  forall p q, In p ps -> In q ps -> pkey p = pkey q -> pid p = pid q.

Lemma keys_with_removed ps p :
  NoDup (keys ps) -> NoDup (keys (with_removed ps p)).
Proof.
  unfold keys, with_removed. induction ps as [|q r IH]; simpl; intros H; [constructor|].
  inversion H as [|? ? Hq Hr]; subst.
  destruct (Z.eqb (pkey q) (pkey p)); simpl; [auto|].
  constructor; [|auto]. intros Hin; apply Hq.
  apply in_map_iff in Hin as [x [Hx Hin]]. apply filter_In in Hin as [Hin _].
  apply in_map_iff; eauto.
Qed.

(* id is a function of the key over the whole repertoire of peers that ever occur *)
Definition idfun (idf : Z -> Z) (p : peer) : Prop := pid p = idf (pkey p).

Lemma keys_with_new idf ps p :
  Forall (idfun idf) ps -> idfun idf p ->
  NoDup (keys ps) -> NoDup (keys (with_new ps p)).
Proof.
  unfold with_new; intros Hf Hp Hnd.
  destruct (mem_key (pid p) (ids ps)) eqn:E; [auto|].
  unfold keys; rewrite map_app; simpl.
  apply NoDup_app_intro; [auto|constructor; [simpl; tauto|constructor]|].
  intros k Hk [<-|[]].
  apply mem_key_false in E. apply E.
  apply in_map_iff in Hk as [q [Hq Hin]].
  rewrite Forall_forall in Hf. specialize (Hf q Hin).
  unfold ids; apply in_map_iff. exists q; split; [|auto].
  unfold idfun in *; congruence.
Qed.

Definition op_peer (o : psop) := match o with OpAdd p | OpRemove p => p end.

Lemma Forall_with_new (P : peer -> Prop) ps p : Forall P ps -> P p -> Forall P (with_new ps p).
Proof.
  unfold with_new; intros; destruct (mem_key _ _); [auto|].
  apply Forall_app; split; auto.
Qed.
Lemma Forall_with_removed (P : peer -> Prop) ps p : Forall P ps -> Forall P (with_removed ps p).
Proof. unfold with_removed; intros H. rewrite Forall_forall in *; intros x Hx; apply filter_In in Hx as [Hx _]; auto. Qed.

Lemma run_keys_NoDup idf ops ps0 :
  Forall (idfun idf) ps0 -> NoDup (keys ps0) ->
  Forall (fun o => idfun idf (op_peer o)) ops ->
  NoDup (keys (fold_left ps_step ops ps0)) /\ Forall (idfun idf) (fold_left ps_step ops ps0).
Proof.
  revert ps0; induction ops as [|o ops IH]; simpl; intros ps0 Hf Hnd Hops; [auto|].
  inversion Hops as [|? ? Ho Hrest]; subst.
  apply IH; auto; destruct o as [p|p]; simpl in *.
  - apply Forall_with_new; auto.
  - apply Forall_with_removed; auto.
  - eapply keys_with_new; eauto.
  - apply keys_with_removed; auto.
Qed.

Lemma ps_len_distinct ps : NoDup (keys ps) -> ps_len ps = ps_slice_len ps.
Proof. unfold ps_len, ps_slice_len; intros H; rewrite dedup_id by auto. unfold keys; rewrite map_length; reflexivity. Qed.

Lemma ps_len_le_slice ps : ps_len ps <= ps_slice_len ps.
Proof.
  unfold ps_len, ps_slice_len, keys. rewrite <- (map_length pkey ps).
  generalize (map pkey ps) as l. induction l as [|x r IH]; simpl; [lia|].
  destruct (mem_key x r); simpl length; lia.
Qed.

(** Thresholds of any set reachable by add/remove operations are those of its
    number of distinct validators. *)
Lemma thresholds_use_distinct_count idf ops :
  Forall (fun o => idfun idf (op_peer o)) ops ->
  let ps := ps_run ops in
  let n := Z.of_nat (length (dedup (keys ps))) in
  NoDup (keys ps) /\ super_majority ps = sm n /\ trust_count ps = tc n n.
Proof.
  intros Hops ps n.
  destruct (run_keys_NoDup idf ops [] ltac:(constructor) ltac:(constructor) Hops) as [Hnd _].
  fold (ps_run ops) in Hnd. fold ps in Hnd.
  split; [auto|]. split; [reflexivity|].
  unfold trust_count. rewrite <- (ps_len_distinct ps Hnd). reflexivity.
Qed.

(** Even for a hostile slice with repeated keys, "trusted" implies more than a third
    of the distinct keys. *)
Lemma trusted_hostile_slice k ps :
  1 <= ps_len ps -> trusted k (ps_slice_len ps) (ps_len ps) = true -> 3 * k > ps_len ps.
Proof. intros; eapply trusted_gt_third; eauto. apply ps_len_le_slice. Qed.

(* lia's division equations are wanted in this file only *)
Ltac Zify.zify_post_hook ::= idtac.
