(* Two concrete histories (static membership, no forks, every event valid) used by Properties/C04.v:
   cw: a delivered block whose first frame event has parents that are in no delivered block,
       because the frame that holds them carries no transaction and therefore produced no block
       (process_frame / Hashgraph.ProcessDecidedRounds: "if len(block.Transactions()) > 0 || ...");
   aw: an event with a round-received number whose parent has none: round 2 is held undecided by
       the late witness 19 while round 3 is decided, so the round-2 events 18, 20, 22 are received
       in round 3 and the round-1 events below them (12..17) are still waiting for round 2
       (DecideRoundReceived stops at the first undecided round above the event's own round). *)
From Coq Require Import ZArith List Bool.
From V Require Import Model.ZMap Model.Quorum Model.Voting Model.HgImpl Proofs.AdmissionProofs Proofs.BlockInv
  Proofs.OrderProofs Proofs.Static Proofs.Agreement.
Import ListNotations.
Open Scope Z_scope.

Definition cw_g : peerset := [mkPeer 100 0; mkPeer 101 1].
Definition cw_ev (t : Z * Z * Z * Z * Z * list Z) : event :=
  match t with (id, c, ix, sp, op, txs) => mkEvent id c ix sp op 0 true id txs [] [] true end.
(* (id, creator, index, self-parent, other-parent, transactions) *)
Definition cw_all : list event := map cw_ev
  [(0,1,0,-1,-1,[]); (1,0,0,-1,0,[]); (2,1,1,0,1,[]); (3,1,2,2,-1,[]); (4,0,1,1,3,[1;2;3]); (5,0,2,4,-1,[]);
   (6,0,3,5,-1,[]); (7,1,3,3,6,[]); (8,0,4,6,7,[]); (9,0,5,8,-1,[]); (10,1,4,7,9,[4;5;6;7]); (11,1,5,10,-1,[]);
   (12,0,6,9,11,[]); (13,0,7,12,-1,[]); (14,1,6,11,13,[])].
Definition cw_ops : list hop := map HInsert cw_all.
Definition cw_st : hg := hrun (init_hg 1 cw_g []) cw_ops.

Lemma cw_premises : ids_determine cw_all /\ no_accept cw_all /\ fork_free cw_all /\ Forall (hop_ok cw_all) cw_ops.
Proof.
  split; [apply ids_determine_distinct; vm_compute; reflexivity|].
  split; [apply no_acceptb_sound; vm_compute; reflexivity|].
  split; [apply fork_freeb_sound; vm_compute; reflexivity|].
  apply hop_ok_inserts; vm_compute; reflexivity.
Qed.

Lemma cw_facts :
  failed cw_st = false /\
  map (fun b => (b_index b, b_rr b, b_txs b, map fe_id (f_events (b_frame b)))) (delivered cw_st)
    = [(0, 2, [1; 2; 3], [2; 3; 4; 5; 6])] /\
  map (fun x => match get_event cw_st x with Some e => (e_sp (ev_e e), e_op (ev_e e), ev_round e, ev_rr e) | None => (0, 0, None, None) end)
      [0; 1; 2]
    = [(-1, -1, Some 0, Some 1); (-1, 0, Some 0, Some 1); (0, 1, Some 1, Some 2)] /\
  match zget 1 (frames cw_st) with Some f => map fe_id (f_events f) | None => [] end = [0; 1].
Proof. vm_compute. repeat split; reflexivity. Qed.

Definition aw_g : peerset := [mkPeer 200 0; mkPeer 300 1; mkPeer 100 2; mkPeer 400 3].
Definition aw_ev (t : Z * Z * Z * Z * Z) : event :=
  match t with (id, c, ix, sp, op) => mkEvent id c ix sp op 0 true id [] [] [] true end.
(* (id, creator, index, self-parent, other-parent), in insertion order *)
Definition aw_all : list event := map aw_ev
  [(1,0,0,-1,-1); (2,0,1,1,-1); (3,2,0,-1,-1); (4,0,2,2,3); (5,2,1,3,4); (6,2,2,5,-1); (8,0,3,4,6);
   (7,1,0,-1,2); (9,1,1,7,6); (10,2,3,6,9); (11,2,4,10,-1); (12,0,4,8,11); (13,2,5,11,12);
   (14,2,6,13,-1); (15,1,2,9,14); (16,0,5,12,15); (17,2,7,14,15); (18,2,8,17,16); (20,1,3,15,18);
   (22,0,6,16,20); (21,2,9,18,-1); (23,0,7,22,21); (24,0,8,23,-1); (25,0,9,24,-1); (26,0,10,25,-1);
   (27,1,4,20,26); (28,2,10,21,27); (0,3,0,-1,-1); (19,3,1,0,16); (29,1,5,27,28); (30,1,6,29,-1);
   (31,2,11,28,30); (32,2,12,31,-1); (33,3,2,19,32); (35,0,11,26,-1); (36,0,12,35,33); (37,0,13,36,-1);
   (39,0,14,37,-1); (34,1,7,30,31); (38,1,8,34,32); (41,0,15,39,38); (42,0,16,41,-1); (40,2,13,32,39);
   (43,2,14,40,-1); (46,2,15,43,42); (44,3,3,33,43); (47,2,16,46,44); (48,2,17,47,-1); (45,1,9,38,-1);
   (49,2,18,48,45); (50,1,10,45,-1); (51,2,19,49,50); (52,1,11,50,51); (53,2,20,51,52); (54,0,17,42,53)].
Definition aw_ops : list hop := map HInsert aw_all.
Definition aw_st : hg := hrun (init_hg 0 aw_g []) aw_ops.

Lemma aw_premises : ids_determine aw_all /\ no_accept aw_all /\ fork_free aw_all /\ Forall (hop_ok aw_all) aw_ops.
Proof.
  split; [apply ids_determine_distinct; vm_compute; reflexivity|].
  split; [apply no_acceptb_sound; vm_compute; reflexivity|].
  split; [apply fork_freeb_sound; vm_compute; reflexivity|].
  apply hop_ok_inserts; vm_compute; reflexivity.
Qed.

Lemma aw_facts :
  failed aw_st = false /\
  map (fun x => match get_event aw_st x with Some e => (x, e_sp (ev_e e), e_op (ev_e e), ev_round e, ev_rr e) | None => (x, 0, 0, None, None) end)
      [17; 18; 19]
    = [(17, 14, 15, Some 1, None); (18, 17, 16, Some 2, Some 3); (19, 0, 16, Some 2, None)] /\
  last_consensus aw_st = Some 1 /\
  map (fun r => match get_round aw_st r with Some ri => (r, ri_decided ri) | None => (r, false) end) [1; 2; 3]
    = [(1, true); (2, false); (3, true)].
Proof. vm_compute. repeat split; reflexivity. Qed.

(* the literal "every ancestor of a committed event is in a delivered block, earlier" fails on cw:
   the first event of the first delivered block has parents, and nothing is delivered before it *)
Lemma cw_literal_refuted :
  ~ (forall all st k d j b a,
       (exists self_ genesis oracle_ ops,
          ids_determine all /\ Forall (hop_ok all) ops /\ st = hrun (init_hg self_ genesis oracle_) ops) ->
       nth_error (delivered st) k = Some d ->
       nth_error (f_events (b_frame d)) j = Some b -> anc st a (fe_id b) ->
       exists k' d' i fa, nth_error (delivered st) k' = Some d' /\
         nth_error (f_events (b_frame d')) i = Some fa /\ fe_id fa = a /\
         ((k' < k)%nat \/ (k' = k /\ (i < j)%nat))).
Proof.
  intros S. destruct cw_premises as [ID [_ [_ H]]].
  assert (D : (exists d b, nth_error (delivered cw_st) 0 = Some d /\ nth_error (f_events (b_frame d)) 0 = Some b /\ fe_id b = 2) /\
              exists eb, get_event cw_st 2 = Some eb /\ e_sp (ev_e eb) = 0).
  { vm_compute. split; [eexists; eexists; split; [reflexivity|]|eexists]; split; reflexivity. }
  destruct D as [[d [b [Hd [Hb Hid]]]] [eb [Heb Hsp]]].
  assert (A : anc cw_st 0 (fe_id b)).
  { rewrite Hid. apply anc_parent. exists eb. split; [exact Heb|]. split; [discriminate|left; symmetry; exact Hsp]. }
  destruct (S cw_all cw_st 0%nat d 0%nat b 0) as [k' [d' [i [fa [_ [_ [_ [Hlt|[_ Hlt]]]]]]]]]; try assumption.
  - exists 1, cw_g, [], cw_ops. split; [exact ID|]. split; [exact H|reflexivity].
  - inversion Hlt.
  - inversion Hlt.
Qed.

Local Notation AW := (hrun (init_hg 0 aw_g []) aw_ops) (only parsing).

(* The proof term is about the written-out run: the kernel, which unfolds the constant of the expected
   type first, then only unfolds [aw_st]; given [eq_refl aw_st] it would evaluate the run. *)
Lemma aw_st_run : aw_st = AW.
Proof. exact (eq_refl AW). Qed.

Lemma map_eq_nth {A B} (f : A -> B) l m k a : map f l = m -> nth_error l k = Some a -> Some (f a) = nth_error m k.
Proof. intros <- H. symmetry. apply map_nth_error. exact H. Qed.

(* "an ancestor of an event that has a round-received number has one too" fails on aw:
   event 18 is received in round 3, its self-parent 17 is not received *)
Lemma aw_ancestor_refuted :
  ~ (forall genesis all self_ oracle_ ops a b eb r,
       ids_determine all -> no_accept all -> fork_free all -> Forall (hop_ok all) ops ->
       let st := hrun (init_hg self_ genesis oracle_) ops in
       anc st a b -> get_event st b = Some eb -> ev_rr eb = Some r ->
       exists ea r', get_event st a = Some ea /\ ev_rr ea = Some r').
Proof.
  intros S. destruct aw_premises as [ID [NA [FF H]]].
  (* the entries for 17 and 18 of aw_facts.  [injection] and [discriminate] reduce the terms they are given: they
     are used only where [get_event AW _] has been replaced by its value *)
  destruct aw_facts as [_ [M _]]. rewrite aw_st_run in M.
  pose proof (map_eq_nth _ _ _ 0%nat 17 M eq_refl) as M17. pose proof (map_eq_nth _ _ _ 1%nat 18 M eq_refl) as M18.
  cbv beta in M17, M18. clear M.
  revert M18. destruct (get_event AW 18) as [eb|] eqn:Heb; intros M18; [|discriminate M18].
  injection M18 as Hsp _ _ Hrr.
  assert (A : anc AW 17 18).
  { apply anc_parent. exists eb. split; [exact Heb|]. split; [discriminate|left; symmetry; exact Hsp]. }
  specialize (S aw_g aw_all 0 [] aw_ops 17 18 eb 3 ID NA FF H). cbv zeta in S.
  destruct (S A Heb Hrr) as [ea [r' [Ha Hr]]].
  rewrite Ha in M17. injection M17 as _ _ _ Q. rewrite Hr in Q. discriminate Q.
Qed.
