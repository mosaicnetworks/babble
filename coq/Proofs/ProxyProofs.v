(* Proofs about Model/Proxy.v (C20). *)
From Coq Require Import ZArith List Bool Lia ZifyBool.
From V Require Import Model.Proxy.
Import ListNotations.
Open Scope Z_scope.
Ltac Zify.zify_post_hook ::= Z.div_mod_to_equations.

Section Loop.
Variable R : Type.

(* an attempt that fails costs one try, drops the connection, and leaves the rest of the loop to decide *)
Lemma call_loop_fail : forall t conn (o : outcome R) rest,
  is_ok o = false -> exists a b, call_loop (S t) conn (o :: rest) = bump a b (call_loop t false rest).
Proof. intros t conn o rest H. destruct o; [eexists; eexists; reflexivity.. | discriminate]. Qed.

(* a success is the reply of the first attempt that went through, and every earlier attempt failed *)
Lemma call_loop_success : forall t conn (outs : list (outcome R)) r,
  c_result (call_loop t conn outs) = Some r ->
  exists k, (k < t)%nat /\ nth_error outs k = Some (Ok r) /\
    forall j, (j < k)%nat -> exists o, nth_error outs j = Some o /\ is_ok o = false.
Proof.
  induction t as [| t IH]; intros conn outs r H; [discriminate |].
  destruct outs as [| o rest]; [discriminate |].
  destruct (is_ok o) eqn:E.
  - destruct o; try discriminate. injection H as ->.
    exists 0%nat. split; [lia |]. split; [reflexivity |]. intros j Hj. lia.
  - destruct (call_loop_fail t conn o rest E) as [a [b Eb]]. rewrite Eb in H.
    destruct (IH false rest r H) as [k [Hk [Hn Hb]]].
    exists (S k). split; [lia |]. split; [exact Hn |].
    intros [| j] Hj; [exists o; split; [reflexivity | exact E] | apply Hb; lia].
Qed.

(* when every attempt fails the call returns an error *)
Lemma call_loop_all_fail : forall t conn (outs : list (outcome R)),
  (forall o, In o (firstn t outs) -> is_ok o = false) ->
  c_result (call_loop t conn outs) = None.
Proof.
  induction t as [| t IH]; intros conn outs H; [reflexivity |].
  destruct outs as [| o rest]; [reflexivity |].
  destruct (call_loop_fail t conn o rest (H o (or_introl eq_refl))) as [a [b ->]].
  apply IH. intros o' Hi. apply H. right. exact Hi.
Qed.

(* and the first attempt that goes through decides *)
Lemma call_loop_first_ok : forall t conn (outs : list (outcome R)) k r,
  (k < t)%nat -> nth_error outs k = Some (Ok r) ->
  (forall j, (j < k)%nat -> exists o, nth_error outs j = Some o /\ is_ok o = false) ->
  c_result (call_loop t conn outs) = Some r.
Proof.
  induction t as [| t IH]; intros conn outs k r Hk Hn Hb; [lia |].
  destruct outs as [| o rest]; [destruct k; discriminate |].
  destruct k as [| k].
  - injection Hn as ->. reflexivity.
  - destruct (Hb 0%nat (Nat.lt_0_succ k)) as [o0 [E0 F0]]. injection E0 as <-.
    destruct (call_loop_fail t conn o rest F0) as [a [b ->]].
    apply (IH false rest k r); [lia | exact Hn |].
    intros j Hj. apply (Hb (S j)). lia.
Qed.

Lemma call_loop_counts : forall t conn (outs : list (outcome R)),
  let c := call_loop t conn outs in
  (c_attempts c <= t)%nat /\ (c_deliveries c <= c_attempts c)%nat /\ (c_dials c <= c_attempts c)%nat.
Proof.
  induction t as [| t IH]; intros conn outs c; subst c.
  - cbn. lia.
  - destruct outs as [| o rest]; [cbn; lia |].
    cbn [call_loop]. specialize (IH false rest). cbv zeta in IH.
    destruct o as [| d | d | r]; cbn [bump c_attempts c_deliveries c_dials] in *.
    + lia.
    + destruct d, conn; cbn; lia.
    + destruct d, conn; cbn; lia.
    + destruct conn; cbn; lia.
Qed.

Lemma call_loop_success_delivered : forall t conn (outs : list (outcome R)) r,
  c_result (call_loop t conn outs) = Some r ->
  (1 <= c_deliveries (call_loop t conn outs))%nat /\ c_conn (call_loop t conn outs) = true.
Proof.
  induction t as [| t IH]; intros conn outs r H; [discriminate |].
  destruct outs as [| o rest]; [discriminate |].
  destruct (is_ok o) eqn:E.
  - destruct o; try discriminate. cbn. split; [lia | reflexivity].
  - destruct (call_loop_fail t conn o rest E) as [a [b Eb]]. rewrite Eb in *.
    destruct (IH false rest r H) as [H1 H2]. cbn [bump c_deliveries c_conn]. split; [lia | exact H2].
Qed.

(* after an error with all attempts consumed no connection is kept *)
Lemma call_loop_error_conn : forall t conn (outs : list (outcome R)),
  (0 < t)%nat -> (t <= length outs)%nat ->
  c_result (call_loop t conn outs) = None -> c_conn (call_loop t conn outs) = false.
Proof.
  induction t as [| t IH]; intros conn outs Ht Hl H; [lia |].
  destruct outs as [| o rest]; [cbn in Hl; lia |].
  cbn [length] in Hl.
  destruct (is_ok o) eqn:E; [destruct o; discriminate |].
  destruct (call_loop_fail t conn o rest E) as [a [b Eb]]. rewrite Eb in *.
  destruct t as [| t']; [reflexivity |]. apply IH; [lia | lia | exact H].
Qed.

(* the reply and the number of deliveries of a call do not depend on the connection it starts with *)
Lemma call_loop_result_conn : forall t c1 c2 (outs : list (outcome R)),
  c_result (call_loop t c1 outs) = c_result (call_loop t c2 outs) /\
  c_deliveries (call_loop t c1 outs) = c_deliveries (call_loop t c2 outs).
Proof.
  intros [| t] c1 c2 [| o rest]; try (split; reflexivity).
  cbn [call_loop]. destruct o; split; reflexivity.
Qed.

Lemma call_seq_results : forall (calls : list (list (outcome R))) conn,
  map c_result (call_seq conn calls) = map (fun outs => c_result (call false outs)) calls /\
  map c_deliveries (call_seq conn calls) = map (fun outs => c_deliveries (call false outs)) calls.
Proof.
  induction calls as [| outs rest IH]; intro conn; [split; reflexivity |].
  cbn [call_seq map]. destruct (IH (c_conn (call conn outs))) as [H1 H2].
  destruct (call_loop_result_conn retries conn false outs) as [E1 E2].
  unfold call in *. rewrite H1, H2, E1, E2. split; reflexivity.
Qed.

Lemma call_seq_length : forall (calls : list (list (outcome R))) conn, length (call_seq conn calls) = length calls.
Proof. induction calls as [| o r IH]; intro conn; [reflexivity |]. cbn [call_seq length]. rewrite IH. reflexivity. Qed.

(* the result of the k-th call is a function of the k-th outcome list only: whatever comes before or after *)
Lemma earlier_results_unaffected : forall conn conn' (pre pre' : list (list (outcome R))) c post post',
  length pre = length pre' ->
  nth_error (map c_result (call_seq conn (pre ++ c :: post))) (length pre) = Some (c_result (call false c)) /\
  nth_error (map c_result (call_seq conn' (pre' ++ c :: post'))) (length pre) = Some (c_result (call false c)).
Proof.
  intros conn conn' pre pre' c post post' Hl.
  destruct (call_seq_results (pre ++ c :: post) conn) as [H _].
  destruct (call_seq_results (pre' ++ c :: post') conn') as [H' _].
  rewrite H, H'. rewrite Hl at 2.
  rewrite !nth_error_map, !nth_error_app2, !Nat.sub_diag by lia. split; reflexivity.
Qed.

Lemma call_counts : forall conn (outs : list (outcome R)),
  (c_attempts (call conn outs) <= 3)%nat /\ (c_deliveries (call conn outs) <= 3)%nat /\
  (c_dials (call conn outs) <= 3)%nat.
Proof. intros conn outs. pose proof (call_loop_counts retries conn outs) as H. cbv zeta in H. unfold call. unfold retries in *. lia. Qed.
End Loop.

Section Attempts.
Variable R : Type.
Variable isnull : R -> bool.
Variable denull : R -> R.

(* an attempt the application did not handle successfully never yields a reply: network faults, and
   handler errors WHATEVER their message (server_method makes the message non-empty) *)
Lemma unhandled_not_ok : forall a, handled a = false -> is_ok (outcome_of isnull denull a) = false.
Proof.
  intros a H. destruct a as [| | | | | h]; try reflexivity.
  destruct h as [r | e r]; cbn in H; [discriminate | reflexivity].
Qed.

Lemma failures_reported : forall conn (l : list (attempt R)),
  (forall a, In a (firstn retries l) -> handled a = false) ->
  c_result (call_attempts isnull denull conn l) = None.
Proof.
  intros conn l H. unfold call_attempts, call. apply call_loop_all_fail.
  intros o Ho. rewrite firstn_map in Ho. apply in_map_iff in Ho as [a [<- Ha]].
  apply unhandled_not_ok. apply H. exact Ha.
Qed.

Lemma nth_error_map_some : forall A B (f : A -> B) l k y,
  nth_error (map f l) k = Some y -> exists x, nth_error l k = Some x /\ y = f x.
Proof.
  intros A B f l k y H. rewrite nth_error_map in H.
  destruct (nth_error l k) as [x |]; [injection H as <-; eauto | discriminate].
Qed.

(* every success is the (de-nulled) reply of an attempt in which the handler succeeded *)
Lemma success_source : forall conn (l : list (attempt R)) r,
  c_result (call_attempts isnull denull conn l) = Some r ->
  exists k r0, (k < retries)%nat /\ nth_error l k = Some (APass (HOk r0)) /\ r = denull r0 /\
    forall j, (j < k)%nat -> exists a, nth_error l j = Some a /\ is_ok (outcome_of isnull denull a) = false.
Proof.
  intros conn l r H. unfold call_attempts, call in H.
  destruct (call_loop_success R retries conn _ r H) as [k [Hk [Hn Hb]]].
  destruct (nth_error_map_some _ _ _ _ _ _ Hn) as [a [Ha E]].
  destruct a as [| | | | | h]; cbn in E; try discriminate.
  destruct h as [r0 | e r0]; cbn in E; [| discriminate].
  destruct (isnull (denull r0)); [discriminate |]. inversion E; subst.
  exists k, r0. split; [exact Hk |]. split; [exact Ha |]. split; [reflexivity |].
  intros j Hj. destruct (Hb j Hj) as [o [Ho Fo]].
  destruct (nth_error_map_some _ _ _ _ _ _ Ho) as [a' [Ha' E']]. subst o. exists a'. split; assumption.
Qed.

(* the server never sends null *)
Hypothesis denull_ok : forall r, isnull (denull r) = false.

Lemma handled_ok : forall r, outcome_of isnull denull (APass (HOk r)) = Ok (denull r).
Proof. intro r. cbn. rewrite denull_ok. reflexivity. Qed.

Lemma success_reported : forall conn (l : list (attempt R)) k r,
  (k < retries)%nat -> nth_error l k = Some (APass (HOk r)) ->
  (forall j, (j < k)%nat -> exists a, nth_error l j = Some a /\ handled a = false) ->
  c_result (call_attempts isnull denull conn l) = Some (denull r).
Proof.
  intros conn l k r Hk Hn Hb. unfold call_attempts, call.
  apply (call_loop_first_ok R retries conn _ k (denull r) Hk).
  - rewrite nth_error_map, Hn. cbn [option_map]. rewrite handled_ok. reflexivity.
  - intros j Hj. destruct (Hb j Hj) as [a [Ha Fa]].
    exists (outcome_of isnull denull a). split; [rewrite nth_error_map, Ha; reflexivity | apply unhandled_not_ok; exact Fa].
Qed.

(* in particular a call whose first attempt is handled is a success after exactly one delivery *)
Lemma handled_first : forall conn r (rest : list (attempt R)),
  c_result (call_attempts isnull denull conn (APass (HOk r) :: rest)) = Some (denull r) /\
  c_deliveries (call_attempts isnull denull conn (APass (HOk r) :: rest)) = 1%nat.
Proof.
  intros conn r rest. unfold call_attempts, call, retries. cbn [map call_loop].
  rewrite handled_ok. split; reflexivity.
Qed.
End Attempts.

Lemma list_ind3 : forall (A : Type) (P : list A -> Prop),
  P [] -> (forall a, P [a]) -> (forall a b, P [a; b]) ->
  (forall a b c r, P r -> P (a :: b :: c :: r)) -> forall l, P l.
Proof.
  intros A P H0 H1 H2 H3.
  assert (H : forall l, P l /\ (forall a, P (a :: l)) /\ (forall a b, P (a :: b :: l))).
  { induction l as [| x l [IH0 [IH1 IH2]]].
    - split; [exact H0 | split; [exact H1 | exact H2]].
    - split; [apply IH1 | split; [intro a; apply IH2 | intros a b; apply H3; exact IH0]]. }
  intro l. apply H.
Qed.

Lemma byte_ok_range : forall z, byte_ok z = true -> 0 <= z < 256.
Proof. intros z H. unfold byte_ok in H. lia. Qed.

Lemma b64_roundtrip : forall l, forallb byte_ok l = true -> b64dec (b64enc l) = Some l.
Proof.
  intro l. induction l as [| a | a b | a b c r IH] using list_ind3; intro H;
    cbn [forallb] in H; rewrite ?andb_true_iff in H.
  - reflexivity.
  - destruct H as [Ha%byte_ok_range _].
    cbn [b64enc b64dec]. unfold pad. rewrite Z.eqb_refl. cbn [andb is_nil].
    f_equal. f_equal. lia.
  - destruct H as [Ha%byte_ok_range [Hb%byte_ok_range _]].
    cbn [b64enc b64dec]. unfold pad.
    replace ((b mod 16) * 4 =? 64) with false by lia. rewrite Z.eqb_refl. cbn [is_nil].
    f_equal. f_equal; [lia |]. f_equal. lia.
  - destruct H as [Ha%byte_ok_range [Hb%byte_ok_range [Hc%byte_ok_range Hr]]].
    cbn [b64enc b64dec]. unfold pad.
    replace ((b mod 16) * 4 + c / 64 =? 64) with false by lia.
    replace (c mod 64 =? 64) with false by lia.
    rewrite (IH Hr). f_equal. f_equal; [lia |]. f_equal; [lia |]. f_equal. lia.
Qed.

Lemma map_opt_map : forall A B C (f : A -> B) (g : B -> option C) (h : A -> C) l,
  (forall x, In x l -> g (f x) = Some (h x)) -> map_opt g (map f l) = Some (map h l).
Proof.
  intros A B C f g h l. induction l as [| a l IH]; intro H.
  - reflexivity.
  - cbn [map map_opt]. rewrite (H a (or_introl eq_refl)), IH; [reflexivity |].
    intros x Hx. apply H. right. exact Hx.
Qed.

Lemma dec_enc_str : forall s, dec_str (enc_str s) = Some (wire_str s).
Proof. intro s. unfold dec_str, enc_str, wire_str. rewrite map_map. reflexivity. Qed.

Lemma wire_str_ok : forall s, str_ok s = true -> wire_str s = s.
Proof.
  induction s as [| c s IH]; intro H; [reflexivity |].
  cbn [str_ok forallb] in H. apply andb_true_iff in H. destruct H as [Hc Hs].
  unfold wire_str in *. cbn [map]. rewrite (IH Hs).
  destruct c; [reflexivity | discriminate].
Qed.

Lemma dec_enc_bytes : forall b, bytes_ok b = true -> dec_bytes (enc_bytes b) = Some b.
Proof.
  intros [l |] H; [| reflexivity]. cbn [enc_bytes dec_bytes]. cbn in H. rewrite (b64_roundtrip l H). reflexivity.
Qed.

Lemma dec_enc_peer : forall p, dec_peer (enc_peer p) = Some (wire_peer p).
Proof. intro p. unfold dec_peer, enc_peer. rewrite !dec_enc_str. reflexivity. Qed.

Lemma dec_enc_itx : forall t, dec_itx (enc_itx t) = Some (wire_itx t).
Proof.
  intro t. unfold dec_itx, enc_itx. cbn [dec_num]. rewrite dec_enc_peer, dec_enc_str. reflexivity.
Qed.

Lemma dec_enc_receipt : forall r, dec_receipt (enc_receipt r) = Some (wire_receipt r).
Proof. intro r. unfold dec_receipt, enc_receipt. rewrite dec_enc_itx. reflexivity. Qed.

Lemma dec_enc_slice : forall A (enc : A -> json) (dec : json -> option A) (w : A -> A) (s : option (list A)),
  (forall x, In x (norm_slice s) -> dec (enc x) = Some (w x)) ->
  dec_slice dec (enc_slice enc s) = Some (omap w s).
Proof.
  intros A enc dec w [l |] H; [| reflexivity].
  cbn [enc_slice dec_slice omap]. rewrite (map_opt_map _ _ _ enc dec w l H). reflexivity.
Qed.

Lemma omap_id : forall A (s : option (list A)), omap (fun x => x) s = s.
Proof. intros A [l |]; [| reflexivity]. cbn. rewrite map_id. reflexivity. Qed.

Lemma oall_in : forall A (f : A -> bool) s x, oall f s = true -> In x (norm_slice s) -> f x = true.
Proof.
  intros A f [l |] x H Hx; cbn in *; [| contradiction].
  rewrite forallb_forall in H. apply H. exact Hx.
Qed.

Lemma dec_enc_txs : forall s, oall bytes_ok s = true -> dec_slice dec_bytes (enc_slice enc_bytes s) = Some s.
Proof.
  intros s H. rewrite (dec_enc_slice _ enc_bytes dec_bytes (fun x => x) s).
  - rewrite omap_id. reflexivity.
  - intros x Hx. apply dec_enc_bytes. eapply oall_in; eassumption.
Qed.

Lemma dec_enc_body : forall b, body_bytes_ok b = true -> dec_body (enc_body b) = Some (wire_body b).
Proof.
  intros b H. unfold body_bytes_ok in H.
  repeat (apply andb_true_iff in H; destruct H as [H ?]).
  unfold dec_body, enc_body. cbn [dec_num].
  rewrite !dec_enc_bytes by assumption. rewrite dec_enc_txs by assumption.
  rewrite (dec_enc_slice _ enc_itx dec_itx wire_itx) by (intros; apply dec_enc_itx).
  rewrite (dec_enc_slice _ enc_receipt dec_receipt wire_receipt) by (intros; apply dec_enc_receipt).
  reflexivity.
Qed.

Lemma dec_enc_sigs : forall s,
  dec_sigs (enc_sigs s) = Some (omap (fun kv => (wire_str (fst kv), wire_str (snd kv))) s).
Proof.
  intros [l |]; [| reflexivity]. cbn [enc_sigs dec_sigs omap].
  rewrite (map_opt_map _ _ _ _ dec_sig (fun kv : gstr * gstr => (wire_str (fst kv), wire_str (snd kv))) l); [reflexivity |].
  intros [k v] _. unfold dec_sig. cbn [fst snd]. rewrite dec_enc_str. unfold wire_str. rewrite map_map. reflexivity.
Qed.

Lemma through_block_wire : forall b, block_bytes_ok b = true -> through_block b = Some (wire_block b).
Proof.
  intros b H. unfold through_block, dec_block, enc_block.
  rewrite (dec_enc_body (bl_body b) H), dec_enc_sigs. reflexivity.
Qed.

Lemma through_cresp_wire : forall c, cresp_bytes_ok c = true -> through_cresp c = Some (wire_cresp c).
Proof.
  intros c H. unfold through_cresp, dec_cresp, enc_cresp.
  rewrite (dec_enc_bytes _ H).
  rewrite (dec_enc_slice _ enc_receipt dec_receipt wire_receipt) by (intros; apply dec_enc_receipt).
  reflexivity.
Qed.

(* with well-formed strings the wire view is the content *)
Lemma wire_peer_ok : forall p, peer_str_ok p = true -> wire_peer p = strip_peer p.
Proof.
  intros p H. unfold peer_str_ok in H. repeat (apply andb_true_iff in H; destruct H as [H ?]).
  unfold wire_peer, strip_peer. rewrite !wire_str_ok by assumption. reflexivity.
Qed.

Lemma wire_itx_ok : forall t, itx_str_ok t = true -> wire_itx t = strip_itx t.
Proof.
  intros t H. unfold itx_str_ok in H. apply andb_true_iff in H. destruct H as [H1 H2].
  unfold wire_itx, strip_itx. rewrite wire_peer_ok, wire_str_ok by assumption. reflexivity.
Qed.

Lemma wire_receipt_ok : forall r, receipt_str_ok r = true -> wire_receipt r = strip_receipt r.
Proof. intros r H. unfold wire_receipt, strip_receipt. rewrite wire_itx_ok by exact H. reflexivity. Qed.

Lemma omap_ext_ok : forall A (f g : A -> A) (ok : A -> bool) s,
  (forall x, ok x = true -> f x = g x) -> oall ok s = true -> omap f s = omap g s.
Proof.
  intros A f g ok [l |] H Ho; [| reflexivity]. cbn in *. f_equal.
  apply map_ext_in. intros x Hx. apply H. rewrite forallb_forall in Ho. apply Ho. exact Hx.
Qed.

Lemma wire_body_ok : forall b, body_str_ok b = true -> wire_body b = strip_body b.
Proof.
  intros b H. unfold body_str_ok in H. apply andb_true_iff in H. destruct H as [H1 H2].
  unfold wire_body, strip_body.
  rewrite (omap_ext_ok _ wire_itx strip_itx itx_str_ok _ wire_itx_ok H1).
  rewrite (omap_ext_ok _ wire_receipt strip_receipt receipt_str_ok _ wire_receipt_ok H2). reflexivity.
Qed.

Lemma wire_block_ok : forall b, block_str_ok b = true -> wire_block b = strip_block b.
Proof.
  intros b H. unfold block_str_ok in H. apply andb_true_iff in H. destruct H as [H1 H2].
  unfold wire_block, strip_block. rewrite (wire_body_ok _ H1). f_equal.
  rewrite (omap_ext_ok _ (fun kv : gstr * gstr => (wire_str (fst kv), wire_str (snd kv))) (fun kv => kv)
             (fun kv => str_ok (fst kv) && str_ok (snd kv)) (bl_sigs b)); [apply omap_id | | exact H2].
  intros [k v] Hkv. cbn [fst snd] in *. apply andb_true_iff in Hkv. destruct Hkv as [Hk Hv].
  rewrite !wire_str_ok by assumption. reflexivity.
Qed.

Lemma wire_cresp_ok : forall c, cresp_str_ok c = true -> wire_cresp c = strip_cresp c.
Proof.
  intros c H. unfold wire_cresp, strip_cresp.
  rewrite (omap_ext_ok _ wire_receipt strip_receipt receipt_str_ok _ wire_receipt_ok H). reflexivity.
Qed.

Lemma roundtrip_block : forall b,
  block_bytes_ok b = true -> block_str_ok b = true -> through_block b = Some (strip_block b).
Proof. intros b H1 H2. rewrite (through_block_wire b H1), (wire_block_ok b H2). reflexivity. Qed.

Lemma roundtrip_cresp : forall c,
  cresp_bytes_ok c = true -> cresp_str_ok c = true -> through_cresp c = Some (strip_cresp c).
Proof. intros c H1 H2. rewrite (through_cresp_wire c H1), (wire_cresp_ok c H2). reflexivity. Qed.

Lemma bytes_denull_ok : forall b, bytes_null (bytes_denull b) = false.
Proof. intros [l |]; reflexivity. Qed.

(* every attempt reaches a handler that fails with an empty error message and returns the zero reply:
   net/rpc alone reports a success; through server_method it is an error after three deliveries *)
Lemma empty_message_raw_and_fixed :
  let l := [APass (HErr true (Some [])); APass (HErr true (Some [])); APass (HErr true (Some []))] in
  c_result (call_attempts_raw bytes_null false l) = Some (Some []) /\
  c_result (call_attempts bytes_null bytes_denull false l) = None /\
  c_deliveries (call_attempts bytes_null bytes_denull false l) = 3%nat.
Proof. vm_compute. repeat split. Qed.

(* the handler succeeds with a nil byte slice: the client library alone rejects the null result three times;
   through server_method the call succeeds with the empty slice after one delivery *)
Lemma nil_reply_raw_and_fixed :
  let l : list (attempt bytes) := [APass (HOk None); APass (HOk None); APass (HOk None)] in
  c_result (call_attempts_raw bytes_null false l) = None /\
  c_deliveries (call_attempts_raw bytes_null false l) = 3%nat /\
  c_result (call_attempts bytes_null bytes_denull false l) = Some (Some []) /\
  c_deliveries (call_attempts bytes_null bytes_denull false l) = 1%nat.
Proof. vm_compute. repeat split. Qed.

Lemma to_valid_ok : forall s, str_ok (to_valid s) = true.
Proof.
  induction s as [| c s IH]; [reflexivity |].
  destruct c as [c | b].
  - cbn [to_valid]. cbn [str_ok forallb schar_ok]. exact IH.
  - destruct s as [| [c' | b'] s'].
    + reflexivity.
    + cbn [to_valid] in *. cbn [str_ok forallb schar_ok] in *. exact IH.
    + exact IH.
Qed.

Lemma to_valid_id : forall s, str_ok s = true -> to_valid s = s.
Proof.
  induction s as [| c s IH]; intro H; [reflexivity |].
  cbn [str_ok forallb] in H. apply andb_true_iff in H. destruct H as [Hc Hs].
  destruct c; [| discriminate]. cbn [to_valid]. rewrite (IH Hs). reflexivity.
Qed.

Lemma to_valid_idem : forall s, to_valid (to_valid s) = to_valid s.
Proof. intro s. apply to_valid_id. apply to_valid_ok. Qed.

Lemma new_peer_ok : forall key net mon, str_ok key = true -> peer_str_ok (new_peer key net mon) = true.
Proof.
  intros key net mon H. unfold peer_str_ok, new_peer. cbn [p_net p_key p_mon].
  rewrite !to_valid_ok, H. reflexivity.
Qed.

(* the wire does not change a peer made by NewPeer *)
Lemma new_peer_wire : forall key net mon, str_ok key = true ->
  wire_peer (new_peer key net mon) = new_peer key net mon.
Proof.
  intros key net mon H. rewrite (wire_peer_ok _ (new_peer_ok key net mon H)). reflexivity.
Qed.

(* internal transactions as the code builds them: the peer through NewPeer (or decoded from JSON, which is the
   same as far as validity goes), key and signature produced by the hex / base-36 encoders *)
Definition built_itx (t : itx) : Prop :=
  exists key net mon, str_ok key = true /\ str_ok (it_sig t) = true /\ it_peer t = new_peer key net mon.
Definition built_block (b : block) : Prop :=
  (forall t, In t (norm_slice (bo_itxs (bl_body b))) -> built_itx t) /\
  (forall r, In r (norm_slice (bo_receipts (bl_body b))) -> built_itx (rc_itx r)) /\
  oall (fun kv => str_ok (fst kv) && str_ok (snd kv)) (bl_sigs b) = true.
Definition built_cresp (c : cresp) : Prop :=
  forall r, In r (norm_slice (cr_receipts c)) -> built_itx (rc_itx r).

Lemma built_itx_ok : forall t, built_itx t -> itx_str_ok t = true.
Proof.
  intros t [key [net [mon [Hk [Hs Hp]]]]]. unfold itx_str_ok. rewrite Hp, (new_peer_ok key net mon Hk), Hs. reflexivity.
Qed.

Lemma oall_of_in : forall A (f : A -> bool) s, (forall x, In x (norm_slice s) -> f x = true) -> oall f s = true.
Proof. intros A f [l |] H; [| reflexivity]. cbn in *. apply forallb_forall. exact H. Qed.

Lemma built_block_ok : forall b, built_block b -> block_str_ok b = true.
Proof.
  intros b [H1 [H2 H3]]. unfold block_str_ok, body_str_ok.
  rewrite (oall_of_in _ itx_str_ok _ (fun t Ht => built_itx_ok t (H1 t Ht))).
  rewrite (oall_of_in _ receipt_str_ok _ (fun r Hr => built_itx_ok _ (H2 r Hr))).
  rewrite H3. reflexivity.
Qed.

Lemma roundtrip_built_block : forall b,
  block_bytes_ok b = true -> built_block b -> through_block b = Some (strip_block b).
Proof. intros b H1 H2. apply roundtrip_block; [exact H1 | apply built_block_ok; exact H2]. Qed.

Lemma roundtrip_built_cresp : forall c,
  cresp_bytes_ok c = true -> built_cresp c -> through_cresp c = Some (strip_cresp c).
Proof.
  intros c H1 H2. apply roundtrip_cresp; [exact H1 |]. unfold cresp_str_ok.
  apply oall_of_in. intros r Hr. apply built_itx_ok. apply H2. exact Hr.
Qed.

(* a Peer that does not come from NewPeer (a literal with a stray byte in the moniker) is changed by the wire *)
Definition bad_peer := mkPeer [Good 97] [Good 48] [Good 109; Bad 255] 0.
Definition bad_block :=
  mkBlock (mkBody 1 2 3 (Some []) None (Some [255; 0]) (Some [Some [1; 2; 3; 4]; None; Some []])
                  (Some [mkItx 0 bad_peer []]) None) None None [] false.
Lemma invalid_utf8_witness :
  block_bytes_ok bad_block = true /\ through_block bad_block <> Some (strip_block bad_block) /\
  through_block bad_block = Some (wire_block bad_block).
Proof. split; [reflexivity |]. split; [vm_compute; discriminate | vm_compute; reflexivity]. Qed.

(* lia's division equations are wanted in this file only *)
Ltac Zify.zify_post_hook ::= idtac.
