(* C15: facts about the key orders and the insertion sort of map entries used by Model/Wire.v. *)
From Coq Require Import ZArith List Bool Lia Permutation Sorted.
From V Require Import Model.Wire.
Import ListNotations.
Open Scope Z_scope.

Lemma zlist_eqb_eq : forall a b, zlist_eqb a b = true <-> a = b.
Proof.
  induction a as [|x a IH]; destruct b as [|y b]; cbn [zlist_eqb]; split; intros H; try reflexivity; try discriminate.
  - apply andb_true_iff in H. destruct H as [Hxy Hab]. apply Z.eqb_eq in Hxy. apply IH in Hab. congruence.
  - inversion H; subst. apply andb_true_iff. split; [apply Z.eqb_refl | apply IH; reflexivity].
Qed.

Lemma zlist_eqb_refl : forall a, zlist_eqb a a = true.
Proof. intros a. apply zlist_eqb_eq. reflexivity. Qed.

Lemma zlist_eqb_neq : forall a b, zlist_eqb a b = false <-> a <> b.
Proof.
  intros a b. split.
  - intros H E. apply zlist_eqb_eq in E. congruence.
  - intros H. destruct (zlist_eqb a b) eqn:E; [|reflexivity]. apply zlist_eqb_eq in E. contradiction.
Qed.

Lemma lex_ltb_irrefl : forall a, lex_ltb a a = false.
Proof.
  induction a as [|x a IH]; cbn [lex_ltb]; [reflexivity|].
  rewrite Z.ltb_irrefl. exact IH.
Qed.

Lemma lex_ltb_trans : forall a b c, lex_ltb a b = true -> lex_ltb b c = true -> lex_ltb a c = true.
Proof.
  induction a as [|x a IH]; intros [|y b] [|z c] Hab Hbc; cbn [lex_ltb] in *; try reflexivity; try discriminate.
  destruct (x <? y) eqn:Exy.
  - destruct (y <? z) eqn:Eyz.
    + assert (x <? z = true) as -> by lia. reflexivity.
    + destruct (z <? y) eqn:Ezy; [discriminate|].
      assert (x <? z = true) as -> by lia. reflexivity.
  - destruct (y <? x) eqn:Eyx; [discriminate|].
    assert (x = y) by lia. subst y.
    destruct (x <? z) eqn:Exz; [reflexivity|].
    destruct (z <? x) eqn:Ezx; [discriminate|].
    eapply IH; eassumption.
Qed.

Lemma lex_ltb_total : forall a b, lex_ltb a b = false -> lex_ltb b a = false -> a = b.
Proof.
  induction a as [|x a IH]; intros [|y b] Hab Hba; cbn [lex_ltb] in *; try reflexivity; try discriminate.
  destruct (x <? y) eqn:Exy; [discriminate|].
  destruct (y <? x) eqn:Eyx; [discriminate|].
  assert (x = y) by lia. subst y. f_equal. apply IH; assumption.
Qed.

Lemma zltb_irrefl : forall a, Z.ltb a a = false.
Proof. intros. apply Z.ltb_irrefl. Qed.
Lemma zltb_trans : forall a b c, Z.ltb a b = true -> Z.ltb b c = true -> Z.ltb a c = true.
Proof. intros. lia. Qed.
Lemma zltb_total : forall a b, Z.ltb a b = false -> Z.ltb b a = false -> a = b.
Proof. intros. lia. Qed.

Section SortFacts.
  Context {K V : Type}.
  Variable ltb : K -> K -> bool.
  Hypothesis ltb_irrefl : forall a, ltb a a = false.
  Hypothesis ltb_trans : forall a b c, ltb a b = true -> ltb b c = true -> ltb a c = true.
  Hypothesis ltb_total : forall a b, ltb a b = false -> ltb b a = false -> a = b.

  Definition kle (a b : K * V) : Prop := ltb (fst b) (fst a) = false.

  Lemma ltb_asym : forall a b, ltb a b = true -> ltb b a = false.
  Proof.
    intros a b H. destruct (ltb b a) eqn:E; [|reflexivity].
    pose proof (ltb_trans _ _ _ H E) as H1. rewrite ltb_irrefl in H1. discriminate.
  Qed.

  Lemma kle_trans : forall a b c, kle a b -> kle b c -> kle a c.
  Proof.
    unfold kle. intros a b c Hab Hbc.
    destruct (ltb (fst c) (fst a)) eqn:Eca; [|reflexivity].
    destruct (ltb (fst b) (fst c)) eqn:Ebc.
    - pose proof (ltb_trans _ _ _ Ebc Eca). congruence.
    - assert (fst b = fst c) as E by (apply ltb_total; assumption).
      rewrite <- E in Eca. congruence.
  Qed.

  Lemma ins_hd : forall (x : K * V) (l : list (K * V)), HdRel kle x l -> ins ltb x l = x :: l.
  Proof.
    intros x [|y r] H; cbn [ins]; [reflexivity|].
    inversion H as [|? ? Hxy]; subst. unfold kle in Hxy. rewrite Hxy. reflexivity.
  Qed.

  Lemma isort_of_sorted : forall l : list (K * V), Sorted kle l -> isort ltb l = l.
  Proof.
    induction l as [|x l IH]; intros H; [reflexivity|].
    inversion H; subst. unfold isort in *. cbn [fold_right]. rewrite IH by assumption.
    apply ins_hd. assumption.
  Qed.

  Lemma ins_perm : forall (x : K * V) (l : list (K * V)), Permutation (ins ltb x l) (x :: l).
  Proof.
    induction l as [|y r IH]; cbn [ins]; [apply Permutation_refl|].
    destruct (ltb (fst y) (fst x)).
    - eapply perm_trans; [apply perm_skip; exact IH | apply perm_swap].
    - apply Permutation_refl.
  Qed.

  Lemma isort_perm_self : forall l : list (K * V), Permutation (isort ltb l) l.
  Proof.
    induction l as [|x l IH]; [apply Permutation_refl|].
    unfold isort in *. cbn [fold_right].
    eapply perm_trans; [apply ins_perm | apply perm_skip; exact IH].
  Qed.

  Lemma ins_sorted : forall (x : K * V) (l : list (K * V)), Sorted kle l -> Sorted kle (ins ltb x l).
  Proof.
    induction l as [|y r IH]; intros H; cbn [ins].
    - constructor; constructor.
    - inversion H as [|? ? Hr Hhd]; subst.
      destruct (ltb (fst y) (fst x)) eqn:E.
      + constructor; [apply IH; assumption|].
        destruct r as [|z r']; cbn [ins].
        * constructor. unfold kle. apply ltb_asym. exact E.
        * destruct (ltb (fst z) (fst x)).
          -- inversion Hhd; subst. constructor. assumption.
          -- constructor. unfold kle. apply ltb_asym. exact E.
      + constructor; [exact H|]. constructor. unfold kle. exact E.
  Qed.

  Lemma isort_sorted : forall l : list (K * V), Sorted kle (isort ltb l).
  Proof.
    induction l as [|x l IH]; [constructor|].
    unfold isort in *. cbn [fold_right]. apply ins_sorted. exact IH.
  Qed.

  Lemma isort_idem : forall l : list (K * V), isort ltb (isort ltb l) = isort ltb l.
  Proof. intros l. apply isort_of_sorted. apply isort_sorted. Qed.

  (* two entries with different keys go into a list in either order *)
  Lemma ins_comm : forall (x y : K * V) l, fst x <> fst y ->
    ins ltb x (ins ltb y l) = ins ltb y (ins ltb x l).
  Proof.
    intros x y l Hxy.
    assert (ltb (fst y) (fst x) = negb (ltb (fst x) (fst y))) as Eyx.
    { destruct (ltb (fst x) (fst y)) eqn:E; [exact (ltb_asym _ _ E)|].
      destruct (ltb (fst y) (fst x)) eqn:E'; [reflexivity|]. contradiction Hxy. apply ltb_total; assumption. }
    induction l as [|z r IH]; cbn [ins].
    - rewrite Eyx. destruct (ltb (fst x) (fst y)); reflexivity.
    - destruct (ltb (fst z) (fst y)) eqn:Ezy, (ltb (fst z) (fst x)) eqn:Ezx; cbn [ins]; rewrite ?Ezy, ?Ezx.
      + rewrite IH. reflexivity.
      + destruct (ltb (fst x) (fst y)) eqn:E; [reflexivity|]. pose proof (kle_trans y x z E Ezx). congruence.
      + destruct (ltb (fst y) (fst x)) eqn:E; [reflexivity|]. pose proof (kle_trans x y z E Ezy). congruence.
      + rewrite Eyx. destruct (ltb (fst x) (fst y)); reflexivity.
  Qed.

  (* the sorted listing of a map does not depend on the order in which it was filled *)
  Lemma isort_perm : forall l1 l2 : list (K * V),
    NoDup (map fst l1) -> Permutation l1 l2 -> isort ltb l1 = isort ltb l2.
  Proof.
    intros l1 l2 Hnd Hp. unfold isort.
    induction Hp as [|x l l' Hp IH|x y l|l l' l'' Hp1 IH1 Hp2 IH2]; cbn [fold_right map] in *.
    - reflexivity.
    - rewrite IH; [reflexivity|]. inversion Hnd; assumption.
    - apply ins_comm. inversion Hnd as [|? ? Hy _]; subst. intros E. apply Hy. left. symmetry. exact E.
    - rewrite IH1 by exact Hnd. apply IH2.
      exact (Permutation_NoDup (Permutation_map fst Hp1) Hnd).
  Qed.
End SortFacts.

Lemma ins_map_val : forall {K V W} (ltb : K -> K -> bool) (g : V -> W) k v (l : list (K * V)),
  ins ltb (k, g v) (map (fun kv => (fst kv, g (snd kv))) l) =
  map (fun kv => (fst kv, g (snd kv))) (ins ltb (k, v) l).
Proof.
  intros K V W ltb g k v. induction l as [|[k' v'] r IH]; cbn [ins map fst snd]; [reflexivity|].
  destruct (ltb k' k).
  - cbn [map fst snd]. f_equal. exact IH.
  - reflexivity.
Qed.

(* sorting commutes with a map over the values *)
Lemma isort_map_val : forall {K V W} (ltb : K -> K -> bool) (g : V -> W) (l : list (K * V)),
  isort ltb (map (fun kv => (fst kv, g (snd kv))) l) = map (fun kv => (fst kv, g (snd kv))) (isort ltb l).
Proof.
  intros K V W ltb g. induction l as [|[k v] r IH]; [reflexivity|].
  unfold isort in *. cbn [map fold_right fst snd]. rewrite IH. apply ins_map_val.
Qed.

(* the same when the keys go through a function that leaves the keys of this list alone *)
Lemma isort_map_key : forall {K V W} (ltb : K -> K -> bool) (kf : K -> K) (g : V -> W) (l : list (K * V)),
  (forall kv, In kv l -> kf (fst kv) = fst kv) ->
  isort ltb (map (fun kv => (kf (fst kv), g (snd kv))) l) = map (fun kv => (fst kv, g (snd kv))) (isort ltb l).
Proof.
  intros K V W ltb kf g l H. rewrite <- isort_map_val. f_equal.
  apply map_ext_in. intros kv Hin. rewrite (H kv Hin). reflexivity.
Qed.

Lemma in_isort : forall {K V} (ltb : K -> K -> bool) (l : list (K * V)) x, In x (isort ltb l) <-> In x l.
Proof.
  intros K V ltb l x. split; apply Permutation_in; [|apply Permutation_sym]; apply isort_perm_self.
Qed.

Lemma isort_lex_idem : forall {V} (l : list (gostr * V)), isort lex_ltb (isort lex_ltb l) = isort lex_ltb l.
Proof. intros. apply isort_idem; eauto using lex_ltb_irrefl, lex_ltb_trans, lex_ltb_total. Qed.
Lemma isort_z_idem : forall {V} (l : list (Z * V)), isort Z.ltb (isort Z.ltb l) = isort Z.ltb l.
Proof. intros. apply isort_idem; eauto using zltb_irrefl, zltb_trans, zltb_total. Qed.
Lemma isort_lex_perm : forall {V} (l1 l2 : list (gostr * V)),
  NoDup (map fst l1) -> Permutation l1 l2 -> isort lex_ltb l1 = isort lex_ltb l2.
Proof. intros. apply isort_perm; eauto using lex_ltb_irrefl, lex_ltb_trans, lex_ltb_total. Qed.
Lemma isort_z_perm : forall {V} (l1 l2 : list (Z * V)),
  NoDup (map fst l1) -> Permutation l1 l2 -> isort Z.ltb l1 = isort Z.ltb l2.
Proof. intros. apply isort_perm; eauto using zltb_irrefl, zltb_trans, zltb_total. Qed.
