(* Which events are admitted does not depend on the order of the attempts.
   Two attempt sequences over one fork-free universe (static membership): if every event attempted
   in the first is attempted in the second and the second sequence is topological (the parents of
   an attempt are attempted before it), then every event the first run admits is admitted by the
   second.  Hence two topological orders of the same attempts let in the same events, and a
   sub-sequence admits a subset. *)
From Coq Require Import ZArith List Bool Lia Permutation.
From RecordUpdate Require Import RecordSet.
From V Require Import Model.ZMap Model.Quorum Model.HgImpl Proofs.ZMapFacts Proofs.HgFrames Proofs.HgDagFrames
  Proofs.AdmissionProofs Proofs.BlockInv Proofs.OrderProofs Proofs.Static Proofs.HgRepFrames Proofs.Agreement
  Proofs.NoFail Proofs.FsvFrames.
From V Require Import Proofs.AgreementU.
Import ListNotations RecordSetNotations.
Open Scope Z_scope.

(** * The set of known creators never changes *)
Lemma zget_zset_keys {A} k (v p : A) m c : zget k m = Some p -> (zget c (zset k v m) <> None <-> zget c m <> None).
Proof.
  intros Hk. pose proof (zget_some_nonneg _ _ _ Hk) as H0.
  destruct (Z.eq_dec k c) as [->|Hne]; [rewrite zget_zset_same by exact H0; rewrite Hk; split; discriminate|].
  rewrite zget_zset_other by exact Hne. reflexivity.
Qed.

Lemma insert_event_pkeys st e c :
  zget c (pevents (snd (insert_event st e))) <> None <-> zget c (pevents st) <> None.
Proof.
  unfold insert_event. destruct (negb _); [reflexivity|].
  destruct (check_self_parent st e); try reflexivity.
  destruct (check_other_parent st e); try reflexivity.
  unfold insert_admitted. cbv zeta.
  set (st1 := st <| topo := topo st + 1 |>).
  assert (P1 : pevents st1 = pevents st) by reflexivity.
  destruct (store_set_event st1 _) as [st2|] eqn:E; cbn [snd]; [|rewrite P1; reflexivity].
  match goal with |- context [pevents ?s] =>
    assert (P5 : pevents s = pevents st2) end.
  { destruct (is_loaded e);
      repeat first [rewrite (rview_pev _ _ (rview_set_sigpool _ _)) | rewrite (rview_pev _ _ (rview_set_pending_loaded _ _))
                   | rewrite (rview_pev _ _ (rview_set_undetermined _ _))];
      apply rview_pev, update_ancestor_fd_rview. }
  rewrite P5. revert E. unfold store_set_event.
  destruct (get_event st1 _).
  - intros H; inversion H. replace (pevents (set_evst st1 _ _)) with (pevents st1) by reflexivity.
    rewrite P1. reflexivity.
  - destruct (zget _ (pevents st1)) as [p|] eqn:Hp; [|discriminate]. destruct (pidx_set _ _ _) as [p'|]; [|discriminate].
    intros H; inversion H.
    match goal with |- context [set_evst ?s ?x ?v] => replace (pevents (set_evst s x v)) with (pevents s) by reflexivity end.
    match goal with |- context [pevents (st1 <| pevents := ?m |>)] => replace (pevents (st1 <| pevents := m |>)) with m by reflexivity end.
    cbn [ev_e] in Hp. rewrite P1 in Hp. apply (zget_zset_keys _ _ _ _ c Hp).
Qed.

Lemma hstep_pkeys g all st o c : ids_determine all -> no_accept all -> hop_ok all o -> nf_inv g all st ->
  (zget c (pevents (hstep st o)) <> None <-> zget c (pevents st) <> None).
Proof.
  intros ID NA Ho N. destruct o as [e|]; cbn [hstep]; [|rewrite process_sigpool_pevents; reflexivity].
  destruct Ho as [Hin Hid].
  pose proof (g_dag _ _ (gi_core _ _ (nf_g _ _ _ N))) as OK. pose proof (g_from _ _ (gi_core _ _ (nf_g _ _ _ N))) as FA.
  unfold step, insert_and_run. pose proof (insert_event_pkeys st e c) as K.
  destruct (insert_event st e) as [r s] eqn:E. cbn [snd] in K.
  destruct (insert_event_inv st e all r s OK FA ID Hin Hid E) as [_ [FA' _]].
  destruct r; cbn [snd]; try exact K.
  rewrite (run_consensus_pevents all s FA' NA). exact K.
Qed.

Lemma hrun_pkeys g all self_ oracle_ ops c : ids_determine all -> no_accept all -> Forall (hop_ok all) ops ->
  (zget c (pevents (hrun (init_hg self_ g oracle_) ops)) <> None <-> zget c (pevents (init_hg self_ g oracle_)) <> None).
Proof.
  intros ID NA. induction ops as [|o ops IH] using rev_ind; intros H; [reflexivity|].
  apply Forall_app in H. destruct H as [Hops Ho]. inversion Ho as [|? ? Ho' _]; subst.
  rewrite hrun_app. cbn [hrun fold_left].
  rewrite (hstep_pkeys g all _ o c ID NA Ho' (hrun_nf g all self_ oracle_ ops ID NA Hops)). apply IH. exact Hops.
Qed.

Lemma sp_fold_pev r ps : forall s s', pevents s = pevents s' ->
  pevents (fold_left (sp_step r) ps s) = pevents (fold_left (sp_step r) ps s').
Proof.
  induction ps as [|p ps IH]; intros s s' E; cbn [fold_left]; [exact E|]. apply IH.
  unfold sp_step. cbv zeta. destruct s, s'. cbn in *. subst.
  match goal with |- context [zmem ?a ?b] => destruct (zmem a b) end; reflexivity.
Qed.

Lemma init_pev self_ g oracle_ : pevents (init_hg self_ g oracle_) = pevents (init_hg 0 g []).
Proof.
  unfold init_hg, set_peerset. cbn [empty_hg peersets existsb].
  change (pevents (fold_left (sp_step 0) g (empty_hg self_ <| peersets := ps_table_insert 0 g [] |>) <| validators := g |> <| oracle := oracle_ |>) =
          pevents (fold_left (sp_step 0) g (empty_hg 0 <| peersets := ps_table_insert 0 g [] |>) <| validators := g |> <| oracle := [] |>)).
  transitivity (pevents (fold_left (sp_step 0) g (empty_hg self_ <| peersets := ps_table_insert 0 g [] |>)));
    [match goal with |- pevents (?s <| validators := _ |> <| oracle := _ |>) = _ => reflexivity end|].
  transitivity (pevents (fold_left (sp_step 0) g (empty_hg 0 <| peersets := ps_table_insert 0 g [] |>)));
    [|match goal with |- _ = pevents (?s <| validators := _ |> <| oracle := _ |>) => reflexivity end].
  apply sp_fold_pev. reflexivity.
Qed.

(** * An event admitted elsewhere passes the checks as soon as its parents are stored *)
Lemma stored_nonneg_ev st x ex : get_event st x = Some ex -> 0 <= x.
Proof. unfold get_event. apply zget_some_nonneg. Qed.

Lemma admit_checks all T S1 e es1 :
  ids_determine all -> fork_free all -> In e all ->
  dag_ok T -> from_attempts T all -> dag_ok S1 -> from_attempts S1 all ->
  get_event S1 (e_id e) = Some es1 -> get_event T (e_id e) = None ->
  (e_sp e <> -1 -> get_event T (e_sp e) <> None) -> (e_op e <> -1 -> get_event T (e_op e) <> None) ->
  zget (e_creator e) (pevents T) <> None ->
  e_sigok e = true /\ check_self_parent T e = InsOk /\ check_other_parent T e = InsOk.
Proof.
  intros ID FF Hin OK FA OK1 FA1 H1 HT Hsp Hop Hkey.
  assert (He : ev_e es1 = e) by (apply ID; [eapply FA1; eauto|exact Hin|apply (d_id S1 OK1 _ _ H1)]).
  split; [rewrite <- He; apply (d_sig S1 OK1 _ _ H1)|]. split.
  - (* self-parent *)
    unfold check_self_parent. destruct (zget (e_creator e) (pevents T)) as [p|] eqn:Hp; [|contradiction].
    destruct (d_chain T OK _ _ Hp) as [Hlast Hnth].
    (* no other event of this creator sits at e's index *)
    assert (Hfree : forall z, nth_error (pi_items p) (Z.to_nat (e_index e)) = Some z -> 0 <= e_index e -> False).
    { intros z Hz H0. destruct (Hnth _ _ Hz) as [ez [Hez [Hc Hi]]].
      assert (Ez : e_id (ev_e ez) = e_id e) by (apply FF; [eapply FA; eauto|exact Hin|exact Hc|lia]).
      rewrite (d_id T OK _ _ Hez) in Ez. subst z. rewrite HT in Hez. discriminate. }
    destruct (d_sp S1 OK1 _ _ H1) as [[Hs Hi]|[ps [Hps [Hc Hi]]]]; rewrite He in *.
    + rewrite Hs, Hi. cbn.
      destruct (pidx_last_spec p) as [[Hl _]|[l [front [Hl Hit]]]]; rewrite Hl; [reflexivity|exfalso].
      destruct front as [|z front]; cbn in Hit.
      * apply (Hfree l); [rewrite Hi, Hit; reflexivity|lia].
      * apply (Hfree z); [rewrite Hi, Hit; reflexivity|lia].
    + assert (Hne : e_sp e <> -1) by (apply stored_nonneg_ev in Hps; lia).
      specialize (Hsp Hne). destruct (get_event T (e_sp e)) as [pt|] eqn:Hpt; [|contradiction].
      assert (Ept : ev_e pt = ev_e ps).
      { apply ID; [eapply FA; eauto|eapply FA1; eauto|]. rewrite (d_id T OK _ _ Hpt), (d_id S1 OK1 _ _ Hps). reflexivity. }
      destruct (d_listed T OK _ _ Hpt) as [q [Hq [H0 Hn]]]. rewrite Ept, Hc, Hp in Hq. inversion Hq; subst q. rewrite Ept in Hn, H0.
      destruct (pidx_last_spec p) as [[_ Hit]|[l [front [Hl Hit]]]]; [rewrite Hit in Hn; destruct (Z.to_nat (e_index (ev_e ps))); discriminate Hn|].
      rewrite Hl.
      assert (Hlen : length (pi_items p) = S (length front)) by (rewrite Hit, app_length; cbn; lia).
      assert (Hpos : (Z.to_nat (e_index (ev_e ps)) < length (pi_items p))%nat) by (apply nth_error_Some; rewrite Hn; discriminate).
      destruct (Nat.eq_dec (Z.to_nat (e_index (ev_e ps))) (length front)) as [Eq|Ne].
      * rewrite Hit, nth_error_app2, Eq, Nat.sub_diag in Hn by lia. cbn in Hn. inversion Hn; subst l.
        rewrite Z.eqb_refl, Hpt, Ept. replace (e_index e =? e_index (ev_e ps) + 1) with true by lia. reflexivity.
      * exfalso. assert (Hlt : (Z.to_nat (e_index e) < length (pi_items p))%nat) by lia.
        destruct (nth_error (pi_items p) (Z.to_nat (e_index e))) as [z|] eqn:Hz; [|apply nth_error_None in Hz; lia].
        apply (Hfree z eq_refl). lia.
  - unfold check_other_parent. destruct (Z.eqb_spec (e_op e) (-1)) as [|Hne]; [reflexivity|].
    specialize (Hop Hne). destruct (get_event T (e_op e)); [reflexivity|contradiction].
Qed.

(** * Admission does not depend on the order *)
Definition topological (evs : list event) : Prop :=
  forall i e, nth_error evs i = Some e ->
    (e_sp e = -1 \/ exists j p, (j < i)%nat /\ nth_error evs j = Some p /\ e_id p = e_sp e) /\
    (e_op e = -1 \/ exists j p, (j < i)%nat /\ nth_error evs j = Some p /\ e_id p = e_op e).

Lemma firstn_In_ev {A} (l : list A) i x : In x (firstn i l) -> In x l.
Proof. revert i. induction l as [|a l IH]; intros i H; destruct i; cbn in *; try contradiction. destruct H; [left; assumption|right; eapply IH; eauto]. Qed.

Section Admit.
  Variables (g : peerset) (all : list event).
  Hypothesis ID : ids_determine all.
  Hypothesis FF : fork_free all.
  Hypothesis NA : no_accept all.

  Lemma stored_step st o y : hop_ok all o -> nf_inv g all st ->
    get_event st y <> None -> get_event (hstep st o) y <> None.
  Proof.
    intros Ho N Hy. destruct (get_event st y) as [ey|] eqn:Ey; [|contradiction].
    destruct (m_e _ _ (proj2 (hstep_ginv all st o ID Ho (nf_g _ _ _ N))) y ey Ey) as [ey' [E' _]]. rewrite E'. discriminate.
  Qed.

  (* an attempt that passes the checks is stored after the step *)
  Lemma hstep_admits st e : hop_ok all (HInsert e) -> nf_inv g all st ->
    e_sigok e = true -> check_self_parent st e = InsOk -> check_other_parent st e = InsOk ->
    get_event (hstep st (HInsert e)) (e_id e) <> None.
  Proof.
    intros [Hin Hid] N Hsig Hcs Hco.
    pose proof (g_dag _ _ (gi_core _ _ (nf_g _ _ _ N))) as OK. pose proof (g_from _ _ (gi_core _ _ (nf_g _ _ _ N))) as FA.
    cbn [hstep]. unfold step, insert_and_run.
    destruct (insert_event st e) as [r s] eqn:E.
    assert (Er : r = InsOk).
    { destruct (insert_event_inv st e all r s OK FA ID Hin Hid E) as [_ [_ Hns]].
      revert E. unfold insert_event. rewrite Hsig, Hcs, Hco. cbn [negb]. intros E.
      destruct (insert_admitted_result _ _ _ _ E) as [?|[Hst _]]; [assumption|contradiction]. }
    subst r. cbn [snd].
    destruct (insert_post_ins g all st e s ID Hin Hid N E) as [PI _].
    destruct (u_ex _ (g_o _ _ (pi_c _ _ _ _ PI)) (e_id e) (pi_u _ _ _ _ PI)) as [ex Hex].
    destruct (proj2 (frame_get_event s (run_consensus s) (e_id e) (run_consensus_frame s)) _ Hex) as [ex' [Hex' _]].
    rewrite Hex'. discriminate.
  Qed.

  Theorem admitted_incl s1 o1 ops1 s2 o2 evs2 :
    Forall (hop_ok all) ops1 -> Forall (hop_ok all) (map HInsert evs2) -> topological evs2 ->
    let S1 := hrun (init_hg s1 g o1) ops1 in
    let S2 := hrun (init_hg s2 g o2) (map HInsert evs2) in
    (forall x es, get_event S1 x = Some es -> In (ev_e es) evs2) ->
    forall x, get_event S1 x <> None -> get_event S2 x <> None.
  Proof.
    intros H1 H2 Topo S1 S2 Hatt.
    pose proof (hrun_nf g all s1 o1 ops1 ID NA H1) as N1. fold S1 in N1.
    pose proof (g_dag _ _ (gi_core _ _ (nf_g _ _ _ N1))) as OK1. pose proof (g_from _ _ (gi_core _ _ (nf_g _ _ _ N1))) as FA1.
    set (T := fun i => hrun (init_hg s2 g o2) (map HInsert (firstn i evs2))).
    assert (Hk : forall i, Forall (hop_ok all) (map HInsert (firstn i evs2))).
    { intros i. rewrite Forall_forall in *. intros o Ho. apply H2. apply in_map_iff in Ho. destruct Ho as [e [<- He]].
      apply in_map. eapply firstn_In_ev; exact He. }
    assert (NT : forall i, nf_inv g all (T i)) by (intros i; apply (hrun_nf g all s2 o2 _ ID NA (Hk i))).
    assert (C : forall i j e, (j < i)%nat -> nth_error evs2 j = Some e -> get_event S1 (e_id e) <> None ->
                get_event (T i) (e_id e) <> None).
    { induction i as [|i IH]; intros j e Hj Hn Hs; [lia|].
      assert (Hjl : (j < length evs2)%nat) by (apply nth_error_Some; rewrite Hn; discriminate).
      destruct (nth_error evs2 i) as [ei|] eqn:Ei.
      2:{ apply nth_error_None in Ei. unfold T. rewrite (firstn_all2 (n := S i)) by lia.
          rewrite <- (firstn_all2 (n := i) evs2) by lia. apply (IH j e ltac:(lia) Hn Hs). }
      assert (ET : T (S i) = hstep (T i) (HInsert ei)).
      { unfold T. rewrite (firstn_snoc _ _ _ Ei), map_app, hrun_app. reflexivity. }
      assert (Hoi : hop_ok all (HInsert ei)).
      { rewrite Forall_forall in H2. apply H2. apply in_map. eapply nth_error_In; exact Ei. }
      rewrite ET.
      destruct (Nat.eq_dec j i) as [->|Hne].
      2:{ apply (stored_step _ _ _ Hoi (NT i)). apply (IH j e ltac:(lia) Hn Hs). }
      rewrite Ei in Hn. inversion Hn; subst ei. clear Hn.
      destruct (get_event (T i) (e_id e)) as [et|] eqn:HT; [apply (stored_step _ _ _ Hoi (NT i)); rewrite HT; discriminate|].
      destruct (get_event S1 (e_id e)) as [es1|] eqn:Hs1; [|contradiction].
      destruct Hoi as [Hin Hid].
      pose proof (g_dag _ _ (gi_core _ _ (nf_g _ _ _ (NT i)))) as OKT. pose proof (g_from _ _ (gi_core _ _ (nf_g _ _ _ (NT i)))) as FAT.
      assert (He : ev_e es1 = e) by (apply ID; [eapply FA1; eauto|exact Hin|apply (d_id S1 OK1 _ _ Hs1)]).
      destruct (Topo i e Ei) as [Tsp Top].
      assert (Psp : e_sp e <> -1 -> get_event (T i) (e_sp e) <> None).
      { intros Hn. destruct Tsp as [?|[j' [p' [Hj' [Hp' Eid]]]]]; [contradiction|]. rewrite <- Eid.
        apply (IH j' p' Hj' Hp'). rewrite Eid.
        destruct (d_sp S1 OK1 _ _ Hs1) as [[Hs0 _]|[ps [Hps _]]]; rewrite He in *; [contradiction|rewrite Hps; discriminate]. }
      assert (Pop : e_op e <> -1 -> get_event (T i) (e_op e) <> None).
      { intros Hn. destruct Top as [?|[j' [p' [Hj' [Hp' Eid]]]]]; [contradiction|]. rewrite <- Eid.
        apply (IH j' p' Hj' Hp'). rewrite Eid.
        destruct (d_op S1 OK1 _ _ Hs1) as [Hs0|[po Hpo]]; rewrite He in *; [contradiction|rewrite Hpo; discriminate]. }
      assert (Hkey : zget (e_creator e) (pevents (T i)) <> None).
      { apply (hrun_pkeys g all s2 o2 _ (e_creator e) ID NA (Hk i)). rewrite init_pev, <- (init_pev s1 g o1).
        apply (hrun_pkeys g all s1 o1 ops1 (e_creator e) ID NA H1). fold S1.
        destruct (d_listed S1 OK1 _ _ Hs1) as [p [Hp _]]. rewrite He in Hp. rewrite Hp. discriminate. }
      destruct (admit_checks all (T i) S1 e es1 ID FF Hin OKT FAT OK1 FA1 Hs1 HT Psp Pop Hkey) as [Hsig [Hcs Hco]].
      apply (hstep_admits (T i) e (conj Hin Hid) (NT i) Hsig Hcs Hco). }
    intros x Hx. destruct (get_event S1 x) as [es|] eqn:Hes; [|contradiction].
    pose proof (Hatt x es Hes) as Hin. destruct (In_nth_error _ _ Hin) as [j Hj].
    assert (Eid : e_id (ev_e es) = x) by (apply (d_id S1 OK1 _ _ Hes)).
    assert (Hlen : (j < length evs2)%nat) by (apply nth_error_Some; rewrite Hj; discriminate).
    pose proof (C (length evs2) j (ev_e es) Hlen Hj ltac:(rewrite Eid, Hes; discriminate)) as Hc.
    unfold T in Hc. rewrite firstn_all in Hc. rewrite Eid in Hc. exact Hc.
  Qed.
End Admit.

(** * Consequences for [run] *)
Lemma run_hrun st evs : run st evs = hrun st (map HInsert evs).
Proof. revert st. induction evs as [|e evs IH]; intros st; cbn; [reflexivity|apply IH]. Qed.

Lemma hop_ok_of_incl all evs : (forall e, In e evs -> In e all /\ 0 <= e_id e) -> Forall (hop_ok all) (map HInsert evs).
Proof. intros H. apply Forall_forall. intros o Ho. apply in_map_iff in Ho. destruct Ho as [e [<- He]]. cbn. apply H. exact He. Qed.

Section Order.
  Variables (g : peerset) (evs evs' : list event).
  Hypothesis P : Permutation evs evs'.
  Hypothesis T1 : topological evs.
  Hypothesis T2 : topological evs'.
  Hypothesis ID : ids_determine evs.
  Hypothesis FF : fork_free evs.
  Hypothesis NA : no_accept evs.
  Hypothesis NN : forall e, In e evs -> 0 <= e_id e.
  Variables (s1 s2 : Z) (o1 o2 : list Z).

  Let H1 : Forall (hop_ok evs) (map HInsert evs).
  Proof. apply hop_ok_of_incl. intros e He. auto. Qed.
  Let H2 : Forall (hop_ok evs) (map HInsert evs').
  Proof. apply hop_ok_of_incl. intros e He. apply (Permutation_in _ (Permutation_sym P)) in He. auto. Qed.

  Theorem admitted_order_independent x :
    get_event (run (init_hg s1 g o1) evs) x <> None <-> get_event (run (init_hg s2 g o2) evs') x <> None.
  Proof.
    rewrite !run_hrun. split.
    - apply (admitted_incl g evs ID FF NA s1 o1 (map HInsert evs) s2 o2 evs' H1 H2 T2).
      intros y es Hy. apply (Permutation_in _ P).
      apply (g_from _ _ (gi_core _ _ (nf_g _ _ _ (hrun_nf g evs s1 o1 _ ID NA H1))) y es Hy).
    - apply (admitted_incl g evs ID FF NA s2 o2 (map HInsert evs') s1 o1 evs H2 H1 T1).
      intros y es Hy.
      apply (g_from _ _ (gi_core _ _ (nf_g _ _ _ (hrun_nf g evs s2 o2 _ ID NA H2))) y es Hy).
  Qed.

  Theorem obs_order_independent x :
    option_map (fun e => (ev_round e, ev_lt e)) (get_event (run (init_hg s1 g o1) evs) x) =
    option_map (fun e => (ev_round e, ev_lt e)) (get_event (run (init_hg s2 g o2) evs') x).
  Proof.
    pose proof (admitted_order_independent x) as A. rewrite !run_hrun in *.
    assert (C : get_event (hrun (init_hg s1 g o1) (map HInsert evs)) x <> None \/
                get_event (hrun (init_hg s1 g o1) (map HInsert evs)) x = None)
      by (destruct (get_event (hrun (init_hg s1 g o1) (map HInsert evs)) x); [left; discriminate|right; reflexivity]).
    destruct C as [N1|Z1].
    - apply (u_obs g evs ID NA s1 s2 o1 o2 _ _ H1 H2 x); [exact N1|apply A; exact N1].
    - assert (Z2 : get_event (hrun (init_hg s2 g o2) (map HInsert evs')) x = None).
      { destruct (get_event (hrun (init_hg s2 g o2) (map HInsert evs')) x) eqn:E2; [|reflexivity].
        exfalso. apply (proj2 A); [discriminate|exact Z1]. }
      rewrite Z1, Z2. reflexivity.
  Qed.
End Order.

(* the delivered transactions of a longer attempt sequence extend those of the shorter one (any events) *)
Theorem delivered_txs_prefix s g o evs more :
  exists l, map b_txs (delivered (run (init_hg s g o) (evs ++ more)))
          = map b_txs (delivered (run (init_hg s g o) evs)) ++ l.
Proof.
  rewrite !run_hrun, map_app, hrun_app.
  destruct (hrun_del (map HInsert more) _ (hrun_binv s g o (map HInsert evs))) as [l Hl].
  exists (map b_txs l). rewrite Hl, map_app. reflexivity.
Qed.

(** * Without fork freedom the order matters: two first events of one creator *)
Definition ow_g : peerset := [mkPeer 100 0].
Definition ow_a : event := mkEvent 1 0 0 (-1) (-1) 0 true 1 [] [] [] true.
Definition ow_b : event := mkEvent 2 0 0 (-1) (-1) 0 true 2 [] [] [] true.

Lemma ow_refuted :
  ~ (forall genesis evs evs', Permutation evs evs' -> topological evs -> topological evs' ->
       forall x, option_map (fun e => (ev_round e, ev_lt e)) (get_event (run (init_hg (-1) genesis []) evs) x) =
                 option_map (fun e => (ev_round e, ev_lt e)) (get_event (run (init_hg (-1) genesis []) evs') x)).
Proof.
  intros S.
  assert (Tp : forall l, (forall e, In e l -> e_sp e = -1 /\ e_op e = -1) -> topological l).
  { intros l H i e Hi. destruct (H e (nth_error_In _ _ Hi)) as [A B]. split; left; assumption. }
  specialize (S ow_g [ow_a; ow_b] [ow_b; ow_a] (perm_swap _ _ _)).
  assert (Hp : forall e, In e [ow_a; ow_b] -> e_sp e = -1 /\ e_op e = -1) by (intros e [<-|[<-|[]]]; split; reflexivity).
  assert (Hp' : forall e, In e [ow_b; ow_a] -> e_sp e = -1 /\ e_op e = -1) by (intros e [<-|[<-|[]]]; split; reflexivity).
  specialize (S (Tp _ Hp) (Tp _ Hp') 1). vm_compute in S. discriminate S.
Qed.
