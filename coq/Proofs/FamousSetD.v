(* The famous witnesses of a round, for validator sets that may change per round (model after fix 05eda0b).  If node 1
   has recorded x as a famous witness of round r and node 2 has decided all the round-r witnesses it knows (at least a
   super-majority of the set of round r), node 2 has recorded x as famous too: a witness that node 2 did not know when
   it decided the round is decided not famous by everybody (late-witness lemma).  Hence two nodes that have both fully
   decided round r hold the same set of famous witnesses: stated for runs that respect the distance bound and, with
   the constant assignment, for runs with static membership. *)
From Coq Require Import ZArith List Bool Lia ZifyBool Permutation.
From RecordUpdate Require Import RecordSet.
From V Require Import Model.ZMap Model.Quorum Model.HgImpl Proofs.ZMapFacts Proofs.AdmissionProofs Proofs.BlockInv Proofs.RoundOrder
  Proofs.OrderProofs Proofs.VotingProofs Proofs.VotingProofsD Proofs.FameBridge Proofs.Static Proofs.FirstDesc
  Proofs.FdWalk Proofs.DivInv Proofs.StronglySee Proofs.ViewOk Proofs.SameHistory Proofs.NoFail Proofs.FameInv
  Proofs.FamousSet Proofs.GapWindow Proofs.FirstDescD Proofs.CInvRunD Proofs.StronglySeeD Proofs.RoundFunD
  Proofs.RoundAgreeD Proofs.ViewOkD Proofs.AgreementD Proofs.FameInvD Proofs.LateWitnessD.
Import ListNotations RecordSetNotations.
Open Scope Z_scope.

(* all the round-r witnesses known to the state have a recorded fame, and they are a supermajority:
   the condition under which WitnessesDecided answers true (and sets the sticky flag) *)
Definition full_decD (g : peerset) (st : hg) (r : Z) : Prop :=
  super_majority g <= Z.of_nat (length (wits st r)) /\
  forall x, In x (wits st r) -> exists v, frec st r x v.

(* a decision needs a deciding witness at least two rounds later *)
Lemma decided_has_later_witnessD P st x r v : goodD P st -> contig st ->
  (forall q, 0 <= q <= last_round st -> get_peerset st q = Some (P q)) ->
  fame_of st x r = Some (Some v) -> exists y0, In y0 (wits st (r + 2)).
Proof.
  intros G C T F.
  destruct (fame_decided_preD P st G C T x r v F) as [Hr [ex Hx]].
  pose proof (view_ok_reachD P st G C T x r ex Hr Hx) as V.
  assert (N : forall j, In j (zrange (r + 1) (last_round st)) -> round_witnesses st j <> None).
  { intros j Hj. apply In_zrange in Hj. apply (round_witnesses_someD P st C T). lia. }
  rewrite (fame_of_as_view st x r N) in F.
  destruct (loop_no_error_and_votesD _ _ _ _ _ V) as [E _]. cbv zeta in E. rewrite E in F. inversion F as [F'].
  apply (loop_ref_Some_iffD _ _ _ _ _ V) in F'. destruct F' as [j [y [Hj [Hy [Hd _]]]]].
  unfold VotingRefD.deciderD in Hd. apply andb_true_iff in Hd. destruct Hd as [Hd _]. apply andb_true_iff in Hd. destruct Hd as [Hd _].
  assert (Hj2 : r + 2 <= j) by lia.
  rewrite (view_witnesses_witsD P st T) in Hy by lia.
  destruct (wits st (r + 2)) as [|y0 l] eqn:E2; [exfalso|exists y0; left; reflexivity].
  rewrite (wits_empty_upD P st G T (r + 2) ltac:(lia) E2 (Z.to_nat (j - (r + 2))) j ltac:(lia)) in Hy. destruct Hy.
Qed.

Section Famous.
  Variables (P : Z -> peerset) (st1 st2 : hg).
  Hypothesis G1 : goodD P st1.
  Hypothesis G2 : goodD P st2.
  Hypothesis C1 : contig st1.
  Hypothesis C2 : contig st2.
  Hypothesis R1 : rinv st1.
  Hypothesis R2 : rinv st2.
  Hypothesis FI1 : FI st1.
  Hypothesis FI2 : FI st2.
  Hypothesis SAME : same_bodies st1 st2.
  Hypothesis NF : no_cross_fork st1 st2.
  Hypothesis T1 : forall q, 0 <= q <= last_round st1 -> get_peerset st1 q = Some (P q).
  Hypothesis T2 : forall q, 0 <= q <= last_round st2 -> get_peerset st2 q = Some (P q).

  Theorem famous_transferD r x : frec st1 r x true -> full_decD (P r) st2 r -> frec st2 r x true.
  Proof.
    intros H1 [Hsm Hall].
    pose proof (FI1 r x true H1) as F1.
    (* some witness of round r is decided in st2, so st2 has a witness of round r+2 *)
    pose proof (super_majority_pos (P r)) as Hp.
    destruct (wits st2 r) as [|w0 l] eqn:Ew; [cbn in Hsm; lia|].
    assert (Hw0 : In w0 (wits st2 r)) by (rewrite Ew; left; reflexivity).
    rewrite <- Ew in *. clear Ew l.
    destruct (Hall w0 Hw0) as [v0 Hr0].
    destruct (decided_has_later_witnessD P st2 w0 r v0 G2 C2 T2 (FI2 r w0 v0 Hr0)) as [y0 Hy0].
    (* hence st2 stores x *)
    pose proof (famous_is_knownD P st1 st2 G1 G2 C1 C2 SAME NF T1 T2 x r y0 F1 Hy0) as Hx2.
    destruct (get_event st2 x) as [e2x|] eqn:H2x; [|contradiction].
    pose proof (frec_in_wits st1 r x true H1) as Hw1.
    destruct (wits_storedD P st1 G1 r x Hw1) as [e1x H1x].
    destruct (memo_agreeD P P st1 st2 G1 G2 SAME (fun q _ _ => eq_refl) x e1x e2x H1x H2x) as [Er Ewm].
    assert (Hw2 : In x (wits st2 r)).
    { apply (wits_specD P st2 G2). rewrite <- Er, <- Ewm. apply (wits_specD P st1 G1). exact Hw1. }
    destruct (Hall x Hw2) as [v Hr2].
    pose proof (FI2 r x v Hr2) as F2.
    rewrite (fame_agreement_statesD P st1 st2 x r true v G1 R1 T1 G2 R2 T2 SAME NF F1 F2). exact Hr2.
  Qed.
End Famous.

(* the famous witnesses listed by the model are the witnesses recorded famous *)
Lemma famous_witnesses_frecD P st r ri x : goodD P st -> get_round st r = Some ri ->
  (In x (famous_witnesses ri) <-> frec st r x true).
Proof.
  intros G Hg. unfold famous_witnesses. split.
  - intros H. apply in_map_iff in H. destruct H as [[x' [w f]] [E H]]. cbn in E. subst x'.
    apply filter_In in H. destruct H as [Hin Hf]. cbn in Hf. destruct w; [|discriminate]. destruct f; try discriminate.
    exists ri. split; [exact Hg|].
    apply ukeys_In_aget; [apply (wl_created_nodup st r ri (cd_tabu _ _ _ (gD_c _ _ G) r) Hg)|exact Hin].
  - intros [ri' [Hg' Ha]]. rewrite Hg in Hg'. inversion Hg'; subst ri'.
    apply in_map_iff. exists (x, (true, TTrue)). split; [reflexivity|]. apply filter_In.
    split; [apply aget_In; exact Ha|reflexivity].
Qed.

(* WitnessesDecided answering true on a round whose flag is not yet set means full_decD *)
Lemma witnesses_decided_full_decD P g st r ri : goodD P st -> get_round st r = Some ri ->
  ri_decided ri = false -> fst (witnesses_decided ri g) = true -> full_decD g st r.
Proof.
  intros G Hg Hd. unfold witnesses_decided. rewrite Hd.
  destruct (existsb _ _) eqn:Ex; [discriminate|]. cbn [fst]. intros Hsm. apply Z.leb_le in Hsm.
  apply (full_dec_of_created g st r ri (wl_created_nodup st r ri (cd_tabu _ _ _ (gD_c _ _ G) r) Hg) Hg Ex Hsm).
Qed.

Theorem famous_witnesses_agree_gap :
  forall all self1 self2 genesis1 genesis2 oracle1 oracle2 ops1 ops2 r ri1 ri2 x,
  ids_determine all -> self1 <> -1 -> self2 <> -1 ->
  Forall (hop_ok all) ops1 -> Forall (hop_ok all) ops2 ->
  gap_runb (init_hg self1 genesis1 oracle1) ops1 = true -> gap_runb (init_hg self2 genesis2 oracle2) ops2 = true ->
  let st1 := hrun (init_hg self1 genesis1 oracle1) ops1 in
  let st2 := hrun (init_hg self2 genesis2 oracle2) ops2 in
  failed st1 = false -> failed st2 = false -> tables_agree st1 st2 -> no_cross_fork st1 st2 ->
  full_decD (psat st1 r) st1 r -> full_decD (psat st2 r) st2 r ->
  get_round st1 r = Some ri1 -> get_round st2 r = Some ri2 ->
  (In x (famous_witnesses ri1) <-> In x (famous_witnesses ri2)).
Proof.
  intros all s1 s2 g1 g2 o1 o2 ops1 ops2 r ri1 ri2 x ID S1 S2 H1 H2 B1 B2 st1 st2 F1 F2 T NF D1 D2 Hg1 Hg2.
  destruct (two_runs_common all s1 s2 g1 g2 o1 o2 ops1 ops2 ID S1 S2 H1 H2 B1 B2 F1 F2 T) as [P [G1 [G2 [R1 [R2 [T1 [T2 SB]]]]]]].
  fold st1 in G1, R1, T1, SB. fold st2 in G2, R2, T2, SB.
  pose proof (hrun_FI_D_final s1 g1 o1 all ops1 S1 ID H1 B1 F1) as Fi1.
  pose proof (hrun_FI_D_final s2 g2 o2 all ops2 S2 ID H2 B2 F2) as Fi2.
  fold st1 in Fi1. fold st2 in Fi2.
  pose proof (rinv_contig _ R1) as C1. pose proof (rinv_contig _ R2) as C2.
  assert (E1 : psat st1 r = P r).
  { assert (Hr : 0 <= r <= last_round st1) by (apply C1; rewrite Hg1; discriminate).
    pose proof (T1 r Hr) as A. pose proof (psat_some s1 g1 o1 ops1 r S1) as Q. fold st1 in Q. rewrite Q in A. inversion A. reflexivity. }
  assert (E2 : psat st2 r = P r).
  { assert (Hr : 0 <= r <= last_round st2) by (apply C2; rewrite Hg2; discriminate).
    pose proof (T2 r Hr) as A. pose proof (psat_some s2 g2 o2 ops2 r S2) as Q. fold st2 in Q. rewrite Q in A. inversion A. reflexivity. }
  rewrite E1 in D1. rewrite E2 in D2.
  rewrite (famous_witnesses_frecD P st1 r ri1 x G1 Hg1), (famous_witnesses_frecD P st2 r ri2 x G2 Hg2).
  split; intros H.
  - apply (famous_transferD P st1 st2 G1 G2 C1 C2 R1 R2 Fi1 Fi2 SB NF T1 T2 r x H D2).
  - apply (famous_transferD P st2 st1 G2 G1 C2 C1 R2 R1 Fi2 Fi1 (same_bodies_sym _ _ SB) (no_cross_fork_sym _ _ NF) T2 T1 r x H D1).
Qed.

(* static membership: the constant assignment; [full_dec g] is [full_decD g] *)
Theorem famous_witnesses_agree_hrun :
  forall genesis all self1 self2 oracle1 oracle2 ops1 ops2 r ri1 ri2 x,
  ids_determine all -> no_accept all -> Forall (hop_ok all) ops1 -> Forall (hop_ok all) ops2 ->
  let st1 := hrun (init_hg self1 genesis oracle1) ops1 in
  let st2 := hrun (init_hg self2 genesis oracle2) ops2 in
  no_cross_fork st1 st2 ->
  full_dec genesis st1 r -> full_dec genesis st2 r ->
  get_round st1 r = Some ri1 -> get_round st2 r = Some ri2 ->
  (In x (famous_witnesses ri1) <-> In x (famous_witnesses ri2)).
Proof.
  intros g all s1 s2 o1 o2 ops1 ops2 r ri1 ri2 x ID NA H1 H2 st1 st2 NF D1 D2 Hg1 Hg2.
  pose proof (hrun_nf g all s1 o1 ops1 ID NA H1) as N1. pose proof (hrun_nf g all s2 o2 ops2 ID NA H2) as N2.
  pose proof (hrun_FI g all s1 o1 ops1 ID NA H1) as F1. pose proof (hrun_FI g all s2 o2 ops2 ID NA H2) as F2.
  fold st1 in N1, F1. fold st2 in N2, F2.
  pose proof (good_goodD g st1 (nf_good g all st1 N1)) as G1. pose proof (good_goodD g st2 (nf_good g all st2 N2)) as G2.
  pose proof (nf_r _ _ _ N1) as R1. pose proof (nf_r _ _ _ N2) as R2.
  assert (T1 : tblD (fun _ => g) st1) by (intros q _; apply get_peerset_static, (c_static _ _ _ (nf_c _ _ _ N1))).
  assert (T2 : tblD (fun _ => g) st2) by (intros q _; apply get_peerset_static, (c_static _ _ _ (nf_c _ _ _ N2))).
  assert (SB : same_bodies st1 st2).
  { apply (same_bodies_of_universeD all _ _ st1 st2 ID G1 G2);
      [apply (g_from _ _ (gi_core _ _ (nf_g _ _ _ N1)))|apply (g_from _ _ (gi_core _ _ (nf_g _ _ _ N2)))]. }
  rewrite (famous_witnesses_frecD _ st1 r ri1 x G1 Hg1), (famous_witnesses_frecD _ st2 r ri2 x G2 Hg2).
  split; intros H.
  - apply (famous_transferD _ st1 st2 G1 G2 (rinv_contig _ R1) (rinv_contig _ R2) R1 R2 F1 F2 SB NF T1 T2 r x H D2).
  - apply (famous_transferD _ st2 st1 G2 G1 (rinv_contig _ R2) (rinv_contig _ R1) R2 R1 F2 F1
             (same_bodies_sym _ _ SB) (no_cross_fork_sym _ _ NF) T2 T1 r x H D1).
Qed.

(* the recorded fame values are the values of the voting loop, in every state a run with static membership reaches *)
Theorem recorded_fame_is_vote_hrun : forall genesis all self_ oracle_ ops r ri x (v : bool),
  ids_determine all -> no_accept all -> Forall (hop_ok all) ops ->
  let st := hrun (init_hg self_ genesis oracle_) ops in
  get_round st r = Some ri -> aget x (ri_created ri) = Some (true, if v then TTrue else TFalse) ->
  fame_of st x r = Some (Some v).
Proof.
  intros g all s o ops r ri x v ID NA H st Hg Ha.
  apply (hrun_FI g all s o ops ID NA H r x v). exists ri. auto.
Qed.
