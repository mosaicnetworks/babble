(* C13 / C02 after a reset: the queue invariant of Proofs/RoundOrder.v for the states with
   roundLowerBound = Some lb, as reached from a fast-forward: the blocks delivered after the reset
   have strictly increasing round-received, all above the anchor's. *)
From Coq Require Import ZArith List Bool Lia ZifyBool Sorted.
From RecordUpdate Require Import RecordSet.
From V Require Import Model.ZMap Model.Quorum Model.Voting Model.HgImpl Model.HgReset
  Proofs.ZMapFacts Proofs.HgFrames Proofs.HgBlockFrames Proofs.BlockInv Proofs.RoundOrder Proofs.ResetProofs.
Import ListNotations RecordSetNotations.
Open Scope Z_scope.

Section R.
  (* lb: the lower bound (= the anchor's round-received); m: the highest round recorded by the reset;
     old: the commit callbacks made before the reset *)
  Variables (lb m : Z) (old : list block).
  Hypothesis Hm : m <= lb.

  Record rinvRA (st : hg) : Prop := {
    ra_lb : lower_bound st = Some lb;
    ra_lr : -1 <= last_round st;
    ra_bound : forall r, get_round st r <> None -> 0 <= r <= last_round st;
    ra_contig : forall r, m < r <= last_round st -> get_round st r <> None;
    ra_memo : memo_ok st;
    ra_sorted : StronglySorted Z.lt (prounds st);
    ra_pend : forall r d, In (r, d) (pending st) ->
              exists ri, get_round st r = Some ri /\ (d = true -> ri_decided ri = true);
    ra_lc : exists l, last_consensus st = Some l /\ lb <= l /\ (l = lb \/ l <= last_round st);
    ra_frames : forall rr f, zget rr (frames st) = Some f -> f_round f = rr;
    ra_news : exists news, delivered st = old ++ news /\ StronglySorted Z.lt (map b_rr news) /\
              forall d, In d news -> lb < b_rr d /\ forall l, last_consensus st = Some l -> b_rr d <= l
  }.
  Record rinvRB (st : hg) : Prop := {
    rb_above : forall r, In r (prounds st) -> lc_lt st r;
    rb_q : forall r ri, get_round st r = Some ri -> lb < r -> In r (prounds st) \/ ri_decided ri = true
  }.
  Definition rinvR (st : hg) : Prop := rinvRA st /\ rinvRB st.

  (* the invariant of Proofs/RoundOrder.v with lower bound lb *)
  Lemma rinvRA_qinvA st : rinvRA st <-> qinvA (Some lb) m old st.
  Proof.
    split.
    - intros [Lb Lr Bd Ct Me So Pe [l [Hl [H1 H2]]] Fr [news [D [S H]]]]. constructor; try assumption.
      + split; assumption.
      + intros l' Hl'. rewrite Hl in Hl'. inversion Hl'; subst l'. destruct H2 as [->|H2]; [left; reflexivity|right; exact H2].
      + unfold lc_lt, above_lb. rewrite Hl. intros r Hr. lia.
      + exists news. split; [exact D|]. split; [exact S|]. intros d Hd. destruct (H d Hd) as [Hd1 Hd2]. eauto.
    - intros [Lb [B0 B] Ct Me So Pe Lc Ll Fr [news [D [S H]]]].
      assert (Hl : exists l, last_consensus st = Some l /\ lb <= l).
      { specialize (Ll lb). unfold lc_lt, above_lb in Ll. destruct (last_consensus st) as [l|]; [|lia].
        exists l. split; [reflexivity|]. destruct (Z.le_gt_cases lb l) as [Hle|Hgt]; [exact Hle|lia]. }
      destruct Hl as [l [Hl Hlb]]. constructor; try assumption.
      + exists l. split; [exact Hl|]. split; [exact Hlb|]. destruct (Lc l Hl) as [E|Hle]; [left; congruence|right; exact Hle].
      + exists news. split; [exact D|]. split; [exact S|]. intros d Hd. destruct (H d Hd) as [Hd1 [l' [Hl' Hd2]]].
        split; [exact Hd1|]. intros l'' Hl''. congruence.
  Qed.

  Lemma rinvR_qinv st : rinvR st <-> qinv (Some lb) m old st.
  Proof.
    unfold rinvR, qinv. rewrite rinvRA_qinvA. apply and_iff_compat_l.
    split; intros [Ha Hq]; constructor; assumption.
  Qed.

  Lemma above_some r : 0 <= r -> above_lb (Some lb) r -> m < r.
  Proof. unfold above_lb. lia. Qed.

  Lemma rinvR_rstep st st' : rinvR st -> rstep st st' -> rinvR st'.
  Proof. rewrite !rinvR_qinv. apply qinv_rstep. Qed.

  (* a whole step: the invariant holds unless a pass hit a store error; the sorted deliveries always *)
  Definition rtopR (st : hg) : Prop := news_sorted (Some lb) old st /\ (failed st = false -> rinvR st).

  Lemma rtopR_qtop st : rtopR st <-> qtop (Some lb) m old st.
  Proof. unfold rtopR, qtop. rewrite rinvR_qinv. reflexivity. Qed.

  Lemma rinvR_rtopR st : rinvR st -> rtopR st.
  Proof. rewrite rinvR_qinv, rtopR_qtop. apply qinv_qtop. Qed.

  Lemma hrun_rtopR ops : forall st, rtopR st -> rtopR (hrun st ops).
  Proof. intros st. rewrite !rtopR_qtop. apply hrun_qtop, above_some. Qed.
End R.

Lemma insert_frame_event_last_round st fe e :
  last_round (snd (insert_frame_event st fe e)) = Z.max (fe_round fe) (last_round st).
Proof.
  unfold insert_frame_event. cbv zeta.
  match goal with |- context [store_set_event ?s3 ?es] =>
    assert (L3 : last_round s3 = Z.max (fe_round fe) (last_round st)) by reflexivity;
    destruct (store_set_event s3 es) as [st4|] eqn:S end; cbn [snd]; [|exact L3].
  apply store_set_event_rv in S. destruct S as [S _].
  pose proof (s_lr _ _ (rstep_rv _ _ S)) as L4. rewrite L3 in L4. clear S L3.
  match goal with |- context [update_ancestor_fd st4 e ?la] =>
    pose proof (s_lr _ _ (proj1 (update_ancestor_fd_istep st4 e la))) as L5; revert L5;
    generalize (update_ancestor_fd st4 e la) end.
  intros s5 L5. change (last_round s5 = Z.max (fe_round fe) (last_round st)). congruence.
Qed.

Lemma insert_frame_events_last_round cores bound : forall l st,
  Forall (fun fe => fe_round fe <= bound) l -> last_round st <= bound ->
  last_round (snd (insert_frame_events st l cores)) <= bound.
Proof.
  induction l as [|fe rest IH]; intros st F H; cbn [insert_frame_events]; [exact H|].
  inversion F; subst. destruct (core_of cores (fe_id fe)) as [e|]; [|exact H].
  pose proof (insert_frame_event_last_round st fe e) as L.
  destruct (insert_frame_event st fe e) as [[|] s]; cbn [snd] in *; [apply IH; [assumption|lia]|lia].
Qed.

Section Establish.
  Variables (v : hg) (b : block) (f : frame) (cores : list event) (v' : hg).
  Hypothesis FS : frame_shape f.
  Hypothesis RB : Forall (fun fe => fe_round fe <= b_rr b) (all_frame_events f).
  Hypothesis R0 : 0 <= b_rr b.
  Hypothesis FF : node_fast_forward v b f cores = (true, v').

  Lemma reset_last_round : -1 <= last_round v' <= b_rr b.
  Proof.
    destruct (node_fast_forward_inv v b f cores v' FF) as (v1 & E & ->).
    replace (last_round (process_receipts v1 (b_rr b) (b_itxs b))) with (last_round v1)
      by (pose proof (rv_process_receipts v1 (b_rr b) (b_itxs b)) as C; unfold rv, cv in C; congruence).
    pose proof (reset_hg_post v b f cores v1 FS E) as P.
    split; [apply (proj1 (li_lr _ _ _ _ (rp_dag _ _ _ _ _ P)))|].
    destruct (core_fast_forward_inv v b f cores v1 E) as (s1 & s2 & E1 & E2 & ->).
    pose proof (insert_frame_events_last_round cores (b_rr b) (sorted_frame_events cores f) s1) as L.
    rewrite E2 in L. apply L.
    - rewrite Forall_forall in *. intros fe Hin. apply RB, (sorted_frame_events_in cores f fe), Hin.
    - rewrite (cl_last_round _ _ (store_reset_cleared v f s1 E1)). lia.
  Qed.

  Theorem reset_rinvR : rinvR (b_rr b) (last_round v') (delivered v) v'.
  Proof.
    pose proof reset_last_round as [Lm0 Lm].
    destruct (node_fast_forward_inv v b f cores v' FF) as (v1 & E & ->).
    pose proof (reset_hg_post v b f cores v1 FS E) as P.
    pose proof (reset_post_dag v b f cores v1 P) as D.
    assert (Rv : rv (process_receipts v1 (b_rr b) (b_itxs b)) = rv v1) by apply rv_process_receipts.
    assert (Lr : last_round (process_receipts v1 (b_rr b) (b_itxs b)) = last_round v1) by (unfold rv, cv in Rv; congruence).
    rewrite Lr in *.
    eapply rinvR_rstep; [|apply rstep_rv; exact Rv].
    destruct (rd_last_round _ _ _ _ D) as [L0 [L1 L2]].
    split; constructor.
    - apply (rp_lb _ _ _ _ _ P).
    - exact L0.
    - exact L1.
    - intros r Hr. lia.
    - intros x r Hx. destruct (in_map_iff fe_id (all_frame_events f) x) as [Hi _].
      destruct (Hi (rd_rmemo_only _ _ _ _ D x r Hx)) as [fe [Eid Hfe]].
      destruct (rd_event _ _ _ _ D fe Hfe) as (e & es & ri & _ & _ & _ & _ & _ & _ & Mr & _ & _ & Gr & _).
      rewrite Eid in Mr. rewrite Hx in Mr. inversion Mr; subst r.
      assert (Hb : 0 <= fe_round fe <= last_round v1) by (apply L1; rewrite Gr; discriminate). lia.
    - unfold prounds. rewrite (rp_pending _ _ _ _ _ P). constructor.
    - intros r d. rewrite (rp_pending _ _ _ _ _ P). intros [].
    - exists (b_rr b). split; [apply (rp_lc _ _ _ _ _ P)|]. split; [lia|left; reflexivity].
    - intros rr g. rewrite (rp_frames _ _ _ _ _ P), zget_zset.
      destruct (Z.eqb_spec (f_round f) rr) as [<-|Hne]; cbn [andb].
      + destruct (0 <=? f_round f); [intros H; inversion H; reflexivity|rewrite zget_empty; discriminate].
      + rewrite zget_empty. discriminate.
    - exists []. rewrite app_nil_r. split; [apply (rp_delivered _ _ _ _ _ P)|]. split; [constructor|intros d []].
    - unfold prounds. rewrite (rp_pending _ _ _ _ _ P). intros r [].
    - intros r ri Hr Hlb. exfalso. assert (Hb : 0 <= r <= last_round v1) by (apply L1; rewrite Hr; discriminate). lia.
  Qed.

  (* C02 after a reset: round-received strictly increases along the blocks delivered after the
     fast-forward, and all of them are above the anchor's *)
  Theorem deliveries_after_reset_increasing ops :
    exists news, delivered (hrun v' ops) = delivered v ++ news /\
      StronglySorted Z.lt (map b_rr news) /\ forall d, In d news -> b_rr b < b_rr d.
  Proof.
    pose proof reset_last_round as [Lm0 Lm].
    destruct (hrun_rtopR (b_rr b) (last_round v') (delivered v) Lm ops v'
                (rinvR_rtopR _ _ _ v' reset_rinvR)) as [N _].
    exact N.
  Qed.
End Establish.
