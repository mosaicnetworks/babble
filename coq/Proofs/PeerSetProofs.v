(* C10: the validator-set table is a replayable function of the delivered blocks.
   In this order: the sorted table (insert / lookup); the footprints of commit, get_frame,
   process_sig on the components that C10 and C09 read, and a generic lifting of invariants from
   those three functions to every operation sequence (Section Lift); the C10 invariants and their
   corollaries for reachable states; the membership gates of _witness and _stronglySee, as far
   as they are local to one call. *)
From Coq Require Import ZArith List Bool Lia ZifyBool Sorted.
From RecordUpdate Require Import RecordSet.
From V Require Import Model.ZMap Model.Quorum Model.Voting Model.HgImpl Model.PeerSetSpec Proofs.ZMapFacts
  Proofs.QuorumProofs Proofs.HgFrames Proofs.HgBlockFrames Proofs.BlockInv.
Import ListNotations RecordSetNotations.
Open Scope Z_scope.

(* keys strictly increasing and all above lo *)
Fixpoint keys_above (lo : Z) (t : list (Z * peerset)) : Prop :=
  match t with
  | [] => True
  | (k, _) :: rest => lo < k /\ keys_above k rest
  end.

(* well-formed table: first key 0, keys strictly increasing *)
Definition table_wf (t : list (Z * peerset)) : Prop :=
  exists ps0 rest, t = (0, ps0) :: rest /\ keys_above 0 rest.

Lemma keys_above_weaken lo lo' t : lo' <= lo -> keys_above lo t -> keys_above lo' t.
Proof. destruct t as [|[k p] r]; cbn; [auto|]. intros H [H1 H2]. split; [lia|exact H2]. Qed.

Lemma keys_above_In lo t k p : keys_above lo t -> In (k, p) t -> lo < k.
Proof.
  revert lo. induction t as [|[k' p'] r IH]; intros lo H HI; [destruct HI|].
  destruct H as [H1 H2]. destruct HI as [E|HI]; [inversion E; subst; exact H1|].
  specialize (IH _ H2 HI). lia.
Qed.

Lemma keys_above_sorted lo t : keys_above lo t -> StronglySorted Z.lt (map fst t).
Proof.
  revert lo. induction t as [|[k p] r IH]; intros lo H; cbn [map]; [constructor|].
  destruct H as [H1 H2]. constructor; [eapply IH; eauto|].
  apply Forall_forall. intros k' Hk'. apply in_map_iff in Hk'. destruct Hk' as [[k'' p''] [E HI]].
  cbn in E; subst k''. cbn [fst]. eapply keys_above_In; eauto.
Qed.

Lemma table_wf_sorted t : table_wf t -> StronglySorted Z.lt (map fst t) /\ hd_error (map fst t) = Some 0.
Proof.
  intros [ps0 [rest [-> H]]]. split; [|reflexivity].
  apply (keys_above_sorted (-1) ((0, ps0) :: rest)). cbn. split; [lia|exact H].
Qed.

Lemma table_has_In r t : table_has r t = true <-> exists p, In (r, p) t.
Proof.
  unfold table_has. rewrite existsb_exists. split.
  - intros [[k p] [HI E]]. cbn in E. apply Z.eqb_eq in E. subst. eauto.
  - intros [p HI]. exists (r, p). split; [exact HI|apply Z.eqb_refl].
Qed.

Lemma table_has_false r t : table_has r t = false <-> forall p, ~ In (r, p) t.
Proof.
  split.
  - intros H p HI. assert (T : table_has r t = true) by (apply table_has_In; eauto). congruence.
  - intros H. destruct (table_has r t) eqn:E; [|reflexivity]. apply table_has_In in E. destruct E as [p HI].
    destruct (H p HI).
Qed.

Lemma insert_In r ps t k p : In (k, p) (ps_table_insert r ps t) <-> (r, ps) = (k, p) \/ In (k, p) t.
Proof.
  induction t as [|[r' ps'] rest IH]; cbn [ps_table_insert]; [reflexivity|].
  destruct (r <? r'); cbn [In]; [reflexivity|]. rewrite IH. split; intros [H|[H|H]]; auto.
Qed.

Lemma insert_keys_above lo r ps t :
  keys_above lo t -> lo < r -> table_has r t = false -> keys_above lo (ps_table_insert r ps t).
Proof.
  revert lo. induction t as [|[r' ps'] rest IH]; intros lo H Hlo Hn; cbn [ps_table_insert].
  - cbn. auto.
  - destruct H as [H1 H2].
    assert (Hne : r' <> r).
    { intros ->. rewrite table_has_false in Hn. apply (Hn ps'). left; reflexivity. }
    assert (Hn' : table_has r rest = false).
    { rewrite table_has_false in *. intros p HI. apply (Hn p). right; exact HI. }
    destruct (Z.ltb_spec r r').
    + cbn. repeat split; auto.
    + cbn [keys_above]. split; [exact H1|]. apply IH; auto. lia.
Qed.

Lemma insert_wf r ps t : table_wf t -> 0 < r -> table_has r t = false -> table_wf (ps_table_insert r ps t).
Proof.
  intros [ps0 [rest [-> H]]] Hr Hn. cbn [ps_table_insert].
  replace (r <? 0) with false by lia. exists ps0, (ps_table_insert r ps rest). split; [reflexivity|].
  apply insert_keys_above; auto.
  rewrite table_has_false in *. intros p HI. apply (Hn p). right; exact HI.
Qed.

Lemma insert_above_all r ps t : (forall k p, In (k, p) t -> k < r) -> ps_table_insert r ps t = t ++ [(r, ps)].
Proof.
  induction t as [|[r' ps'] rest IH]; intros H; cbn [ps_table_insert app]; [reflexivity|].
  assert (r' < r) by (apply (H r' ps'); left; reflexivity).
  replace (r <? r') with false by lia. f_equal. apply IH. intros k p HI. apply (H k p). right; exact HI.
Qed.

Lemma get_le_insert_above r k ps t cur :
  r < k -> ps_table_get_le r (ps_table_insert k ps t) cur = ps_table_get_le r t cur.
Proof.
  intros Hr. revert cur. induction t as [|[r' ps'] rest IH]; intros cur; cbn [ps_table_insert ps_table_get_le].
  - replace (k <=? r) with false by lia. reflexivity.
  - destruct (Z.ltb_spec k r'); cbn [ps_table_get_le].
    + replace (k <=? r) with false by lia. replace (r' <=? r) with false by lia. reflexivity.
    + destruct (r' <=? r); [apply IH|reflexivity].
Qed.

(* a new entry at round k does not change the answer for any earlier round, as long as the
   entry does not become the new head of the table *)
Lemma get_insert_above r k ps r0 ps0 rest :
  r0 <= k -> r < k ->
  ps_table_get r (ps_table_insert k ps ((r0, ps0) :: rest)) = ps_table_get r ((r0, ps0) :: rest).
Proof.
  intros H0 Hr. unfold ps_table_get at 2.
  pose proof (get_le_insert_above r k ps ((r0, ps0) :: rest) None Hr) as G.
  cbn [ps_table_insert] in *. replace (k <? r0) with false in * by lia.
  unfold ps_table_get. rewrite G. reflexivity.
Qed.

Lemma get_insert_wf r k ps t :
  table_wf t -> 0 <= k -> r < k -> ps_table_get r (ps_table_insert k ps t) = ps_table_get r t.
Proof. intros [ps0 [rest [-> H]]] Hk Hr. apply get_insert_above; lia. Qed.

(* the first branch of Get ("below all keys: the first entry") is dead when key 0 is present
   and the round is not negative *)
Lemma get_wf_no_below r t : table_wf t -> 0 <= r -> ps_table_get r t = ps_table_get_le r t None.
Proof. intros [ps0 [rest [-> H]]] Hr. unfold ps_table_get. replace (r <? 0) with false by lia. reflexivity. Qed.

Lemma filter_le_above lo r t : keys_above lo t -> r <= lo -> filter (fun e : Z * peerset => fst e <=? r) t = [].
Proof.
  revert lo. induction t as [|[k p] rest IH]; intros lo H Hlo; cbn [filter fst]; [reflexivity|].
  destruct H as [A B]. replace (k <=? r) with false by lia. apply (IH k); auto. lia.
Qed.

(* on a table with increasing keys, the scan stops exactly at the first key above r, so it
   returns the last entry among those <= r *)
Lemma get_le_sorted lo r t cur :
  keys_above lo t ->
  ps_table_get_le r t cur =
  match rev (filter (fun e => fst e <=? r) t) with
  | e :: _ => Some (snd e)
  | [] => cur
  end.
Proof.
  revert lo cur. induction t as [|[r' ps'] rest IH]; intros lo cur H; cbn [ps_table_get_le filter fst]; [reflexivity|].
  destruct H as [H1 H2]. destruct (Z.leb_spec r' r).
  - rewrite (IH r' _ H2). cbn [rev].
    destruct (rev (filter (fun e : Z * peerset => fst e <=? r) rest)) as [|e l]; reflexivity.
  - rewrite (filter_le_above r' r rest H2) by lia. reflexivity.
Qed.

(* C10_lookup: on a well-formed table and a non-negative round, Get = the entry with the
   greatest key <= r, and there always is one *)
Lemma get_is_lookup r t : table_wf t -> 0 <= r -> ps_table_get r t = ps_lookup r t.
Proof.
  intros W Hr. rewrite get_wf_no_below by auto. destruct W as [ps0 [rest [-> H]]].
  unfold ps_lookup. apply (get_le_sorted (-1)). cbn. split; [lia|exact H].
Qed.

Definition greatest_le (r : Z) (t : list (Z * peerset)) (k : Z) (ps : peerset) : Prop :=
  In (k, ps) t /\ k <= r /\ forall k' ps', In (k', ps') t -> k' <= r -> k' <= k.

(* the scan started at an entry (k0, p0) that is not above r ends at the greatest key not above r *)
Lemma get_le_greatest r t : forall k0 p0,
  keys_above k0 t -> k0 <= r ->
  exists k ps, ps_table_get_le r t (Some p0) = Some ps /\ greatest_le r ((k0, p0) :: t) k ps.
Proof.
  induction t as [|[k p] rest IH]; intros k0 p0 H Hr; cbn [ps_table_get_le].
  - exists k0, p0. split; [reflexivity|]. split; [left; reflexivity|]. split; [exact Hr|].
    intros k' ps' [X|[]] _. inversion X. lia.
  - destruct H as [H1 H2]. destruct (Z.leb_spec k r) as [Hk|Hk].
    + destruct (IH k p H2 Hk) as (k1 & ps1 & E & A & B & C). exists k1, ps1. split; [exact E|].
      split; [right; exact A|]. split; [exact B|].
      intros k' ps' [X|HI] Hk'; [inversion X; subst k'|exact (C k' ps' HI Hk')].
      specialize (C k p (or_introl eq_refl) Hk). lia.
    + exists k0, p0. split; [reflexivity|]. split; [left; reflexivity|]. split; [exact Hr|].
      intros k' ps' [X|[X|HI]] Hk'; [inversion X; lia|inversion X; lia|].
      pose proof (keys_above_In _ _ _ _ H2 HI). lia.
Qed.

Lemma get_greatest r t : table_wf t -> 0 <= r -> exists k ps, ps_table_get r t = Some ps /\ greatest_le r t k ps.
Proof.
  intros [ps0 [rest [-> H]]] Hr. unfold ps_table_get. replace (r <? 0) with false by lia.
  cbn [ps_table_get_le]. replace (0 <=? r) with true by lia. apply get_le_greatest; assumption.
Qed.

Lemma get_nonempty r t : t <> [] -> exists ps, ps_table_get r t = Some ps.
Proof.
  destruct t as [|[r0 ps0] rest]; [congruence|]. intros _. unfold ps_table_get.
  destruct (r <? r0) eqn:E; [eauto|]. cbn [ps_table_get_le]. replace (r0 <=? r) with true by lia.
  generalize ps0. induction rest as [|[k p] rest IH]; intros q; cbn [ps_table_get_le]; [eauto|].
  destruct (k <=? r); [apply IH|eauto].
Qed.

Lemma get_In r t ps : ps_table_get r t = Some ps -> exists k, In (k, ps) t.
Proof.
  destruct t as [|[r0 ps0] rest]; [discriminate|]. unfold ps_table_get.
  destruct (r <? r0); [intros H; inversion H; subst; exists r0; left; reflexivity|].
  assert (G : forall t cur, ps_table_get_le r t cur = Some ps -> cur = Some ps \/ exists k, In (k, ps) t).
  { induction t as [|[k p] t IH]; intros cur H; cbn [ps_table_get_le] in H; [left; exact H|].
    destruct (k <=? r); [|left; exact H]. destruct (IH _ H) as [X|[k' X]].
    - inversion X; subst. right. exists k. left; reflexivity.
    - right. exists k'. right; exact X. }
  intros H. destruct (G _ _ H) as [X|X]; [discriminate|exact X].
Qed.

(* the components the C09 / C10 invariants read: [bview] without its last two components, the
   frame cache and the last-consensus marker; only commit and process_sig write them *)
Definition pview (st : hg) :=
  (blocks st, last_block st, delivered st, peersets st, validators st, anchor st, self st, oracle st, self_sigs st).

Lemma bview_pview st st' : bview st' = bview st -> pview st' = pview st.
Proof. intros H. exact (f_equal (fun v => fst (fst v)) H). Qed.
Lemma bview_frames st st' : bview st' = bview st -> frames st' = frames st.
Proof. intros H. exact (f_equal (fun v => snd (fst v)) H). Qed.

Lemma pview_fields st st' : pview st' = pview st ->
  blocks st' = blocks st /\ last_block st' = last_block st /\ delivered st' = delivered st /\
  peersets st' = peersets st /\ validators st' = validators st /\ anchor st' = anchor st /\
  self st' = self st /\ oracle st' = oracle st /\ self_sigs st' = self_sigs st.
Proof. unfold pview. intros H. injection H. auto 10. Qed.

(* the committed copy of a block: state hash (body id) and receipts filled in *)
Definition committed_copy (b : block) (bid : Z) : block :=
  b <| b_committed := true |> <| b_receipts := map (fun t => (itx_id t, itx_accept t)) (b_itxs b) |> <| b_bodyid := bid |>.

(* what commit does, for a node with an application (self <> -1) and a non-empty table *)
Definition commit_post (s : hg) (b : block) (s' : hg) (bps : peerset) (bf : block) : Prop :=
  let bid := hd (-1) (oracle s) in
  let signed := mem_key (self s) (keys bps) in
  get_peerset s (b_rr b) = Some bps /\
  bf = (committed_copy b bid) <| b_sigs := if signed then [(self s, bid)] else [] |> /\
  (forall i, zget i (blocks s') = if i =? b_index b then Some bf else zget i (blocks s)) /\
  last_block s' = Z.max (b_index b) (last_block s) /\
  delivered s' = delivered s ++ [bf] /\
  (peersets s', validators s') = replay_block (peersets s, validators s) bf /\
  anchor s' = (if (trust_count bps <? Z.of_nat (length (b_sigs bf))) &&
                  (match anchor s with None => true | Some a => a <? b_index b end)
               then Some (b_index b) else anchor s) /\
  self_sigs s' = (if signed then sigpool_add (self_sigs s) (mkBsig (self s) (b_index b) bid) else self_sigs s) /\
  self s' = self s /\ sigpool s' = sigpool s /\ frames s' = frames s /\ oracle s' = tl (oracle s).

(* the block is stored as handed in, committed and, by a validator, signed; the state that reaches
   commit_tail is [s] with explicit updates, so its components are read off by conversion *)
Lemma commit_spec s b :
  b_sigs b = [] -> 0 <= b_index b -> self s <> -1 -> peersets s <> [] ->
  exists bps bf, commit_post s b (commit (store_set_block s b) b) bps bf.
Proof.
  intros Hs Hk Hself Hne. destruct (get_nonempty (b_rr b) (peersets s) Hne) as [bps Hbps]. exists bps.
  destruct (commit_blocks s b Hk Hs) as (bf' & Gb & Gl & Gd & _).
  remember (commit (store_set_block s b) b) as s' eqn:E. revert E.
  rewrite commit_unfold. change (self (store_set_block s b)) with (self s). replace (self s =? -1) with false by lia.
  cbv zeta. change (oracle (store_set_block s b)) with (oracle s).
  set (bid := hd (-1) (oracle s)). fold (committed_copy b bid). set (b1 := committed_copy b bid). set (st1 := store_set_block _ b1).
  change (get_peerset st1 (b_rr b1)) with (ps_table_get (b_rr b) (peersets s)). rewrite Hbps.
  rewrite sign_block_eq. cbv zeta. cbn [fst snd]. change (self st1) with (self s).
  set (bf := b1 <| b_sigs := _ |>). set (st2 := st1 <| blocks := _ |> <| last_block := _ |> <| self_sigs := _ |>).
  destruct (commit_tail_eq st2 bf) as (R & F & P & ->). intros E.
  assert (D : delivered s' = delivered s ++ [bf]) by (rewrite E; reflexivity).
  (* the block that [commit_blocks] speaks of is the one delivered *)
  destruct (app_inj_tail _ _ _ _ (eq_trans (eq_sym Gd) D)) as [_ ->].
  exists bf. unfold commit_post. cbv zeta. fold bid. split; [exact Hbps|].
  split; [subst bf; change (b_sigs b1) with (b_sigs b); rewrite Hs; reflexivity|].
  split; [exact Gb|]. split; [exact Gl|]. split; [exact D|].
  split; [rewrite E; symmetry; apply surjective_pairing|].
  split.
  { replace (anchor s') with (new_anchor st2 bf) by (rewrite E; reflexivity). unfold new_anchor.
    change (get_peerset st2 (b_rr bf)) with (ps_table_get (b_rr b) (peersets s)). rewrite Hbps. reflexivity. }
  repeat apply conj; rewrite E; reflexivity.
Qed.

(** frames: every cached frame sits under its own round and carries the peer set that the
    table snapshot it records gives for that round *)
Definition frame_ok (f : frame) : Prop :=
  0 <= f_round f /\ ps_table_get (f_round f) (f_peersets f) = Some (f_peers f).
Definition finv (st : hg) : Prop :=
  forall rr f, zget rr (frames st) = Some f -> f_round f = rr /\ frame_ok f.

Definition qview (st : hg) := (pview st, sigpool st).

Lemma qview_split st st' : qview st' = qview st -> pview st' = pview st /\ sigpool st' = sigpool st.
Proof. unfold qview. intros H. split; congruence. Qed.

Lemma get_frame_qview st rr : qview (snd (get_frame st rr)) = qview st.
Proof.
  pose proof (get_frame_inv st rr) as C.
  destruct (zget rr (frames st)); [|destruct C as [C|(f & C & _)]]; rewrite C; reflexivity.
Qed.

Lemma get_frame_fresh st rr f st' :
  zget rr (frames st) = None -> get_frame st rr = (Some f, st') ->
  f_round f = rr /\ f_peersets f = peersets st /\ get_peerset st rr = Some (f_peers f) /\ 0 <= rr /\
  frames st' = zset rr f (frames st).
Proof.
  intros Hc H. pose proof (get_frame_inv st rr) as C. rewrite Hc in C.
  destruct C as [C|(f' & C & A & B & G & D)]; rewrite C in H; [discriminate|].
  inversion H; subst f' st'. auto.
Qed.

Lemma get_frame_cached st rr f0 : zget rr (frames st) = Some f0 -> get_frame st rr = (Some f0, st).
Proof. unfold get_frame. intros ->. reflexivity. Qed.

Lemma get_frame_finv st rr o st' :
  finv st -> get_frame st rr = (o, st') -> finv st' /\ forall f, o = Some f -> frame_ok f.
Proof.
  intros FI H. pose proof (get_frame_inv st rr) as C.
  destruct (zget rr (frames st)) as [f0|] eqn:Hc; [|destruct C as [C|(f & C & A & B & G & D)]];
    rewrite C in H; inversion H; subst o st'; clear H C.
  - split; [exact FI|]. intros f E. inversion E; subst f0. apply (FI _ _ Hc).
  - split; [exact FI|discriminate].
  - assert (OK : frame_ok f) by (split; [lia|rewrite A, B; exact G]).
    split; [|intros f' E; inversion E; subst f'; exact OK].
    intros r' f'. change (frames (st <| frames := zset rr f (frames st) |>)) with (zset rr f (frames st)).
    rewrite zget_zset. destruct (Z.eqb_spec rr r') as [<-|Hne]; cbn [andb]; [|apply FI].
    replace (0 <=? rr) with true by lia. intros X; inversion X; subst f'. auto.
Qed.

Lemma frames_commit_rest st st' : commit_rest st' = commit_rest st -> frames st' = frames st.
Proof. intros H. exact (f_equal (fun v => fst (fst (fst (snd v)))) H). Qed.

Lemma commit_frames st b : frames (commit st b) = frames st.
Proof. apply frames_commit_rest, commit_commit_rest. Qed.

Lemma process_sig_frames st s : frames (process_sig st s) = frames st.
Proof. apply frames_commit_rest, commit_rest_sig_rest, process_sig_sig_rest. Qed.

Lemma process_sig_rest st s :
  delivered (process_sig st s) = delivered st /\ peersets (process_sig st s) = peersets st /\
  validators (process_sig st s) = validators st /\ self (process_sig st s) = self st /\
  oracle (process_sig st s) = oracle st /\ self_sigs (process_sig st s) = self_sigs st.
Proof. destruct (process_sig_cases st s) as [->|(b & ps & _ & _ & _ & _ & ->)]; repeat split. Qed.

Lemma add_consensus_events_qview l : forall s, qview (fold_left add_consensus_event l s) = qview s /\
                                               frames (fold_left add_consensus_event l s) = frames s.
Proof.
  induction l as [|fe l IH]; intros s; cbn [fold_left]; [auto|].
  destruct (IH (add_consensus_event s fe)) as [-> ->]. split; reflexivity.
Qed.

Lemma bump_last_consensus_qview s r : qview (bump_last_consensus s r) = qview s /\
                                      frames (bump_last_consensus s r) = frames s.
Proof. unfold bump_last_consensus. destruct (last_consensus s) as [l|]; [destruct (l <? r)|]; split; reflexivity. Qed.

Lemma fail_qview s : qview (fail s) = qview s /\ frames (fail s) = frames s.
Proof. split; reflexivity. Qed.

Lemma finv_frames st st' : frames st' = frames st -> finv st -> finv st'.
Proof. unfold finv. intros ->. auto. Qed.

Inductive op_ok (Q : event -> Prop) : hop -> Prop :=
| ok_insert e : Q e -> op_ok Q (HInsert e)
| ok_sigpool : op_ok Q HSigPool.

(** Lifting: an invariant that reads only [pview] and the signature pool, and is preserved by
    commit of a fresh block, by process_sig and by the pool update of InsertEvent, holds along
    every operation sequence (together with binv and finv). *)
Section Lift.
  Variable Q : event -> Prop.      (* what is known about the events handed to InsertEvent *)
  Variable P : hg -> Prop.
  Variable R : bsig -> Prop.       (* what P guarantees about an entry of the pool *)
  Hypothesis P_ext : forall st st', pview st' = pview st -> sigpool st' = sigpool st -> P st -> P st'.
  Hypothesis P_insert : forall st st' e, Q e -> P st -> pview st' = pview st ->
    sigpool st' = fold_left sigpool_add (e_sigs e) (sigpool st) -> P st'.
  Hypothesis P_commit : forall s f, binv s -> finv s -> frame_ok f -> P s ->
    let b := block_of_frame (last_block s + 1) f s in P (commit (store_set_block s b) b).
  Hypothesis P_pool : forall st s, P st -> In s (sigpool st) -> R s.
  Hypothesis P_sig : forall st s, binv st -> finv st -> P st -> R s -> P (process_sig st s).

  Let P_q st st' : qview st' = qview st -> P st -> P st'.
  Proof. intros H. destruct (qview_split _ _ H). apply P_ext; auto. Qed.

  Lemma process_frame_lift s f :
    binv s -> finv s -> frame_ok f -> P s -> finv (process_frame s f) /\ P (process_frame s f).
  Proof.
    intros OK FI FO HP. unfold process_frame. destruct (f_events f) as [|fe rest]; [auto|].
    cbv zeta. set (s1 := fold_left add_consensus_event (fe :: rest) s).
    destruct (add_consensus_events_qview (fe :: rest) s) as [Q1 F1]. fold s1 in Q1, F1.
    assert (OK1 : binv s1).
    { eapply binv_bl; [|exact OK]. apply add_consensus_events_bl. }
    assert (FI1 : finv s1) by (eapply finv_frames; eauto).
    assert (HP1 : P s1) by (eapply P_q; eauto).
    set (b := block_of_frame (last_block s1 + 1) f s1).
    destruct (b_txs b), (b_itxs b); auto;
      (split; [eapply finv_frames; [|exact FI1]; rewrite commit_frames; reflexivity
              |apply P_commit; auto]).
  Qed.

  Lemma process_round_lift s processed stop pr :
    binv s -> finv s -> P s ->
    finv (fst (fst (process_round (s, processed, stop) pr))) /\ P (fst (fst (process_round (s, processed, stop) pr))).
  Proof.
    intros OK FI HP. unfold process_round.
    destruct (stop || failed s); [auto|].
    destruct (negb (snd pr)); [auto|].
    destruct (get_round s (fst pr)).
    2:{ cbn [fst]. destruct (fail_qview s) as [A B]. split; [eapply finv_frames; eauto|eapply P_q; eauto]. }
    pose proof (get_frame_qview s (fst pr)) as Fq. pose proof (get_frame_bl s (fst pr)) as Fb.
    destruct (get_frame s (fst pr)) as [o s1] eqn:G; cbn [fst snd] in *.
    destruct (get_frame_finv _ _ _ _ FI G) as [FI1 FO].
    assert (OK1 : binv s1) by (eapply binv_bl; eauto).
    assert (HP1 : P s1) by (eapply P_q; eauto).
    destruct o as [f|].
    - destruct (process_frame_lift s1 f OK1 FI1 (FO f eq_refl) HP1) as [FI2 HP2].
      destruct (bump_last_consensus_qview (process_frame s1 f) (fst pr)) as [A B].
      split; [eapply finv_frames; eauto|eapply P_q; eauto].
    - destruct (fail_qview s1) as [A B]. split; [eapply finv_frames; eauto|eapply P_q; eauto].
  Qed.

  Lemma process_decided_rounds_lift st :
    binv st -> finv st -> P st -> finv (process_decided_rounds st) /\ P (process_decided_rounds st).
  Proof.
    intros OK FI HP. unfold process_decided_rounds.
    assert (G : forall l s p b, binv s -> finv s -> P s ->
                finv (fst (fst (fold_left process_round l (s, p, b)))) /\ P (fst (fst (fold_left process_round l (s, p, b))))).
    { induction l as [|pr rest IH]; intros s p b Hs Fs Ps; cbn [fold_left]; [auto|].
      pose proof (process_round_binv s p b pr Hs) as Hb.
      destruct (process_round_lift s p b pr Hs Fs Ps) as [Fs' Ps'].
      destruct (process_round (s, p, b) pr) as [[s' p'] b']. cbn [fst] in *. apply IH; auto. }
    specialize (G (pending st) st [] false OK FI HP).
    destruct (fold_left process_round (pending st) (st, [], false)) as [[s processed] stop]. cbn [fst] in G.
    destruct G as [A B]. split; [eapply finv_frames; [|exact A]; reflexivity|].
    eapply P_q; [|exact B]. reflexivity.
  Qed.

  (* a DAG pass: bview and the pool unchanged *)
  Let dag_keep st st' : bview st' = bview st -> spool st' = spool st -> binv st -> finv st -> P st ->
                        binv st' /\ finv st' /\ P st'.
  Proof.
    intros B S OK FI HP. split; [eapply binv_bview; eauto|].
    split; [eapply finv_frames; [apply bview_frames; exact B|exact FI]|].
    apply (P_ext st); auto. apply bview_pview; exact B.
  Qed.

  Lemma run_consensus_lift st : binv st -> finv st -> P st -> finv (run_consensus st) /\ P (run_consensus st).
  Proof.
    intros OK FI HP. unfold run_consensus.
    destruct (dag_keep st (divide_rounds st) (divide_rounds_bview st) (divide_rounds_spool st) OK FI HP) as [OK1 [FI1 HP1]].
    destruct (failed (divide_rounds st)); [auto|].
    destruct (dag_keep _ _ (decide_fame_bview (divide_rounds st)) (decide_fame_spool (divide_rounds st)) OK1 FI1 HP1)
      as [OK2 [FI2 HP2]].
    destruct (failed (decide_fame _)); [auto|].
    destruct (dag_keep _ _ (decide_round_received_bview (decide_fame (divide_rounds st)))
                (decide_round_received_spool (decide_fame (divide_rounds st))) OK2 FI2 HP2) as [OK3 [FI3 HP3]].
    destruct (failed (decide_round_received _)); [auto|].
    apply process_decided_rounds_lift; auto.
  Qed.

  Lemma step_lift st e : Q e -> binv st -> finv st -> P st -> finv (step st e) /\ P (step st e).
  Proof.
    intros Qe OK FI HP. unfold step, insert_and_run.
    pose proof (insert_event_bview st e) as B. pose proof (insert_event_spool st e) as S.
    destruct (insert_event st e) as [r s]. cbn [fst snd] in *.
    assert (OKs : binv s) by (eapply binv_bview; eauto).
    assert (FIs : finv s) by (eapply finv_frames; [apply bview_frames; exact B|exact FI]).
    assert (HPs : P s).
    { destruct S as [S|[_ S]]; [apply (P_ext st); auto; apply bview_pview; exact B|].
      apply (P_insert st s e); auto. apply bview_pview; exact B. }
    destruct r; cbn [snd]; auto. apply run_consensus_lift; auto.
  Qed.

  Lemma process_sigpool_lift st : binv st -> finv st -> P st -> finv (process_sigpool st) /\ P (process_sigpool st).
  Proof.
    intros OK FI HP. unfold process_sigpool.
    assert (HR : forall s, In s (sigpool st) -> R s) by (intros s; apply P_pool; exact HP).
    revert HR. generalize (sigpool st) as l. intros l. revert st OK FI HP.
    induction l as [|s l IH]; intros st OK FI HP HR; cbn [fold_left]; [auto|].
    apply IH.
    - apply process_sig_binv; exact OK.
    - eapply finv_frames; [apply process_sig_frames|exact FI].
    - apply P_sig; auto. apply HR. left; reflexivity.
    - intros s' Hs'. apply HR. right; exact Hs'.
  Qed.

  Lemma hstep_lift st o : op_ok Q o -> binv st -> finv st -> P st -> finv (hstep st o) /\ P (hstep st o).
  Proof.
    intros Ho OK FI HP. destruct Ho as [e Qe|]; cbn [hstep]; [apply step_lift|apply process_sigpool_lift]; auto.
  Qed.

  Lemma hrun_lift ops : forall st, Forall (op_ok Q) ops -> binv st -> finv st -> P st ->
                                   finv (hrun st ops) /\ P (hrun st ops).
  Proof.
    induction ops as [|o ops IH]; intros st Ho OK FI HP; cbn [hrun fold_left]; [auto|].
    inversion Ho; subst. destruct (hstep_lift st o H1 OK FI HP) as [FI' HP'].
    apply IH; auto. apply hstep_binv; exact OK.
  Qed.
End Lift.

Lemma op_ok_true ops : Forall (op_ok (fun _ => True)) ops.
Proof. apply Forall_forall. intros o _. destruct o; constructor; exact I. Qed.

(* the special case of an invariant that does not read the pool *)
Section LiftNoPool.
  Variable P : hg -> Prop.
  Hypothesis P_ext : forall st st', pview st' = pview st -> P st -> P st'.
  Hypothesis P_commit : forall s f, binv s -> finv s -> frame_ok f -> P s ->
    let b := block_of_frame (last_block s + 1) f s in P (commit (store_set_block s b) b).
  Hypothesis P_sig : forall st s, binv st -> finv st -> P st -> P (process_sig st s).

  Let P_ext' st st' : pview st' = pview st -> sigpool st' = sigpool st -> P st -> P st'.
  Proof. intros A _. apply P_ext; exact A. Qed.
  Let P_insert' st st' (e : event) : True -> P st -> pview st' = pview st ->
    sigpool st' = fold_left sigpool_add (e_sigs e) (sigpool st) -> P st'.
  Proof. intros _ Hs A _. eapply P_ext; eauto. Qed.

  Lemma hstep_lift0 st o : binv st -> finv st -> P st -> finv (hstep st o) /\ P (hstep st o).
  Proof.
    apply (hstep_lift (fun _ => True) P (fun _ => True) P_ext' P_insert' P_commit); auto.
    destruct o; constructor; exact I.
  Qed.

  Lemma hrun_lift0 ops st : binv st -> finv st -> P st -> finv (hrun st ops) /\ P (hrun st ops).
  Proof. apply (hrun_lift (fun _ => True) P (fun _ => True) P_ext' P_insert' P_commit); auto. apply op_ok_true. Qed.
End LiftNoPool.

Lemma init_hg_spec self_ genesis oracle_ :
  let st := init_hg self_ genesis oracle_ in
  blocks st = zempty /\ last_block st = -1 /\ delivered st = [] /\ peersets st = [(0, genesis)] /\
  validators st = genesis /\ anchor st = None /\ self st = self_ /\ oracle st = oracle_ /\
  self_sigs st = [] /\ sigpool st = [] /\ frames st = zempty.
Proof.
  cbv zeta. unfold init_hg. destruct (set_peerset_eq (empty_hg self_) 0 genesis) as (R & F & P & E).
  repeat apply conj; rewrite E; reflexivity.
Qed.

Lemma finv_init self_ genesis oracle_ : finv (init_hg self_ genesis oracle_).
Proof.
  destruct (init_hg_spec self_ genesis oracle_) as (_ & _ & _ & _ & _ & _ & _ & _ & _ & _ & F).
  intros rr f. rewrite F, zget_empty. discriminate.
Qed.

Lemma replay_app tbl vals ds ds' :
  replay tbl vals (ds ++ ds') = replay (fst (replay tbl vals ds)) (snd (replay tbl vals ds)) ds'.
Proof. unfold replay. rewrite fold_left_app. destruct (fold_left replay_block ds (tbl, vals)); reflexivity. Qed.

Lemma replay_snoc tbl vals ds d : replay tbl vals (ds ++ [d]) = replay_block (replay tbl vals ds) d.
Proof. unfold replay. rewrite fold_left_app. reflexivity. Qed.

Lemma replay_step_wf acc rr itxs : table_wf (fst acc) -> 0 <= rr -> table_wf (fst (replay_step acc rr itxs)).
Proof.
  intros W Hr. unfold replay_step. destruct (snd (apply_receipts (snd acc) itxs)); [|exact W].
  destruct (table_has (rr + 6) (fst acc)) eqn:T; [exact W|]. cbn [fst]. apply insert_wf; auto. lia.
Qed.

(* entries are never removed nor overwritten by the replay *)
Lemma replay_step_incl acc rr itxs k ps : In (k, ps) (fst acc) -> In (k, ps) (fst (replay_step acc rr itxs)).
Proof.
  intros H. unfold replay_step. destruct (snd (apply_receipts (snd acc) itxs)); [|exact H].
  destruct (table_has (rr + 6) (fst acc)); [exact H|]. cbn [fst]. apply insert_In. right; exact H.
Qed.

(* C10_no_retroactive on the specification: a block of round-received rr changes the answer
   for no round below rr + 6 *)
Lemma replay_step_no_retro acc rr itxs r :
  table_wf (fst acc) -> 0 <= rr -> r < rr + 6 ->
  ps_table_get r (fst (replay_step acc rr itxs)) = ps_table_get r (fst acc).
Proof.
  intros W Hr Hlt. unfold replay_step. destruct (snd (apply_receipts (snd acc) itxs)); [|reflexivity].
  destruct (table_has (rr + 6) (fst acc)); [reflexivity|]. cbn [fst]. apply get_insert_wf; auto. lia.
Qed.

Lemma replay_wf tbl vals ds :
  table_wf tbl -> Forall (fun d => 0 <= b_rr d) ds -> table_wf (fst (replay tbl vals ds)).
Proof.
  revert tbl vals. induction ds as [|d ds IH]; intros tbl vals W F; [exact W|].
  inversion F; subst. unfold replay. cbn [fold_left].
  pose proof (replay_step_wf (tbl, vals) (b_rr d) (b_itxs d) W H1) as W'.
  unfold replay_block. destruct (replay_step (tbl, vals) (b_rr d) (b_itxs d)) as [t' v']. apply IH; auto.
Qed.

Lemma replay_no_retro tbl vals ds r :
  table_wf tbl -> Forall (fun d => 0 <= b_rr d /\ r < b_rr d + 6) ds ->
  ps_table_get r (fst (replay tbl vals ds)) = ps_table_get r tbl.
Proof.
  revert tbl vals. induction ds as [|d ds IH]; intros tbl vals W F; [reflexivity|].
  inversion F as [|x l [H0 H1] H2]; subst. unfold replay. cbn [fold_left].
  pose proof (replay_step_wf (tbl, vals) (b_rr d) (b_itxs d) W H0) as W'.
  pose proof (replay_step_no_retro (tbl, vals) (b_rr d) (b_itxs d) r W H0 H1) as G.
  unfold replay_block. destruct (replay_step (tbl, vals) (b_rr d) (b_itxs d)) as [t' v']. cbn [fst] in *.
  rewrite <- G. apply IH; auto.
Qed.

(* what the delivered copy of a block inherits from the frame it was built from *)
Definition block_frame_ok (d : block) : Prop :=
  frame_ok (b_frame d) /\ b_peers d = f_peers (b_frame d) /\ b_rr d = f_round (b_frame d).

Record c10inv (genesis : peerset) (st : hg) : Prop := {
  c_self : self st <> -1;
  c_wf : table_wf (peersets st);
  c_replay : (peersets st, validators st) = replay_genesis genesis (delivered st);
  c_frames : forall d, In d (delivered st) -> block_frame_ok d
}.

Lemma c10inv_ext g st st' : pview st' = pview st -> c10inv g st -> c10inv g st'.
Proof.
  intros E [H1 H2 H3 H4]. destruct (pview_fields _ _ E) as (_ & _ & E4 & E2 & E3 & _ & E1 & _).
  constructor; rewrite ?E1, ?E2, ?E3, ?E4; auto.
Qed.

Lemma table_wf_nonempty t : table_wf t -> t <> [].
Proof. intros [ps0 [rest [-> _]]]. discriminate. Qed.

Lemma committed_fields b bid sg bf :
  bf = (committed_copy b bid) <| b_sigs := sg |> ->
  b_index bf = b_index b /\ b_rr bf = b_rr b /\ b_itxs bf = b_itxs b /\ b_frame bf = b_frame b /\
  b_peers bf = b_peers b /\ b_bodyid bf = bid /\ b_sigs bf = sg.
Proof. intros ->. repeat split. Qed.

(* everything the invariants need to know about the block handed to commit *)
Lemma fresh_block_facts s f :
  binv s -> frame_ok f ->
  let b := block_of_frame (last_block s + 1) f s in
  b_sigs b = [] /\ 0 <= b_index b /\ b_index b = last_block s + 1 /\ b_rr b = f_round f /\ 0 <= b_rr b /\
  b_frame b = f /\ b_peers b = f_peers f.
Proof.
  intros OK [F0 F1]. cbv zeta. pose proof (b_lb s OK). unfold block_of_frame. cbn. repeat split; auto; lia.
Qed.

Lemma c10inv_commit g s f :
  binv s -> finv s -> frame_ok f -> c10inv g s ->
  let b := block_of_frame (last_block s + 1) f s in c10inv g (commit (store_set_block s b) b).
Proof.
  intros OK FI FO [H1 H2 H3 H4]. cbv zeta.
  destruct (fresh_block_facts s f OK FO) as (Bs & Bk & Bi & Br & Br0 & Bf & Bp).
  set (b := block_of_frame (last_block s + 1) f s) in *.
  destruct (commit_spec s b Bs Bk H1 (table_wf_nonempty _ H2)) as [bps [bf CP]].
  unfold commit_post in CP. cbv zeta in CP.
  destruct CP as (C1 & C2 & C3 & C4 & C5 & C6 & C7 & C8 & C9 & C10 & C11 & C12).
  destruct (committed_fields _ _ _ _ C2) as (G1 & G2 & G3 & G4 & G5 & G6 & G7).
  constructor.
  - rewrite C9. exact H1.
  - apply (f_equal fst) in C6. cbn [fst] in C6. rewrite C6. unfold replay_block.
    apply replay_step_wf; [exact H2|]. rewrite G2. exact Br0.
  - rewrite C6, C5. unfold replay_genesis. rewrite replay_snoc. fold (replay_genesis g (delivered s)).
    rewrite <- H3. reflexivity.
  - intros d. rewrite C5, in_app_iff. intros [HI|[<-|[]]]; [apply H4; exact HI|].
    unfold block_frame_ok. rewrite G4, G5, G2, Bf. auto.
Qed.

Lemma c10inv_sig g st s : c10inv g st -> c10inv g (process_sig st s).
Proof.
  intros [H1 H2 H3 H4]. destruct (process_sig_rest st s) as (E1 & E2 & E3 & E4 & _ & _).
  constructor; rewrite ?E1, ?E2, ?E3, ?E4; auto.
Qed.

Lemma c10inv_init self_ genesis oracle_ : self_ <> -1 -> c10inv genesis (init_hg self_ genesis oracle_).
Proof.
  intros Hs. destruct (init_hg_spec self_ genesis oracle_) as (_ & _ & D & Pt & V & _ & S & _).
  constructor; rewrite ?D, ?Pt, ?V, ?S; auto.
  - exists genesis, []. split; [reflexivity|exact I].
  - intros d [].
Qed.

Theorem hrun_c10inv self_ genesis oracle_ ops :
  self_ <> -1 ->
  finv (hrun (init_hg self_ genesis oracle_) ops) /\ c10inv genesis (hrun (init_hg self_ genesis oracle_) ops).
Proof.
  intros Hs. apply (hrun_lift0 (c10inv genesis)).
  - apply c10inv_ext.
  - apply c10inv_commit.
  - intros st s _ _. apply c10inv_sig.
  - apply binv_init.
  - apply finv_init.
  - apply c10inv_init; exact Hs.
Qed.

(* C10_only_commit_functions: nothing but commit writes the table or core.validators *)
Definition tbl (st : hg) := (peersets st, validators st).

Lemma tbl_pview st st' : pview st' = pview st -> tbl st' = tbl st.
Proof. intros E. destruct (pview_fields _ _ E) as (_ & _ & _ & E1 & E2 & _). unfold tbl. rewrite E1, E2. reflexivity. Qed.

Lemma tbl_bview st st' : bview st' = bview st -> tbl st' = tbl st.
Proof. intros E. apply tbl_pview, bview_pview, E. Qed.

Lemma only_commit_insert st e : tbl (snd (insert_event st e)) = tbl st.
Proof. apply tbl_bview, insert_event_bview. Qed.
Lemma only_commit_divide st : tbl (divide_rounds st) = tbl st.
Proof. apply tbl_bview, divide_rounds_bview. Qed.
Lemma only_commit_fame st : tbl (decide_fame st) = tbl st.
Proof. apply tbl_bview, decide_fame_bview. Qed.
Lemma only_commit_rr st : tbl (decide_round_received st) = tbl st.
Proof. apply tbl_bview, decide_round_received_bview. Qed.
Lemma only_commit_get_frame st rr : tbl (snd (get_frame st rr)) = tbl st.
Proof. apply tbl_pview, qview_split, get_frame_qview. Qed.
Lemma only_commit_sigpool st : tbl (process_sigpool st) = tbl st.
Proof.
  unfold process_sigpool. generalize (sigpool st) as l. intros l. revert st.
  induction l as [|s l IH]; intros st; cbn [fold_left]; [reflexivity|]. rewrite IH.
  destruct (process_sig_rest st s) as (_ & E2 & E3 & _). unfold tbl. rewrite E2, E3. reflexivity.
Qed.

Lemma c10inv_rr_nonneg g st : c10inv g st -> Forall (fun d => 0 <= b_rr d) (delivered st).
Proof.
  intros H. apply Forall_forall. intros d HI. destruct (c_frames g st H d HI) as [[F0 _] [_ E]]. lia.
Qed.

(** the table as "genesis modified by exactly the blocks with rr + 6 <= r", when round-received
    increases along the delivered blocks *)
Definition rr_increasing_list (ds : list block) : Prop := StronglySorted Z.lt (map b_rr ds).

Lemma replay_keys tbl0 vals ds k p :
  In (k, p) (fst (replay tbl0 vals ds)) -> (exists p0, In (k, p0) tbl0) \/ exists d, In d ds /\ k = b_rr d + 6.
Proof.
  revert tbl0 vals. induction ds as [|d ds IH]; intros tbl0 vals H; [left; eauto|].
  unfold replay in H. cbn [fold_left] in H.
  destruct (replay_block (tbl0, vals) d) as [t' v'] eqn:E.
  destruct (IH t' v' H) as [[p0 H0]|[d' [A B]]]; [|right; exists d'; split; [right; exact A|exact B]].
  unfold replay_block, replay_step in E. cbn [fst snd] in E.
  destruct (snd (apply_receipts vals (b_itxs d))); [|inversion E; subst; left; eauto].
  destruct (table_has (b_rr d + 6) tbl0); [inversion E; subst; left; eauto|].
  inversion E; subst. apply insert_In in H0. destruct H0 as [X|X].
  - inversion X; subst. right. exists d. split; [left; reflexivity|reflexivity].
  - left; eauto.
Qed.

Lemma sorted_snoc_lt (l : list Z) x y : StronglySorted Z.lt (l ++ [x]) -> In y l -> y < x.
Proof.
  induction l as [|a l IH]; intros S HI; [destruct HI|]. cbn [app] in S. inversion S; subst.
  destruct HI as [->|HI]; [|apply IH; auto].
  rewrite Forall_forall in H2. apply H2. apply in_or_app. right. left. reflexivity.
Qed.

Lemma sorted_app_l (l l' : list Z) : StronglySorted Z.lt (l ++ l') -> StronglySorted Z.lt l.
Proof.
  induction l as [|a l IH]; intros S; [constructor|]. cbn [app] in S. inversion S; subst.
  constructor; [apply IH; exact H1|]. rewrite Forall_forall in *. intros y Hy. apply H2. apply in_or_app. left. exact Hy.
Qed.

Lemma sorted_snoc_inv (ds : list block) d :
  rr_increasing_list (ds ++ [d]) -> rr_increasing_list ds /\ forall d', In d' ds -> b_rr d' < b_rr d.
Proof.
  unfold rr_increasing_list. rewrite map_app. cbn [map]. intros S. split; [eapply sorted_app_l; eauto|].
  intros d' Hd'. eapply sorted_snoc_lt; [exact S|apply in_map; exact Hd'].
Qed.

Lemma ps_lookup_snoc r t k ps :
  ps_lookup r (t ++ [(k, ps)]) = if k <=? r then Some ps else ps_lookup r t.
Proof.
  unfold ps_lookup. rewrite filter_app. cbn [filter fst]. destruct (k <=? r).
  - rewrite rev_app_distr. reflexivity.
  - rewrite app_nil_r. reflexivity.
Qed.

(* a block over a table whose keys are all below the block's effective round *)
Lemma lookup_replay_block T V d r :
  (forall k p, In (k, p) T -> k < b_rr d + 6) ->
  ps_lookup r (fst (replay_block (T, V) d)) =
  if (b_rr d + 6 <=? r) && snd (apply_receipts V (b_itxs d)) then Some (snd (replay_block (T, V) d))
  else ps_lookup r T.
Proof.
  intros Hk. unfold replay_block, replay_step. cbn [fst snd].
  destruct (snd (apply_receipts V (b_itxs d))); [|rewrite andb_false_r; reflexivity].
  replace (table_has (b_rr d + 6) T) with false.
  2:{ symmetry. apply table_has_false. intros p HI. specialize (Hk _ _ HI). lia. }
  cbn [fst snd]. rewrite insert_above_all by exact Hk. rewrite ps_lookup_snoc, andb_true_r. reflexivity.
Qed.

Theorem lookup_is_prefix_replay genesis ds r :
  rr_increasing_list ds -> Forall (fun d => 0 <= b_rr d) ds -> 0 <= r ->
  ps_table_get r (fst (replay_genesis genesis ds)) = Some (validators_at genesis ds r).
Proof.
  intros S F Hr. unfold validators_at, effective_blocks.
  rewrite get_is_lookup; [|apply replay_wf; [exists genesis, []; split; [reflexivity|exact I]|exact F]|exact Hr].
  unfold replay_genesis. induction ds as [|d ds IH] using rev_ind.
  - cbn. unfold ps_lookup. cbn. replace (0 <=? r) with true by lia. reflexivity.
  - apply Forall_app in F. destruct F as [F' Fd]. inversion Fd as [|? ? Fd0 _]; subst.
    destruct (sorted_snoc_inv _ _ S) as [S' Hlt]. specialize (IH S' F').
    rewrite replay_snoc, filter_app. cbn [filter].
    assert (Hkeys : forall k p, In (k, p) (fst (replay [(0, genesis)] genesis ds)) -> k < b_rr d + 6).
    { intros k p HI. destruct (replay_keys _ _ _ _ _ HI) as [[p0 [X|[]]]|[d' [A ->]]]; [inversion X; lia|].
      specialize (Hlt d' A). lia. }
    destruct (replay [(0, genesis)] genesis ds) as [T V] eqn:ER. cbn [fst] in IH, Hkeys.
    rewrite (lookup_replay_block T V d r Hkeys). destruct (Z.leb_spec (b_rr d + 6) r) as [Hle|Hgt]; cbn [andb].
    + (* every earlier block is effective too *)
      assert (Fall : filter (fun d0 : block => b_rr d0 + 6 <=? r) ds = ds).
      { clear - Hlt Hle. induction ds as [|x ds IH]; cbn [filter]; [reflexivity|].
        assert (b_rr x < b_rr d) by (apply Hlt; left; reflexivity).
        replace (b_rr x + 6 <=? r) with true by lia. f_equal. apply IH. intros d' Hd'. apply Hlt. right; exact Hd'. }
      rewrite Fall in *. rewrite replay_snoc, ER in *. cbn [snd] in IH.
      destruct (snd (apply_receipts V (b_itxs d))) eqn:Ch; [reflexivity|].
      rewrite IH. unfold replay_block, replay_step. cbn [fst snd]. rewrite Ch. reflexivity.
    + rewrite app_nil_r. exact IH.
Qed.

Definition reach (self_ : Z) (genesis : peerset) (oracle_ : list Z) (ops : list hop) : hg :=
  hrun (init_hg self_ genesis oracle_) ops.

Lemma reach_app self_ genesis oracle_ ops ops' :
  reach self_ genesis oracle_ (ops ++ ops') = hrun (reach self_ genesis oracle_ ops) ops'.
Proof. unfold reach. apply hrun_app. Qed.

Lemma reach_table self_ genesis oracle_ ops :
  self_ <> -1 ->
  (peersets (reach self_ genesis oracle_ ops), validators (reach self_ genesis oracle_ ops)) =
  replay [(0, genesis)] genesis (delivered (reach self_ genesis oracle_ ops)).
Proof. intros Hs. destruct (hrun_c10inv self_ genesis oracle_ ops Hs) as [_ H]. exact (c_replay _ _ H). Qed.

Lemma reach_only_commit self_ genesis oracle_ ops ops' :
  self_ <> -1 ->
  delivered (reach self_ genesis oracle_ (ops ++ ops')) = delivered (reach self_ genesis oracle_ ops) ->
  tbl (reach self_ genesis oracle_ (ops ++ ops')) = tbl (reach self_ genesis oracle_ ops).
Proof. intros Hs E. unfold tbl. rewrite !reach_table by exact Hs. rewrite E. reflexivity. Qed.

(* what a run adds to a reachable state: delivered blocks, and the table as their replay *)
Lemma reach_ext self_ genesis oracle_ ops ops' :
  self_ <> -1 ->
  exists l, delivered (reach self_ genesis oracle_ (ops ++ ops')) = delivered (reach self_ genesis oracle_ ops) ++ l /\
            Forall (fun d => 0 <= b_rr d) l /\
            peersets (reach self_ genesis oracle_ (ops ++ ops')) =
            fst (replay (peersets (reach self_ genesis oracle_ ops)) (validators (reach self_ genesis oracle_ ops)) l).
Proof.
  intros Hs. destruct (hrun_del ops' _ (hrun_binv self_ genesis oracle_ ops)) as [l Hd]. rewrite <- hrun_app in Hd.
  exists l. split; [exact Hd|].
  pose proof (c10inv_rr_nonneg _ _ (proj2 (hrun_c10inv self_ genesis oracle_ (ops ++ ops') Hs))) as N.
  rewrite Hd in N. apply Forall_app in N. split; [apply N|].
  pose proof (reach_table self_ genesis oracle_ (ops ++ ops') Hs) as T.
  pose proof (reach_table self_ genesis oracle_ ops Hs) as T1. unfold reach in T, T1.
  rewrite Hd, replay_app, <- T1 in T. exact (f_equal fst T).
Qed.

Lemma reach_no_retro self_ genesis oracle_ ops ops' r :
  self_ <> -1 ->
  (forall l, delivered (reach self_ genesis oracle_ (ops ++ ops')) = delivered (reach self_ genesis oracle_ ops) ++ l ->
             Forall (fun d => r < b_rr d + 6) l) ->
  get_peerset (reach self_ genesis oracle_ (ops ++ ops')) r = get_peerset (reach self_ genesis oracle_ ops) r.
Proof.
  intros Hs Hl. destruct (reach_ext self_ genesis oracle_ ops ops' Hs) as (l & Hd & N & T). specialize (Hl l Hd).
  unfold get_peerset. rewrite T.
  apply replay_no_retro; [exact (c_wf _ _ (proj2 (hrun_c10inv self_ genesis oracle_ ops Hs)))|].
  rewrite Forall_forall in *. intros d Hd'. split; [apply N|apply Hl]; exact Hd'.
Qed.

(* _witness, when it computes (no memoised answer): an event is a witness only if its creator is
   in the peer set that the table gives for the event's round *)
Lemma witness_gate fuel st x st' :
  zget x (witness_memo st) = None -> witness_f fuel st x = (Some true, st') ->
  exists ex xr ps, get_event st x = Some ex /\ fst (round_f fuel st x) = Some xr /\
                   get_peerset st xr = Some ps /\ mem_key (e_creator (ev_e ex)) (keys ps) = true.
Proof.
  unfold witness_f. intros Hm. rewrite Hm.
  destruct (get_event st x) as [ex|] eqn:Ge; [|discriminate].
  pose proof (round_f_nomemo fuel st x) as N.
  destruct (round_f fuel st x) as [[xr|] st1] eqn:Rf; cbn [snd] in N; [|discriminate].
  assert (Gp : get_peerset st1 xr = get_peerset st xr).
  { rewrite <- (get_peerset_nomemo st1), <- (get_peerset_nomemo st), N. reflexivity. }
  rewrite Gp. destruct (get_peerset st xr) as [ps|] eqn:Gs; [|discriminate].
  destruct (mem_key (e_creator (ev_e ex)) (keys ps)) eqn:M; cbn [negb].
  - intros _. exists ex, xr, ps. repeat split; auto.
  - intros H. inversion H.
Qed.

(* _stronglySee: the quorum is counted over the distinct keys of the given peer set only, and
   compared with that set's supermajority *)
Lemma strongly_see_gate st x y ps :
  strongly_see st x y ps = Some true ->
  exists l, NoDup l /\ incl l (keys ps) /\ super_majority ps <= Z.of_nat (length l).
Proof.
  unfold strongly_see. destruct (get_event st x) as [ex|]; [|discriminate].
  destruct (get_event st y) as [ey|]; [|discriminate]. intros H. inversion H as [H1]. clear H.
  unfold ss_count in H1.
  match type of H1 with context [filter ?f ?l] => exists (filter f l) end.
  split; [apply QuorumProofs.NoDup_filter, QuorumProofs.dedup_NoDup|]. split; [|lia].
  intros k Hk. apply filter_In in Hk. apply QuorumProofs.dedup_In. apply Hk.
Qed.
