(* Stage S2, division: what DivideRounds computes for the event just inserted when its parents are
   memoised ([round_f_eval], [witness_f_eval]), the state it leaves ([div_result], [div_result_obs]),
   and counting strongly-seen witnesses over an extended witness list. *)
From Coq Require Import ZArith List Bool Lia ZifyBool.
From RecordUpdate Require Import RecordSet.
From V Require Import Model.ZMap Model.Quorum Model.Voting Model.HgImpl Proofs.ZMapFacts Proofs.HgFrames
  Proofs.HgDagFrames Proofs.AdmissionProofs Proofs.Ancestry Proofs.OrderFrames Proofs.QuorumProofs
  Proofs.Static Proofs.FirstDesc.
Import ListNotations RecordSetNotations.
Open Scope Z_scope.
Ltac Zify.zify_post_hook ::= Z.div_mod_to_equations.

Lemma round_f_memo_hit fuel st x r : rmemo st x = Some r -> round_f fuel st x = (Some r, st).
Proof. unfold rmemo. intros H. destruct fuel; cbn [round_f]; rewrite H; reflexivity. Qed.

Lemma parent_round_eval f st p r : prnd st p = Some r ->
  (if p =? -1 then (Some (-1), st) else round_f f st p) = (Some r, st).
Proof.
  unfold prnd. destruct (p =? -1); [intros H; inversion H; reflexivity|apply round_f_memo_hit].
Qed.

Lemma ss_fold_count g st x ws :
  (forall w, In w ws -> strongly_see st x w g <> None) -> forall n,
  fold_left (fun (acc : option Z) w =>
               match acc, strongly_see st x w g with
               | Some n, Some b => Some (if b then n + 1 else n)
               | _, _ => None
               end) ws (Some n)
  = Some (n + Z.of_nat (length (filter (ss_true g st x) ws))).
Proof.
  induction ws as [|w r IH]; intros H n; cbn [fold_left filter length].
  - f_equal. lia.
  - assert (Hw : strongly_see st x w g <> None) by (apply H; left; reflexivity).
    unfold ss_true at 1. destruct (strongly_see st x w g) as [[|]|]; [| |contradiction].
    + rewrite IH by (intros w' Hw'; apply H; right; exact Hw'). cbn [length]. f_equal. lia.
    + rewrite IH by (intros w' Hw'; apply H; right; exact Hw'). reflexivity.
Qed.

Lemma round_f_eval g f st x ex spr opr :
  rmemo st x = None -> get_event st x = Some ex ->
  prnd st (e_sp (ev_e ex)) = Some spr -> prnd st (e_op (ev_e ex)) = Some opr ->
  (Z.max spr opr = -1 \/
   exists pri, get_round st (Z.max spr opr) = Some pri /\ get_peerset st (Z.max spr opr) = Some g /\
               forall w, In w (witnesses pri) -> strongly_see st x w g <> None) ->
  exists r, round_f (S f) st x = (Some r, st <| round_memo := zset x r (round_memo st) |>) /\
    (Z.max spr opr = -1 -> r = 0) /\
    (Z.max spr opr <> -1 -> forall pri, get_round st (Z.max spr opr) = Some pri ->
       r = if super_majority g <=? Z.of_nat (length (filter (ss_true g st x) (witnesses pri)))
           then Z.max spr opr + 1 else Z.max spr opr).
Proof.
  intros Hm Hx Hs Ho Hc. unfold rmemo in Hm. cbn [round_f]. rewrite Hm, Hx.
  rewrite (parent_round_eval f st _ spr Hs). cbv beta iota.
  rewrite (parent_round_eval f st _ opr Ho). cbv beta iota zeta.
  assert (Emax : (if spr <? opr then opr else spr) = Z.max spr opr) by (destruct (Z.ltb_spec spr opr); lia).
  rewrite Emax.
  destruct (Z.eqb_spec (Z.max spr opr) (-1)) as [E|Hne].
  - exists 0. split; [reflexivity|]. split; [auto|contradiction].
  - destruct Hc as [C|[pri [Hr [Hp Hss]]]]; [contradiction|].
    rewrite Hr, Hp. rewrite (ss_fold_count g st x _ Hss 0). cbn [Z.add].
    eexists. split; [reflexivity|]. split; [contradiction|].
    intros _ pri' Hr'. inversion Hr'; subst pri'. reflexivity.
Qed.

Lemma witness_f_eval g fuel st x ex r spr :
  wmemo st x = None -> get_event st x = Some ex -> rmemo st x = Some r ->
  get_peerset st r = Some g -> prnd st (e_sp (ev_e ex)) = Some spr ->
  witness_f fuel st x =
    (Some (mem_key (e_creator (ev_e ex)) (keys g) && (spr <? r)),
     st <| witness_memo := zset x (mem_key (e_creator (ev_e ex)) (keys g) && (spr <? r)) (witness_memo st) |>).
Proof.
  intros Hw Hx Hr Hp Hs. unfold wmemo in Hw. unfold witness_f. rewrite Hw, Hx.
  rewrite (round_f_memo_hit fuel st x r Hr). rewrite Hp.
  destruct (mem_key (e_creator (ev_e ex)) (keys g)); cbn [negb andb]; [|reflexivity].
  rewrite (parent_round_eval fuel st _ spr Hs). reflexivity.
Qed.

(* the state after the "ev.round == nil" block for event x, given its round r and flag w *)
Definition div_result (st : hg) (x : Z) (ex : evst) (r : Z) (w : bool) : hg :=
  let s := st <| round_memo := zset x r (round_memo st) |> in
  let s1 := set_evst s x (ex <| ev_round := Some r |>) in
  let ri := round_or_new s1 r in
  let s2 := maybe_queue s1 r ri in
  let s' := s2 <| witness_memo := zset x w (witness_memo s2) |> in
  set_round s' r (add_created ri x w).

(* maybe_queue writes the queue of pending rounds only *)
Lemma maybe_queue_eq s r ri : exists p, maybe_queue s r ri = s <| pending := p |>.
Proof.
  unfold maybe_queue. destruct (_ && _ && _); [eauto|]. exists (pending s). destruct s; reflexivity.
Qed.

Lemma maybe_queue_fields s r ri :
  events (maybe_queue s r ri) = events s /\ round_memo (maybe_queue s r ri) = round_memo s /\
  witness_memo (maybe_queue s r ri) = witness_memo s /\ rounds (maybe_queue s r ri) = rounds s /\
  peersets (maybe_queue s r ri) = peersets s /\ topo (maybe_queue s r ri) = topo s /\
  failed (maybe_queue s r ri) = failed s.
Proof. destruct (maybe_queue_eq s r ri) as [p ->]. repeat split. Qed.

Lemma div_result_obs st x ex r w : 0 <= x ->
  let F := div_result st x ex r w in
  (forall y, get_event F y = if y =? x then Some (ex <| ev_round := Some r |>) else get_event st y) /\
  round_memo F = zset x r (round_memo st) /\ witness_memo F = zset x w (witness_memo st) /\
  rounds F = zset r (add_created (round_or_new st r) x w) (rounds st) /\
  peersets F = peersets st /\ topo F = topo st /\ failed F = failed st.
Proof.
  intros Hx0. unfold div_result. cbv zeta.
  match goal with |- context [maybe_queue ?a ?b ?c] => destruct (maybe_queue_eq a b c) as [p ->] end.
  split; [|repeat split].
  intros y. change (zget y (zset x (ex <| ev_round := Some r |>) (events st)) =
                    if y =? x then Some (ex <| ev_round := Some r |>) else get_event st y).
  rewrite zget_zset, (Z.eqb_sym y). replace (0 <=? x) with true by lia. rewrite andb_true_r. reflexivity.
Qed.

Lemma super_majority_pos g : 1 <= super_majority g.
Proof. unfold super_majority, sm, ps_len. lia. Qed.

Lemma cntss_app g s x ws ws' : cntss g s x (ws ++ ws') = cntss g s x ws + cntss g s x ws'.
Proof. unfold cntss. rewrite filter_app, app_length. lia. Qed.
Lemma cntss_self g s x : cntss g s x [x] = 0.
Proof. unfold cntss. cbn [filter]. rewrite Z.eqb_refl. reflexivity. Qed.
Lemma cntss_nil g s x : cntss g s x [] = 0.
Proof. reflexivity. Qed.
Lemma cntss_notin g s x ws : ~ In x ws ->
  cntss g s x ws = Z.of_nat (length (filter (ss_true g s x) ws)).
Proof.
  intros H. unfold cntss. f_equal. f_equal. apply filter_ext_in. intros w Hw.
  destruct (Z.eqb_spec w x) as [->|]; [contradiction|reflexivity].
Qed.

Lemma wl_of_add_created ri x w : aget x (ri_created ri) = None -> wl_of (add_created ri x w) = wl_of ri ++ [(x, w)].
Proof.
  intros H. unfold add_created. rewrite H. unfold wl_of. cbn. rewrite map_app. reflexivity.
Qed.

Lemma aget_none_notin {A} k (l : list (Z * A)) : ~ In k (map fst l) -> aget k l = None.
Proof. apply aget_not_In. Qed.

Lemma get_round_zset st st' r ri r' : 0 <= r -> rounds st' = zset r ri (rounds st) ->
  get_round st' r' = if r =? r' then Some ri else get_round st r'.
Proof.
  intros Hr E. unfold get_round. rewrite E, zget_zset. replace (0 <=? r) with true by lia.
  rewrite andb_true_r. reflexivity.
Qed.

(* lia's division equations are wanted in this file only *)
Ltac Zify.zify_post_hook ::= idtac.
