(* C13: what the model computes on a fast-forward, and decision procedures for [roots_sufficient],
   the hypothesis of the continuity theorems, and for its failure, with their soundness proofs, so that
   both can be shown on real histories (Proofs/ResetWitnessOk.v: a fast-forward after which the reset
   node inserts events without any divergence). *)
From Coq Require Import ZArith List Bool Lia.
From V Require Import Model.ZMap Model.Quorum Model.HgImpl Model.HgReset
  Proofs.ZMapFacts Proofs.BlockInv Proofs.OrderProofs Proofs.ResetProofs Proofs.ResetRound Proofs.ResetWitnessOk.
Import ListNotations.
Open Scope Z_scope.

(** operations on a universe in which every event stands at the position of its identifier *)
Definition hop_lookup (all : list event) (o : hop) : option event :=
  match o with
  | HInsert e => if 0 <=? e_id e then nth_error all (Z.to_nat (e_id e)) else None
  | HSigPool => None
  end.
Definition hop_event (o : hop) : option event := match o with HInsert e => Some e | HSigPool => None end.

Lemma hops_ok_by_id all ops : map (hop_lookup all) ops = map hop_event ops -> Forall (hop_ok all) ops.
Proof.
  induction ops as [|o r IH]; cbn [map]; intros H; constructor.
  - injection H as H _. destruct o as [e|]; [|exact I]. cbn in H.
    destruct (Z.leb_spec 0 (e_id e)); [|discriminate]. split; [eapply nth_error_In; exact H|assumption].
  - injection H as _ H. exact (IH H).
Qed.

(** a node [v0] fast-forwards to a server's answer [ans]: it succeeds, and [obs] holds of the block,
    the frame and the reset state *)
Definition ff_observe (ans : option (block * frame * list event) * hg) (v0 : hg)
    (obs : block -> frame -> hg -> Prop) : Prop :=
  match fst ans with
  | Some (b, f, cores) => let '(ok, v') := node_fast_forward v0 b f cores in ok = true /\ obs b f v'
  | None => False
  end.

Lemma ff_observe_elim ans v0 obs : ff_observe ans v0 obs ->
  exists b f cores s' v', ans = (Some (b, f, cores), s') /\ node_fast_forward v0 b f cores = (true, v') /\ obs b f v'.
Proof.
  unfold ff_observe. destruct ans as [[[[b f] cores]|] s']; cbn [fst]; [|contradiction].
  destruct (node_fast_forward v0 b f cores) as [ok v'] eqn:FF. intros [-> H].
  exists b, f, cores, s', v'. repeat split; [exact FF|exact H].
Qed.

Lemma reset_from_ok v s b f cores s' v' :
  anchor_block_with_frame s = (Some (b, f, cores), s') -> node_fast_forward v b f cores = (true, v') ->
  reset_from v s = Some v'.
Proof. intros A N. unfold reset_from. rewrite A, N. reflexivity. Qed.

Definition is_some {A} (o : option A) : bool := match o with Some _ => true | None => false end.
Definition obool_eqb (a b : option bool) : bool :=
  match a, b with Some x, Some y => Bool.eqb x y | None, None => true | _, _ => false end.
Definition memz (w : Z) (l : list Z) : bool := existsb (Z.eqb w) l.

Lemma memz_In w l : memz w l = true <-> In w l.
Proof.
  unfold memz. rewrite existsb_exists. split; [intros [x [H E]]; apply Z.eqb_eq in E; subst; exact H|].
  intros H. exists w. split; [exact H|apply Z.eqb_refl].
Qed.
Lemma option_map_Some {A B} (f : A -> B) o b : option_map f o = Some b -> exists a, o = Some a /\ f a = b.
Proof. destruct o as [a|]; [|discriminate]. intros H. injection H as H. exists a. split; [reflexivity|exact H]. Qed.
Lemma obool_eqb_eq a b : obool_eqb a b = true -> a = b.
Proof. destruct a as [[|]|], b as [[|]|]; cbn; congruence. Qed.

Definition roots_sufficientb (v s : hg) (y pr : Z) (pps : peerset) : bool :=
  Bool.eqb (is_some (get_round v pr)) (is_some (get_round s pr)) &&
  nodupb (round_witnesses_at v pr) && nodupb (round_witnesses_at s pr) &&
  forallb (fun w => is_some (strongly_see v y w pps)) (round_witnesses_at v pr) &&
  forallb (fun w => is_some (strongly_see s y w pps)) (round_witnesses_at s pr) &&
  forallb (fun w => implb (ss_true s y pps w) (memz w (round_witnesses_at v pr))) (round_witnesses_at s pr) &&
  forallb (fun w => memz w (round_witnesses_at s pr)) (round_witnesses_at v pr) &&
  forallb (fun w => obool_eqb (strongly_see v y w pps) (strongly_see s y w pps)) (round_witnesses_at v pr).

Lemma roots_sufficientb_sound v s y pr pps : roots_sufficientb v s y pr pps = true -> roots_sufficient v s y pr pps.
Proof.
  unfold roots_sufficientb. intros H.
  repeat (apply andb_prop in H; let H' := fresh "H" in destruct H as [H H']).
  rewrite forallb_forall in *.
  constructor.
  - apply Bool.eqb_prop in H. destruct (get_round v pr), (get_round s pr); cbn in H; split; congruence.
  - apply nodupb_sound; assumption.
  - apply nodupb_sound; assumption.
  - intros w Hw C. match goal with Hx : forall x, In x (round_witnesses_at v pr) -> is_some _ = true |- _ => specialize (Hx w Hw); rewrite C in Hx; discriminate end.
  - intros w Hw C. match goal with Hx : forall x, In x (round_witnesses_at s pr) -> is_some _ = true |- _ => specialize (Hx w Hw); rewrite C in Hx; discriminate end.
  - intros w Hw Hs. match goal with Hx : forall x, In x (round_witnesses_at s pr) -> implb _ _ = true |- _ => specialize (Hx w Hw) end.
    unfold ss_true in *. rewrite Hs in *. cbn in *. apply memz_In. assumption.
  - intros w Hw. apply memz_In. auto.
  - intros w Hw. apply obool_eqb_eq. auto.
Qed.

(* [rs_inside] fails: the full-history node's event strongly sees a witness of the parent round that
   the reset node does not list, and does not even store *)
Definition roots_missingb (v s : hg) (y pr : Z) : bool :=
  match get_peerset s pr with
  | Some pps =>
    existsb (fun w => ss_true s y pps w && negb (memz w (round_witnesses_at v pr)) && negb (is_some (get_event v w)))
            (round_witnesses_at s pr)
  | None => false
  end.

Lemma roots_missingb_sound v s y pr : roots_missingb v s y pr = true ->
  exists pps, get_peerset s pr = Some pps /\ ~ roots_sufficient v s y pr pps.
Proof.
  unfold roots_missingb. destruct (get_peerset s pr) as [pps|]; [|discriminate]. intros H.
  exists pps. split; [reflexivity|]. intros R.
  apply existsb_exists in H. destruct H as [w [Hin Hw]].
  apply andb_prop in Hw. destruct Hw as [Hw _]. apply andb_prop in Hw. destruct Hw as [Hs Hn].
  unfold ss_true in Hs. destruct (strongly_see s y w pps) as [[|]|] eqn:E; try discriminate.
  apply (rs_inside _ _ _ _ _ R w Hin), memz_In in E. rewrite E in Hn. discriminate.
Qed.

(** the example states: the reset node and a full-history node, each right after InsertEvent of the
    first event the reset node receives after its reset (before DivideRounds) *)
Definition ro_v1 : option hg :=
  reset_from (hrun (init_hg ro_victim_self ro_genesis ro_victim_oracle) ro_victim_ops_before)
             (hrun (init_hg ro_server_self ro_genesis ro_server_oracle) ro_server_ops).
Definition ro_v : hg := match ro_v1 with Some v1 => snd (insert_event v1 ro_event) | None => empty_hg 0 end.
Definition ro_s : hg := snd (insert_event (hrun (init_hg ro_full_self ro_genesis ro_full_oracle) ro_full_ops_before_event) ro_event).

(* what the continuity theorems ask of the two states, about event 4 and its parent round 0 *)
Lemma ro_facts :
  is_some ro_v1 = true /\
  zget 4 (round_memo ro_v) = None /\ zget 4 (round_memo ro_s) = None /\
  option_map ev_e (get_event ro_v 4) = Some ro_event /\ option_map ev_e (get_event ro_s 4) = Some ro_event /\
  parent_round ro_v (e_sp ro_event) = Some 0 /\ parent_round ro_s (e_sp ro_event) = Some 0 /\
  parent_round ro_v (e_op ro_event) = Some 0 /\ parent_round ro_s (e_op ro_event) = Some 0 /\
  get_peerset ro_v 0 = Some ro_genesis /\ get_peerset ro_s 0 = Some ro_genesis /\
  roots_sufficientb ro_v ro_s 4 0 ro_genesis = true /\
  round_witnesses_at ro_v 0 = [0; 1; 2] /\
  fst (round_f 1 ro_v 4) = Some 1 /\ fst (round_f 1 ro_s 4) = Some 1.
Proof. vm_compute. repeat split; reflexivity. Qed.
