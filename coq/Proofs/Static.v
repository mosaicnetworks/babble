(* Static membership: when no stored event carries an internal transaction that the application
   accepts, the peer-set table keeps its single genesis entry for ever, so every peer-set lookup
   returns the genesis set.  At the end, two facts about InsertEvent that later invariants share:
   stored events stay stored along a dag_frame step, and the round table is not written. *)
From Coq Require Import ZArith List Bool Lia ZifyBool.
From RecordUpdate Require Import RecordSet.
From V Require Import Model.ZMap Model.Quorum Model.Voting Model.HgImpl
  Proofs.ZMapFacts Proofs.HgFrames Proofs.HgDagFrames Proofs.AdmissionProofs Proofs.HgBlockFrames
  Proofs.BlockInv Proofs.RoundOrder.
Import ListNotations RecordSetNotations.
Open Scope Z_scope.

Definition static (g : peerset) (st : hg) : Prop := peersets st = [(0, g)].

(* no attempted event carries an internal transaction with a positive receipt *)
Definition no_accept (all : list event) : Prop :=
  forall e t, In e all -> In t (e_itxs e) -> itx_accept t = false.

Lemma get_peerset_static g st r : static g st -> get_peerset st r = Some g.
Proof.
  unfold static, get_peerset, ps_table_get. intros ->.
  destruct (r <? 0) eqn:E; [reflexivity|]. cbn [ps_table_get_le].
  replace (0 <=? r) with true by lia. reflexivity.
Qed.

Lemma bview_peersets st st' : bview st' = bview st -> peersets st' = peersets st.
Proof. intros H. exact (f_equal (fun '(_, _, _, ps, _, _, _, _, _, _, _) => ps) H). Qed.

Lemma static_init self_ g oracle_ : static g (init_hg self_ g oracle_).
Proof.
  unfold static, init_hg, set_peerset. cbn [empty_hg peersets existsb].
  change (peersets (?s <| validators := g |> <| oracle := oracle_ |>)) with (peersets s).
  etransitivity; [apply (fold_left_view peersets)|reflexivity].
  intros s p. cbv zeta. destruct (zmem _ _); reflexivity.
Qed.

Lemma process_receipts_noaccept st rr itxs :
  (forall t, In t itxs -> itx_accept t = false) -> process_receipts st rr itxs = st.
Proof.
  intros H. unfold process_receipts.
  assert (E : forall acc, fold_left (fun (acc : peerset * bool) t =>
      if itx_accept t then
        (if itx_add t then with_new (fst acc) (itx_peer t) else with_removed (fst acc) (itx_peer t), true)
      else acc) itxs acc = acc).
  { induction itxs as [|t rest IH]; intros acc; cbn [fold_left]; [reflexivity|].
    rewrite (H t (or_introl eq_refl)). apply IH. intros t' Ht'. apply H. right. exact Ht'. }
  rewrite E. reflexivity.
Qed.

Lemma peersets_store_set_block st b : peersets (store_set_block st b) = peersets st.
Proof. reflexivity. Qed.
Lemma peersets_deliver st b : peersets (deliver st b) = peersets st.
Proof. reflexivity. Qed.
Lemma peersets_set_anchor_block st b : peersets (set_anchor_block st b) = peersets st.
Proof.
  unfold set_anchor_block. destruct (get_peerset st (b_rr b)); [|reflexivity].
  destruct (_ && _); reflexivity.
Qed.
Lemma sign_block_itxs st b bps : b_itxs (fst (sign_block st b bps)) = b_itxs b.
Proof. unfold sign_block. destruct (mem_key _ _); reflexivity. Qed.
Lemma peersets_sign_block st b bps : peersets (snd (sign_block st b bps)) = peersets st.
Proof. unfold sign_block. destruct (mem_key _ _); cbn [snd]; reflexivity. Qed.

Lemma commit_peersets st b :
  (forall t, In t (b_itxs b) -> itx_accept t = false) -> peersets (commit st b) = peersets st.
Proof.
  intros H. unfold commit. destruct (self st =? -1); [apply peersets_deliver|]. cbv zeta.
  set (st0 := st <| oracle := _ |>).
  assert (P0 : peersets st0 = peersets st) by reflexivity.
  match goal with |- context [store_set_block st0 ?b1] => set (bb := b1) end.
  assert (Hbb : b_itxs bb = b_itxs b) by reflexivity.
  destruct (get_peerset (store_set_block st0 bb) (b_rr bb)) as [bps|].
  - pose proof (sign_block_itxs (store_set_block st0 bb) bb bps) as Hi.
    pose proof (peersets_sign_block (store_set_block st0 bb) bb bps) as Hp.
    destruct (sign_block (store_set_block st0 bb) bb bps) as [b2 st2]. cbn [fst snd] in *.
    rewrite peersets_deliver, process_receipts_noaccept.
    + rewrite peersets_set_anchor_block, Hp, peersets_store_set_block. exact P0.
    + intros t Ht. apply H. rewrite <- Hbb, <- Hi. exact Ht.
  - rewrite peersets_deliver, peersets_store_set_block. exact P0.
Qed.

Lemma events_add_consensus_events l s : events (fold_left add_consensus_event l s) = events s.
Proof. apply fold_left_view. reflexivity. Qed.
Lemma peersets_add_consensus_events l s : peersets (fold_left add_consensus_event l s) = peersets s.
Proof. apply fold_left_view. reflexivity. Qed.

Lemma block_of_frame_itxs all idx f s t :
  from_attempts s all -> no_accept all -> In t (b_itxs (block_of_frame idx f s)) -> itx_accept t = false.
Proof.
  intros FA NA. unfold block_of_frame. cbn [b_itxs]. intros Ht.
  apply in_flat_map in Ht. destruct Ht as [fe [_ Ht]].
  destruct (get_event s (fe_id fe)) as [e|] eqn:He; [|destruct Ht].
  eapply NA; [eapply FA; exact He|exact Ht].
Qed.

Lemma process_frame_peersets all s f :
  from_attempts s all -> no_accept all -> peersets (process_frame s f) = peersets s.
Proof.
  intros FA NA. unfold process_frame. destruct (f_events f) as [|fe rest] eqn:E; [reflexivity|].
  cbv zeta. set (s1 := fold_left add_consensus_event (fe :: rest) s).
  assert (P1 : peersets s1 = peersets s) by apply peersets_add_consensus_events.
  assert (FA1 : from_attempts s1 all).
  { intros x es Hx. apply (FA x es). unfold get_event in *. subst s1. rewrite events_add_consensus_events in Hx. exact Hx. }
  set (b := block_of_frame _ _ _).
  assert (Hb : forall t, In t (b_itxs b) -> itx_accept t = false).
  { intros t Ht. eapply block_of_frame_itxs; eauto. }
  destruct (b_txs b), (b_itxs b) eqn:Ei; try exact P1;
    (rewrite commit_peersets; [rewrite peersets_store_set_block; exact P1|rewrite Ei; exact Hb]).
Qed.

Lemma peersets_get_frame st rr : peersets (snd (get_frame st rr)) = peersets st.
Proof. destruct (get_frame_shape st rr) as [[f [_ ->]]|[[f [_ ->]]| ->]]; reflexivity. Qed.

Lemma peersets_bump s r : peersets (bump_last_consensus s r) = peersets s.
Proof. unfold bump_last_consensus. destruct (last_consensus s) as [l|]; [destruct (l <? r)|]; reflexivity. Qed.
Lemma peersets_fail s : peersets (fail s) = peersets s.
Proof. reflexivity. Qed.

Lemma process_round_peersets all s processed stop pr :
  from_attempts s all -> no_accept all ->
  peersets (fst (fst (process_round (s, processed, stop) pr))) = peersets s.
Proof.
  intros FA NA. unfold process_round.
  destruct (stop || failed s); [reflexivity|].
  destruct (negb (snd pr)); [reflexivity|].
  destruct (get_round s (fst pr)); [|apply peersets_fail].
  pose proof (get_frame_frame s (fst pr)) as F.
  pose proof (peersets_get_frame s (fst pr)) as P.
  destruct (get_frame s (fst pr)) as [[f|] s1]; cbn [fst snd] in *.
  - rewrite peersets_bump, (process_frame_peersets all); [exact P| |exact NA].
    eapply from_attempts_frame; eauto.
  - rewrite peersets_fail. exact P.
Qed.

Lemma process_decided_rounds_peersets all st :
  from_attempts st all -> no_accept all -> peersets (process_decided_rounds st) = peersets st.
Proof.
  intros FA NA. unfold process_decided_rounds.
  assert (G : forall l s p b, from_attempts s all ->
              peersets (fst (fst (fold_left process_round l (s, p, b)))) = peersets s).
  { induction l as [|pr rest IH]; intros s p b FAs; cbn [fold_left]; [reflexivity|].
    pose proof (process_round_peersets all s p b pr FAs NA) as P.
    pose proof (process_round_frame s p b pr) as F.
    destruct (process_round (s, p, b) pr) as [[s' p'] b']. cbn [fst] in *.
    rewrite IH; [exact P|]. eapply from_attempts_frame; eauto. }
  specialize (G (pending st) st [] false FA).
  destruct (fold_left process_round (pending st) (st, [], false)) as [[s processed] stop]. cbn [fst] in G.
  rewrite <- G. reflexivity.
Qed.

Lemma run_consensus_peersets all st :
  from_attempts st all -> no_accept all -> peersets (run_consensus st) = peersets st.
Proof.
  intros FA NA. unfold run_consensus.
  pose proof (divide_rounds_frame st) as F1. pose proof (bview_peersets _ _ (divide_rounds_bview st)) as P1.
  set (s1 := divide_rounds st) in *.
  destruct (failed s1); [exact P1|].
  pose proof (decide_fame_frame s1) as F2. pose proof (bview_peersets _ _ (decide_fame_bview s1)) as P2.
  set (s2 := decide_fame s1) in *.
  destruct (failed s2); [congruence|].
  pose proof (decide_round_received_frame s2) as F3.
  pose proof (bview_peersets _ _ (decide_round_received_bview s2)) as P3.
  set (s3 := decide_round_received s2) in *.
  destruct (failed s3); [congruence|].
  rewrite (process_decided_rounds_peersets all); [congruence| |exact NA].
  eapply from_attempts_frame; [|exact F3]. eapply from_attempts_frame; [|exact F2].
  eapply from_attempts_frame; eauto.
Qed.

Lemma step_peersets all st e :
  dag_ok st -> from_attempts st all -> ids_determine all -> In e all -> 0 <= e_id e -> no_accept all ->
  peersets (step st e) = peersets st.
Proof.
  intros OK FA ID Hin Hid NA. unfold step, insert_and_run.
  pose proof (bview_peersets _ _ (insert_event_bview st e)) as P.
  destruct (insert_event st e) as [r s] eqn:E. cbn [snd] in P.
  destruct (insert_event_inv st e all r s OK FA ID Hin Hid E) as [_ [FA' _]].
  destruct r; cbn [snd]; try exact P.
  rewrite (run_consensus_peersets all); auto.
Qed.

Lemma process_sig_peersets st s : peersets (process_sig st s) = peersets st.
Proof.
  unfold process_sig.
  destruct (zget (bs_index s) (blocks st)) as [b|]; [|reflexivity].
  destruct (get_peerset st (b_rr b)); [|reflexivity].
  destruct (negb (mem_key _ _)); [reflexivity|].
  destruct (negb (_ =? _)); [reflexivity|].
  cbv zeta. set (b' := b <| b_sigs := _ |>).
  transitivity (peersets (set_anchor_block (store_set_block st b') b')); [destruct (set_anchor_block _ _); reflexivity|].
  rewrite peersets_set_anchor_block. apply peersets_store_set_block.
Qed.

Lemma process_sigpool_peersets st : peersets (process_sigpool st) = peersets st.
Proof. apply fold_left_view, process_sig_peersets. Qed.

Lemma stored_frame st st' x : dag_frame st st' -> get_event st x <> None -> get_event st' x <> None.
Proof.
  intros F H. destruct (get_event st x) as [ex|] eqn:E; [|contradiction].
  destruct (proj2 (frame_get_event st st' x F) _ E) as [ex' [E' _]]. rewrite E'. discriminate.
Qed.

Lemma rounds_set_evst st x e : rounds (set_evst st x e) = rounds st.
Proof. reflexivity. Qed.

Lemma fd_walk_rounds fuel : forall st c index x ah, rounds (fd_walk fuel st c index x ah) = rounds st.
Proof.
  induction fuel as [|f IH]; intros st c index x ah; cbn [fd_walk]; [reflexivity|].
  destruct (get_event st ah) as [a|]; [|reflexivity].
  destruct (aget c (ev_fd a)); [reflexivity|].
  set (st1 := set_evst st ah _).
  pose proof (nomemo_eq_rounds _ _ (witness_f_nomemo (fuel_of st1) st1 ah)) as F2.
  assert (F1 : rounds st1 = rounds st) by apply rounds_set_evst.
  destruct (witness_f (fuel_of st1) st1 ah) as [[[|]|] st2]; cbn [snd] in F2; try rewrite IH; congruence.
Qed.

Lemma update_ancestor_fd_rounds st e la : rounds (update_ancestor_fd st e la) = rounds st.
Proof. apply fold_left_view. intros s ce. apply fd_walk_rounds. Qed.

Lemma store_set_event_rounds st es st' : store_set_event st es = Some st' -> rounds st' = rounds st.
Proof. intros H. destruct (store_set_event_footprint _ _ _ H) as [P ->]. reflexivity. Qed.

Lemma insert_event_keeps_rounds st e : rounds (snd (insert_event st e)) = rounds st.
Proof.
  destruct (insert_event st e) as [r s] eqn:H. cbn [snd].
  destruct (insert_event_cases st e _ _ H) as [[-> _]|[_ [_ [_ A]]]]; [reflexivity|].
  rewrite insert_admitted_eq in A. cbv zeta in A.
  destruct (store_set_event _ _) as [st2|] eqn:E; injection A as <- <-; [|reflexivity].
  apply store_set_event_rounds in E. unfold after_store.
  set (st3 := update_ancestor_fd st2 e _).
  assert (E3 : rounds st3 = rounds st2) by apply update_ancestor_fd_rounds. clearbody st3.
  destruct (is_loaded e); exact (eq_trans E3 E).
Qed.
