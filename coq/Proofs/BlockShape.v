(* A delivered block carries the timestamp and the peer set of its frame
   (block_of_frame: Timestamp = frame.Timestamp, PeersHash = hash of frame.Peers). *)
From Coq Require Import ZArith List Bool Lia.
From RecordUpdate Require Import RecordSet.
From V Require Import Model.ZMap Model.Quorum Model.Voting Model.HgImpl
  Proofs.ZMapFacts Proofs.HgFrames Proofs.HgDagFrames Proofs.AdmissionProofs Proofs.HgBlockFrames
  Proofs.BlockInv Proofs.RoundOrder Proofs.OrderSort Proofs.OrderFrames Proofs.OrderProofs.
Import ListNotations RecordSetNotations.
Open Scope Z_scope.

Definition tv (b : block) := (b_ts b, b_peers b, b_frame b).
Definition tshape (d : block) : Prop := b_ts d = f_ts (b_frame d) /\ b_peers d = f_peers (b_frame d).

Definition dinv (Q : block -> Prop) (st : hg) : Prop := forall d, In d (delivered st) -> Q d.

Lemma commit_delivered_tv st b : exists bf, delivered (commit st b) = delivered st ++ [bf] /\ tv bf = tv b.
Proof.
  destruct (commit_delivers st b) as [bf [E M]]. exists bf. split; [exact E|].
  exact (f_equal (fun '(_, _, ts, _, _, fr, ps) => (ts, ps, fr)) M).
Qed.

Lemma tv_shape bf f : tv bf = (f_ts f, f_peers f, f) -> tshape bf.
Proof. unfold tv, tshape. intros H. inversion H as [[A B C]]. rewrite C. auto. Qed.

Lemma process_frame_tshape s f : dinv tshape s -> dinv tshape (process_frame s f).
Proof.
  intros T. unfold process_frame. destruct (f_events f) as [|fe rest] eqn:Hfe; [exact T|]. cbv zeta.
  set (s1 := fold_left add_consensus_event (fe :: rest) s).
  assert (E1 : delivered s1 = delivered s) by (apply delivered_bl, add_consensus_events_bl).
  set (b := block_of_frame _ _ _).
  assert (Rb : tv b = (f_ts f, f_peers f, f)) by reflexivity.
  assert (T1 : dinv tshape s1) by (intros d; rewrite E1; apply T).
  destruct (b_txs b), (b_itxs b); try exact T1;
    (destruct (commit_delivered_tv (store_set_block s1 b) b) as [bf [Hd Hr]]; intros d; rewrite Hd, delivered_store, E1;
     intros Hin; apply in_app_or in Hin; destruct Hin as [Hin|[<-|[]]]; [apply T; exact Hin|apply (tv_shape bf f); congruence]).
Qed.

Section Generic.
  Variable Q : block -> Prop.
  Hypothesis HQ : forall s f, dinv Q s -> dinv Q (process_frame s f).

Lemma dinv_same s s' : delivered s' = delivered s -> dinv Q s -> dinv Q s'.
Proof. intros E T d. rewrite E. apply T. Qed.

Lemma process_round_dinv s p stop pr : dinv Q s -> dinv Q (fst (fst (process_round (s, p, stop) pr))).
Proof.
  intros T. unfold process_round.
  destruct (stop || failed s); [exact T|]. destruct (negb (snd pr)); [exact T|].
  destruct (get_round s (fst pr)); [|cbn [fst]; apply (dinv_same s); [reflexivity|exact T]].
  pose proof (delivered_bl _ _ (get_frame_bl s (fst pr))) as D1.
  destruct (get_frame s (fst pr)) as [[f|] s1]; cbn [fst snd] in *.
  - destruct (bump_keep (process_frame s1 f) (fst pr)) as [_ [_ D3]].
    apply (dinv_same (process_frame s1 f)); [exact D3|]. apply HQ. apply (dinv_same s); assumption.
  - apply (dinv_same s1); [reflexivity|]. apply (dinv_same s); assumption.
Qed.

Lemma process_decided_rounds_dinv st : dinv Q st -> dinv Q (process_decided_rounds st).
Proof.
  intros T. unfold process_decided_rounds.
  assert (G : forall l s p b, dinv Q s -> dinv Q (fst (fst (fold_left process_round l (s, p, b))))).
  { induction l as [|pr l IH]; intros s p b Ts; cbn [fold_left]; [exact Ts|].
    pose proof (process_round_dinv s p b pr Ts) as T1.
    destruct (process_round (s, p, b) pr) as [[s' p'] b']. apply IH. exact T1. }
  specialize (G (pending st) st [] false T).
  destruct (fold_left process_round (pending st) (st, [], false)) as [[s processed] stop]. cbn [fst] in G.
  apply (dinv_same s); [reflexivity|exact G].
Qed.

Lemma bview_delivered s s' : bview s' = bview s -> delivered s' = delivered s.
Proof. unfold bview. intros H. inversion H. reflexivity. Qed.

Lemma run_consensus_dinv st : dinv Q st -> dinv Q (run_consensus st).
Proof.
  intros T. unfold run_consensus.
  pose proof (bview_delivered _ _ (divide_rounds_bview st)) as D1. set (s1 := divide_rounds st) in *.
  pose proof (dinv_same st s1 D1 T) as T1. destruct (failed s1); [exact T1|].
  pose proof (bview_delivered _ _ (decide_fame_bview s1)) as D2. set (s2 := decide_fame s1) in *.
  pose proof (dinv_same s1 s2 D2 T1) as T2. destruct (failed s2); [exact T2|].
  pose proof (bview_delivered _ _ (decide_round_received_bview s2)) as D3. set (s3 := decide_round_received s2) in *.
  pose proof (dinv_same s2 s3 D3 T2) as T3. destruct (failed s3); [exact T3|].
  apply process_decided_rounds_dinv. exact T3.
Qed.

Lemma hstep_dinv st o : dinv Q st -> dinv Q (hstep st o).
Proof.
  intros T. destruct o as [e|]; cbn [hstep].
  - unfold step, insert_and_run. pose proof (bview_delivered _ _ (insert_event_bview st e)) as D.
    destruct (insert_event st e) as [r s]. cbn [snd] in D. pose proof (dinv_same st s D T) as Ts.
    destruct r; cbn [snd]; try exact Ts. apply run_consensus_dinv. exact Ts.
  - apply (dinv_same st); [|exact T].
    assert (Erv : rv (process_sigpool st) = rv st).
    { unfold process_sigpool. generalize (sigpool st). intros l. generalize st. clear.
      induction l as [|s l IHl]; intros st; cbn [fold_left]; [reflexivity|]. rewrite IHl. apply (proj1 (process_sig_rv st s)). }
    unfold rv in Erv. inversion Erv. reflexivity.
Qed.


  Theorem hrun_dinv self_ g oracle_ ops : dinv Q (hrun (init_hg self_ g oracle_) ops).
  Proof.
    assert (G : forall st, dinv Q st -> dinv Q (hrun st ops)).
    { induction ops as [|o ops IH]; intros st T; cbn [hrun fold_left]; [exact T|]. apply IH, hstep_dinv, T. }
    apply G. intros d Hd. exfalso.
    assert (E : delivered (init_hg self_ g oracle_) = []).
    { unfold init_hg. destruct (set_peerset (empty_hg self_) 0 g) as [s|] eqn:S; [|reflexivity].
      pose proof (delivered_bl _ _ (set_peerset_bl _ _ _ _ S)) as D.
      replace (delivered (s <| validators := g |> <| oracle := oracle_ |>)) with (delivered s) by reflexivity.
      rewrite D. reflexivity. }
    rewrite E in Hd. destruct Hd.
  Qed.
End Generic.

(* a delivered block has a payload *)
Definition pshape (d : block) : Prop := b_txs d <> [] \/ b_itxs d <> [].

Lemma process_frame_pshape s f : dinv pshape s -> dinv pshape (process_frame s f).
Proof.
  intros T. unfold process_frame. destruct (f_events f) as [|fe rest] eqn:Hfe; [exact T|]. cbv zeta.
  set (s1 := fold_left add_consensus_event (fe :: rest) s).
  assert (E1 : delivered s1 = delivered s) by (apply delivered_bl, add_consensus_events_bl).
  set (b := block_of_frame _ _ _).
  assert (T1 : dinv pshape s1) by (intros d; rewrite E1; apply T).
  assert (K : b_txs b <> [] \/ b_itxs b <> [] -> dinv pshape (commit (store_set_block s1 b) b)).
  { intros Hp. destruct (commit_delivered_pv (store_set_block s1 b) b) as [bf [Hd Hr]]. intros d. rewrite Hd, delivered_store, E1.
    intros Hin. apply in_app_or in Hin. destruct Hin as [Hin|[<-|[]]]; [apply T; exact Hin|].
    unfold pv in Hr. inversion Hr as [[A B C D]]. unfold pshape. rewrite B, C. exact Hp. }
  destruct (b_txs b) as [|t ts] eqn:Et, (b_itxs b) as [|u us] eqn:Eu; try exact T1; apply K;
    try (left; discriminate); right; discriminate.
Qed.

Theorem hrun_payload self_ g oracle_ ops : dinv pshape (hrun (init_hg self_ g oracle_) ops).
Proof. apply hrun_dinv. exact process_frame_pshape. Qed.

Theorem hrun_tinv self_ g oracle_ ops : dinv tshape (hrun (init_hg self_ g oracle_) ops).
Proof. apply hrun_dinv. exact process_frame_tshape. Qed.
