(* Stage D1: the "window property" is false, and with it agreement under dynamic membership.
   ww: four genesis validators; 142 valid, fork-free events forming a plain gossip DAG (every event
   after the first four has the creator's previous event as self-parent and another creator's
   latest event as other-parent); every event carries one transaction (its id); the first event of
   creator 0 carries an internal transaction "peer 4 joins" that the application accepts.  The
   coin bit (middle byte of the event hash <> 0) is true except for events 56, 57, 104, 107, 110.
   The fame of the low rounds stays undecided until round 9 exists, so the first block
   (round-received 1) is committed - and the peer set of round 1 + 6 = 7 written - when rounds
   7, 8, 9 have already been divided with the four-peer set.  Node A receives the events in creation
   order, node B first the ancestors of the deciding event 118, then the others (both orders are
   topological).  Events 114 and 116 get round 9 in A and round 8 in B, and the blocks of index 8
   differ.  The same history replayed on two real cores gives the same two forks
   (KNOWN_FINDINGS.json C01-window-fork; replay program harness/cmd/winfork on corpus/C01-window-fork.json). *)
From Coq Require Import ZArith List Bool Permutation.
From V Require Import Model.ZMap Model.Quorum Model.Voting Model.HgImpl Model.Window Proofs.AdmissionProofs Proofs.BlockInv
  Proofs.OrderProofs Proofs.Static Proofs.Agreement Proofs.BlockAgree Proofs.WindowStable Proofs.GapWindow.
Import ListNotations.
Open Scope Z_scope.

(* When a proof by evaluation is checked, a closed term is evaluated once per occurrence; only what is bound by a
   [let], passed as an argument or named by a constant is shared.  The facts about a concrete history are therefore
   stated about ONE list of states per node, in which every state is computed from its predecessor; the lemmas
   below read the run of a prefix, the step-wise checks and the final state off that list. *)
Fixpoint trace (st : hg) (ops : list hop) : list hg :=
  st :: match ops with [] => [] | o :: r => trace (hstep st o) r end.

(* [f] holds between every state of the list and the next *)
Fixpoint adjb {A} (f : A -> A -> bool) (l : list A) : bool :=
  match l with a :: (b :: _) as r => f a b && adjb f r | _ => true end.

Lemma last_trace ops : forall st d, last (trace st ops) d = hrun st ops.
Proof.
  induction ops as [|o r IH]; intros st d; [reflexivity|].
  change (hrun st (o :: r)) with (hrun (hstep st o) r). rewrite <- (IH (hstep st o) d). destruct r; reflexivity.
Qed.

Lemma nth_trace ops : forall st k d, (k <=? length ops)%nat = true -> nth k (trace st ops) d = hrun st (firstn k ops).
Proof.
  induction ops as [|o r IH]; intros st [|k] d H; try reflexivity; [discriminate H|].
  exact (IH (hstep st o) k d H).
Qed.

Lemma nth_trace_step ops : forall st k o d, nth_error ops k = Some o ->
  nth (S k) (trace st ops) d = hstep (nth k (trace st ops) d) o.
Proof.
  induction ops as [|a r IH]; intros st [|k] o d H; try discriminate H.
  - injection H as <-. destruct r; reflexivity.
  - exact (IH (hstep st a) k o d H).
Qed.

Lemma gap_runb_trace ops : forall st, gap_runb st ops = adjb gap_stepb (trace st ops).
Proof. induction ops as [|o r IH]; intros st; [reflexivity|]. cbn [gap_runb]. rewrite IH. destruct r; reflexivity. Qed.

Lemma window_runb_trace ops : forall st, window_runb st ops = adjb window_stepb (trace st ops).
Proof. induction ops as [|o r IH]; intros st; [reflexivity|]. cbn [window_runb]. rewrite IH. destruct r; reflexivity. Qed.

Definition ww_g : peerset := [mkPeer 100 0; mkPeer 101 1; mkPeer 102 2; mkPeer 103 3].
Definition ww_coin (id : Z) : bool := negb (existsb (Z.eqb id) [56; 57; 104; 107; 110]).
Definition ww_ev (t : Z * Z * Z * Z * Z) : event :=
  match t with (id, c, ix, sp, op) =>
    mkEvent id c ix sp op 0 (ww_coin id) (1000 + id) [id]
            (if (c =? 0) && (ix =? 0) then [mkItx id true (mkPeer 104 4) true true] else []) [] true end.
(* (id, creator, index, self-parent, other-parent), in creation order *)
Definition ww_rows : list (Z * Z * Z * Z * Z) :=
  [(0,0,0,-1,-1); (1,1,0,-1,-1); (2,2,0,-1,-1); (3,3,0,-1,-1); (4,0,1,0,2); (5,2,1,2,1); (6,0,2,4,5);
   (7,2,2,5,6); (8,2,3,7,1); (9,1,1,1,6); (10,0,3,6,8); (11,1,2,9,10); (12,0,4,10,8); (13,1,3,11,8);
   (14,0,5,12,13); (15,0,6,14,13); (16,1,4,13,3); (17,0,7,15,16); (18,1,5,16,3); (19,1,6,18,3); (20,0,8,17,19);
   (21,2,4,8,20); (22,0,9,20,3); (23,2,5,21,22); (24,1,7,19,3); (25,3,1,3,24); (26,0,10,22,24); (27,1,8,24,26);
   (28,0,11,26,25); (29,1,9,27,25); (30,2,6,23,28); (31,0,12,28,29); (32,0,13,31,29); (33,3,2,25,32);
   (34,3,3,33,29); (35,0,14,32,30); (36,3,4,34,35); (37,0,15,35,29); (38,1,10,29,37); (39,0,16,37,38);
   (40,0,17,39,36); (41,0,18,40,30); (42,1,11,38,30); (43,2,7,30,42); (44,1,12,42,41); (45,1,13,44,43);
   (46,3,5,36,45); (47,0,19,41,45); (48,1,14,45,47); (49,3,6,46,47); (50,3,7,49,48); (51,2,8,43,48);
   (52,1,15,48,47); (53,1,16,52,47); (54,1,17,53,50); (55,1,18,54,50); (56,0,20,47,55); (57,2,9,51,55);
   (58,3,8,50,55); (59,3,9,58,55); (60,1,19,55,57); (61,1,20,60,57); (62,2,10,57,61); (63,2,11,62,59);
   (64,2,12,63,61); (65,2,13,64,61); (66,1,21,61,65); (67,1,22,66,59); (68,3,10,59,56); (69,0,21,56,67);
   (70,3,11,68,69); (71,2,14,65,67); (72,1,23,67,69); (73,0,22,69,70); (74,0,23,73,72); (75,1,24,72,74);
   (76,3,12,70,74); (77,3,13,76,75); (78,2,15,71,77); (79,3,14,77,75); (80,2,16,78,75); (81,1,25,75,79);
   (82,2,17,80,79); (83,1,26,81,79); (84,1,27,83,82); (85,1,28,84,74); (86,0,24,74,82); (87,0,25,86,85);
   (88,0,26,87,82); (89,3,15,79,88); (90,1,29,85,82); (91,0,27,88,82); (92,1,30,90,89); (93,0,28,91,89);
   (94,1,31,92,93); (95,3,16,89,82); (96,1,32,94,95); (97,2,18,82,95); (98,0,29,93,97); (99,3,17,95,97);
   (100,3,18,99,98); (101,0,30,98,96); (102,2,19,97,101); (103,1,33,96,100); (104,2,20,102,103);
   (105,3,19,100,104); (106,0,31,101,103); (107,0,32,106,105); (108,0,33,107,103); (109,2,21,104,103);
   (110,1,34,103,105); (111,2,22,109,108); (112,2,23,111,110); (113,1,35,110,108); (114,3,20,105,113);
   (115,0,34,108,113); (116,3,21,114,112); (117,3,22,116,115); (118,2,24,112,115); (119,1,36,113,117);
   (120,3,23,117,118); (121,0,35,115,119); (122,2,25,118,121); (123,3,24,120,121); (124,0,36,121,123);
   (125,1,37,119,122); (126,0,37,124,125); (127,2,26,122,126); (128,1,38,125,127); (129,0,38,126,128);
   (130,1,39,128,127); (131,2,27,127,123); (132,3,25,123,129); (133,0,39,129,130); (134,1,40,130,131);
   (135,2,28,131,132); (136,3,26,132,133); (137,0,40,133,134); (138,1,41,134,135); (139,2,29,135,136);
   (140,3,27,136,137); (141,0,41,137,138)].
Definition ww_all : list event := map ww_ev ww_rows.
(* the second order: the ancestors of event 118 (118 included), then the rest *)
Definition ww_ordb : list Z :=
  [0; 1; 2; 3; 4; 5; 6; 7; 8; 9; 10; 11; 12; 13; 14; 15; 16; 17; 18; 19; 20; 21; 22; 23; 24; 25; 26; 27; 28; 29;
   30; 31; 32; 33; 34; 35; 36; 37; 38; 39; 40; 41; 42; 43; 44; 45; 46; 47; 48; 49; 50; 51; 52; 53; 54; 55; 56;
   57; 58; 59; 60; 61; 62; 63; 64; 65; 66; 67; 68; 69; 70; 71; 72; 73; 74; 75; 76; 77; 78; 79; 80; 81; 82; 83;
   84; 85; 86; 87; 88; 89; 90; 91; 92; 93; 94; 95; 96; 97; 98; 99; 100; 101; 102; 103; 104; 105; 106; 107; 108;
   109; 110; 111; 112; 113; 115; 118; 114; 116; 117; 119; 120; 121; 122; 123; 124; 125; 126; 127; 128; 129; 130;
   131; 132; 133; 134; 135; 136; 137; 138; 139; 140; 141].
Definition ww_all' : list event := map (fun i => nth (Z.to_nat i) ww_all (ww_ev (0, 0, 0, 0, 0))) ww_ordb.

Lemma nth_In_len {A} (n : nat) (l : list A) (d : A) (k : nat) : length l = k -> (n < k)%nat -> In (nth n l d) l.
Proof. intros <- H. apply nth_In. exact H. Qed.

Lemma firstn_In_w {A} (l : list A) i x : In x (firstn i l) -> In x l.
Proof. revert i. induction l as [|a l IH]; intros i H; destruct i; cbn in *; try contradiction. destruct H; [left; assumption|right; eapply IH; eauto]. Qed.

Lemma ww_premises :
  ids_determine ww_all /\ sigkeys_determine ww_all /\ fork_free ww_all /\
  Forall (hop_ok ww_all) (map HInsert ww_all) /\ Forall (hop_ok ww_all) (map HInsert ww_all') /\
  (* the second list is a rearrangement of the first *)
  (length ww_ordb = 142%nat /\ forallb (fun i => existsb (Z.eqb i) ww_ordb) (zseq 0 142) = true).
Proof.
  split; [apply ids_determine_distinct; vm_compute; reflexivity|].
  split; [apply sigkeys_determine_distinct; vm_compute; reflexivity|].
  split; [apply fork_freeb_sound; vm_compute; reflexivity|].
  split; [apply hop_ok_inserts; vm_compute; reflexivity|].
  split; [|vm_compute; split; reflexivity].
  assert (R : forallb (fun i => (0 <=? i) && (i <? 142)) ww_ordb = true) by (vm_compute; reflexivity).
  assert (L : length ww_all = 142%nat) by (vm_compute; reflexivity).
  assert (F : forallb (fun e => 0 <=? e_id e) ww_all = true) by (vm_compute; reflexivity).
  rewrite forallb_forall in R, F.
  apply Forall_forall. intros o Ho. apply in_map_iff in Ho. destruct Ho as [e [<- He]].
  unfold ww_all' in He. apply in_map_iff in He. destruct He as [i [<- Hi]].
  specialize (R i Hi). apply andb_prop in R. destruct R as [R1 R2]. apply Z.leb_le in R1. apply Z.ltb_lt in R2.
  assert (Hin : In (nth (Z.to_nat i) ww_all (ww_ev (0, 0, 0, 0, 0))) ww_all) by (apply (nth_In_len _ _ _ 142%nat L); apply Nat2Z.inj_lt; rewrite Z2Nat.id by exact R1; exact R2).
  cbn [hop_ok]. split; [exact Hin|]. apply Z.leb_le. apply F. exact Hin.
Qed.

Local Notation IA := (init_hg 0 ww_g []) (only parsing).
Local Notation IB := (init_hg 1 ww_g []) (only parsing).
Local Notation WA := (hrun IA (map HInsert ww_all)) (only parsing).
Local Notation WB := (hrun IB (map HInsert ww_all')) (only parsing).
(* node A just before and just after the insertion of event 118 *)
Local Notation WA0 := (hrun IA (map HInsert (firstn 118 ww_all))) (only parsing).
Local Notation E118 := (ww_ev (118, 2, 24, 112, 115)) (only parsing).

Definition rnd (st : hg) (x : Z) : option Z := match get_event st x with Some e => ev_round e | None => None end.

(* the window: the entry for round 7 is written when round 9 exists *)
Definition ww_window_obs (st st' : hg) : Prop :=
  (map fst (peersets st) = [0] /\ last_consensus st = None /\ last_round st = 9 /\
   map (fun p => (fst p, map pkey (snd p))) (peersets st') = [(0, [0; 1; 2; 3]); (7, [0; 1; 2; 3; 4])] /\
   last_round st' = 9 /\ last_consensus st' = Some 7) /\
  delivered st = [] /\ length (delivered st') = 7%nat /\
  (* events already divided into rounds 7, 8, 9 before the entry for round 7 exists *)
  length (filter (fun x => match rnd st x with Some r => 7 <=? r | None => false end) (zseq 0 142)) = 21%nat.

(* the fork *)
Definition ww_fork_obs (sa sb : hg) : Prop :=
  (failed sa = false /\ failed sb = false /\
   map (fun x => (match get_event sa x with Some e => ev_round e | None => None end,
                  match get_event sb x with Some e => ev_round e | None => None end)) [114; 116]
     = [(Some 9, Some 8); (Some 9, Some 8)] /\
   map (fun b => (b_index b, b_rr b, b_txs b)) (firstn 8 (delivered sa)) = map (fun b => (b_index b, b_rr b, b_txs b)) (firstn 8 (delivered sb)) /\
   option_map (fun b => (b_index b, b_rr b, b_txs b)) (nth_error (delivered sa) 8) = Some (8, 9, [104; 106; 105; 107; 110; 108; 113]) /\
   option_map (fun b => (b_index b, b_rr b, b_txs b)) (nth_error (delivered sb) 8)
     = Some (8, 9, [104; 106; 105; 109; 107; 110; 108; 111; 113; 112; 115])) /\
  map (fun p => (fst p, length (snd p))) (peersets sa) = [(0, 4%nat); (7, 5%nat)] /\
  map (fun p => (fst p, length (snd p))) (peersets sb) = [(0, 4%nat); (7, 5%nat)] /\
  (rnd sa 113, rnd sb 113) = (Some 8, Some 8).

Lemma ww_trace_facts :
  nth_error (map HInsert ww_all) 118 = Some (HInsert E118) /\
  let ta := trace IA (map HInsert ww_all) in let tb := trace IB (map HInsert ww_all') in
  ww_window_obs (nth 118 ta IA) (nth 119 ta IA) /\ ww_fork_obs (last ta IA) (last tb IB) /\
  adjb gap_stepb ta = false /\ adjb window_stepb ta = false /\ adjb gap_stepb tb = false.
Proof. vm_compute. repeat split; reflexivity. Qed.

(* the same about the runs; both nodes exceed the distance bound, node A violates the window *)
Lemma ww_facts :
  ww_window_obs WA0 (hstep WA0 (HInsert E118)) /\ ww_fork_obs WA WB /\
  gap_runb IA (map HInsert ww_all) = false /\ window_runb IA (map HInsert ww_all) = false /\
  gap_runb IB (map HInsert ww_all') = false.
Proof.
  destruct ww_trace_facts as [N F]. cbv zeta in F.
  (* the states are given: left open, matching them evaluates runs *)
  rewrite (nth_trace_step _ IA _ _ IA N), nth_trace, firstn_map, !last_trace in F by reflexivity.
  rewrite !gap_runb_trace, window_runb_trace. exact F.
Qed.

(* refuted: "a peer-set entry is written only for a round that has not been divided yet" *)
Lemma ww_window_refuted :
  ~ (forall genesis all self_ oracle_ ops o r ps,
       ids_determine all -> fork_free all -> Forall (hop_ok all) (ops ++ [o]) ->
       let st := hrun (init_hg self_ genesis oracle_) ops in
       In (r, ps) (peersets (hstep st o)) -> ~ In r (map fst (peersets st)) -> last_round (hstep st o) < r).
Proof.
  intros S. destruct ww_premises as [ID [_ [FF [H1 _]]]].
  destruct (proj1 ww_facts) as [[P0 [_ [_ [P1 [L1 _]]]]] _].
  assert (Hops : Forall (hop_ok ww_all) (map HInsert (firstn 118 ww_all) ++ [HInsert E118])).
  { rewrite Forall_forall in H1. apply Forall_forall. intros o Ho. apply in_app_or in Ho. destruct Ho as [Ho|[<-|[]]].
    - apply H1. apply in_map_iff in Ho. destruct Ho as [e [<- He]]. apply in_map. eapply firstn_In_w; exact He.
    - apply H1. eapply nth_error_In. exact (proj1 ww_trace_facts). }
  assert (Hin : exists ps, In (7, ps) (peersets (hstep WA0 (HInsert E118)))).
  { destruct (peersets (hstep WA0 (HInsert E118))) as [|a [|b l]]; try (cbn in P1; discriminate P1).
    cbn [map] in P1. inversion P1 as [[A1 A2 A3 A4]]. destruct b as [r ps]. cbn [fst] in A3. subst r. exists ps. right; left; reflexivity. }
  destruct Hin as [ps Hin].
  specialize (S ww_g ww_all 0 [] (map HInsert (firstn 118 ww_all)) (HInsert E118) 7 ps ID FF Hops). cbv zeta in S.
  specialize (S Hin). rewrite P0, L1 in S.
  assert (C : 9 < 7) by (apply S; intros [E|[]]; discriminate E). discriminate C.
Qed.

(* refuted: agreement on the transactions of the delivered blocks WITHOUT the static-membership premise *)
Lemma ww_agreement_refuted :
  ~ (forall genesis all self1 self2 oracle1 oracle2 ops1 ops2 k d1 d2,
       ids_determine all -> sigkeys_determine all -> fork_free all ->
       Forall (hop_ok all) ops1 -> Forall (hop_ok all) ops2 ->
       let st1 := hrun (init_hg self1 genesis oracle1) ops1 in
       let st2 := hrun (init_hg self2 genesis oracle2) ops2 in
       nth_error (delivered st1) k = Some d1 -> nth_error (delivered st2) k = Some d2 -> b_txs d1 = b_txs d2).
Proof.
  intros S. destruct ww_premises as [ID [SK [FF [H1 [H2 _]]]]].
  destruct (proj1 (proj2 ww_facts)) as [[_ [_ [_ [_ [F1 F2]]]]] _].
  destruct (nth_error (delivered WA) 8) as [d1|] eqn:E1; [|discriminate F1].
  destruct (nth_error (delivered WB) 8) as [d2|] eqn:E2; [|discriminate F2].
  cbn [option_map] in F1, F2. inversion F1 as [[A1 A2 A3]]. inversion F2 as [[B1 B2 B3]].
  specialize (S ww_g ww_all 0 1 [] [] (map HInsert ww_all) (map HInsert ww_all') 8%nat d1 d2 ID SK FF H1 H2).
  cbv zeta in S. specialize (S E1 E2). rewrite A3, B3 in S. discriminate S.
Qed.

(* The same fork by scheduling alone.  ws: four validators, 82 gossip events, the join request in event 0, every event's coin bit TRUE (no
   special hash anywhere: the situation of an adversary that only controls the order of delivery).  The
   first block (round-received 1) is committed when event 58 arrives and round 8 exists; node A
   (creation order) and node B (ancestors of 58 first) give event 54 rounds 8 and 7 and deliver
   different blocks of index 7.  Replayed on two real cores: corpus/C01-window-fork-sched.json. *)
Definition ws_ev (t : Z * Z * Z * Z * Z) : event :=
  match t with (id, c, ix, sp, op) =>
    mkEvent id c ix sp op 0 true (1000 + id) [id]
            (if (c =? 0) && (ix =? 0) then [mkItx id true (mkPeer 104 4) true true] else []) [] true end.
Definition ws_rows : list (Z * Z * Z * Z * Z) :=
  [(0,0,0,-1,-1); (1,1,0,-1,-1); (2,2,0,-1,-1); (3,3,0,-1,-1); (4,3,1,3,1); (5,3,2,4,0); (6,1,1,1,5);
   (7,0,1,0,6); (8,3,3,5,7); (9,1,2,6,8); (10,0,2,7,9); (11,2,1,2,8); (12,3,4,8,10); (13,0,3,10,12);
   (14,3,5,12,11); (15,2,2,11,13); (16,1,3,9,14); (17,3,6,14,16); (18,0,4,13,15); (19,3,7,17,18); (20,1,4,16,18);
   (21,0,5,18,19); (22,0,6,21,20); (23,2,3,15,19); (24,3,8,19,22); (25,0,7,22,24); (26,1,5,20,23);
   (27,2,4,23,25); (28,1,6,26,25); (29,3,9,24,28); (30,0,8,25,27); (31,1,7,28,30); (32,1,8,31,29);
   (33,0,9,30,32); (34,2,5,27,32); (35,2,6,34,33); (36,3,10,29,33); (37,1,9,32,35); (38,2,7,35,37);
   (39,0,10,33,36); (40,3,11,36,38); (41,0,11,39,38); (42,2,8,38,41); (43,3,12,40,42); (44,1,10,37,42);
   (45,2,9,42,44); (46,1,11,44,43); (47,3,13,43,45); (48,0,12,41,47); (49,2,10,45,46); (50,3,14,47,49);
   (51,2,11,49,50); (52,1,12,46,51); (53,2,12,51,52); (54,3,15,50,53); (55,1,13,52,48); (56,2,13,53,55);
   (57,1,14,55,56); (58,0,13,48,56); (59,3,16,54,57); (60,1,15,57,59); (61,2,14,56,60); (62,1,16,60,58);
   (63,3,17,59,62); (64,2,15,61,58); (65,0,14,58,64); (66,1,17,62,65); (67,0,15,65,63); (68,2,16,64,67);
   (69,3,18,63,66); (70,1,18,66,69); (71,0,16,67,70); (72,1,19,70,68); (73,2,17,68,69); (74,3,19,69,71);
   (75,0,17,71,72); (76,1,20,72,73); (77,2,18,73,74); (78,3,20,74,75); (79,0,18,75,76); (80,1,21,76,77);
   (81,2,19,77,78)].
Definition ws_all : list event := map ws_ev ws_rows.
Definition ws_ordb : list Z :=
  [0; 1; 2; 3; 4; 5; 6; 7; 8; 9; 10; 11; 12; 13; 14; 15; 16; 17; 18; 19; 20; 21; 22; 23; 24; 25; 26; 27; 28; 29;
   30; 31; 32; 33; 34; 35; 36; 37; 38; 39; 40; 41; 42; 43; 44; 45; 46; 47; 48; 49; 50; 51; 52; 53; 55; 56; 58;
   54; 57; 59; 60; 61; 62; 63; 64; 65; 66; 67; 68; 69; 70; 71; 72; 73; 74; 75; 76; 77; 78; 79; 80; 81].
Definition ws_all' : list event := map (fun i => nth (Z.to_nat i) ws_all (ws_ev (0, 0, 0, 0, 0))) ws_ordb.

Definition ws_fork_obs (sa sb : hg) : Prop :=
  failed sa = false /\ failed sb = false /\
  map (fun p => (fst p, length (snd p))) (peersets sa) = [(0, 4%nat); (7, 5%nat)] /\
  map (fun p => (fst p, length (snd p))) (peersets sb) = [(0, 4%nat); (7, 5%nat)] /\
  (rnd sa 54, rnd sb 54) = (Some 8, Some 7) /\
  map (fun b => (b_index b, b_rr b, b_txs b)) (firstn 7 (delivered sa)) = map (fun b => (b_index b, b_rr b, b_txs b)) (firstn 7 (delivered sb)) /\
  option_map (fun b => (b_index b, b_rr b, b_txs b)) (nth_error (delivered sa) 7) = Some (7, 8, [46; 47; 49; 50; 51; 52; 53]) /\
  option_map (fun b => (b_index b, b_rr b, b_txs b)) (nth_error (delivered sb) 7) = Some (7, 8, [46; 47; 49; 48; 50; 51; 52; 53; 55]).

Lemma ws_trace_facts :
  let ta := trace IA (map HInsert ws_all) in let tb := trace IB (map HInsert ws_all') in
  let sa := last ta IA in let sb := last tb IB in
  ws_fork_obs sa sb /\ peersets sa = peersets sb /\ adjb gap_stepb ta = false /\ adjb gap_stepb tb = false.
Proof. vm_compute. repeat split; reflexivity. Qed.

(* the same about the runs; the two tables are equal and both nodes exceed the distance bound *)
Lemma ws_facts :
  ws_fork_obs (hrun IA (map HInsert ws_all)) (hrun IB (map HInsert ws_all')) /\
  peersets (hrun IA (map HInsert ws_all)) = peersets (hrun IB (map HInsert ws_all')) /\
  gap_runb IA (map HInsert ws_all) = false /\ gap_runb IB (map HInsert ws_all') = false.
Proof. pose proof ws_trace_facts as F. cbv zeta in F. rewrite !last_trace in F. rewrite !gap_runb_trace. exact F. Qed.
