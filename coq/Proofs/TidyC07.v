(* C07 over the full operation alphabet: the DAG invariant of Proofs/AdmissionProofs.v holds in
   every state reachable by insertion attempts INTERLEAVED WITH ProcessSigPool calls ([hrun]), not
   only by insertion attempts ([run]): ProcessSigPool does not touch the DAG
   (Proofs/HgDagFrames.v, process_sigpool_frame). *)
From Coq Require Import ZArith List Bool Lia.
From V Require Import Model.ZMap Model.Quorum Model.HgImpl
  Proofs.HgDagFrames Proofs.AdmissionProofs Proofs.BlockInv.
Import ListNotations.
Open Scope Z_scope.

Definition attempts_of (ops : list hop) : list event :=
  flat_map (fun o => match o with HInsert e => [e] | HSigPool => [] end) ops.

Lemma hstep_dag_inv st o all :
  dag_ok st -> from_attempts st all -> ids_determine all ->
  (match o with HInsert e => In e all /\ 0 <= e_id e | HSigPool => True end) ->
  dag_ok (hstep st o) /\ from_attempts (hstep st o) all.
Proof.
  intros OK FA ID Ho. destruct o as [e|]; cbn [hstep].
  - destruct Ho as [Hin Hid]. apply step_inv; assumption.
  - pose proof (process_sigpool_frame st) as F.
    split; [eapply dag_ok_frame; eauto|eapply from_attempts_frame; eauto].
Qed.

Theorem hrun_dag_ok all self_ genesis oracle_ ops :
  ids_determine all ->
  Forall (fun o => match o with HInsert e => In e all /\ 0 <= e_id e | HSigPool => True end) ops ->
  dag_ok (hrun (init_hg self_ genesis oracle_) ops) /\
  from_attempts (hrun (init_hg self_ genesis oracle_) ops) all.
Proof.
  intros ID H. unfold hrun.
  assert (G : forall st, dag_ok st -> from_attempts st all ->
              dag_ok (fold_left hstep ops st) /\ from_attempts (fold_left hstep ops st) all).
  { induction H as [|o ops Ho Hops IH]; intros st OK FA; cbn [fold_left]; [auto|].
    destruct (hstep_dag_inv st o all OK FA ID Ho) as [OK' FA']. apply IH; assumption. }
  apply G; [apply dag_ok_init|apply init_no_event].
Qed.

(* with the attempted events read off the operation sequence itself *)
Lemma ops_attempts ops :
  (forall e, In e (attempts_of ops) -> 0 <= e_id e) ->
  Forall (fun o => match o with HInsert e => In e (attempts_of ops) /\ 0 <= e_id e | HSigPool => True end) ops.
Proof.
  intros Hpos. apply Forall_forall. intros o Ho. destruct o as [e|]; [|exact I].
  assert (Hin : In e (attempts_of ops)).
  { unfold attempts_of. apply in_flat_map. exists (HInsert e). split; [exact Ho|left; reflexivity]. }
  split; [exact Hin|apply Hpos; exact Hin].
Qed.

Theorem hrun_dag_ok_ops self_ genesis oracle_ ops :
  ids_determine (attempts_of ops) -> (forall e, In e (attempts_of ops) -> 0 <= e_id e) ->
  dag_ok (hrun (init_hg self_ genesis oracle_) ops) /\
  from_attempts (hrun (init_hg self_ genesis oracle_) ops) (attempts_of ops).
Proof. intros ID Hpos. apply hrun_dag_ok; [exact ID|apply ops_attempts; exact Hpos]. Qed.

Lemma process_sigpool_dag_ok st : dag_ok st -> dag_ok (process_sigpool st).
Proof. intros OK. eapply dag_ok_frame; [exact OK|apply process_sigpool_frame]. Qed.

Lemma run_is_hrun st evs : run st evs = hrun st (map HInsert evs).
Proof. revert st. induction evs as [|e evs IH]; intros st; cbn; [reflexivity|apply IH]. Qed.
