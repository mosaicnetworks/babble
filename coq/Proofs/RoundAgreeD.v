(* Run level, dynamic membership (no [no_accept]): two nodes that respect the distance bound and whose tables
   agree on the rounds both have satisfy the division invariant for ONE per-round assignment (the table of the
   node that is ahead).  Hence they assign the same round and witness flag to every event they share, strongly-see
   between shared events has the same value (Proofs/RoundFunD.v), and they never decide the fame of a witness
   differently (Proofs/AgreementD.v). *)
From Coq Require Import ZArith List Bool Lia ZifyBool.
From V Require Import Model.ZMap Model.Quorum Model.Voting Model.HgImpl Model.PeerSetSpec Model.Window
  Proofs.ZMapFacts Proofs.HgFrames Proofs.HgDagFrames Proofs.AdmissionProofs Proofs.Ancestry
  Proofs.HgBlockFrames Proofs.BlockInv Proofs.RoundOrder Proofs.OrderProofs Proofs.Static Proofs.FirstDesc
  Proofs.Height Proofs.StronglySee Proofs.ViewOk Proofs.SameHistory Proofs.PeerSetProofs Proofs.GapWindow
  Proofs.CInvRun Proofs.Agreement Proofs.FirstDescD Proofs.CInvRunD Proofs.StronglySeeD Proofs.RoundFunD
  Proofs.AgreementD.
Import ListNotations.
Open Scope Z_scope.

Lemma gap_goodD self_ genesis oracle_ all ops :
  self_ <> -1 -> ids_determine all -> Forall (hop_ok all) ops ->
  gap_runb (init_hg self_ genesis oracle_) ops = true ->
  failed (hrun (init_hg self_ genesis oracle_) ops) = false ->
  goodD (psat (hrun (init_hg self_ genesis oracle_) ops)) (hrun (init_hg self_ genesis oracle_) ops) /\
  from_attempts (hrun (init_hg self_ genesis oracle_) ops) all.
Proof.
  intros Hs ID H Hg Hf.
  pose proof (hrun_ginv all self_ genesis oracle_ ops ID H) as Gi.
  split; [|apply (g_from _ _ (gi_core _ _ Gi))].
  constructor.
  - apply (g_dag _ _ (gi_core _ _ Gi)).
  - apply (hrun_la_ok all ops ID H); [apply ginv_init|].
    apply la_ok_no_events. intros x. destruct (cw_fields _ _ (cw_init self_ genesis oracle_)) as [Ev _].
    unfold get_event. rewrite Ev. cbn. apply zget_empty.
  - apply (hrun_cinvD_final self_ genesis oracle_ all ops Hs ID H Hg Hf).
  - eexists. apply (ginv_hmeasure all _ Gi Hf).
Qed.

(* the tables of the two states agree on the rounds both have *)
Definition tables_agree (st1 st2 : hg) : Prop :=
  forall q, get_round st1 q <> None -> get_round st2 q <> None -> get_peerset st1 q = get_peerset st2 q.

Lemma tables_agree_psat st1 st2 : tables_agree st1 st2 ->
  forall q, get_round st1 q <> None -> get_round st2 q <> None -> psat st1 q = psat st2 q.
Proof. intros T q A B. unfold psat. rewrite (T q A B). reflexivity. Qed.

Lemma psat_some self_ genesis oracle_ ops q : self_ <> -1 ->
  get_peerset (hrun (init_hg self_ genesis oracle_) ops) q = Some (psat (hrun (init_hg self_ genesis oracle_) ops) q).
Proof.
  intros Hs. destruct (hrun_c10inv self_ genesis oracle_ ops Hs) as [_ C10].
  destruct (get_nonempty q (peersets (hrun (init_hg self_ genesis oracle_) ops)) (table_wf_nonempty _ (c_wf _ _ C10))) as [ps Hps].
  unfold psat, get_peerset. rewrite Hps. reflexivity.
Qed.

Lemma tables_agree_sym st1 st2 : tables_agree st1 st2 -> tables_agree st2 st1.
Proof. intros T q A B. symmetry. apply T; assumption. Qed.

(* the node that is behind satisfies the invariant with the table of the node that is ahead *)
Lemma goodD_ahead st1 st2 :
  goodD (psat st1) st1 -> contig st1 -> contig st2 -> tables_agree st1 st2 ->
  (forall q, get_peerset st1 q = Some (psat st1 q)) -> last_round st1 <= last_round st2 ->
  goodD (psat st2) st1 /\ forall q, 0 <= q <= last_round st1 -> get_peerset st1 q = Some (psat st2 q).
Proof.
  intros G1 C1 C2 T PS1 Hle.
  assert (EQ : forall q, get_round st1 q <> None -> psat st1 q = psat st2 q).
  { intros q Hq. apply (tables_agree_psat st1 st2 T q Hq). apply C2. apply C1 in Hq. lia. }
  split; [exact (goodD_ext _ _ st1 EQ G1)|].
  intros q Hq. rewrite PS1. f_equal. apply EQ. apply C1. exact Hq.
Qed.

Lemma two_runs_common all s1 s2 g1 g2 o1 o2 ops1 ops2 :
  ids_determine all -> s1 <> -1 -> s2 <> -1 ->
  Forall (hop_ok all) ops1 -> Forall (hop_ok all) ops2 ->
  gap_runb (init_hg s1 g1 o1) ops1 = true -> gap_runb (init_hg s2 g2 o2) ops2 = true ->
  let st1 := hrun (init_hg s1 g1 o1) ops1 in
  let st2 := hrun (init_hg s2 g2 o2) ops2 in
  failed st1 = false -> failed st2 = false -> tables_agree st1 st2 ->
  exists P,
    goodD P st1 /\ goodD P st2 /\ rinv st1 /\ rinv st2 /\
    (forall q, 0 <= q <= last_round st1 -> get_peerset st1 q = Some (P q)) /\
    (forall q, 0 <= q <= last_round st2 -> get_peerset st2 q = Some (P q)) /\
    same_bodies st1 st2.
Proof.
  intros ID S1 S2 H1 H2 B1 B2 st1 st2 F1 F2 T.
  destruct (gap_goodD s1 g1 o1 all ops1 S1 ID H1 B1 F1) as [G1 FA1].
  destruct (gap_goodD s2 g2 o2 all ops2 S2 ID H2 B2 F2) as [G2 FA2].
  fold st1 in G1, FA1. fold st2 in G2, FA2.
  pose proof (proj2 (hrun_rtop s1 g1 o1 ops1) F1) as R1. fold st1 in R1.
  pose proof (proj2 (hrun_rtop s2 g2 o2 ops2) F2) as R2. fold st2 in R2.
  pose proof (same_bodies_of_universeD all _ _ st1 st2 ID G1 G2 FA1 FA2) as SB.
  assert (PS1 : forall q, get_peerset st1 q = Some (psat st1 q)) by (intros q; apply psat_some; exact S1).
  assert (PS2 : forall q, get_peerset st2 q = Some (psat st2 q)) by (intros q; apply psat_some; exact S2).
  destruct (Z_le_gt_dec (last_round st1) (last_round st2)) as [Hle|Hgt].
  - destruct (goodD_ahead st1 st2 G1 (rinv_contig _ R1) (rinv_contig _ R2) T PS1 Hle) as [G1' T1].
    exists (psat st2). exact (conj G1' (conj G2 (conj R1 (conj R2 (conj T1 (conj (fun q _ => PS2 q) SB)))))).
  - destruct (goodD_ahead st2 st1 G2 (rinv_contig _ R2) (rinv_contig _ R1) (tables_agree_sym _ _ T) PS2 ltac:(lia))
      as [G2' T2].
    exists (psat st1). exact (conj G1 (conj G2' (conj R1 (conj R2 (conj (fun q _ => PS1 q) (conj T2 SB)))))).
Qed.

Section TwoRuns.
  Variables (all : list event) (s1 s2 : Z) (g1 g2 : peerset) (o1 o2 : list Z) (ops1 ops2 : list hop).
  Hypothesis ID : ids_determine all.
  Hypothesis S1 : s1 <> -1.
  Hypothesis S2 : s2 <> -1.
  Hypothesis H1 : Forall (hop_ok all) ops1.
  Hypothesis H2 : Forall (hop_ok all) ops2.
  Hypothesis B1 : gap_runb (init_hg s1 g1 o1) ops1 = true.
  Hypothesis B2 : gap_runb (init_hg s2 g2 o2) ops2 = true.
  Let st1 := hrun (init_hg s1 g1 o1) ops1.
  Let st2 := hrun (init_hg s2 g2 o2) ops2.
  Hypothesis F1 : failed st1 = false.
  Hypothesis F2 : failed st2 = false.
  Hypothesis T : tables_agree st1 st2.

  Theorem gap_round_agree x e1 e2 :
    get_event st1 x = Some e1 -> get_event st2 x = Some e2 ->
    ev_round e1 = ev_round e2 /\ ev_round e1 <> None /\
    zget x (round_memo st1) = zget x (round_memo st2) /\ zget x (witness_memo st1) = zget x (witness_memo st2).
  Proof.
    destruct (gap_goodD s1 g1 o1 all ops1 S1 ID H1 B1 F1) as [G1 FA1].
    destruct (gap_goodD s2 g2 o2 all ops2 S2 ID H2 B2 F2) as [G2 FA2].
    exact (round_agreeD _ _ st1 st2 G1 G2 (same_bodies_of_universeD all _ _ st1 st2 ID G1 G2 FA1 FA2)
             (tables_agree_psat st1 st2 T) x e1 e2).
  Qed.

  Theorem gap_strongly_see_agree g x w e1x e2x e1w e2w :
    get_event st1 x = Some e1x -> get_event st2 x = Some e2x ->
    get_event st1 w = Some e1w -> get_event st2 w = Some e2w ->
    strongly_see st1 x w g = strongly_see st2 x w g /\ strongly_see st1 x w g <> None.
  Proof.
    destruct (gap_goodD s1 g1 o1 all ops1 S1 ID H1 B1 F1) as [G1 FA1].
    destruct (gap_goodD s2 g2 o2 all ops2 S2 ID H2 B2 F2) as [G2 FA2].
    exact (strongly_see_agreeD _ _ st1 st2 G1 G2 (same_bodies_of_universeD all _ _ st1 st2 ID G1 G2 FA1 FA2)
             (tables_agree_psat st1 st2 T) g x w e1x e2x e1w e2w).
  Qed.

  Hypothesis NF : no_cross_fork st1 st2.

  Theorem gap_fame_agreement x r v1 v2 :
    fame_of st1 x r = Some (Some v1) -> fame_of st2 x r = Some (Some v2) -> v1 = v2.
  Proof.
    destruct (two_runs_common all s1 s2 g1 g2 o1 o2 ops1 ops2 ID S1 S2 H1 H2 B1 B2 F1 F2 T)
      as [P [G1 [G2 [R1 [R2 [T1 [T2 SB]]]]]]].
    exact (fame_agreement_statesD P st1 st2 x r v1 v2 G1 R1 T1 G2 R2 T2 SB NF).
  Qed.
End TwoRuns.

(* over a fork-free universe of events *)
Theorem gap_fame_agreement_universe all s1 s2 g1 g2 o1 o2 ops1 ops2 x r v1 v2 :
  ids_determine all -> fork_free all -> s1 <> -1 -> s2 <> -1 ->
  Forall (hop_ok all) ops1 -> Forall (hop_ok all) ops2 ->
  gap_runb (init_hg s1 g1 o1) ops1 = true -> gap_runb (init_hg s2 g2 o2) ops2 = true ->
  failed (hrun (init_hg s1 g1 o1) ops1) = false -> failed (hrun (init_hg s2 g2 o2) ops2) = false ->
  tables_agree (hrun (init_hg s1 g1 o1) ops1) (hrun (init_hg s2 g2 o2) ops2) ->
  fame_of (hrun (init_hg s1 g1 o1) ops1) x r = Some (Some v1) ->
  fame_of (hrun (init_hg s2 g2 o2) ops2) x r = Some (Some v2) -> v1 = v2.
Proof.
  intros ID FF S1 S2 H1 H2 B1 B2 F1 F2 T.
  destruct (gap_goodD s1 g1 o1 all ops1 S1 ID H1 B1 F1) as [G1 FA1].
  destruct (gap_goodD s2 g2 o2 all ops2 S2 ID H2 B2 F2) as [G2 FA2].
  apply (gap_fame_agreement all s1 s2 g1 g2 o1 o2 ops1 ops2 ID S1 S2 H1 H2 B1 B2 F1 F2 T).
  apply (no_cross_fork_of_universe all _ _ FF (gD_dag _ _ G1) (gD_dag _ _ G2) FA1 FA2).
Qed.

(* same delivered blocks (same genesis) => same table *)
Lemma same_blocks_tables_agree s1 s2 g o1 o2 ops1 ops2 :
  s1 <> -1 -> s2 <> -1 ->
  delivered (hrun (init_hg s1 g o1) ops1) = delivered (hrun (init_hg s2 g o2) ops2) ->
  tables_agree (hrun (init_hg s1 g o1) ops1) (hrun (init_hg s2 g o2) ops2).
Proof.
  intros S1 S2 E q _ _.
  pose proof (eq_trans (eq_trans (reach_table s1 g o1 ops1 S1) (f_equal (replay [(0, g)] g) E))
                       (eq_sym (reach_table s2 g o2 ops2 S2))) as Q.
  unfold get_peerset. inversion Q as [[Q1 Q2]]. unfold reach in Q1. rewrite Q1. reflexivity.
Qed.
