(* C13, serving side: the values a frame records for its events (round, Lamport timestamp, witness
   flag) are the serving node's memoised values, in every reachable state and for ever: memo entries
   are never overwritten, a created entry never changes its witness flag. *)
From Coq Require Import ZArith List Bool Lia ZifyBool Sorted.
From RecordUpdate Require Import RecordSet.
From V Require Import Model.ZMap Model.Quorum Model.Voting Model.HgImpl Model.HgReset
  Proofs.ZMapFacts Proofs.HgFrames Proofs.HgDagFrames Proofs.HgBlockFrames Proofs.AdmissionProofs Proofs.BlockInv Proofs.RoundOrder
  Proofs.OrderFrames Proofs.OrderProofs Proofs.PeerSetProofs Proofs.FrameFn Proofs.ResetProofs.
Import ListNotations RecordSetNotations.
Open Scope Z_scope.

Definition rm_ext (st st' : hg) : Prop :=
  forall x r, zget x (round_memo st) = Some r -> zget x (round_memo st') = Some r.
Definition cr_ext (st st' : hg) : Prop :=
  forall r ri x w t, get_round st r = Some ri -> aget x (ri_created ri) = Some (w, t) ->
    exists ri' t', get_round st' r = Some ri' /\ aget x (ri_created ri') = Some (w, t').
Definition cmono (st st' : hg) : Prop := rm_ext st st' /\ cr_ext st st'.

Lemma rm_ext_refl a : rm_ext a a.
Proof. intros x r H. exact H. Qed.
Lemma rm_ext_trans a b c : rm_ext a b -> rm_ext b c -> rm_ext a c.
Proof. intros A B x r H. apply B, A, H. Qed.

Lemma cmono_trans a b c : cmono a b -> cmono b c -> cmono a c.
Proof.
  intros [A1 A2] [B1 B2]. split; [exact (rm_ext_trans _ _ _ A1 B1)|].
  intros r ri x w t H A. destruct (A2 _ _ _ _ _ H A) as [ri' [t' [H' A']]]. eapply B2; eauto.
Qed.
Lemma cmono_rm st st' : rm_ext st st' -> rounds st' = rounds st -> cmono st st'.
Proof.
  intros E1 E2. split; [exact E1|]. intros r ri x w t H A. exists ri, t. unfold get_round in *. rewrite E2. auto.
Qed.
Lemma cmono_same st st' : round_memo st' = round_memo st -> rounds st' = rounds st -> cmono st st'.
Proof. intros E1. apply cmono_rm. intros x r. rewrite E1. auto. Qed.
(* _round writes the memo only for an event that has no entry *)
Lemma round_f_rm fuel : forall st x, rm_ext st (snd (round_f fuel st x)).
Proof.
  induction fuel as [|f IH]; intros st x; cbn [round_f]; (destruct (zget x (round_memo st)) eqn:Hx; [apply rm_ext_refl|]);
    [apply rm_ext_refl|].
  destruct (get_event st x) as [ex|]; [|apply rm_ext_refl].
  assert (P : forall p s, rm_ext s (snd (if p =? -1 then (Some (-1), s) else round_f f s p)))
    by (intros p s; destruct (p =? -1); [apply rm_ext_refl|apply IH]).
  pose proof (P (e_sp (ev_e ex)) st) as P1.
  destruct (if e_sp (ev_e ex) =? -1 then _ else _) as [[spr|] st1]; cbn [snd] in P1; [|exact P1].
  pose proof (rm_ext_trans _ _ _ P1 (P (e_op (ev_e ex)) st1)) as P2.
  destruct (if e_op (ev_e ex) =? -1 then _ else _) as [[opr|] st2]; cbn [snd] in P2; [|exact P2].
  assert (M : forall v, rm_ext st (st2 <| round_memo := zset x v (round_memo st2) |>)).
  { intros v y r Hy. change (zget y (zset x v (round_memo st2)) = Some r).
    rewrite zget_zset_other by congruence. apply P2, Hy. }
  cbv zeta. destruct (_ =? -1); cbn [snd]; [apply M|].
  destruct (get_round st2 _); [|exact P2]. destruct (get_peerset st2 _); [|exact P2].
  destruct (fold_left _ _ _); cbn [snd]; [apply M|exact P2].
Qed.

Lemma witness_f_rm fuel st x : rm_ext st (snd (witness_f fuel st x)).
Proof.
  unfold witness_f. destruct (zget x (witness_memo st)); [apply rm_ext_refl|].
  destruct (get_event st x) as [ex|]; [|apply rm_ext_refl].
  pose proof (round_f_rm fuel st x) as P1.
  destruct (round_f fuel st x) as [[xr|] st1]; cbn [snd] in P1; [|exact P1].
  destruct (get_peerset st1 xr); [|exact P1].
  destruct (negb _); cbn [snd]; [exact P1|].
  destruct (e_sp (ev_e ex) =? -1); cbn [snd]; [exact P1|].
  pose proof (rm_ext_trans _ _ _ P1 (round_f_rm fuel st1 (e_sp (ev_e ex)))) as P2.
  destruct (round_f fuel st1 (e_sp (ev_e ex))) as [[spr|] st2]; exact P2.
Qed.

Lemma round_f_cmono fuel st x : cmono st (snd (round_f fuel st x)).
Proof. apply cmono_rm; [apply round_f_rm|apply nomemo_eq_rounds, round_f_nomemo]. Qed.
Lemma witness_f_cmono fuel st x : cmono st (snd (witness_f fuel st x)).
Proof. apply cmono_rm; [apply witness_f_rm|apply nomemo_eq_rounds, witness_f_nomemo]. Qed.
Lemma lamport_f_cmono fuel st x : cmono st (snd (lamport_f fuel st x)).
Proof. apply cmono_same; [apply lamport_f_round_memo|apply nomemo_eq_rounds, lamport_f_nomemo]. Qed.

(** * Created lists only grow, witness flags never change *)

Definition cr_le (ri ri' : rinfo) : Prop :=
  forall x w t, aget x (ri_created ri) = Some (w, t) -> exists t', aget x (ri_created ri') = Some (w, t').

Lemma cr_le_created ri ri' : ri_created ri' = ri_created ri -> cr_le ri ri'.
Proof. intros E x w t H. rewrite E. eauto. Qed.
Lemma cr_le_refl ri : cr_le ri ri.
Proof. apply cr_le_created. reflexivity. Qed.
Lemma cr_le_trans a b c : cr_le a b -> cr_le b c -> cr_le a c.
Proof. intros A B x w t H. destruct (A _ _ _ H) as [t' H']. eapply B; eauto. Qed.

Lemma cr_le_add_created ri x w : cr_le ri (add_created ri x w).
Proof.
  unfold add_created. destruct (aget x (ri_created ri)) eqn:A; [apply cr_le_refl|].
  intros y w' t H. exists t. cbn [ri_created set]. apply aget_app_some. exact H.
Qed.

Lemma cr_le_set_fame ri x f : cr_le ri (set_fame ri x f).
Proof.
  unfold set_fame. destruct (aget x (ri_created ri)) as [[w0 t0]|] eqn:A.
  - intros y w t H. cbn [ri_created set]. destruct (Z.eq_dec x y) as [->|Hne].
    + rewrite aget_aset_same. rewrite A in H. inversion H; subst. eauto.
    + rewrite aget_aset_other by exact Hne. eauto.
  - intros y w t H. exists t. cbn [ri_created set]. apply aget_app_some. exact H.
Qed.

Lemma cr_le_witnesses_decided ri ps : cr_le ri (snd (witnesses_decided ri ps)).
Proof.
  unfold witnesses_decided. destruct (ri_decided ri); [apply cr_le_refl|].
  destruct (existsb _ _); [apply cr_le_refl|]. apply cr_le_created. reflexivity.
Qed.

Lemma cmono_set_round s i ri' : cr_le (round_or_new s i) ri' -> cmono s (set_round s i ri').
Proof.
  intros H. split; [exact (rm_ext_refl s)|].
  intros r ri x w t Hr A. change (get_round (set_round s i ri') r) with (zget r (zset i ri' (rounds s))).
  rewrite zget_zset. destruct (Z.eqb_spec i r) as [->|Hne]; cbn [andb]; [|eauto].
  destruct (0 <=? r); [|eauto]. unfold round_or_new in H. rewrite Hr in H. destruct (H x w t A) as [t' A']. eauto.
Qed.

Lemma cmono_ok : ord_ok cmono cr_le.
Proof.
  constructor; try (intros; apply cmono_same; reflexivity).
  - exact cmono_trans.
  - exact round_f_cmono.
  - exact witness_f_cmono.
  - exact lamport_f_cmono.
  - exact cmono_set_round.
  - intros st r ri ri' Hr L. apply (cmono_trans _ (set_round st r ri')); [|apply cmono_same; reflexivity].
    apply cmono_set_round. unfold round_or_new. rewrite Hr. exact L.
  - exact cr_le_refl.
  - exact cr_le_trans.
  - exact cr_le_add_created.
  - exact cr_le_set_fame.
  - exact cr_le_witnesses_decided.
  - intros ri l. apply cr_le_created. reflexivity.
Qed.

Lemma store_set_event_cmono st es st' : store_set_event st es = Some st' -> cmono st st'.
Proof. intros H. destruct (store_set_event_footprint _ _ _ H) as [P ->]. apply cmono_same; reflexivity. Qed.

Lemma insert_event_cmono st e : cmono st (snd (insert_event st e)).
Proof.
  exact (insert_event_steps _ _ cmono_ok (fun _ _ => cmono_same _ _ eq_refl eq_refl) (fun _ _ => cmono_same _ _ eq_refl eq_refl)
           (fun _ _ => cmono_same _ _ eq_refl eq_refl) store_set_event_cmono st e).
Qed.
Lemma divide_rounds_cmono st : cmono st (divide_rounds st).
Proof. exact (divide_rounds_steps _ _ cmono_ok st). Qed.
Lemma decide_fame_cmono st : cmono st (decide_fame st).
Proof. exact (decide_fame_steps _ _ cmono_ok st). Qed.
Lemma decide_round_received_cmono st : cmono st (decide_round_received st).
Proof. exact (decide_round_received_steps _ _ cmono_ok st). Qed.

(* ProcessDecidedRounds and ProcessSigPool write neither the events, the round table nor a memo table *)
Lemma okeep_nf_blk_rest s s' : blk_rest s' = blk_rest s -> okeep_nf s s'.
Proof.
  intros H. pose proof (f_equal (fun '(ev, ro, _, und, rm, _, lt, _, _, _) => (lt, ev, ro, und, rm)) H) as E.
  injection E as E1 E2 E3 E4 E5. unfold okeep_nf. auto.
Qed.

Lemma process_round_nf s p stop pr : okeep_nf s (fst (fst (process_round (s, p, stop) pr))).
Proof.
  apply okeep_nf_blk_rest, (process_round_steps (fun s s' => blk_rest s' = blk_rest s)).
  - intros a b c H1 H2. rewrite H2. exact H1.
  - intros st r ps st' H. apply blk_rest_commit_rest, (set_peerset_commit_rest _ _ _ _ H).
  - apply blk_rest_round_rest.
Qed.

Lemma cmono_nf s s' : okeep_nf s s' -> cmono s s'.
Proof. intros [_ [_ [K3 [_ K5]]]]. apply cmono_same; assumption. Qed.

Lemma process_decided_rounds_nf st : okeep_nf st (process_decided_rounds st).
Proof. apply okeep_nf_blk_rest, process_decided_rounds_blk_rest. Qed.

Lemma hstep_cmono st o : cmono st (hstep st o).
Proof.
  destruct o as [e|]; cbn [hstep]; [|apply cmono_nf, ov_nf, process_sigpool_ov].
  unfold step, insert_and_run. pose proof (insert_event_cmono st e) as F.
  destruct (insert_event st e) as [r s]. cbn [snd] in *. destruct r; cbn [snd]; try exact F.
  apply (cmono_trans _ _ _ F), (run_consensus_preorder cmono cmono_trans); intros s0;
    [apply divide_rounds_cmono|apply decide_fame_cmono|apply decide_round_received_cmono|
     apply cmono_nf, process_decided_rounds_nf].
Qed.

(** * Every event of a computed frame comes from createFrameEvent *)

Definition from_cfe (st : hg) (fe : frameev) : Prop := exists x, create_frame_event st x = Some fe.

Lemma root_below_from st c : forall n index l, root_below st c index n = Some l -> Forall (from_cfe st) l.
Proof.
  induction n as [|n IH]; intros index l; cbn [root_below]; [intros H; inversion H; constructor|].
  destruct (index - 1 <? 0); [intros H; inversion H; constructor|].
  destruct (participant_event st c (index - 1)) as [peh|]; [|intros H; inversion H; constructor].
  destruct (create_frame_event st peh) as [fe|] eqn:Hc; [|discriminate].
  destruct (root_below st c (index - 1) n) as [rest|] eqn:Hr; [|discriminate].
  intros H; inversion H; subst. constructor; [exists peh; exact Hc|eapply IH; eauto].
Qed.

Lemma create_root_from st c head l : create_root st c head = Some l -> Forall (from_cfe st) l.
Proof.
  unfold create_root. destruct (head =? -1); [intros H; inversion H; constructor|].
  destruct (create_frame_event st head) as [hfe|] eqn:Hc; [|discriminate].
  destruct (get_event st head) as [he|]; [|discriminate].
  destruct (root_below st c (e_index (ev_e he)) ROOT_DEPTH) as [below|] eqn:Hb; [|discriminate].
  intros H. assert (E : l = rev (hfe :: below)) by congruence. rewrite E. apply Forall_rev. constructor; [exists head; exact Hc|eapply root_below_from; eauto].
Qed.

Definition roots_all (P : Z -> list frameev -> Prop) (roots : list (Z * list frameev)) : Prop :=
  forall c l, In (c, l) roots -> P c l.

Lemma roots_insert_all (P : Z -> list frameev -> Prop) c r roots :
  P c r -> roots_all P roots -> roots_all P (roots_insert c r roots).
Proof.
  intros Hr. induction roots as [|[c' r'] rest IH]; intros H; cbn [roots_insert].
  - intros c0 l [E|[]]. inversion E; subst. exact Hr.
  - destruct (c <? c').
    + intros c0 l [E|Hin]; [inversion E; subst; exact Hr|apply (H c0 l Hin)].
    + destruct (c =? c'); [exact H|].
      intros c0 l [E|Hin]; [apply (H c0 l); left; exact E|].
      apply (IH (fun a b Hab => H a b (or_intror Hab)) c0 l Hin).
Qed.

(* every root the two phases of the roots computation insert is a value of [rootf] *)
Lemma roots1_fn_all (P : Z -> list frameev -> Prop) cre spf rootf : (forall c h, P c (rootf c h)) ->
  forall sorted roots, roots_all P roots -> roots_all P (roots1_fn cre spf rootf sorted roots).
Proof.
  intros HP. unfold roots1_fn. induction sorted as [|fe l IH]; intros roots H; cbn [fold_left]; [exact H|].
  apply IH. cbv zeta. destruct (aget _ roots); [exact H|]. apply roots_insert_all; [apply HP|exact H].
Qed.
Lemma roots2_fn_all (P : Z -> list frameev -> Prop) rootf rep frs lce rr : (forall c h, P c (rootf c h)) ->
  forall roots, roots_all P roots -> roots_all P (roots2_fn rootf rep frs lce rr roots).
Proof.
  intros HP. unfold roots2_fn. induction rep as [|p l IH]; intros roots H; cbn [fold_left]; [exact H|].
  apply IH. destruct (aget (pid p) frs); [|exact H]. destruct (rr <? _); [exact H|].
  destruct (aget (pkey p) roots); [exact H|]. apply roots_insert_all; [apply HP|exact H].
Qed.

(* every root of a freshly computed frame is the result of createRoot, every event of the frame
   the result of createFrameEvent *)
Lemma get_frame_fresh_roots st rr f st' (P : Z -> list frameev -> Prop) :
  (forall c, P c []) -> (forall c head r, create_root st c head = Some r -> P c r) ->
  zget rr (frames st) = None -> get_frame st rr = (Some f, st') ->
  roots_all P (f_roots f) /\ Forall (from_cfe st) (f_events f) /\ st' = st <| frames := zset rr f (frames st) |>.
Proof.
  intros P0 HP Hc H.
  destruct (get_frame_new_spec st rr f st' Hc H) as (ri & evs & _ & E & _ & _ & _ & Hev & F2 & _ & Hroots).
  assert (Hroot : forall c h, P c (root_of st c h)).
  { intros c h. unfold root_of. destruct (create_root st c h) eqn:Cr; [eapply HP; exact Cr|apply P0]. }
  split; [|split; [|exact E]].
  - rewrite Hroots. apply roots2_fn_all; [exact Hroot|]. apply roots1_fn_all; [exact Hroot|intros c l []].
  - rewrite Hev. apply Forall_forall. intros fe Hin.
    apply (Permutation.Permutation_in fe (OrderSort.fe_sort_perm st evs)) in Hin.
    clear - F2 Hin. induction F2 as [|x fe0 xs fes Hx _ IH]; [destruct Hin|].
    destruct Hin as [<-|Hin]; [exists x; exact Hx|apply IH; exact Hin].
Qed.

Lemma get_frame_fresh_from st rr f st' :
  zget rr (frames st) = None -> get_frame st rr = (Some f, st') ->
  Forall (from_cfe st) (all_frame_events f) /\ st' = st <| frames := zset rr f (frames st) |>.
Proof.
  intros Hc H.
  destruct (get_frame_fresh_roots st rr f st' (fun _ l => Forall (from_cfe st) l) (fun _ => Forall_nil _)
              (fun c head r Hr => create_root_from st c head r Hr) Hc H) as [R2 [Fe E]].
  split; [|exact E].
  unfold all_frame_events, root_events. apply Forall_app. split; [|exact Fe].
  rewrite Forall_forall. intros fe Hin. apply in_flat_map in Hin. destruct Hin as [[c l] [Hcl Hfe]].
  specialize (R2 c l Hcl). cbn in R2. rewrite Forall_forall in R2. apply R2. exact Hfe.
Qed.

(** * Root depth: a root is the head and at most ROOT_DEPTH consecutive self-ancestors *)

Definition root_shape (st : hg) (c : Z) (l : list frameev) : Prop :=
  (length l <= S ROOT_DEPTH)%nat /\
  exists idx, forall k fe, nth_error l k = Some fe ->
    exists es, get_event st (fe_id fe) = Some es /\ e_index (ev_e es) = idx + Z.of_nat k /\
               ((S k < length l)%nat -> e_creator (ev_e es) = c).

Lemma root_shape_nil st c : root_shape st c [].
Proof. split; [cbn; lia|]. exists 0. intros k fe Hk. destruct k; discriminate. Qed.

Lemma participant_event_spec st c i x : dag_ok st -> participant_event st c i = Some x ->
  exists es, get_event st x = Some es /\ e_creator (ev_e es) = c /\ e_index (ev_e es) = i.
Proof.
  intros OK. unfold participant_event. destruct (zget c (pevents st)) as [p|] eqn:Hp; [|discriminate].
  destruct (d_chain st OK c p Hp) as [Hl Hn]. unfold pidx_get_item. rewrite Hl.
  replace (Z.of_nat (length (pi_items p)) - 1 - Z.of_nat (length (pi_items p)) + 1) with 0 by lia.
  destruct (i <? 0) eqn:Hi; [discriminate|]. replace (i - 0) with i by lia.
  destruct (Z.of_nat (length (pi_items p)) <=? i); [discriminate|]. intros H.
  destruct (Hn _ _ H) as [es [Hg [Hc Hidx]]]. exists es. rewrite Z2Nat.id in Hidx by lia. auto.
Qed.

Lemma cfe_id st x fe : create_frame_event st x = Some fe -> fe_id fe = x.
Proof. intros H. apply (create_frame_event_spec st x fe H). Qed.

Lemma root_below_shape st c : dag_ok st -> forall n index l, root_below st c index n = Some l ->
  (length l <= n)%nat /\
  forall j fe, nth_error l j = Some fe ->
    exists es, get_event st (fe_id fe) = Some es /\ e_creator (ev_e es) = c /\ e_index (ev_e es) = index - 1 - Z.of_nat j.
Proof.
  intros OK. induction n as [|n IH]; intros index l; cbn [root_below].
  - intros H; inversion H. split; [cbn; lia|]. intros j fe Hj. destruct j; discriminate.
  - destruct (index - 1 <? 0); [intros H; inversion H; split; [cbn; lia|intros j fe Hj; destruct j; discriminate]|].
    destruct (participant_event st c (index - 1)) as [peh|] eqn:Hp;
      [|intros H; inversion H; split; [cbn; lia|intros j fe Hj; destruct j; discriminate]].
    destruct (create_frame_event st peh) as [fe0|] eqn:Hc; [|discriminate].
    destruct (root_below st c (index - 1) n) as [rest|] eqn:Hr; [|discriminate].
    intros H; inversion H; subst l. destruct (IH _ _ Hr) as [Hlen Hnth]. split; [cbn [length]; lia|].
    intros j fe Hj. destruct j as [|j]; cbn [nth_error] in Hj.
    + inversion Hj; subst fe. rewrite (cfe_id _ _ _ Hc).
      destruct (participant_event_spec st c _ _ OK Hp) as [es [Hg [Hcr Hi]]]. exists es. split; [exact Hg|split; [exact Hcr|lia]].
    + destruct (Hnth j fe Hj) as [es [Hg [Hcr Hi]]]. exists es. split; [exact Hg|split; [exact Hcr|lia]].
Qed.

Lemma nth_error_rev {A} (l : list A) : forall k, (k < length l)%nat -> nth_error (rev l) k = nth_error l (length l - S k).
Proof.
  induction l as [|x l IH]; intros k Hk; [cbn in Hk; lia|]. cbn [rev length] in *.
  destruct (Nat.eq_dec k (length l)) as [->|Hne].
  - rewrite nth_error_app2 by (rewrite rev_length; lia). rewrite rev_length, Nat.sub_diag.
    replace (S (length l) - S (length l))%nat with 0%nat by lia. reflexivity.
  - rewrite nth_error_app1 by (rewrite rev_length; lia). rewrite IH by lia.
    replace (S (length l) - S k)%nat with (S (length l - S k)) by lia. reflexivity.
Qed.

Lemma create_root_shape st c head l : dag_ok st -> create_root st c head = Some l -> root_shape st c l.
Proof.
  intros OK. unfold create_root. destruct (head =? -1); [intros [= <-]; apply root_shape_nil|].
  destruct (create_frame_event st head) as [hfe|] eqn:Hc; [|discriminate].
  destruct (get_event st head) as [he|] eqn:Hh; [|discriminate].
  destruct (root_below st c (e_index (ev_e he)) ROOT_DEPTH) as [below|] eqn:Hb; [|discriminate].
  intros H. assert (E : l = rev (hfe :: below)) by congruence. subst l. clear H.
  destruct (root_below_shape st c OK _ _ _ Hb) as [Hlen Hnth].
  split; [rewrite rev_length; cbn [length]; lia|].
  exists (e_index (ev_e he) - Z.of_nat (length below)).
  intros k fe Hk.
  assert (Hklt : (k < length (hfe :: below))%nat).
  { rewrite <- rev_length. apply nth_error_Some. congruence. }
  rewrite nth_error_rev in Hk by exact Hklt. cbn [length] in *. rewrite rev_length. cbn [length].
  destruct (S (length below) - S k)%nat as [|m] eqn:Em; cbn [nth_error] in Hk.
  - inversion Hk; subst fe. rewrite (cfe_id _ _ _ Hc). exists he. split; [exact Hh|split; [lia|intros; lia]].
  - destruct (Hnth m fe Hk) as [es [Hg [Hcr Hi]]]. exists es. split; [exact Hg|split; [lia|intros _; exact Hcr]].
Qed.

Lemma root_shape_mono st st' c l : eext st st' -> root_shape st c l -> root_shape st' c l.
Proof.
  intros E [Hlen [idx H]]. split; [exact Hlen|]. exists idx. intros k fe Hk.
  destruct (H k fe Hk) as [es [Hg [Hi Hc]]]. destruct (E _ _ Hg) as [es' [Hg' Ee]]. exists es'. rewrite Ee. auto.
Qed.
Lemma root_shape_nf st st' c l : events st' = events st -> root_shape st c l -> root_shape st' c l.
Proof. intros E. unfold root_shape, get_event. rewrite E. auto. Qed.

Definition frame_event_ok (st : hg) (fe : frameev) : Prop :=
  zget (fe_id fe) (round_memo st) = Some (fe_round fe) /\
  zget (fe_id fe) (lt_memo st) = Some (fe_lt fe) /\
  (exists ri t, get_round st (fe_round fe) = Some ri /\ aget (fe_id fe) (ri_created ri) = Some (fe_wit fe, t)) /\
  (exists ex, get_event st (fe_id fe) = Some ex) /\ 0 <= fe_id fe /\ 0 <= fe_round fe.

Lemma from_cfe_ok st fe : from_cfe st fe -> frame_event_ok st fe.
Proof.
  intros [x H]. unfold create_frame_event in H.
  destruct (get_event st x) as [ex0|] eqn:Hx; [|discriminate]. destruct (zget x (round_memo st)) as [r|] eqn:Hr; [|discriminate].
  destruct (get_round st r) as [ri|] eqn:Hri; [|discriminate].
  destruct (aget x (ri_created ri)) as [[w t]|] eqn:Ha; [|discriminate].
  destruct (zget x (lt_memo st)) as [lt|] eqn:Hl; [|discriminate]. inversion H; subst; clear H.
  unfold frame_event_ok. cbn [fe_id fe_round fe_lt fe_wit].
  split; [exact Hr|split; [exact Hl|split; [eauto|split; [eauto|]]]].
  split; [unfold get_event in Hx; eapply zget_some_nonneg; eauto|unfold get_round in Hri; eapply zget_some_nonneg; eauto].
Qed.

Lemma frame_event_ok_mono st st' fe :
  cmono st st' -> memo_ext st st' -> eext st st' -> frame_event_ok st fe -> frame_event_ok st' fe.
Proof.
  intros [RM CR] ME EE (A & B & (ri & t & C1 & C2) & (ex & D) & P).
  split; [apply RM; exact A|split; [apply ME; exact B|split; [|split; [|exact P]]]].
  - destruct (CR _ _ _ _ _ C1 C2) as [ri' [t' [H1 H2]]]. eauto.
  - destruct (EE _ _ D) as [ex' [H _]]. eauto.
Qed.

(* a cached frame: its events carry the memoised values, its roots have the ROOT_DEPTH shape *)
Definition frame_good (st : hg) (f : frame) : Prop :=
  Forall (frame_event_ok st) (all_frame_events f) /\ roots_all (root_shape st) (f_roots f).

Definition fmemo (st : hg) : Prop :=
  forall rr f, zget rr (frames st) = Some f -> frame_good st f.

Lemma fmemo_mono st st' :
  cmono st st' -> memo_ext st st' -> eext st st' -> frames st' = frames st -> fmemo st -> fmemo st'.
Proof.
  intros C M E F H rr f. rewrite F. intros Hf. destruct (H rr f Hf) as [H1 H2]. split.
  - rewrite Forall_forall in *. intros fe Hin. eapply frame_event_ok_mono; eauto.
  - intros c l Hin. eapply root_shape_mono; [exact E|]. apply H2; exact Hin.
Qed.

(** * ProcessDecidedRounds: new frames are made of createFrameEvent results *)

Lemma feok_nf s s' fe : okeep_nf s s' -> frame_event_ok s fe -> frame_event_ok s' fe.
Proof.
  intros [K1 [K2 [K3 [_ K5]]]]. unfold frame_event_ok, get_round, get_event. rewrite K1, K2, K3, K5. auto.
Qed.

Lemma frame_good_nf s s' f : okeep_nf s s' -> frame_good s f -> frame_good s' f.
Proof.
  intros K [H1 H2]. split.
  - rewrite Forall_forall in *. intros fe Hin. eapply feok_nf; eauto.
  - intros c l Hin. eapply root_shape_nf; [exact (proj1 (proj2 K))|]. apply H2; exact Hin.
Qed.

Lemma process_round_fmemo s p stop pr :
  dag_ok s -> fmemo s -> fmemo (fst (fst (process_round (s, p, stop) pr))).
Proof.
  intros OK F.
  (* nothing a frame's goodness reads changes; the cache gains at most a freshly computed frame *)
  assert (Good : forall s', okeep_nf s s' -> (forall rr g, zget rr (frames s') = Some g -> frame_good s g) -> fmemo s').
  { intros s' K H rr g Hg. eapply frame_good_nf; [exact K|]. apply (H rr g Hg). }
  apply Good; [apply process_round_nf|]. unfold process_round.
  destruct (stop || failed s); [exact F|].
  destruct (negb (snd pr)); [exact F|].
  destruct (get_round s (fst pr)); [|exact F].
  destruct (get_frame s (fst pr)) as [[f|] s1] eqn:G; cbn [fst snd].
  2:{ rewrite (get_frame_none _ _ _ G). exact F. }
  destruct (ov_nf _ _ (process_frame_ov s1 f)) as [_ E2]. destruct (bump_keep (process_frame s1 f) (fst pr)) as [_ [E3 _]].
  intros rr g. rewrite E3, E2.
  destruct (zget (fst pr) (frames s)) as [f0|] eqn:Hc.
  { rewrite (get_frame_cached s _ _ Hc) in G. inversion G; subst. apply F. }
  destruct (get_frame_fresh_roots s (fst pr) f s1 (fun c l => Forall (from_cfe s) l /\ root_shape s c l)
              (fun c => conj (Forall_nil _) (root_shape_nil s c))
              (fun c head r Hr => conj (create_root_from s c head r Hr) (create_root_shape s c head r OK Hr)) Hc G)
    as [R2 [Fe ->]].
  change (frames (s <| frames := zset (fst pr) f (frames s) |>)) with (zset (fst pr) f (frames s)).
  rewrite zget_zset. destruct (_ && _); [|apply F]. intros H; inversion H; subst g. split.
  - unfold all_frame_events, root_events. apply Forall_app. split.
    + rewrite Forall_forall. intros fe Hin. apply in_flat_map in Hin. destruct Hin as [[c l] [Hcl Hfe]].
      destruct (R2 c l Hcl) as [Fl _]. rewrite Forall_forall in Fl. apply from_cfe_ok, Fl, Hfe.
    + eapply Forall_impl; [|exact Fe]. apply from_cfe_ok.
  - intros c l Hcl. apply (R2 c l Hcl).
Qed.

Lemma process_decided_rounds_fmemo st : dag_ok st -> fmemo st -> fmemo (process_decided_rounds st).
Proof.
  intros OK F. unfold process_decided_rounds.
  assert (G : forall l s p b, dag_ok s -> fmemo s -> fmemo (fst (fst (fold_left process_round l (s, p, b))))).
  { induction l as [|pr l IH]; intros s p b OKs Fs; cbn [fold_left]; [exact Fs|].
    pose proof (process_round_fmemo s p b pr OKs Fs) as F1.
    pose proof (dag_ok_frame _ _ OKs (HgDagFrames.process_round_frame s p b pr)) as OK1.
    destruct (process_round (s, p, b) pr) as [[s1 p1] b1]. apply IH; assumption. }
  specialize (G (pending st) st [] false OK F).
  destruct (fold_left process_round (pending st) (st, [], false)) as [[s processed] stop]. cbn [fst] in G.
  intros rr g H. eapply frame_good_nf; [|apply (G rr g H)]. apply ov_nf. reflexivity.
Qed.

Lemma run_consensus_split s :
  bview (run_consensus s) = bview s \/
  exists s3, bview s3 = bview s /\ cmono s s3 /\ dag_frame s s3 /\ run_consensus s = process_decided_rounds s3.
Proof.
  unfold run_consensus.
  pose proof (divide_rounds_bview s) as B1. pose proof (divide_rounds_cmono s) as C1.
  destruct (failed (divide_rounds s)); [left; exact B1|].
  pose proof (decide_fame_bview (divide_rounds s)) as B2. pose proof (decide_fame_cmono (divide_rounds s)) as C2.
  destruct (failed (decide_fame (divide_rounds s))); [left; congruence|].
  pose proof (decide_round_received_bview (decide_fame (divide_rounds s))) as B3.
  pose proof (decide_round_received_cmono (decide_fame (divide_rounds s))) as C3.
  destruct (failed (decide_round_received _)); [left; congruence|].
  right. eexists. split; [|split; [|split; [|reflexivity]]]; [congruence| |].
  - eapply cmono_trans; [exact C1|eapply cmono_trans; eauto].
  - eapply dag_frame_trans; [apply divide_rounds_frame|]. eapply dag_frame_trans; [apply decide_fame_frame|apply decide_round_received_frame].
Qed.

Lemma memo_ext_back st s3 s' : memo_ext st s' -> lt_memo s' = lt_memo s3 -> memo_ext st s3.
Proof. intros M E y t H. rewrite <- E. apply M. exact H. Qed.
Lemma eext_back st s3 s' : eext st s' -> events s' = events s3 -> eext st s3.
Proof. intros M E x ex H. destruct (M x ex H) as [ex' [H' E']]. exists ex'. unfold get_event in *. rewrite <- E. auto. Qed.

Lemma hstep_fmemo all st o :
  ids_determine all -> hop_ok all o -> ginv all st -> fmemo st -> fmemo (hstep st o).
Proof.
  intros ID Ho G F.
  destruct (hstep_ginv all st o ID Ho G) as [_ [_ _ ME EE]].
  pose proof (hstep_cmono st o) as CM.
  destruct o as [e|]; cbn [hstep] in *.
  - unfold step, insert_and_run in *.
    pose proof (insert_event_bview st e) as Bv. pose proof (insert_event_cmono st e) as Ci.
    destruct (insert_event st e) as [r s] eqn:Ei. cbn [snd] in *.
    assert (Easy : forall s', bview s' = bview st -> cmono st s' -> memo_ext st s' -> eext st s' -> fmemo s').
    { intros s' B C M E. eapply fmemo_mono; eauto. apply bview_frames; exact B. }
    destruct r; cbn [snd] in *; try (apply Easy; auto; fail).
    destruct (run_consensus_split s) as [B|[s3 [B3 [C3 [D3 E3]]]]].
    + apply Easy; auto. congruence.
    + rewrite E3 in *.
      destruct (process_decided_rounds_nf s3) as [K1 [K2 _]].
      assert (F3 : fmemo s3).
      { eapply fmemo_mono; [eapply cmono_trans; [exact Ci|exact C3]|eapply memo_ext_back; eauto|eapply eext_back; eauto| |exact F].
        rewrite (PeerSetProofs.bview_frames _ _ B3). apply PeerSetProofs.bview_frames; exact Bv. }
      apply process_decided_rounds_fmemo; [|exact F3].
      (* the DAG invariant at the state handed to ProcessDecidedRounds *)
      destruct Ho as [Hin Hid].
      destruct (insert_event_inv st e all InsOk s (g_dag _ _ (gi_core _ _ G)) (g_from _ _ (gi_core _ _ G)) ID Hin Hid Ei) as [OKs _].
      exact (dag_ok_frame _ _ OKs D3).
  - eapply fmemo_mono; eauto.
    unfold process_sigpool. generalize (sigpool st). intros l. generalize st. clear.
    induction l as [|s l IH]; intros st; cbn [fold_left]; [reflexivity|]. rewrite IH. apply PeerSetProofs.process_sig_frames.
Qed.

Lemma fmemo_init self_ g oracle_ : fmemo (init_hg self_ g oracle_).
Proof.
  intros rr f. destruct (init_hg_spec self_ g oracle_) as (_ & _ & _ & _ & _ & _ & _ & _ & _ & _ & E).
  rewrite E, zget_empty. discriminate.
Qed.

(* in every reachable state, every event of every cached frame (root events included) carries the
   serving node's memoised round and Lamport timestamp and the witness flag of its RoundInfo entry *)
Theorem hrun_fmemo all self_ g oracle_ ops :
  ids_determine all -> Forall (hop_ok all) ops -> fmemo (hrun (init_hg self_ g oracle_) ops).
Proof.
  intros ID Ho.
  assert (G : forall ops st, Forall (hop_ok all) ops -> ginv all st -> fmemo st -> fmemo (hrun st ops)).
  { induction ops0 as [|o ops0 IH]; intros st Hall Gi Fi; cbn [hrun fold_left]; [exact Fi|].
    inversion Hall; subst. apply IH; [assumption| |].
    - apply (hstep_ginv all st o ID H1 Gi).
    - apply (hstep_fmemo all st o ID H1 Gi Fi). }
  apply G; [exact Ho|apply ginv_init|apply fmemo_init].
Qed.

(* the reset node records, for every root / frame event, exactly the serving node's values *)
Theorem reset_values_are_servers all ss g os ops rr f v b cores v1 :
  ids_determine all -> Forall (hop_ok all) ops ->
  zget rr (frames (hrun (init_hg ss g os) ops)) = Some f ->
  frame_shape f -> core_fast_forward v b f cores = (true, v1) ->
  forall fe, In fe (all_frame_events f) ->
    exists es ri t,
      get_event v1 (fe_id fe) = Some es /\
      ev_round es = zget (fe_id fe) (round_memo (hrun (init_hg ss g os) ops)) /\
      ev_lt es = zget (fe_id fe) (lt_memo (hrun (init_hg ss g os) ops)) /\
      zget (fe_id fe) (round_memo v1) = zget (fe_id fe) (round_memo (hrun (init_hg ss g os) ops)) /\
      zget (fe_id fe) (lt_memo v1) = zget (fe_id fe) (lt_memo (hrun (init_hg ss g os) ops)) /\
      get_round (hrun (init_hg ss g os) ops) (fe_round fe) = Some ri /\
      aget (fe_id fe) (ri_created ri) = Some (fe_wit fe, t) /\
      zget (fe_id fe) (witness_memo v1) = Some (fe_wit fe).
Proof.
  intros ID Ho Hf FS H fe Hin.
  pose proof (proj1 (hrun_fmemo all ss g os ops ID Ho rr f Hf)) as FM. rewrite Forall_forall in FM.
  destruct (FM fe Hin) as (A & B & (ri & t & C1 & C2) & _).
  pose proof (reset_post_dag v b f cores v1 (reset_hg_post v b f cores v1 FS H)) as D.
  destruct (rd_event _ _ _ _ D fe Hin) as (e & es & ri' & _ & Hg & _ & Hr & Hl & _ & Mr & Mw & Ml & _).
  exists es, ri, t. rewrite A, B, Hr, Hl, Mr, Ml. repeat split; auto.
Qed.
