(* Safety of Hashgraph virtual voting (DecideFame) over the abstract model Model/Voting.v, for one fixed number n of
   validators: the statements, each derived from its counterpart for per-round numbers of validators in
   Proofs/VotingProofsD.v at n := fun _ => n.

   Vocabulary (Model/VotingRef.v, Proofs/VotingProofs.v):
   - view_ok n r P W J : (P, W, J) is a well-formed view of the votes about a candidate
     witness of round r with n validators (hypotheses H1-H4; see VOTE_view_ok_intro);
   - Vz P W r s j y : the reference vote of witness y of round j (recursion on j - r);
   - ssset P W j y : the round-(j-1) witnesses strongly seen by y;
   - tallyf f l : (majority value, its count) of the votes f over l, ties count as true;
   - decider P W r s j y : j - r >= 2, normal round, tally >= s;
   - loop_ref : the first decider's vote, searching rounds and witnesses in listing order;
   - same_history : two views of one history with global witness lists G. *)
From Coq Require Import ZArith List Bool Permutation.
From V Require Import Model.ZMap Model.Quorum Model.Voting Model.VotingRef Model.VotingExamples
                      Proofs.QuorumProofs Proofs.VotingProofs Proofs.VotingProofsD.
Import ListNotations.
Open Scope Z_scope.

(* The view hypotheses in their literal form (H1: duplicate-free rounds of at most n
   witnesses with globally distinct ids; H2: static supermajority; H3: previous round,
   strongly-sees lookups defined, every witness strongly sees >= sm n witnesses of the
   previous round; H4: sees lookups defined) imply view_ok.  (view_ok is slightly weaker:
   vp_prev may list the previous round in any order, vp_sm is needed from r+2 only.) *)
Theorem VOTE_view_ok_intro : forall n r P W J,
  1 <= n -> r <= J ->
  (forall j, r + 1 <= j <= J -> NoDup (W j) /\ Z.of_nat (length (W j)) <= n) ->
  (forall j j' y, r + 1 <= j <= J -> r + 1 <= j' <= J -> In y (W j) -> In y (W j') -> j = j') ->
  (forall j, r + 1 <= j <= J -> vp_sm P j = Some (sm n)) ->
  (forall j, r + 2 <= j <= J -> vp_prev P j = Some (W (j - 1))) ->
  (forall j y w, r + 2 <= j <= J -> In y (W j) -> In w (W (j - 1)) -> vp_ss P j y w <> None) ->
  (forall j y, r + 2 <= j <= J -> In y (W j) -> sm n <= Z.of_nat (length (ssset P W j y))) ->
  (forall y, In y (W (r + 1)) -> vp_sees P y <> None) ->
  view_ok n r P W J.
Proof.
  intros n r P W J H1 H2 H3 H4 H5. apply view_ok_intro; auto.
  intros j [Hj HJ]. apply H5. split; [|exact HJ].
  apply Z.le_trans with (r + 2); [apply Z.add_le_mono_l; discriminate|exact Hj].
Qed.
Print Assumptions VOTE_view_ok_intro.

(* T1: the loop never hits a store error; its result is the reference loop's; every vote it
   records for a witness y is the reference vote of y; and when it ends undecided every known
   witness has its vote recorded.  (fame_loop_votes is fame_loop returning the votes too.) *)
Theorem VOTE_T1_votes_are_reference_votes : forall n r P W J, view_ok n r P W J ->
  let rw := fun j => Some (W j) in
  let js := zrange (r + 1) J in
  fame_loop P rw r js [] = Some (loop_ref P W r (sm n) js) /\
  exists votes res,
    fame_loop_votes P rw r js [] = Some (votes, res) /\
    fame_loop P rw r js [] = Some res /\
    (forall y b, aget y votes = Some b ->
       exists j, r + 1 <= j <= J /\ In y (W j) /\ b = Vz P W r (sm n) j y) /\
    (res = None -> forall j y, r + 1 <= j <= J -> In y (W j) ->
       aget y votes = Some (Vz P W r (sm n) j y)).
Proof. exact loop_no_error_and_votes. Qed.
Print Assumptions VOTE_T1_votes_are_reference_votes.

(* T1, as an invariant of the votes list preserved by the y loop of any round j, started
   after any prefix `done` of the round: sound = every recorded vote is a reference vote;
   complete j = all witnesses of rounds < j are recorded. *)
Theorem VOTE_T1_round_invariant : forall n r P W J, view_ok n r P W J ->
  forall j, r + 1 <= j <= J ->
  forall ys done votes, W j = done ++ ys ->
  votes_sound n r P W J votes -> votes_complete n r P W votes j ->
  votes_done n r P W votes j done ->
  exists votes', fame_round_j P r j ys votes = Some (votes', round_ref P W r (sm n) j ys) /\
    votes_sound n r P W J votes' /\
    (round_ref P W r (sm n) j ys = None -> votes_complete n r P W votes' (j + 1)).
Proof.
  intros n r P W J HV j Hj ys done votes HW Hs Hc Hd. rewrite round_ref_D.
  destruct (round_specD _ _ _ _ _ (view_ok_D HV) j Hj ys done votes HW (proj1 (votes_sound_D _ _ _ _ _ _) Hs)
              (proj1 (votes_complete_D _ _ _ _ _ _) Hc) (votes_done_D _ _ _ _ _ _ _ Hd)) as [votes' [E [Hs' Hc']]].
  exists votes'. split; [exact E|]. split; [apply votes_sound_D; exact Hs'|].
  intros Hn. apply votes_complete_D, Hc', Hn.
Qed.
Print Assumptions VOTE_T1_round_invariant.

(* the instrumented loop is the loop *)
Theorem VOTE_fame_loop_votes_result : forall P rw r js votes,
  fame_loop P rw r js votes = option_map snd (fame_loop_votes P rw r js votes).
Proof. exact fame_loop_votes_fst. Qed.
Print Assumptions VOTE_fame_loop_votes_result.

(* the tally the loop reads from the association list is the reference tally *)
Theorem VOTE_tally_is_reference_tally : forall n r P W J, view_ok n r P W J ->
  forall votes j y prev, r + 2 <= j <= J -> In y (W j) ->
  votes_complete n r P W votes j -> Permutation prev (W (j - 1)) ->
  tally votes (filter (ssb P j y) prev) = tallyf (Vz P W r (sm n) (j - 1)) (ssset P W j y).
Proof.
  intros n r P W J HV votes j y prev Hj Hy Hc Hp. rewrite tallyf_Vz_D.
  apply (tally_refD _ _ _ _ _ (view_ok_D HV)); try assumption. apply votes_complete_D, Hc.
Qed.
Print Assumptions VOTE_tally_is_reference_tally.

(* the reference vote of a witness does not depend on the view (order of listing, other
   known witnesses): two views of the same history give every shared witness the same vote *)
Theorem VOTE_vote_independent_of_view : forall n r P1 W1 J1 P2 W2 J2 G,
  view_ok n r P1 W1 J1 -> view_ok n r P2 W2 J2 -> same_history n r P1 W1 J1 P2 W2 J2 G ->
  forall j y, r + 1 <= j <= Z.min J1 J2 -> In y (W1 j) -> In y (W2 j) ->
  Vz P1 W1 r (sm n) j y = Vz P2 W2 r (sm n) j y.
Proof.
  intros n r P1 W1 J1 P2 W2 J2 G HV1 HV2 HS j y Hj Hy1 Hy2. rewrite !Vz_D.
  apply (V_agreeD _ _ _ _ _ _ _ _ G (view_ok_D HV1) (view_ok_D HV2) (proj1 same_history_D HS)); assumption.
Qed.
Print Assumptions VOTE_vote_independent_of_view.

(* T2: a supermajority tally in a normal round j >= r+2 forces every witness of round j and
   of all later rounds (normal or coin) to vote the tally's value *)
Theorem VOTE_T2_supermajority_forces_unanimity : forall n r P W J, view_ok n r P W J ->
  forall j y v t, r + 2 <= j <= J -> In y (W j) -> 0 < (j - r) mod 4 ->
  tallyf (Vz P W r (sm n) (j - 1)) (ssset P W j y) = (v, t) -> sm n <= t ->
  (forall y', In y' (W j) -> Vz P W r (sm n) j y' = v) /\
  (forall j' y'', j < j' <= J -> In y'' (W j') -> Vz P W r (sm n) j' y'' = v).
Proof.
  intros n r P W J HV j y v t Hj Hy Hn Ht Hst. rewrite tallyf_Vz_D in Ht.
  destruct (supermajority_forces_unanimityD _ _ _ _ _ (view_ok_D HV) j y v t Hj Hy Hn Ht Hst) as [Ha Hb].
  split; [intros y' Hy'|intros j' y'' Hj' Hy'']; rewrite Vz_D; [apply Ha|apply Hb]; assumption.
Qed.
Print Assumptions VOTE_T2_supermajority_forces_unanimity.

(* the loop decides v exactly when some known witness is a decider with vote v *)
Theorem VOTE_decision_iff_decider : forall n r P W J, view_ok n r P W J -> forall v,
  fame_loop P (fun j => Some (W j)) r (zrange (r + 1) J) [] = Some (Some v) <->
  exists j y, r + 1 <= j <= J /\ In y (W j) /\ decider P W r (sm n) j y = true /\
              Vz P W r (sm n) j y = v.
Proof. exact decision_iff_decider. Qed.
Print Assumptions VOTE_decision_iff_decider.

(* T3: decisions reached on two views of the same history agree *)
Theorem VOTE_T3_decisions_agree : forall n r P1 W1 J1 P2 W2 J2 G v1 v2,
  view_ok n r P1 W1 J1 -> view_ok n r P2 W2 J2 -> same_history n r P1 W1 J1 P2 W2 J2 G ->
  fame_loop P1 (fun j => Some (W1 j)) r (zrange (r + 1) J1) [] = Some (Some v1) ->
  fame_loop P2 (fun j => Some (W2 j)) r (zrange (r + 1) J2) [] = Some (Some v2) ->
  v1 = v2.
Proof.
  intros n r P1 W1 J1 P2 W2 J2 G v1 v2 HV1 HV2 HS.
  exact (decisions_agreeD _ r P1 W1 J1 P2 W2 J2 G v1 v2 (view_ok_D HV1) (view_ok_D HV2) (proj1 same_history_D HS)).
Qed.
Print Assumptions VOTE_T3_decisions_agree.

(* T4: a decision reached on a view is reached, with the same value, on every larger view *)
Theorem VOTE_T4_decision_monotone : forall n r P1 W1 J1 P2 W2 J2 G v,
  view_ok n r P1 W1 J1 -> view_ok n r P2 W2 J2 -> same_history n r P1 W1 J1 P2 W2 J2 G ->
  J1 <= J2 -> (forall j, r + 1 <= j <= J1 -> incl (W1 j) (W2 j)) ->
  fame_loop P1 (fun j => Some (W1 j)) r (zrange (r + 1) J1) [] = Some (Some v) ->
  fame_loop P2 (fun j => Some (W2 j)) r (zrange (r + 1) J2) [] = Some (Some v).
Proof.
  intros n r P1 W1 J1 P2 W2 J2 G v HV1 HV2 HS.
  exact (decision_monotoneD _ r P1 W1 J1 P2 W2 J2 G v (view_ok_D HV1) (view_ok_D HV2) (proj1 same_history_D HS)).
Qed.
Print Assumptions VOTE_T4_decision_monotone.

(* T5: the order in which witnesses are listed (Go iterates over a map) is irrelevant, both
   for the y loop (W') and for the previous-round lists read through vp_prev (P') *)
Theorem VOTE_T5_order_irrelevant : forall n r P P' W W' J,
  view_ok n r P W J -> same_params_upto_order r J P P' W ->
  (forall j, Permutation (W j) (W' j)) ->
  fame_loop P' (fun j => Some (W' j)) r (zrange (r + 1) J) []
  = fame_loop P (fun j => Some (W j)) r (zrange (r + 1) J) [].
Proof. intros n r P P' W W' J HV. exact (order_irrelevantD _ r P P' W W' J (view_ok_D HV)). Qed.
Print Assumptions VOTE_T5_order_irrelevant.

(* the executable checkers of the hypotheses are sound *)
Theorem VOTE_view_okb_sound : forall n r P W J, view_okb n r P W J = true -> view_ok n r P W J.
Proof. exact view_okb_sound. Qed.
Print Assumptions VOTE_view_okb_sound.
Theorem VOTE_same_historyb_sound : forall n r P1 W1 J1 P2 W2 J2 G,
  same_historyb n r P1 W1 J1 P2 W2 J2 G = true -> same_history n r P1 W1 J1 P2 W2 J2 G.
Proof. exact same_historyb_sound. Qed.
Print Assumptions VOTE_same_historyb_sound.

(* non-vacuity, n = 4, s = 3, r = 0.
   Example 1: rounds of 4, 4, 3 witnesses; 23 sees a 2-2 tie (votes true); 31 tallies 3 yays
   in round 3 and decides "famous".  With J = 2 the loop ends undecided.  A smaller, permuted
   view of the same history reaches the same decision. *)
Example VOTE_example_decision :
  sm 4 = 3 /\
  view_ok 4 0 ex1_P ex1_W 3 /\
  fame_loop ex1_P (fun j => Some (ex1_W j)) 0 (zrange 1 3) [] = Some (Some true) /\
  fame_loop_votes ex1_P (fun j => Some (ex1_W j)) 0 (zrange 1 3) [] =
    Some ([(11, true); (12, true); (13, false); (14, false);
           (21, true); (22, true); (23, true); (24, false); (31, true)], Some true) /\
  tallyf (Vz ex1_P ex1_W 0 3 1) (ssset ex1_P ex1_W 2 23) = (true, 2) /\
  fame_loop ex1_P (fun j => Some (ex1_W j)) 0 (zrange 1 2) [] = Some None /\
  view_ok 4 0 ex1_P' ex1_W' 3 /\
  same_history 4 0 ex1_P' ex1_W' 3 ex1_P ex1_W 3 ex1_W /\
  fame_loop ex1_P' (fun j => Some (ex1_W' j)) 0 (zrange 1 3) [] = Some (Some true).
Proof.
  repeat (apply conj; [first [apply view_okb_sound|apply same_historyb_sound|idtac]; vm_compute; reflexivity|]).
  vm_compute; reflexivity.
Qed.

(* Example 2: five rounds of four witnesses; rounds 2 and 3 are split with tallies of 2;
   round 4 is a coin round: 41 sees a (true, 2) tally but votes its coin (false); round 5
   decides "not famous" on the coin outcome. *)
Example VOTE_example_coin_round :
  view_ok 4 0 ex2_P ex2_W 5 /\
  (4 - 0) mod 4 = 0 /\
  tallyf (Vz ex2_P ex2_W 0 3 3) (ssset ex2_P ex2_W 4 41) = (true, 2) /\
  vp_coin ex2_P 41 = false /\ Vz ex2_P ex2_W 0 3 4 41 = false /\
  fame_loop_votes ex2_P (fun j => Some (ex2_W j)) 0 (zrange 1 4) [] =
    Some ([(11, true); (12, true); (13, false); (14, false);
           (21, true); (22, true); (23, false); (24, false);
           (31, true); (32, true); (33, false); (34, false);
           (41, false); (42, false); (43, false); (44, true)], None) /\
  fame_loop ex2_P (fun j => Some (ex2_W j)) 0 (zrange 1 5) [] = Some (Some false).
Proof.
  repeat (apply conj; [first [apply view_okb_sound|idtac]; vm_compute; reflexivity|]).
  vm_compute; reflexivity.
Qed.
