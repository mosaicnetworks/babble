(* Processed rounds.
   QP: a round that is not in the pending queue is at or below the last consensus round;
   FR: a cached frame belongs to a round at or below the last consensus round;
   DB: an event received in a round at or below the last consensus round is in the cached frame of
       that round, and, if it carries a payload, in the frame of a delivered block of that round.
   This file holds what does not depend on the validator sets: the fold of ProcessDecidedRounds (its non-failure is
   taken from the non-failure of the state it ends in: failure is sticky), the pending queue through the earlier
   passes, and the shape of one step of the node.  That QP / FR / DB hold in every state of a run is proved in
   Proofs/CommittedD.v. *)
From Coq Require Import ZArith List Bool Lia ZifyBool Permutation Sorted.
From RecordUpdate Require Import RecordSet.
From V Require Import Model.ZMap Model.HgImpl Proofs.ZMapFacts Proofs.HgFrames Proofs.AdmissionProofs
  Proofs.HgBlockFrames Proofs.BlockInv Proofs.RoundOrder Proofs.OrderSort Proofs.OrderFrames Proofs.OrderProofs
  Proofs.FirstDesc Proofs.CInvRun Proofs.NoFail Proofs.FameInv Proofs.DecidedFlag.
From V Require Import Proofs.FameInvD.
Import ListNotations RecordSetNotations.
Open Scope Z_scope.

Definition lcle (st : hg) (R : Z) : Prop := exists l, last_consensus st = Some l /\ R <= l.
Definition payload (ex : evst) : Prop := e_txs (ev_e ex) <> [] \/ e_itxs (ev_e ex) <> [].

Definition QP (st : hg) : Prop := forall r, get_round st r <> None -> In r (prounds st) \/ lcle st r.
Definition FR (st : hg) : Prop := forall R f, zget R (frames st) = Some f -> lcle st R.
Definition DB (st : hg) : Prop := forall x ex R, get_event st x = Some ex -> ev_rr ex = Some R -> lcle st R ->
  exists f, zget R (frames st) = Some f /\ In x (map fe_id (f_events f)) /\
    (payload ex -> exists d, In d (delivered st) /\ b_rr d = R /\ b_frame d = f).

(* DB for the rounds above the last consensus round of a base state s0 *)
Definition DBL (s0 st : hg) : Prop := forall x ex R, get_event st x = Some ex -> ev_rr ex = Some R -> lcle st R -> ~ lcle s0 R ->
  exists f, zget R (frames st) = Some f /\ In x (map fe_id (f_events f)) /\
    (payload ex -> exists d, In d (delivered st) /\ b_rr d = R /\ b_frame d = f).

Lemma flat_map_nil {A B} (g : A -> list B) l a : flat_map g l = [] -> In a l -> g a = [].
Proof.
  intros E I. destruct (g a) as [|y ys] eqn:G; [reflexivity|].
  assert (H : In y (flat_map g l)) by (apply in_flat_map; exists a; rewrite G; split; [exact I|left; reflexivity]).
  rewrite E in H. destruct H.
Qed.

Lemma process_frame_delivers_payload s f fe ex :
  In fe (f_events f) -> get_event s (fe_id fe) = Some ex -> payload ex ->
  exists bf, delivered (process_frame s f) = delivered s ++ [bf] /\ b_rr bf = f_round f /\ b_frame bf = f.
Proof.
  intros Hin Hx Hp. destruct (process_frame_delivers_or_empty s f) as [[_ [Et Eu]]|[bf [E M]]].
  2:{ exists bf. split; [exact E|].
      split; [exact (f_equal (fun '(_, rr, _, _, _, _, _) => rr) M)|exact (f_equal (fun '(_, _, _, _, _, fr, _) => fr) M)]. }
  (* the block made from the frame holds the payload of [fe] *)
  exfalso. set (s1 := fold_left add_consensus_event (f_events f) s) in Et, Eu.
  assert (Ev : events s1 = events s).
  { destruct (ov_nf _ _ (ov_add_consensus_events (f_events f) s)) as [[_ [Ev _]] _]. exact Ev. }
  pose proof (flat_map_nil _ _ fe Et Hin) as T. pose proof (flat_map_nil _ _ fe Eu Hin) as U.
  unfold get_event in Hx, T, U. rewrite Ev, Hx in T, U. destruct Hp as [Hp|Hp]; [exact (Hp T)|exact (Hp U)].
Qed.

Lemma process_frame_delivered_ext s f : exists l, delivered (process_frame s f) = delivered s ++ l.
Proof.
  destruct (process_frame_delivered_pv s f) as [E|[bf [E _]]]; [exists []; rewrite app_nil_r; exact E|exists [bf]; exact E].
Qed.

Lemma lcle_mono s s' R : (forall l, last_consensus s = Some l -> exists l', last_consensus s' = Some l' /\ l <= l') ->
  lcle s R -> lcle s' R.
Proof. intros H [l [Hl Hle]]. destruct (H l Hl) as [l' [Hl' Hle']]. exists l'. split; [exact Hl'|lia]. Qed.

Lemma lc_lt_lcle s R : lc_lt s R -> ~ lcle s R.
Proof. unfold lc_lt. intros H [l [Hl Hle]]. rewrite Hl in H. lia. Qed.

Lemma lcle_bump s s' R R0 : lc_lt s R -> last_consensus s' = Some R -> lcle s R0 -> lcle s' R0.
Proof. unfold lc_lt. intros H E [l [Hl Hle]]. rewrite Hl in H. exists R. split; [exact E|lia]. Qed.

Definition frok (s : hg) : Prop := forall q g0, zget q (frames s) = Some g0 -> f_round g0 = q.

(* the state of the fold over the pending rounds, [lst] = the entries still to be visited *)
Record pfoldD (s0 : hg) (lst : list (Z * bool)) (s : hg) : Prop := {
  pf_pd : frok s;
  pf_nf : failed s = false;
  pf_fr : FR s;
  pf_db : DBL s0 s;
  pf_cov : forall r, get_round s r <> None -> lcle s r \/ In r (map fst lst);
  pf_above : forall r, In r (map fst lst) -> lc_lt s r;
  pf_sorted : StronglySorted Z.lt (map fst lst);
  pf_pend : forall pr, In pr lst -> get_round s (fst pr) <> None;
  pf_listed : forall x ex R, get_event s x = Some ex -> ev_rr ex = Some R -> In x (rcv s R)
}.

Lemma process_round_pfoldD s0 s p pr rest : pfoldD s0 (pr :: rest) s ->
  failed (fst (fst (process_round (s, p, false) pr))) = false ->
  (snd pr = false /\ process_round (s, p, false) pr = (s, p, true)) \/
  (snd pr = true /\ exists s', process_round (s, p, false) pr = (s', p ++ [fst pr], false) /\ pfoldD s0 rest s' /\
     pending s' = pending s /\ fext s s' /\ incl (delivered s) (delivered s')).
Proof.
  intros [PD Hf Hfr Hdb Hcov Habove Hsort Hpend Hlist] F'.
  destruct pr as [R d]. cbn [fst snd] in *.
  destruct d; [right; split; [reflexivity|]|left; split; [reflexivity|]; unfold process_round; rewrite Hf; reflexivity].
  assert (HgR : get_round s R <> None) by (apply (Hpend (R, true)); left; reflexivity).
  pose proof (cw_process_round s p false (R, true)) as C'.
  pose proof (Habove R (or_introl eq_refl)) as HlcR.
  revert F' C'. unfold process_round. rewrite Hf. cbn [orb negb fst snd].
  destruct (get_round s R) as [ri|] eqn:Hri; [|contradiction].
  destruct (get_frame s R) as [[f|] s1] eqn:Egf; [|cbn [fst]; intros F' _; rewrite failed_fail in F'; discriminate].
  destruct (get_frame_some s R f s1 Egf) as [Hz1 [Fx1 [Ev1 Dl1]]].
  intros F' C'. cbn [fst] in F', C'.
  set (s2 := process_frame s1 f) in *. set (s' := bump_last_consensus s2 R) in *.
  exists s'. split; [reflexivity|].
  cut (pfoldD s0 rest s' /\ pending s2 = pending s /\ fext s s' /\ incl (delivered s) (delivered s')).
  { intros [A [B [C D]]]. split; [exact A|]. split; [|split; assumption].
    destruct (bump_keep s2 R) as [[_ [_ [Pe3 _]]] _]. fold s' in Pe3. congruence. }
  destruct (get_frame_spec s R f s1 PD Egf) as [HfR [_ [Ro1 [_ [Pe1 [Lc1 [_ [_ Hfr1]]]]]]]].
  destruct (cv_eq _ _ (process_frame_cv s1 f)) as [[_ [_ [Pe2 _]]] [Lc2 Fr2]]. fold s2 in Pe2, Lc2, Fr2.
  destruct (bump_keep s2 R) as [_ [Fr3 Dl3]]. fold s' in Fr3, Dl3.
  assert (HlcR2 : lc_lt s2 R) by (unfold lc_lt in *; rewrite Lc2, Lc1; exact HlcR).
  pose proof (bump_lc s2 R HlcR2) as Lc3. fold s' in Lc3.
  destruct (cw_fields _ _ C') as [Ev' [Ro' _]].
  assert (GE : forall y, get_event s' y = get_event s y) by (intros y; unfold get_event; rewrite Ev'; reflexivity).
  assert (GR : forall r, get_round s' r = get_round s r) by (intros r; unfold get_round; rewrite Ro'; reflexivity).
  assert (RC : forall r, rcv s' r = rcv s r) by (intros r; unfold rcv; rewrite GR; reflexivity).
  pose proof (fun R0 => lcle_bump s s' R R0 HlcR Lc3) as Mono.
  assert (LcR : lcle s' R) by (exists R; split; [exact Lc3|apply Z.le_refl]).
  assert (FrExt : forall q g0, zget q (frames s) = Some g0 -> zget q (frames s') = Some g0).
  { intros q g0 Hq. rewrite Fr3, Fr2. apply Fx1. exact Hq. }
  destruct (process_frame_delivered_ext s1 f) as [dl Hdl]. fold s2 in Hdl.
  assert (DlExt : forall d, In d (delivered s) -> In d (delivered s')).
  { intros d Hd. rewrite Dl3, Hdl, Dl1. apply in_or_app. left. exact Hd. }
  (* round R had no frame yet: the new one holds every event received in round R, the others are those of s *)
  assert (New : (forall x, In x (rcv s R) -> In x (map fe_id (f_events f))) /\
                forall q g0, q <> R -> zget q (frames s1) = Some g0 -> zget q (frames s) = Some g0).
  { destruct (get_frame_cases s R) as [[E _]|[E|[f' [ri' [evs [E [_ [Hri' [_ [Hev [Hm _]]]]]]]]]]]; rewrite Egf in E.
    - exfalso. injection E as H1 _. apply (lc_lt_lcle s R HlcR), (Hfr R f). symmetry. exact H1.
    - discriminate.
    - injection E as <- Es1. split.
      + intros x Hx. rewrite Hev. unfold rcv in Hx. rewrite Hri' in Hx.
        apply (Permutation_in _ (Permutation_sym (Permutation_map fe_id (fe_sort_perm s evs)))). rewrite Hm. exact Hx.
      + intros q g0 Hne. rewrite Es1.
        replace (frames (s <| frames := zset R f (frames s) |>)) with (zset R f (frames s)) by reflexivity.
        rewrite zget_zset. destruct (Z.eqb_spec R q); [congruence|]. cbn [andb]. auto. }
  destruct New as [Hcomplete Hold].
  assert (Srt : StronglySorted Z.lt (map fst rest) /\ forall r, In r (map fst rest) -> R < r).
  { inversion Hsort as [|? ? S Hall]; subst. split; [exact S|apply Forall_forall, Hall]. }
  split; [|split; [congruence|split; [exact FrExt|exact DlExt]]].
  constructor.
  - intros q g0. rewrite Fr3, Fr2. apply Hfr1.
  - exact F'.
  - intros q g0. rewrite Fr3, Fr2. intros Hq.
    destruct (Z.eq_dec q R) as [->|Hne]; [exact LcR|apply Mono, (Hfr q g0), (Hold q g0 Hne Hq)].
  - (* DB *)
    intros x ex R0. rewrite GE. intros Hx Hrr [l [Hl Hle]] Hbase. rewrite Lc3 in Hl. injection Hl as <-.
    pose proof (Hlist x ex R0 Hx Hrr) as Hin.
    assert (HgR0 : get_round s R0 <> None).
    { intros D. unfold rcv in Hin. rewrite D in Hin. destruct Hin. }
    destruct (Z.eq_dec R0 R) as [->|Hne].
    + exists f. split; [rewrite Fr3, Fr2; exact Hz1|]. split; [apply Hcomplete; exact Hin|].
      intros Hp. apply Hcomplete in Hin. apply in_map_iff in Hin. destruct Hin as [fe [Efe Hfe]].
      assert (Hx1 : get_event s1 (fe_id fe) = Some ex) by (unfold get_event; rewrite Ev1, Efe; exact Hx).
      destruct (process_frame_delivers_payload s1 f fe ex Hfe Hx1 Hp) as [bf [Hd [Hb1 Hb2]]]. fold s2 in Hd.
      exists bf. split; [rewrite Dl3, Hd; apply in_or_app; right; left; reflexivity|]. split; [congruence|exact Hb2].
    + destruct (Hcov R0 HgR0) as [Hlc|[E|Hin0]]; [|contradiction Hne; symmetry; exact E|].
      * destruct (Hdb x ex R0 Hx Hrr Hlc Hbase) as [f0 [Hz0 [Hin1 Hp0]]]. exists f0.
        split; [apply FrExt; exact Hz0|]. split; [exact Hin1|].
        intros Hp. destruct (Hp0 Hp) as [d0 [Hd0 [A B]]]. exists d0. split; [apply DlExt; exact Hd0|auto].
      * (* the queue is strictly sorted *)
        destruct (Z.lt_irrefl R (Z.lt_le_trans _ _ _ (proj2 Srt R0 Hin0) Hle)).
  - intros r. rewrite GR. intros Hg.
    destruct (Hcov r Hg) as [H|[E|H]]; [left; apply Mono; exact H|left; cbn in E; subst r; exact LcR|right; exact H].
  - intros r Hr. unfold lc_lt. rewrite Lc3. apply (proj2 Srt r Hr).
  - exact (proj1 Srt).
  - intros pr Hpr. rewrite GR. apply Hpend. right. exact Hpr.
  - intros x ex R0. rewrite GE, RC. apply Hlist.
Qed.

Lemma process_fold_pfoldD s0 : forall lst s p, pfoldD s0 lst s ->
  failed (fst (fst (fold_left process_round lst (s, p, false)))) = false ->
  exists done rem, lst = done ++ rem /\
    snd (fst (fold_left process_round lst (s, p, false))) = p ++ map fst done /\
    pfoldD s0 rem (fst (fst (fold_left process_round lst (s, p, false)))) /\
    pending (fst (fst (fold_left process_round lst (s, p, false)))) = pending s /\
    fext s (fst (fst (fold_left process_round lst (s, p, false)))) /\
    incl (delivered s) (delivered (fst (fst (fold_left process_round lst (s, p, false))))).
Proof.
  induction lst as [|pr rest IH]; intros s p PF Hfin; cbn [fold_left] in *.
  - exists [], []. cbn. rewrite app_nil_r.
    split; [reflexivity|]. split; [reflexivity|]. split; [exact PF|]. split; [reflexivity|]. split; [apply fext_refl|apply incl_refl].
  - assert (F1 : failed (fst (fst (process_round (s, p, false) pr))) = false).
    { destruct (failed (fst (fst (process_round (s, p, false) pr)))) eqn:E; [|reflexivity].
      destruct (process_round (s, p, false) pr) as [[s' p'] b']. cbn [fst] in E.
      rewrite (process_fold_stopped rest s' p' b' (or_intror E)) in Hfin. cbn [fst] in Hfin. congruence. }
    destruct (process_round_pfoldD s0 s p pr rest PF F1) as [[Hd E]|[Hd [s' [E [PF' [Pe [Fx Dx]]]]]]]; rewrite E in *.
    + rewrite (process_fold_stopped rest s p true (or_introl eq_refl)). cbn [fst snd].
      exists [], (pr :: rest). cbn. rewrite app_nil_r.
      split; [reflexivity|]. split; [reflexivity|]. split; [exact PF|]. split; [reflexivity|]. split; [apply fext_refl|apply incl_refl].
    + destruct (IH s' (p ++ [fst pr]) PF' Hfin) as [done [rem [El [Ep [PFr [Pr [Fx2 Dx2]]]]]]].
      exists (pr :: done), rem. split; [cbn; congruence|]. split; [rewrite Ep, <- app_assoc; reflexivity|].
      split; [exact PFr|]. split; [congruence|]. split; [eapply fext_trans; eauto|eapply incl_tran; eauto].
Qed.


Lemma process_decided_rounds_pinvD st : pfoldD st (pending st) st -> failed (process_decided_rounds st) = false ->
  QP (process_decided_rounds st) /\ FR (process_decided_rounds st) /\ DBL st (process_decided_rounds st) /\
  fext st (process_decided_rounds st) /\ incl (delivered st) (delivered (process_decided_rounds st)).
Proof.
  intros PF Hfin. unfold process_decided_rounds in *.
  assert (Hfold : failed (fst (fst (fold_left process_round (pending st) (st, [], false)))) = false).
  { destruct (fold_left process_round (pending st) (st, [], false)) as [[s processed] stop]. cbn [fst]. revert Hfin. destruct s; cbn. auto. }
  destruct (process_fold_pfoldD st (pending st) st [] PF Hfold) as [done [rem [El [Ep [PFr [Pe [Fx Dx]]]]]]].
  destruct (fold_left process_round (pending st) (st, [], false)) as [[s processed] stop]. cbn [fst snd app] in *.
  set (F := s <| pending := filter (fun p => negb (existsb (Z.eqb (fst p)) processed)) (pending s) |>).
  assert (GE : forall y, get_event F y = get_event s y) by (intros y; unfold F; reflexivity).
  assert (GR : forall r, get_round F r = get_round s r) by (intros r; unfold F; reflexivity).
  assert (Lc : last_consensus F = last_consensus s) by (unfold F; reflexivity).
  assert (Fr : frames F = frames s) by (unfold F; reflexivity).
  assert (Dl : delivered F = delivered s) by (unfold F; reflexivity).
  assert (Hl : forall R, lcle F R <-> lcle s R) by (intros R; unfold lcle; rewrite Lc; reflexivity).
  split; [|split; [|split; [|split; [intros q g0 Hq; rewrite Fr; apply Fx; exact Hq|rewrite Dl; exact Dx]]]].
  - intros r. rewrite GR. intros Hg. destruct (pf_cov _ _ _ PFr r Hg) as [H|H]; [right; apply Hl; exact H|left].
    unfold prounds, F. replace (pending (s <| pending := _ |>)) with
      (filter (fun p => negb (existsb (Z.eqb (fst p)) processed)) (pending s)) by reflexivity.
    apply in_map_iff in H. destruct H as [[r' d] [E Hin]]. cbn in E. subst r'.
    apply in_map_iff. exists (r, d). split; [reflexivity|]. apply filter_In. split; [rewrite Pe, El; apply in_or_app; right; exact Hin|].
    cbn [fst]. apply negb_true_iff. apply not_true_is_false. intros C. apply existsb_exists in C. destruct C as [q [Hq Eq]].
    apply Z.eqb_eq in Eq. subst q. rewrite Ep in Hq.
    (* the queue is strictly sorted: r cannot be both done and remaining *)
    pose proof (pf_sorted _ _ _ PF) as Hs. rewrite El, map_app in Hs.
    assert (Hr : In r (map fst rem)) by (apply in_map_iff; exists (r, d); auto).
    clear -Hs Hq Hr. induction (map fst done) as [|a l IH]; [destruct Hq|].
    cbn [app] in Hs. inversion Hs as [|? ? Hs' Hall]; subst. destruct Hq as [->|Hq]; [|auto].
    rewrite Forall_forall in Hall. specialize (Hall r (in_or_app _ _ _ (or_intror Hr))). lia.
  - intros R f. rewrite Fr. intros Hz. apply Hl. apply (pf_fr _ _ _ PFr R f Hz).
  - intros x ex R. rewrite GE, Fr, Dl. intros Hx Hr Hlc Hb. apply Hl in Hlc. apply (pf_db _ _ _ PFr x ex R Hx Hr Hlc Hb).
Qed.

Lemma pending_insert_fst_In r l r' : In r' (map fst (pending_insert r l)) <-> r' = r \/ In r' (map fst l).
Proof. apply pending_insert_fst. Qed.

(* the queue only grows, and a round that is new is queued *)
Record qstep (s s' : hg) : Prop := {
  qs_p : forall r, In r (prounds s) -> In r (prounds s');
  qs_r : forall r, get_round s' r <> None -> get_round s r <> None \/ In r (prounds s');
  qs_lb : lower_bound s' = lower_bound s;
  qs_lc : last_consensus s' = last_consensus s;
  qs_fr : frames s' = frames s;
  qs_dl : delivered s' = delivered s
}.
Lemma qstep_refl s : qstep s s.
Proof. constructor; auto. Qed.
Lemma qstep_trans a b c : qstep a b -> qstep b c -> qstep a c.
Proof.
  intros [A1 A2 A3 A4 A5 A6] [B1 B2 B3 B4 B5 B6]. constructor; try congruence; [auto|].
  intros r Hr. destruct (B2 r Hr) as [H|H]; [|auto]. destruct (A2 r H) as [H'|H']; auto.
Qed.

(* the ordering passes write none of the last four *)
Lemma qstep_ord s s' : ord_rest s' = ord_rest s ->
  (forall r, In r (prounds s) -> In r (prounds s')) ->
  (forall r, get_round s' r <> None -> get_round s r <> None \/ In r (prounds s')) -> qstep s s'.
Proof.
  intros H Hp Hr. apply ins_rest_ord_rest in H. unfold ins_rest in H.
  injection H as _ _ _ Lc Lb _ _ Fr _ _ _ _ _ _ Dl _. constructor; assumption.
Qed.

Lemma qstep_same s s' : ord_rest s' = ord_rest s -> pending s' = pending s -> rounds s' = rounds s -> qstep s s'.
Proof.
  intros H P R. apply (qstep_ord s s' H).
  - intros r. unfold prounds. rewrite P. auto.
  - intros r Hr. left. unfold get_round in *. rewrite <- R. exact Hr.
Qed.

Lemma qstep_rstep s s' : rstep s s' -> qstep s s'.
Proof.
  intros S. constructor; [intros r; unfold prounds; rewrite (s_pend _ _ S); auto| |apply (s_lb _ _ S)|apply (s_lc _ _ S)|apply (s_fr _ _ S)|apply (s_del _ _ S)].
  intros r Hr. left. intros C. apply Hr. apply (s_dom _ _ S). exact C.
Qed.

Lemma nomemo_eq_queue st st' : nomemo st' = nomemo st ->
  rounds st' = rounds st /\ pending st' = pending st /\ lower_bound st' = lower_bound st.
Proof. intros H. exact (conj (f_equal rounds H) (conj (f_equal pending H) (f_equal lower_bound H))). Qed.

Lemma divide_round_qstep st y : lower_bound st = None -> qstep st (divide_round st y).
Proof.
  intros Hlb. apply (qstep_ord _ _ (divide_round_ord_rest st y)); unfold divide_round;
    destruct (nomemo_eq_queue _ _ (round_f_nomemo (fuel_of st) st y)) as [R1 [P1 L1]];
    destruct (round_f (fuel_of st) st y) as [[r0|] s]; cbn [snd] in R1, P1, L1; cbv zeta.
  2:{ intros r. change (prounds (fail s)) with (map fst (pending s)). rewrite P1. auto. }
  3:{ intros r Hr. left. change (zget r (rounds s) <> None) in Hr. rewrite R1 in Hr. exact Hr. }
  all: set (s1 := set_event_round s y r0);
    assert (F1 : rounds s1 = rounds st /\ pending s1 = pending st /\ lower_bound s1 = None)
      by (unfold s1, set_event_round; destruct (get_event s y); exact (conj R1 (conj P1 (eq_trans L1 Hlb))));
    destruct F1 as [R2 [P2 L2]];
    replace (round_or_new s1 r0) with (round_or_new st r0) by (unfold round_or_new, get_round; rewrite R2; reflexivity);
    set (ri := round_or_new st r0); set (s2 := maybe_queue s1 r0 ri);
    (* the queue after the round of y has been looked at *)
    assert (Q : (forall r, In r (prounds st) -> In r (prounds s2)) /\ (get_round st r0 = None -> In r0 (prounds s2)));
    [unfold s2, maybe_queue; rewrite L2;
     destruct (negb (queued s1 r0) && negb (ri_decided ri) && true) eqn:Eq;
     [rewrite prounds_set_pending; split; [intros r Hr; apply pending_insert_fst; right; rewrite P2; exact Hr|
                                           intros _; apply pending_insert_fst; left; reflexivity]
     |unfold prounds; rewrite P2; split; [auto|];
      intros Hn; unfold ri, round_or_new in Eq; rewrite Hn in Eq; cbn [ri_decided new_rinfo negb andb] in Eq;
      rewrite !andb_true_r in Eq; apply negb_false_iff, queued_In in Eq; unfold prounds in Eq; rewrite P2 in Eq; exact Eq]
    |];
    destruct Q as [Qa Qb];
    assert (R3 : rounds s2 = rounds st) by (unfold s2; rewrite rounds_maybe_queue; exact R2);
    destruct (nomemo_eq_queue _ _ (witness_f_nomemo (fuel_of s2) s2 y)) as [R4 [P4 _]];
    destruct (witness_f (fuel_of s2) s2 y) as [[w|] s']; cbn [snd] in R4, P4.
  - intros r. change (prounds (set_round s' r0 (add_created ri y w))) with (map fst (pending s')). rewrite P4. apply Qa.
  - intros r. change (prounds (fail s')) with (map fst (pending s')). rewrite P4. apply Qa.
  - intros r. change (prounds (set_round s' r0 (add_created ri y w))) with (map fst (pending s')). rewrite P4.
    change (get_round (set_round s' r0 (add_created ri y w)) r) with (zget r (zset r0 (add_created ri y w) (rounds s'))).
    rewrite zget_zset, R4, R3. destruct ((r0 =? r) && (0 <=? r0)) eqn:Eb; [|left; assumption]. intros _.
    apply andb_true_iff in Eb. destruct Eb as [Er _]. apply Z.eqb_eq in Er. subst r.
    destruct (get_round st r0) eqn:Hg; [left; discriminate|right; apply Qb; reflexivity].
  - intros r Hr. left. change (zget r (rounds s') <> None) in Hr. rewrite R4, R3 in Hr. exact Hr.
Qed.

Lemma divide_lt_qstep st y : qstep st (divide_lt st y).
Proof.
  unfold divide_lt. pose proof (ord_rest_nomemo _ _ (lamport_f_nomemo (fuel_of st) st y)) as O.
  destruct (nomemo_eq_queue _ _ (lamport_f_nomemo (fuel_of st) st y)) as [R1 [P1 _]].
  destruct (lamport_f (fuel_of st) st y) as [[t|] s]; cbn [snd] in *.
  - unfold set_event_lt. destruct (get_event s y); apply qstep_same; assumption.
  - apply qstep_same; assumption.
Qed.

Lemma divide_one_qstep st y : lower_bound st = None -> qstep st (divide_one st y).
Proof.
  intros Hlb. unfold divide_one. destruct (failed st); [apply qstep_refl|].
  destruct (get_event st y) as [ev|]; [|apply qstep_same; reflexivity].
  cbv zeta. set (st1 := match ev_round ev with Some _ => st | None => divide_round st y end).
  assert (H1 : qstep st st1) by (unfold st1; destruct (ev_round ev); [apply qstep_refl|apply divide_round_qstep, Hlb]).
  destruct (failed st1); [exact H1|].
  destruct (get_event st1 y) as [ev1|]; [|eapply qstep_trans; [exact H1|apply qstep_same; reflexivity]].
  destruct (ev_lt ev1); [exact H1|]. eapply qstep_trans; [exact H1|apply divide_lt_qstep].
Qed.

Lemma divide_rounds_qstep st : lower_bound st = None -> qstep st (divide_rounds st).
Proof.
  unfold divide_rounds. generalize (undetermined st). intros l. revert st.
  induction l as [|y l IH]; intros st Hlb; cbn [fold_left]; [apply qstep_refl|].
  pose proof (divide_one_qstep st y Hlb) as Q1.
  eapply qstep_trans; [exact Q1|]. apply IH. rewrite (qs_lb _ _ Q1). exact Hlb.
Qed.

Lemma decide_fame_prounds st : prounds (decide_fame st) = prounds st.
Proof.
  unfold decide_fame.
  assert (G : forall l s dec, pending (fst (fold_left decide_fame_round l (s, dec))) = pending s).
  { induction l as [|pr l IH]; intros s dec; cbn [fold_left]; [reflexivity|].
    assert (E : pending (fst (decide_fame_round (s, dec) pr)) = pending s).
    { unfold decide_fame_round. destruct (failed s); [reflexivity|].
      destruct (get_round s (fst pr)); [|reflexivity].
      destruct (get_peerset s (fst pr)); [|reflexivity].
      match goal with |- context [fold_left ?f ?l0 ?a] => destruct (fold_left f l0 a) end; [|reflexivity].
      destruct (witnesses_decided _ _). cbn [fst]. reflexivity. }
    destruct (decide_fame_round (s, dec) pr) as [s' dec']. cbn [fst] in *. rewrite IH. exact E. }
  specialize (G (pending st) st []).
  destruct (fold_left decide_fame_round (pending st) (st, [])) as [s decided]. cbn [fst] in G.
  destruct (failed s); [unfold prounds; rewrite G; reflexivity|].
  unfold prounds. replace (pending (s <| pending := _ |>)) with
    (map (fun p : Z * bool => if existsb (Z.eqb (fst p)) decided then (fst p, true) else p) (pending s)) by reflexivity.
  rewrite map_map, <- G. apply map_ext. intros [r d]. cbn. destruct (existsb _ _); reflexivity.
Qed.

Record pinv (st : hg) : Prop := { pi_qp : QP st; pi_fr : FR st; pi_db : DB st }.

Lemma classic_lcle st R : lcle st R \/ ~ lcle st R.
Proof.
  unfold lcle. destruct (last_consensus st) as [l|]; [|right; intros [l [C _]]; discriminate].
  destruct (Z.le_gt_cases R l); [left; exists l; auto|right; intros [l' [E Hle]]; inversion E; lia].
Qed.

Lemma flag_below_lc st R : rinv st -> lcle st R -> 0 <= R -> flag st R.
Proof.
  intros [A B] [l [Hl Hle]] H0.
  assert (Hg : get_round st R <> None).
  { apply (r_contig st A). pose proof (r_lc st A l Hl). lia. }
  destruct (get_round st R) as [ri|] eqn:E; [|contradiction]. exists ri. split; [exact E|].
  destruct (r_q st B R ri E) as [Hin|Hd]; [|exact Hd].
  exfalso. pose proof (r_above st B R Hin) as Hlt. unfold lc_lt in Hlt. rewrite Hl in Hlt. lia.
Qed.

Lemma rv_fields s s' : rv s' = rv s ->
  rounds s' = rounds s /\ pending s' = pending s /\ last_consensus s' = last_consensus s /\
  frames s' = frames s /\ delivered s' = delivered s.
Proof. unfold rv, cv. intros H. inversion H. auto. Qed.

Lemma bview_fields s s' : bview s' = bview s ->
  delivered s' = delivered s /\ frames s' = frames s /\ last_consensus s' = last_consensus s.
Proof. unfold bview. intros H. inversion H. auto. Qed.

Lemma init_frames_lce self_ g oracle_ :
  frames (init_hg self_ g oracle_) = zempty /\ last_cons_ev (init_hg self_ g oracle_) = [] /\
  last_consensus (init_hg self_ g oracle_) = None.
Proof.
  unfold init_hg. destruct (set_peerset (empty_hg self_) 0 g) as [s|] eqn:S; [|auto].
  destruct (cv_eq _ _ (cv_set_peerset _ _ _ _ S)) as [_ [B O]].
  destruct (lcv_fields _ _ (lcv_set_peerset _ _ _ _ S)) as [_ [L _]].
  replace (frames (s <| validators := g |> <| oracle := oracle_ |>)) with (frames s) by reflexivity.
  replace (last_cons_ev (s <| validators := g |> <| oracle := oracle_ |>)) with (last_cons_ev s) by reflexivity.
  replace (last_consensus (s <| validators := g |> <| oracle := oracle_ |>)) with (last_consensus s) by reflexivity.
  rewrite O, L, B. auto.
Qed.

Lemma pinv_init self_ g oracle_ : pinv (init_hg self_ g oracle_).
Proof.
  destruct (cw_fields _ _ (cw_init self_ g oracle_)) as [Ev [Ro _]]. destruct (init_frames_lce self_ g oracle_) as [Fr _].
  constructor.
  - intros r Hr. unfold get_round in Hr. rewrite Ro in Hr. cbn in Hr. rewrite zget_empty in Hr. contradiction.
  - intros R f Hz. rewrite Fr, zget_empty in Hz. discriminate.
  - intros x ex R Hx. unfold get_event in Hx. rewrite Ev in Hx. cbn in Hx. rewrite zget_empty in Hx. discriminate.
Qed.

Lemma pinv_same st st' : rv st' = rv st -> events st' = events st -> pinv st -> pinv st'.
Proof.
  intros Erv Ev [Qp Fr Db]. destruct (rv_fields _ _ Erv) as [Ro [Pe [Lc [Frm Dl]]]].
  assert (Hl : forall R, lcle st' R <-> lcle st R) by (intros R; unfold lcle; rewrite Lc; reflexivity).
  constructor.
  - intros r. unfold get_round, prounds. rewrite Ro, Pe. intros Hr. destruct (Qp r Hr); [left; assumption|right; apply Hl; assumption].
  - intros R f. rewrite Frm. intros Hz. apply Hl. eapply Fr; eauto.
  - intros x ex R. unfold get_event. rewrite Ev, Frm, Dl. intros Hx Hr Hlc. apply Hl in Hlc. eapply Db; eauto.
Qed.

(* a step either leaves the rounds, the queue, the frames, the deliveries and the last consensus events alone,
   or it is an accepted insertion followed by a consensus pass *)
Lemma hstep_cases all st o : ids_determine all -> hop_ok all o -> ginv all st ->
  (rv (hstep st o) = rv st /\ cw (hstep st o) = cw st /\ lcv (hstep st o) = lcv st) \/
  (exists e s, o = HInsert e /\ insert_event st e = (InsOk, s) /\ hstep st o = run_consensus s).
Proof.
  intros ID Ho Gi. destruct o as [e|].
  2:{ left. split; [apply process_sigpool_rv|]. split; [apply cw_process_sigpool|apply lcv_process_sigpool]. }
  destruct Ho as [Hin Hid]. destruct (hstep_insert_cases all st e ID Hin Hid Gi) as [->|[s [E [_ Es]]]]; [auto|].
  right. exists e, s. auto.
Qed.

Lemma run_consensus_rstages s : rinv s -> failed (run_consensus s) = false ->
  let s2 := decide_fame (divide_rounds s) in let s3 := decide_round_received s2 in
  run_consensus s = process_decided_rounds s3 /\ failed s3 = false /\ rinv (divide_rounds s) /\ rinv s2 /\ rinv s3.
Proof.
  intros R. unfold run_consensus. cbv zeta.
  destruct (divide_rounds_rinv s (or_intror R)) as [F1|R1]; [rewrite F1; congruence|].
  destruct (failed (divide_rounds s)) eqn:F1; cbv iota; [intros C; congruence|].
  pose proof (decide_fame_rinv _ R1) as R2.
  destruct (failed (decide_fame (divide_rounds s))) eqn:F2; cbv iota; [intros C; congruence|].
  pose proof (rinv_rstep _ _ R2 (decide_round_received_rstep _ (proj1 (rinv_bounded _ R2)))) as R3.
  destruct (failed (decide_round_received (decide_fame (divide_rounds s)))) eqn:F3; cbv iota; [intros C; congruence|]. auto.
Qed.

(* an accepted insertion: the queue up to ProcessDecidedRounds, and the start of its fold *)
Lemma step_ok_facts all st e s st' : ginv all st -> ginv all st' -> rinv st -> QP st -> FR st ->
  insert_event st e = (InsOk, s) -> st' = run_consensus s -> failed st' = false ->
  let s3 := decide_round_received (decide_fame (divide_rounds s)) in
  st' = process_decided_rounds s3 /\ qstep st s3 /\ pfoldD s3 (pending s3) s3 /\ rinv s3 /\ lcev s3 = lcev st.
Proof.
  intros Gi Gi' R Qp Fr E Est' Hf.
  pose proof (insert_event_rstep st e) as Sr.
  pose proof (insert_event_lcev st e) as Lv. rewrite E in Sr, Lv. cbn [snd] in Sr, Lv.
  assert (Rs' : rinv s) by (apply (rinv_rstep st s R Sr)).
  rewrite Est' in Hf. destruct (run_consensus_rstages s Rs' Hf) as [Eq [Hf3 [R1 [R2 R3]]]]. cbv zeta in *. rewrite Eq in Est'.
  set (s1 := divide_rounds s) in *. set (s2 := decide_fame s1) in *. set (s3 := decide_round_received s2) in *.
  assert (Q3 : qstep st s3).
  { assert (Q1 : qstep s s1) by (apply divide_rounds_qstep, (r_lb _ (proj1 Rs'))).
    assert (Q2 : qstep s1 s2).
    { apply (qstep_ord _ _ (decide_fame_ord_rest s1)); [intros r; unfold s2; rewrite decide_fame_prounds; auto|].
      intros r Hr. left. intros C. apply Hr. apply (ck_rd _ _ (decide_fame_ckeep s1)). exact C. }
    eapply qstep_trans; [exact (qstep_rstep _ _ Sr)|]. eapply qstep_trans; [exact Q1|]. eapply qstep_trans; [exact Q2|].
    apply qstep_rstep, (decide_round_received_rstep s2 (proj1 (rinv_bounded _ R2))). }
  assert (Hl3 : forall R0, lcle s3 R0 <-> lcle st R0) by (intros R0; unfold lcle; rewrite (qs_lc _ _ Q3); reflexivity).
  split; [exact Est'|]. split; [exact Q3|]. split; [|split; [exact R3|]].
  - destruct (cw_fields _ _ (cw_process_decided_rounds s3)) as [Ev4 [Ro4 _]]. destruct R3 as [A3 B3]. constructor.
    + intros q g0. rewrite (qs_fr _ _ Q3). intros Hz. destruct (gi_f _ _ Gi q g0 Hz) as [A _]. exact A.
    + exact Hf3.
    + intros R0 f. rewrite (qs_fr _ _ Q3). intros Hz. apply Hl3. eapply Fr; eauto.
    + intros x ex R0 _ _ Hlc Hn. contradiction.
    + intros r Hr. destruct (qs_r _ _ Q3 r Hr) as [H0|H0]; [|right; exact H0].
      destruct (Qp r H0) as [H1|H1]; [right; apply (qs_p _ _ Q3); exact H1|left; apply Hl3; exact H1].
    + intros r Hr. apply (r_above _ B3 r Hr).
    + apply (r_sorted _ A3).
    + intros [r d] Hpr. destruct (r_pend _ A3 r d Hpr) as [ri [Hri _]]. cbn [fst]. rewrite Hri. discriminate.
    + intros x ex R0 Hx Hr.
      pose proof (c_listed _ (g_o _ _ (gi_core _ _ Gi')) x ex R0) as CL. rewrite Est' in CL.
      unfold get_event, rcv, get_round in CL |- *. rewrite Ev4, Ro4 in CL. apply CL; assumption.
  - unfold s3, s2, s1. rewrite decide_round_received_lcev, decide_fame_lcev, divide_rounds_lcev. exact Lv.
Qed.
