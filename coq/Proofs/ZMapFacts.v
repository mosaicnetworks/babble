From Coq Require Import ZArith List Bool Lia FMapPositive.
From V Require Import Model.ZMap.
Import ListNotations.
Open Scope Z_scope.

Lemma zkey_inj k k' : 0 <= k -> 0 <= k' -> zkey k = zkey k' -> k = k'.
Proof. unfold zkey; intros H H' E. apply (f_equal Z.pos) in E. rewrite !Z2Pos.id in E by lia. lia. Qed.

Lemma zget_zset_same {A} k (v : A) m : 0 <= k -> zget k (zset k v m) = Some v.
Proof.
  unfold zget, zset; intros H. destruct (k <? 0) eqn:E; [lia|]. apply PositiveMap.gss.
Qed.

Lemma zget_zset_other {A} k k' (v : A) m : k <> k' -> zget k' (zset k v m) = zget k' m.
Proof.
  unfold zget, zset; intros H. destruct (k' <? 0) eqn:E'; [reflexivity|].
  destruct (k <? 0) eqn:E; [reflexivity|]. apply PositiveMap.gso.
  intros C; apply zkey_inj in C; lia.
Qed.

Lemma zget_zset_neg {A} k (v : A) m : k < 0 -> zset k v m = m.
Proof. unfold zset; intros H; destruct (k <? 0) eqn:E; [reflexivity|lia]. Qed.

Lemma zget_neg {A} k (m : zmap A) : k < 0 -> zget k m = None.
Proof. unfold zget; intros H; destruct (k <? 0) eqn:E; [reflexivity|lia]. Qed.

Lemma zget_empty {A} k : zget k (@zempty A) = None.
Proof. unfold zget, zempty; destruct (k <? 0); [reflexivity|apply PositiveMap.gempty]. Qed.

Lemma zget_zset {A} k k' (v : A) m :
  zget k' (zset k v m) = if (k =? k') && (0 <=? k) then Some v else zget k' m.
Proof.
  destruct (Z.eqb_spec k k') as [->|Hne].
  - destruct (Z.leb_spec 0 k'); cbn [andb].
    + apply zget_zset_same; auto.
    + rewrite zget_zset_neg by lia. reflexivity.
  - cbn [andb]. apply zget_zset_other; auto.
Qed.

Lemma zget_some_nonneg {A} k (m : zmap A) v : zget k m = Some v -> 0 <= k.
Proof. unfold zget; destruct (k <? 0) eqn:E; [discriminate|lia]. Qed.

Lemma zmem_zget {A} k (m : zmap A) : zmem k m = true <-> exists v, zget k m = Some v.
Proof.
  unfold zmem. destruct (zget k m) as [v|].
  - split; [intros _; exists v; reflexivity|reflexivity].
  - split; [discriminate|intros [v Hv]; discriminate].
Qed.

Lemma aget_aset_same {A} k (v : A) l : aget k (aset k v l) = Some v.
Proof.
  induction l as [|[k' v'] r IH]; cbn [aset aget]; [rewrite Z.eqb_refl; reflexivity|].
  destruct (Z.eqb_spec k' k); cbn [aget]; [rewrite Z.eqb_refl; reflexivity|].
  destruct (Z.eqb_spec k' k); [contradiction|]. exact IH.
Qed.

Lemma aget_aset_other {A} k k' (v : A) l : k <> k' -> aget k' (aset k v l) = aget k' l.
Proof.
  intros Hne. induction l as [|[k0 v0] r IH]; cbn [aset aget].
  - destruct (Z.eqb_spec k k'); [contradiction|reflexivity].
  - destruct (Z.eqb_spec k0 k) as [->|Hn]; cbn [aget].
    + destruct (Z.eqb_spec k k'); [contradiction|reflexivity].
    + destruct (Z.eqb_spec k0 k'); [reflexivity|exact IH].
Qed.

Lemma aget_app_none {A} k (l l' : list (Z * A)) : aget k l = None -> aget k (l ++ l') = aget k l'.
Proof.
  induction l as [|[k0 v0] r IH]; cbn [aget app]; [reflexivity|].
  destruct (Z.eqb k0 k); [discriminate|exact IH].
Qed.
Lemma aget_app_some {A} k (l l' : list (Z * A)) v : aget k l = Some v -> aget k (l ++ l') = Some v.
Proof.
  induction l as [|[k0 v0] r IH]; cbn [aget app]; [discriminate|].
  destruct (Z.eqb k0 k); [auto|exact IH].
Qed.

Lemma aget_In {A} k (l : list (Z * A)) v : aget k l = Some v -> In (k, v) l.
Proof.
  induction l as [|[k' v'] r IH]; cbn [aget]; [discriminate|].
  destruct (Z.eqb_spec k' k) as [->|]; [intros H; inversion H; left; reflexivity|intros H; right; auto].
Qed.

Lemma nth_error_app1_some {A} (l l' : list A) n x : nth_error l n = Some x -> nth_error (l ++ l') n = Some x.
Proof. intros H. rewrite nth_error_app1; [exact H|]. apply nth_error_Some. congruence. Qed.

Lemma firstn_snoc {A} (l : list A) i x : nth_error l i = Some x -> firstn (S i) l = firstn i l ++ [x].
Proof.
  revert i. induction l as [|a l IH]; intros i H; [destruct i; discriminate|].
  destruct i as [|i]; [cbn in H; inversion H; reflexivity|]. cbn [nth_error] in H.
  change (a :: firstn (S i) l = a :: (firstn i l ++ [x])). f_equal. apply IH. exact H.
Qed.
