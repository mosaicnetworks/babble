(* Two states that do not hold the two branches of a fork: the premise under which they are two views of the
   same history (Proofs/SameHistoryD.v). *)
From Coq Require Import ZArith.
From V Require Import Model.HgImpl.

(* no creator has two different events of the same index across the two states *)
Definition no_cross_fork (s1 s2 : hg) : Prop :=
  forall x1 x2 e1 e2, get_event s1 x1 = Some e1 -> get_event s2 x2 = Some e2 ->
    e_creator (ev_e e1) = e_creator (ev_e e2) -> e_index (ev_e e1) = e_index (ev_e e2) -> x1 = x2.

Lemma no_cross_fork_sym s1 s2 : no_cross_fork s1 s2 -> no_cross_fork s2 s1.
Proof. intros H x1 x2 e1 e2 H1 H2 Hc Hi. symmetry. eapply H; eauto. Qed.
