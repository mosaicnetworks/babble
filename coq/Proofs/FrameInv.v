(* Every cached frame satisfies the frame equations FE relative to a reachable state
   (the state at the end of the step that built it); all rounds up to the last consensus round have
   a cached frame; the last-consensus-event table is a function of the cached frames.
   The induction along the fold of ProcessDecidedRounds and along a run is made once, for an abstract
   predicate on frames (Section Fold); static membership (here) and the distance bound (Proofs/FrameD.v)
   are its two instances. *)
From Coq Require Import ZArith List Bool Lia Sorted.
From RecordUpdate Require Import RecordSet.
From V Require Import Model.ZMap Model.Quorum Model.Median Model.HgImpl Proofs.ZMapFacts Proofs.QuorumProofs
  Proofs.HgDagFrames Proofs.AdmissionProofs Proofs.BlockInv Proofs.RoundOrder Proofs.OrderProofs Proofs.VotingProofs
  Proofs.Static Proofs.FirstDesc Proofs.CInvRun Proofs.NoFail Proofs.Committed Proofs.FsvFrames Proofs.FrameFn.
From V Require Import Proofs.CommittedD Proofs.FsvD Proofs.OrderIndepD.
Import ListNotations RecordSetNotations.
Open Scope Z_scope.

(* the events and the roots of a frame, relative to a repertoire and a first-round table *)
Record FE0 (rep : list peer) (frs : list (Z * Z)) (S : hg) (R : Z) (f : frame) : Prop := {
  fe0_evs : Forall (fun fe => create_frame_event S (fe_id fe) = Some fe) (f_events f);
  fe0_roots : f_roots f = roots_fn (creator_of S) (sp_of S) (fun _ h => root_fn S h) rep frs
                 (lce_fn (creator_of S) (frames S) (Z.to_nat R)) R (f_events f)
}.

Record FEg (g : peerset) (rep : list peer) (frs : list (Z * Z)) (S : hg) (R : Z) (f : frame) : Prop := {
  fg_peers : f_peers f = g;
  fg_psets : f_peersets f = [(0, g)];
  fg_ts : exists ri, get_round S R = Some ri /\ f_ts f = median (map (ts_of S) (famous_witnesses ri));
  fg_core : FE0 rep frs S R f
}.

(* static membership: the repertoire and the first-round table are those of the state *)
Definition FE (g : peerset) (S : hg) := FEg g (repertoire S) (first_rounds S) S.

Definition fe_psets g S R f (E : FE g S R f) := fg_psets _ _ _ _ _ _ E.
Definition fe_evs g S R f (E : FE g S R f) := fe0_evs _ _ _ _ _ (fg_core _ _ _ _ _ _ E).
Definition fe_roots g S R f (E : FE g S R f) := fe0_roots _ _ _ _ _ (fg_core _ _ _ _ _ _ E).

Definition fctx (st : hg) := (events st, rounds st, round_memo st, lt_memo st, repertoire st, first_rounds st).

Lemma fctx_sym s s' : fctx s' = fctx s -> fctx s = fctx s'.
Proof. intros H. symmetry. exact H. Qed.

(* what the equations read of the stored events and rounds *)
Definition dctx (st : hg) := (events st, rounds st, round_memo st, lt_memo st).

Lemma dctx_of s s' : cw s' = cw s -> lt_memo s' = lt_memo s -> dctx s' = dctx s.
Proof. intros C L. destruct (cw_fields _ _ C) as [A [B [D _]]]. unfold dctx. rewrite A, B, D, L. reflexivity. Qed.

Section CtxD.
  Variables (s s' : hg).
  Hypothesis C : dctx s' = dctx s.
  Lemma dctx_get_event x : get_event s' x = get_event s x.
  Proof. unfold dctx in C. inversion C as [[A B D E]]. unfold get_event. rewrite A. reflexivity. Qed.
  Lemma dctx_get_round r : get_round s' r = get_round s r.
  Proof. unfold dctx in C. inversion C as [[A B D E]]. unfold get_round. rewrite B. reflexivity. Qed.
  Lemma dctx_creator_of x : creator_of s' x = creator_of s x.
  Proof. unfold creator_of. rewrite dctx_get_event. reflexivity. Qed.
  Lemma dctx_sp_of x : sp_of s' x = sp_of s x.
  Proof. unfold sp_of. rewrite dctx_get_event. reflexivity. Qed.
  Lemma dctx_ts_of x : ts_of s' x = ts_of s x.
  Proof. unfold ts_of. rewrite dctx_get_event. reflexivity. Qed.
  Lemma dctx_cfe x : create_frame_event s' x = create_frame_event s x.
  Proof.
    pose proof C as C'. unfold dctx in C'. inversion C' as [[A B D E]].
    unfold create_frame_event. rewrite dctx_get_event, D, E.
    destruct (get_event s x); [|reflexivity]. destruct (zget x (round_memo s)); [|reflexivity].
    rewrite dctx_get_round. reflexivity.
  Qed.
  Lemma dctx_fe_of x : fe_of s' x = fe_of s x.
  Proof. unfold fe_of. rewrite dctx_cfe. reflexivity. Qed.
  Lemma dctx_sp_chain n : forall h, sp_chain s' h n = sp_chain s h n.
  Proof. induction n as [|n IH]; intros h; cbn [sp_chain]; [reflexivity|]. rewrite dctx_sp_of, IH. reflexivity. Qed.
  Lemma dctx_root_fn h : root_fn s' h = root_fn s h.
  Proof.
    unfold root_fn. destruct (h =? -1); [reflexivity|]. rewrite dctx_sp_chain. f_equal.
    apply map_ext. intros x. apply dctx_fe_of.
  Qed.
  Lemma dctx_lce_add f : forall acc, lce_add (creator_of s') acc f = lce_add (creator_of s) acc f.
  Proof.
    unfold lce_add. induction (f_events f) as [|fe l IH]; intros acc; cbn [fold_left]; [reflexivity|].
    rewrite dctx_creator_of. apply IH.
  Qed.

  (* the equations read the stored events and rounds, and the frames of the lower rounds *)
  Lemma FE0_ctx rep frs R f : 0 <= R ->
    (forall R', 0 <= R' < R -> zget R' (frames s') = zget R' (frames s)) -> FE0 rep frs s R f -> FE0 rep frs s' R f.
  Proof.
    intros HR Hfr [D E]. constructor.
    - eapply Forall_impl; [|exact D]. intros fe H. cbn beta in *. rewrite dctx_cfe. exact H.
    - rewrite E. unfold roots_fn.
      rewrite (roots1_fn_ext (creator_of s) (creator_of s') (sp_of s) (sp_of s') (fun _ h => root_fn s h) (fun _ h => root_fn s' h)).
      2:{ intros fe _. rewrite dctx_creator_of, dctx_sp_of, dctx_root_fn. auto. }
      apply roots2_fn_ext. intros p _.
      rewrite (lce_fn_ext (creator_of s') (creator_of s) (frames s') (frames s) (Z.to_nat R)).
      + symmetry. apply dctx_root_fn.
      + intros R' HR'. apply Hfr. lia.
      + intros R' f' fe _ _ _. apply dctx_creator_of.
  Qed.

  Lemma FEg_ctx g rep frs R f : 0 <= R ->
    (forall R', 0 <= R' < R -> zget R' (frames s') = zget R' (frames s)) -> FEg g rep frs s R f -> FEg g rep frs s' R f.
  Proof.
    intros HR Hfr [A B [ri [Hri Hts]] D]. constructor; [exact A|exact B| |apply FE0_ctx; assumption].
    exists ri. rewrite dctx_get_round. split; [exact Hri|]. rewrite Hts. f_equal. apply map_ext. intros w. symmetry. apply dctx_ts_of.
  Qed.
End CtxD.

Lemma get_frame_FE0 P s R f s1 : freadyD P s ->
  (forall R0 f0 fe, zget R0 (frames s) = Some f0 -> In fe (f_events f0) -> get_event s (fe_id fe) <> None) ->
  zget R (frames s) = None -> get_frame s R = (Some f, s1) ->
  last_cons_ev s = lce_fn (creator_of s) (frames s) (Z.to_nat R) ->
  FE0 (repertoire s) (first_rounds s) s R f.
Proof.
  intros Fr Hst Hz Egf Hlce. pose proof (frd_dag _ _ Fr) as OK.
  pose proof (get_frame_new_cfe s R f s1 Hz Egf) as Hcfe.
  destruct (get_frame_new_spec s R f s1 Hz Egf) as [ri [evs [_ [_ [_ [_ [_ [_ [_ [_ Hroots]]]]]]]]]].
  constructor; [apply Forall_forall; exact Hcfe|].
  rewrite Hroots, Hlce. unfold roots_fn.
  rewrite (roots1_fn_ext (creator_of s) (creator_of s) (sp_of s) (sp_of s) (root_of s) (fun _ h => root_fn s h)).
  2:{ intros fe Hfe. split; [reflexivity|]. unfold root_of. rewrite (create_root_fnD P s _ _ Fr); [reflexivity|].
      destruct (create_frame_event_spec _ _ _ (Hcfe fe Hfe)) as [_ [_ [ex Hex]]].
      unfold sp_of, creator_of. rewrite Hex.
      destruct (d_sp s OK _ _ Hex) as [[Hs _]|[ps [Hp [Hc _]]]]; [left; exact Hs|right; exists ps; auto]. }
  apply roots2_fn_ext. intros q _. unfold root_of. rewrite (create_root_fnD P s _ _ Fr); [reflexivity|].
  unfold lce_head. destruct (aget (pkey q) (lce_fn (creator_of s) (frames s) (Z.to_nat R))) as [h|] eqn:Eh; [right|left; reflexivity].
  destruct (lce_fn_creator _ _ _ _ _ Eh) as [Hc [R0 [f0 [_ [Hz0 Hin0]]]]].
  apply in_map_iff in Hin0. destruct Hin0 as [fe [Efe Hfe]].
  pose proof (Hst R0 f0 fe Hz0 Hfe) as Hs. rewrite Efe in Hs.
  destruct (get_event s h) as [ex|] eqn:Hex; [|contradiction].
  exists ex. split; [reflexivity|]. unfold creator_of in Hc. rewrite Hex in Hc. exact Hc.
Qed.

Lemma process_round_ltm s p stop pr : lt_memo (fst (fst (process_round (s, p, stop) pr))) = lt_memo s.
Proof.
  unfold process_round. destruct (stop || failed s); [reflexivity|]. destruct (negb (snd pr)); [reflexivity|].
  destruct (get_round s (fst pr)); [|reflexivity].
  assert (G : lt_memo (snd (get_frame s (fst pr))) = lt_memo s).
  { destruct (get_frame_cases s (fst pr)) as [[E _]|[E|[f [ri [evs [E _]]]]]]; rewrite E; reflexivity. }
  destruct (get_frame s (fst pr)) as [[f|] s1]; cbn [fst snd] in *.
  - destruct (lcv_fields _ _ (lcv_bump (process_frame s1 f) (fst pr))) as [_ [_ A]]. rewrite A.
    destruct (process_frame_lce s1 f) as [_ [B _]]. rewrite B. exact G.
  - rewrite <- G. reflexivity.
Qed.

Lemma process_decided_rounds_ltm st : lt_memo (process_decided_rounds st) = lt_memo st.
Proof.
  unfold process_decided_rounds.
  assert (G : forall l s p b, lt_memo (fst (fst (fold_left process_round l (s, p, b)))) = lt_memo s).
  { induction l as [|pr rest IH]; intros s p b; cbn [fold_left]; [reflexivity|].
    pose proof (process_round_ltm s p b pr) as A. destruct (process_round (s, p, b) pr) as [[s' p'] b']. cbn [fst] in A.
    rewrite IH. exact A. }
  specialize (G (pending st) st [] false).
  destruct (fold_left process_round (pending st) (st, [], false)) as [[s processed] stop]. cbn [fst] in G.
  rewrite <- G. reflexivity.
Qed.

Lemma process_round_decided s p R ri fo s1 : failed s = false -> get_round s R = Some ri -> get_frame s R = (fo, s1) ->
  process_round (s, p, false) (R, true) =
  match fo with Some f => (bump_last_consensus (process_frame s1 f) R, p ++ [R], false) | None => (fail s1, p, true) end.
Proof. intros F Hr Hg. unfold process_round. cbn [orb negb fst snd]. rewrite F, Hr, Hg. reflexivity. Qed.

Lemma lce_fn_nil cre frs n : (forall R, zget R frs = None) -> lce_fn cre frs n = [].
Proof.
  intros H. rewrite (lce_fn_beyond cre frs 0 n); [reflexivity|lia|]. intros R f Hz. rewrite H in Hz. discriminate.
Qed.

(* [Phi s0 s R f]: what is recorded of the frame f that the fold started in s0 builds in the state s for the round R;
   [K s0 s]: what the fold keeps besides, to show that the new frame satisfies Phi *)
Section Fold.
  Variables (Phi : hg -> hg -> Z -> frame -> Prop) (K : hg -> hg -> Prop).
  Hypothesis Phi_ctx : forall s0 s s' R f, dctx s' = dctx s -> 0 <= R ->
    (forall R', 0 <= R' < R -> zget R' (frames s') = zget R' (frames s)) -> Phi s0 s R f -> Phi s0 s' R f.

  Record pf2 (s0 s : hg) : Prop := {
    q_cw : cw s = cw s0;
    q_lt : lt_memo s = lt_memo s0;
    q_dag : dag_ok s;
    q_st : forall R f fe, zget R (frames s) = Some f -> In fe (f_events f) -> get_event s (fe_id fe) <> None;
    q_fc : forall R, 0 <= R -> lcle s R -> zget R (frames s) <> None;
    q_lce : forall n, (forall R f, zget R (frames s) = Some f -> R < Z.of_nat n) ->
            last_cons_ev s = lce_fn (creator_of s) (frames s) n;
    q_fe : forall R f, zget R (frames s) = Some f -> zget R (frames s0) = Some f \/ Phi s0 s R f
  }.

  Hypothesis K_round : forall s0 s p R rest, pfoldD s0 ((R, true) :: rest) s -> K s0 s -> pf2 s0 s ->
    failed (fst (fst (process_round (s, p, false) (R, true)))) = false ->
    K s0 (fst (fst (process_round (s, p, false) (R, true)))) /\
    forall f s1, zget R (frames s) = None -> get_frame s R = (Some f, s1) ->
      last_cons_ev s = lce_fn (creator_of s) (frames s) (Z.to_nat R) -> Phi s0 s R f.

  Lemma process_round_pf2 s0 s p R rest :
    (forall r, get_round s0 r <> None <-> 0 <= r <= last_round s0) ->
    pfoldD s0 ((R, true) :: rest) s -> pf2 s0 s ->
    failed (fst (fst (process_round (s, p, false) (R, true)))) = false ->
    (forall f s1, zget R (frames s) = None -> get_frame s R = (Some f, s1) ->
       last_cons_ev s = lce_fn (creator_of s) (frames s) (Z.to_nat R) -> Phi s0 s R f) ->
    pf2 s0 (fst (fst (process_round (s, p, false) (R, true)))).
  Proof.
    intros Hcontig [_ Hf Hfr _ Hcov Habove Hsort Hpend _] P2 Hnf Hnew.
    assert (HgR : get_round s R <> None) by (apply (Hpend (R, true)); left; reflexivity).
    pose proof (Habove R (or_introl eq_refl)) as HlcR.
    assert (Hbelow : forall R' f', zget R' (frames s) = Some f' -> R' < R).
    { intros R' f' Hz'. destruct (Hfr R' f' Hz') as [l [Hl Hle]]. unfold lc_lt in HlcR. rewrite Hl in HlcR. exact (Z.le_lt_trans _ _ _ Hle HlcR). }
    assert (Hz : zget R (frames s) = None).
    { destruct (zget R (frames s)) as [f0|] eqn:Hz0; [|reflexivity]. destruct (Z.lt_irrefl _ (Hbelow R f0 Hz0)). }
    pose proof (cw_process_round s p false (R, true)) as Cw.
    pose proof (process_round_ltm s p false (R, true)) as Lt.
    pose proof (process_round_frame s p false (R, true)) as Dfr.
    destruct (get_round s R) as [ri|] eqn:Hri; [|contradiction].
    destruct (get_frame s R) as [fo s1] eqn:Egf.
    rewrite (process_round_decided s p R ri fo s1 Hf Hri Egf) in Hnf, Cw, Lt, Dfr |- *.
    destruct fo as [f|]; cbn [fst] in Hnf, Cw, Lt, Dfr |- *; [|rewrite failed_fail in Hnf; discriminate].
    destruct (get_frame_new_spec s R f s1 Hz Egf) as [_ [_ [_ [Es1 _]]]].
    pose proof (get_frame_new_cfe s R f s1 Hz Egf) as Hcfe.
    assert (HR0 : 0 <= R) by (eapply get_round_some_nonneg; exact Hri).
    set (s' := bump_last_consensus (process_frame s1 f) R) in *.
    pose proof (dctx_of _ _ Cw Lt) as Ctx'.
    assert (Fr' : frames s' = zset R f (frames s)).
    { destruct (bump_keep (process_frame s1 f) R) as [_ [A _]]. fold s' in A. rewrite A.
      destruct (cv_eq _ _ (process_frame_cv s1 f)) as [_ [_ B]]. rewrite B, Es1. reflexivity. }
    assert (Lc' : last_consensus s' = Some R).
    { apply bump_lc. unfold lc_lt in *. destruct (cv_eq _ _ (process_frame_cv s1 f)) as [_ [B _]].
      rewrite B, Es1. exact HlcR. }
    assert (Lce' : last_cons_ev s' = lce_add (creator_of s) (last_cons_ev s) f).
    { destruct (lcv_fields _ _ (lcv_bump (process_frame s1 f) R)) as [_ [A _]]. fold s' in A.
      rewrite A, process_frame_lce_fn, Es1. reflexivity. }
    assert (Hlce : last_cons_ev s = lce_fn (creator_of s) (frames s) (Z.to_nat R)).
    { apply (q_lce _ _ P2). intros R' f' Hz'. rewrite Z2Nat.id by exact HR0. exact (Hbelow R' f' Hz'). }
    assert (Hfrz : forall R', R' <> R -> zget R' (frames s') = zget R' (frames s)).
    { intros R' Hne. rewrite Fr'. apply zget_zset_other. congruence. }
    assert (Hfrn : zget R (frames s') = Some f) by (rewrite Fr'; apply zget_zset_same; exact HR0).
    constructor.
    - rewrite Cw. apply (q_cw _ _ P2).
    - rewrite Lt. apply (q_lt _ _ P2).
    - eapply dag_ok_frame; [exact (q_dag _ _ P2)|exact Dfr].
    - intros R' f' fe Hz' Hfe. rewrite (dctx_get_event _ _ Ctx').
      destruct (Z.eq_dec R' R) as [->|Hne].
      + rewrite Hfrn in Hz'. injection Hz' as <-.
        destruct (create_frame_event_spec _ _ _ (Hcfe fe Hfe)) as [_ [_ [ex Hex]]]. rewrite Hex. discriminate.
      + rewrite (Hfrz R' Hne) in Hz'. apply (q_st _ _ P2 R' f' fe Hz' Hfe).
    - intros R' H0 [l [Hl Hle]]. rewrite Lc' in Hl. injection Hl as <-.
      destruct (Z.eq_dec R' R) as [->|Hne]; [rewrite Hfrn; discriminate|].
      rewrite (Hfrz R' Hne). apply (q_fc _ _ P2 R' H0).
      pose proof (dctx_get_round _ _ (dctx_of _ _ (q_cw _ _ P2) (q_lt _ _ P2))) as Ero.
      assert (HgR' : get_round s R' <> None).
      { rewrite Ero. apply Hcontig. split; [exact H0|].
        assert (HgR0 : get_round s0 R <> None) by (rewrite <- Ero, Hri; discriminate). apply Hcontig in HgR0. exact (Z.le_trans _ _ _ Hle (proj2 HgR0)). }
      destruct (Hcov R' HgR') as [Hl'|Hin]; [exact Hl'|exfalso].
      cbn [map fst] in Hin. destruct Hin as [E0|Hin]; [congruence|].
      apply StronglySorted_inv in Hsort as [_ Hall]. rewrite Forall_forall in Hall.
      exact (Z.lt_irrefl _ (Z.lt_le_trans _ _ _ (Hall R' Hin) Hle)).
    - intros n Hn. rewrite Lce', Hlce.
      assert (Hn1 : (S (Z.to_nat R) <= n)%nat) by (pose proof (Hn R f Hfrn) as HRn; clear - HRn HR0; lia).
      rewrite (lce_fn_beyond (creator_of s') (frames s') (S (Z.to_nat R)) n Hn1).
      2:{ intros R' f' Hz'. destruct (Z.eq_dec R' R) as [->|Hne]; [clear - HR0; lia|]. rewrite (Hfrz R' Hne) in Hz'. specialize (Hbelow R' f' Hz'). clear - Hbelow HR0; lia. }
      rewrite lce_fn_S. unfold lce_step. rewrite Z2Nat.id by exact HR0. rewrite Hfrn.
      rewrite (lce_fn_ext (creator_of s') (creator_of s) (frames s') (frames s) (Z.to_nat R)).
      + symmetry. apply (dctx_lce_add _ _ Ctx').
      + intros R' HR'. apply Hfrz. clear - HR' HR0; lia.
      + intros R' f' fe _ _ _. apply (dctx_creator_of _ _ Ctx').
    - intros R0 f0 Hz0. destruct (Z.eq_dec R0 R) as [->|Hne].
      + right. rewrite Hfrn in Hz0. injection Hz0 as <-.
        apply (Phi_ctx s0 s s' R f Ctx' HR0); [|exact (Hnew f s1 Hz eq_refl Hlce)]. intros R' HR'. exact (Hfrz R' (Z.lt_neq _ _ (proj2 HR'))).
      + rewrite (Hfrz R0 Hne) in Hz0. destruct (q_fe _ _ P2 R0 f0 Hz0) as [Hb|Hfe]; [left; exact Hb|right].
        pose proof (Hbelow R0 f0 Hz0) as HR0R.
        apply (Phi_ctx s0 s s' R0 f0 Ctx' (zget_some_nonneg _ _ _ Hz0)); [|exact Hfe]. intros R' HR'. exact (Hfrz R' (Z.lt_neq _ _ (Z.lt_trans _ _ _ (proj2 HR') HR0R))).
  Qed.

  Lemma process_fold_pf2 s0 : (forall r, get_round s0 r <> None <-> 0 <= r <= last_round s0) ->
    forall lst s p, pfoldD s0 lst s -> K s0 s -> pf2 s0 s ->
    failed (fst (fst (fold_left process_round lst (s, p, false)))) = false ->
    pf2 s0 (fst (fst (fold_left process_round lst (s, p, false)))).
  Proof.
    intros Hc. induction lst as [|pr rest IH]; intros s p PF Ks P2 Hfin; cbn [fold_left] in *; [exact P2|].
    assert (F1 : failed (fst (fst (process_round (s, p, false) pr))) = false).
    { destruct (failed (fst (fst (process_round (s, p, false) pr)))) eqn:E; [|reflexivity].
      destruct (process_round (s, p, false) pr) as [[s' p'] b']. cbn [fst] in E.
      rewrite (process_fold_stopped rest s' p' b' (or_intror E)) in Hfin. cbn [fst] in Hfin. congruence. }
    destruct (process_round_pfoldD s0 s p pr rest PF F1) as [[Hd E]|[Hd [s' [E [PF' _]]]]].
    - rewrite E. rewrite (process_fold_stopped rest s p true (or_introl eq_refl)). exact P2.
    - destruct pr as [R d]. cbn [snd fst] in *. subst d.
      destruct (K_round s0 s p R rest PF Ks P2 F1) as [Ks' Hnew].
      pose proof (process_round_pf2 s0 s p R rest Hc PF P2 F1 Hnew) as P2'.
      rewrite E in *. apply IH; assumption.
  Qed.

  Lemma process_decided_rounds_pf2 st : (forall r, get_round st r <> None <-> 0 <= r <= last_round st) ->
    pfoldD st (pending st) st -> K st st -> pf2 st st -> failed (process_decided_rounds st) = false ->
    pf2 st (process_decided_rounds st).
  Proof.
    intros Hc PF Ks P2.
    pose proof (dag_ok_frame st _ (q_dag _ _ P2) (process_decided_rounds_frame st)) as OK'.
    revert OK'. unfold process_decided_rounds.
    pose proof (process_fold_pf2 st Hc (pending st) st [] PF Ks P2) as P2'.
    destruct (fold_left process_round (pending st) (st, [], false)) as [[s processed] stop]. cbn [fst] in P2'.
    intros OK' Hf. destruct (P2' Hf) as [A1 A2 _ A4 B D E]. constructor; try assumption.
    intros R f Hz. destruct (E R f Hz) as [H|H]; [left; exact H|right].
    refine (Phi_ctx st s _ R f _ (zget_some_nonneg _ _ _ Hz) _ H); reflexivity.
  Qed.

  (* [Q]: what is known of the frames cached before the step; [Q']: what the instance makes of Phi after it *)
  Variables (all : list event) (st : hg) (o : hop) (Q Q' : Z -> frame -> Prop).
  Hypothesis ID : ids_determine all.
  Hypothesis Ho : hop_ok all o.
  Hypothesis Gi : ginv all st.
  Hypothesis Rv : rinv st.
  Hypothesis PI : pinv st.
  Hypothesis Hf : failed (hstep st o) = false.

  Record finv3 (Q : Z -> frame -> Prop) (s : hg) : Prop := {
    f3_fc : forall R, 0 <= R -> lcle s R -> zget R (frames s) <> None;
    f3_lce : forall n, (forall R f, zget R (frames s) = Some f -> R < Z.of_nat n) ->
             last_cons_ev s = lce_fn (creator_of s) (frames s) n;
    f3_fe : forall R f, zget R (frames s) = Some f -> Q R f
  }.

  Hypothesis K_ins : forall e s, o = HInsert e -> insert_event st e = (InsOk, s) ->
    let s3 := decide_round_received (decide_fame (divide_rounds s)) in
    rinv s3 -> dag_ok s3 /\ K s3 s3 /\ forall R f, Phi s3 (hstep st o) R f -> Q' R f.

  Lemma hstep_finv3 : finv3 Q st -> finv3 (fun R f => Q R f \/ Q' R f) (hstep st o).
  Proof.
    intros [Fc Le Fe]. destruct (hstep_ginv all st o ID Ho Gi) as [Gi' Mo]. destruct PI as [Qp Frk _].
    set (st' := hstep st o) in *.
    assert (Sub : forall y, get_event st y <> None -> get_event st' y <> None).
    { intros y Hy. destruct (get_event st y) as [ey|] eqn:Ey; [|contradiction].
      destruct (m_e _ _ Mo y ey Ey) as [ey' [E' _]]. rewrite E'. discriminate. }
    assert (Hst : forall R f fe, zget R (frames st) = Some f -> In fe (f_events f) -> get_event st (fe_id fe) <> None).
    { intros R f fe Hz Hfe. destruct (gi_f _ _ Gi R f Hz) as [_ [_ [_ [_ [H _]]]]]. destruct (H fe Hfe) as [ex Hex].
      rewrite Hex. discriminate. }
    assert (Cre : forall R f fe, zget R (frames st) = Some f -> In fe (f_events f) ->
              creator_of st' (fe_id fe) = creator_of st (fe_id fe)).
    { intros R f fe Hz Hfe. pose proof (Hst R f fe Hz Hfe) as Hs. pose proof (Sub _ Hs) as Hs'.
      destruct (get_event st (fe_id fe)) as [ex|] eqn:Hex; [|contradiction].
      destruct (get_event st' (fe_id fe)) as [ex'|] eqn:Hex'; [|contradiction].
      unfold creator_of. rewrite Hex, Hex', (ginv_same_bodies all st st' ID Gi Gi' _ _ _ Hex Hex'). reflexivity. }
    assert (Le' : forall s3, frames s3 = frames st -> last_cons_ev s3 = last_cons_ev st ->
              (forall y, creator_of s3 y = creator_of st' y) ->
              forall n, (forall R f, zget R (frames s3) = Some f -> R < Z.of_nat n) ->
              last_cons_ev s3 = lce_fn (creator_of s3) (frames s3) n).
    { intros s3 Fr Lce Cr n. rewrite Fr, Lce. intros Hn. rewrite (Le n Hn). apply lce_fn_ext; [reflexivity|].
      intros R f fe _ Hz Hfe. rewrite Cr. symmetry. apply (Cre R f fe Hz Hfe). }
    destruct (hstep_cases all st o ID Ho Gi) as [[Erv [_ Elc]]|[e [s [Eo [E Es]]]]].
    { destruct (rv_fields _ _ Erv) as [_ [_ [Lc [Frm _]]]]. destruct (lcv_fields _ _ Elc) as [_ [A _]]. fold st' in Lc, Frm, A.
      constructor.
      - intros R H0 Hl. rewrite Frm. apply Fc; [exact H0|]. unfold lcle in *. rewrite <- Lc. exact Hl.
      - apply (Le' st' Frm A). reflexivity.
      - intros R f. rewrite Frm. intros Hz. left. apply (Fe R f Hz). }
    fold st' in Es.
    destruct (step_ok_facts all st e s st' Gi Gi' Rv Qp Frk E Es Hf) as [Est' [Q3 [PF [R3 L3]]]].
    destruct (K_ins e s Eo E R3) as [OK3 [K3 HQ]]. cbv zeta in *.
    set (s3 := decide_round_received (decide_fame (divide_rounds s))) in *.
    destruct (cw_fields _ _ (cw_process_decided_rounds s3)) as [Ev4 _].
    assert (Ev3 : forall y, get_event s3 y = get_event st' y).
    { intros y. rewrite Est'. unfold get_event. rewrite Ev4. reflexivity. }
    assert (P0 : pf2 s3 s3).
    { constructor; [reflexivity|reflexivity|exact OK3| | | |].
      - intros R f fe. rewrite (qs_fr _ _ Q3), Ev3. intros Hz Hfe. apply Sub. apply (Hst R f fe Hz Hfe).
      - intros R H0 Hl. rewrite (qs_fr _ _ Q3). apply Fc; [exact H0|]. unfold lcle in *. rewrite <- (qs_lc _ _ Q3). exact Hl.
      - apply (Le' s3 (qs_fr _ _ Q3)); [exact L3|]. intros y. unfold creator_of. rewrite Ev3. reflexivity.
      - intros R f Hz. left. exact Hz. }
    assert (Hf4 : failed (process_decided_rounds s3) = false) by (rewrite <- Est'; exact Hf).
    pose proof (process_decided_rounds_pf2 s3 (r_contig _ (proj1 R3)) PF K3 P0 Hf4) as P4.
    rewrite <- Est' in P4. destruct P4 as [_ _ _ _ A B C].
    constructor; [exact A|exact B|].
    intros R f Hz. destruct (C R f Hz) as [Hb|Hfe].
    - left. rewrite (qs_fr _ _ Q3) in Hb. apply (Fe R f Hb).
    - right. apply HQ. exact Hfe.
  Qed.
End Fold.

(* the repertoire and the first-round table never change: the fold records them as they are when it starts *)
Definition PhiS (g : peerset) (s0 : hg) := FEg g (repertoire s0) (first_rounds s0).
Definition KS (g : peerset) (all : list event) (s0 s : hg) := pdinv g all s /\ fsv s = fsv s0.

Lemma KS_round g all : no_accept all -> forall s0 s p R rest,
  pfoldD s0 ((R, true) :: rest) s -> KS g all s0 s -> pf2 (PhiS g) s0 s ->
  failed (fst (fst (process_round (s, p, false) (R, true)))) = false ->
  KS g all s0 (fst (fst (process_round (s, p, false) (R, true)))) /\
  forall f s1, zget R (frames s) = None -> get_frame s R = (Some f, s1) ->
    last_cons_ev s = lce_fn (creator_of s) (frames s) (Z.to_nat R) -> PhiS g s0 s R f.
Proof.
  intros NA s0 s p R rest PF [PD Fv] P2 _.
  assert (HgR : get_round s R <> None) by (apply (pf_pend _ _ _ PF (R, true)); left; reflexivity).
  destruct (process_round_nofail g all s p false (R, true) NA PD (pf_nf _ _ _ PF) HgR) as [_ PD'].
  split; [split; [exact PD'|rewrite (process_round_fsv all s p false (R, true) (pd_fa _ _ _ PD) NA); exact Fv]|].
  intros f s1 Hz Egf Hlce.
  pose proof (pd_fr _ _ _ PD) as Fr. pose proof (c_static _ _ _ (fr_c _ _ Fr)) as St.
  destruct (get_frame_new_spec s R f s1 Hz Egf) as [ri [evs [Hri [_ [_ [Hps [Hpsets [_ [_ [Hts _]]]]]]]]]].
  unfold PhiS. unfold fsv in Fv. injection Fv as <- <-.
  constructor.
  - rewrite (get_peerset_static g s R St) in Hps. injection Hps as <-. reflexivity.
  - rewrite Hpsets. exact St.
  - exists ri. split; [exact Hri|exact Hts].
  - apply (get_frame_FE0 _ s R f s1 (fready_D _ _ Fr) (q_st _ _ _ P2) Hz Egf Hlce).
Qed.

Section Run.
  Variables (g : peerset) (all : list event).
  Hypothesis ID : ids_determine all.
  Hypothesis NA : no_accept all.
  Variables (self_ : Z) (oracle_ : list Z).
  Let init := init_hg self_ g oracle_.

  Lemma hrun_fsv ops : Forall (hop_ok all) ops -> fsv (hrun init ops) = fsv init.
  Proof.
    induction ops as [|o ops IH] using rev_ind; intros H; [reflexivity|].
    pose proof H as H'. apply Forall_app in H'. destruct H' as [Hops Ho]. inversion Ho as [|? ? Ho' _]; subst.
    pose proof (hrun_nf g all self_ oracle_ ops ID NA Hops) as N. fold init in N.
    rewrite hrun_app. cbn [hrun fold_left]. rewrite <- (IH Hops).
    destruct o as [e|]; cbn [hstep]; [|apply process_sigpool_fsv].
    destruct Ho' as [Hin Hid].
    apply (step_fsv all); auto; [apply (g_dag _ _ (gi_core _ _ (nf_g _ _ _ N)))|apply (g_from _ _ (gi_core _ _ (nf_g _ _ _ N)))].
  Qed.

  Record finv2 (ops : list hop) : Prop := {
    f2_fc : forall R', 0 <= R' -> lcle (hrun init ops) R' -> zget R' (frames (hrun init ops)) <> None;
    f2_lce : forall n, (forall R' f', zget R' (frames (hrun init ops)) = Some f' -> R' < Z.of_nat n) ->
             last_cons_ev (hrun init ops) = lce_fn (creator_of (hrun init ops)) (frames (hrun init ops)) n;
    f2_fe : forall R f, zget R (frames (hrun init ops)) = Some f ->
            exists k, (k <= length ops)%nat /\ FE g (hrun init (firstn k ops)) R f /\
                      zget R (frames (hrun init (firstn k ops))) = Some f
  }.

  Theorem hrun_finv2 ops : Forall (hop_ok all) ops -> finv2 ops.
  Proof.
    induction ops as [|o ops IH] using rev_ind; intros H.
    - destruct (init_frames_lce self_ g oracle_) as [Fr [Le Lc]]. fold init in Fr, Le, Lc.
      assert (Z0 : forall R, zget R (frames init) = None) by (intros R; rewrite Fr; apply zget_empty).
      constructor; cbn [hrun fold_left].
      + intros R' _ [l [Hl _]]. rewrite Lc in Hl. discriminate.
      + intros n _. rewrite Le. symmetry. apply lce_fn_nil. exact Z0.
      + intros R f Hz. rewrite Z0 in Hz. discriminate.
    - pose proof H as H'. apply Forall_app in H'. destruct H' as [Hops Ho]. inversion Ho as [|? ? Ho' _]; subst.
      destruct (IH Hops) as [Fc Le Fe].
      pose proof (hrun_nf g all self_ oracle_ ops ID NA Hops) as N. pose proof (hrun_nf g all self_ oracle_ (ops ++ [o]) ID NA H) as N'.
      pose proof (hrun_fsv (ops ++ [o]) H) as Fv'. rewrite <- (hrun_fsv ops Hops) in Fv'.
      fold init in N, N'. pose proof (hrun_app init ops [o]) as Eapp. cbn [hrun fold_left] in Eapp. rewrite Eapp in N', Fv'.
      set (st := hrun init ops) in *.
      assert (Kfix : forall k, (k <= length ops)%nat -> firstn k (ops ++ [o]) = firstn k ops).
      { intros k Hk. rewrite firstn_app, (proj2 (Nat.sub_0_le k (length ops)) Hk). apply app_nil_r. }
      assert (Kins : forall e s, o = HInsert e -> insert_event st e = (InsOk, s) ->
                let s3 := decide_round_received (decide_fame (divide_rounds s)) in
                rinv s3 -> dag_ok s3 /\ KS g all s3 s3 /\ forall R f, PhiS g s3 (hstep st o) R f -> FE g (hstep st o) R f).
      { intros e s -> E s3 _. destruct Ho' as [Hin Hid].
        destruct (insert_post_ins g all st e s ID Hin Hid N E) as [PI _].
        pose proof (sg_pd3 _ _ _ (run_consensus_stages g all (e_id e) s NA PI)) as PD3. fold s3 in PD3.
        split; [exact (fr_dag _ _ (pd_fr _ _ _ PD3))|]. split; [split; [exact PD3|reflexivity]|].
        assert (F3 : fsv s3 = fsv (hstep st (HInsert e))).
        { unfold s3. rewrite decide_round_received_fsv, decide_fame_fsv, divide_rounds_fsv, Fv'.
          pose proof (insert_event_fsv st e) as X. rewrite E in X. exact X. }
        unfold PhiS, FE. unfold fsv in F3. injection F3 as -> ->. auto. }
      destruct (hstep_finv3 (PhiS g) (KS g all) (fun s0 s s' R f C => FEg_ctx s s' C g _ _ R f) (KS_round g all NA) all st o _
                  (FE g (hstep st o)) ID Ho' (nf_g _ _ _ N) (nf_r _ _ _ N)
                  (hrun_pinv g all ID NA self_ oracle_ ops Hops) (nf_f _ _ _ N') Kins (Build_finv3 _ _ Fc Le Fe)) as [A B C].
      constructor; rewrite Eapp; [exact A|exact B|].
      intros R f Hz. destruct (C R f Hz) as [[k [Hk X]]|Hfe].
      + exists k. split; [rewrite app_length; apply (Nat.le_trans _ _ _ Hk), Nat.le_add_r|]. rewrite (Kfix k Hk). exact X.
      + exists (length (ops ++ [o])). split; [apply Nat.le_refl|]. rewrite firstn_all, Eapp. auto.
  Qed.

  Lemma hstep_fext ops o : Forall (hop_ok all) (ops ++ [o]) -> fext (hrun init ops) (hrun init (ops ++ [o])).
  Proof.
    intros H. pose proof H as H'. apply Forall_app in H'. destruct H' as [Hops Ho]. inversion Ho as [|? ? Ho' _]; subst.
    pose proof (hrun_nf g all self_ oracle_ ops ID NA Hops) as N. pose proof (hrun_nf g all self_ oracle_ (ops ++ [o]) ID NA H) as N'.
    fold init in N, N'. rewrite hrun_app in N' |- *. cbn [hrun fold_left] in N' |- *.
    set (st := hrun init ops) in *.
    destruct (hstep_cases all st o ID Ho' (nf_g _ _ _ N)) as [[Erv _]|[e [s [_ [E Es]]]]].
    { destruct (rv_fields _ _ Erv) as [_ [_ [_ [Frm _]]]]. intros R f. rewrite Frm. auto. }
    destruct (hrun_pinv g all ID NA self_ oracle_ ops Hops) as [Qp Frk _].
    destruct (step_ok_facts all st e s _ (nf_g _ _ _ N) (nf_g _ _ _ N') (nf_r _ _ _ N) Qp Frk E Es (nf_f _ _ _ N')) as [Est' [Q3 [PF _]]].
    destruct (process_decided_rounds_pinvD _ PF) as [_ [_ [_ [Fx _]]]]; [rewrite <- Est'; apply (nf_f _ _ _ N')|].
    rewrite Est'. intros R f Hz. apply Fx. rewrite (qs_fr _ _ Q3). exact Hz.
  Qed.

  Lemma prefix_fext ops : Forall (hop_ok all) ops -> forall k, fext (hrun init (firstn k ops)) (hrun init ops).
  Proof.
    induction ops as [|o ops IH] using rev_ind; intros H k; [destruct k; apply fext_refl|].
    pose proof H as H'. apply Forall_app in H'. destruct H' as [Hops _].
    destruct (Nat.le_gt_cases k (length ops)) as [Hk|Hk].
    - rewrite firstn_app. replace (k - length ops)%nat with O by lia. cbn [firstn]. rewrite app_nil_r.
      eapply fext_trans; [apply IH; exact Hops|apply hstep_fext; exact H].
    - rewrite firstn_all2 by (rewrite app_length; cbn; lia). apply fext_refl.
  Qed.
End Run.

Lemma init_fsv self_ g oracle_ : fsv (init_hg self_ g oracle_) = fsv (init_hg 0 g []).
Proof.
  pose proof (J_init self_ g oracle_) as A. pose proof (J_init 0 g []) as B. unfold J in A, B.
  rewrite A, B, (static_init self_ g oracle_), (static_init 0 g []). reflexivity.
Qed.
