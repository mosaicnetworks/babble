(* Stage S2: the invariant of the coordinates and of the division results.

   [cinv g E st] (static membership with genesis set g) says, for every stored event:
   - first descendants: own entry; every other entry (c -> (i, z)) names the creator-c event z of
     index i, a descendant of the event, such that no witness lies on the event's creator chain
     strictly above it up to z's last ancestor on that chain (the "walk stops at a witness" rule);
     entries are closed downwards along non-witness self-parent steps and every event is
     recorded in its last ancestors (these two give completeness);
   - memo tables: the memoised round satisfies the round equation READ IN THE CURRENT STATE (parents'
     memoised rounds, witnesses of the parent round currently in the round table, current
     coordinates), the memoised witness flag satisfies its equation, memoised events are exactly
     the events listed in the round tables;
   - E = Some x: x is the event just inserted, not yet divided (no memo, in no table);
     E = None: every stored event is memoised.
   This file holds the definitions and [ckeep]; the same invariant for validator sets given per round
   is [cinvD] in Proofs/FirstDescD.v, and that [cinv] holds in every reachable state in per-event mode
   (hrun), as long as no pass failed, is hrun_reach in Proofs/CInvRun.v. *)
From Coq Require Import ZArith List Bool Lia ZifyBool.
From RecordUpdate Require Import RecordSet.
From V Require Import Model.ZMap Model.Quorum Model.Voting Model.HgImpl Proofs.ZMapFacts Proofs.HgFrames
  Proofs.HgDagFrames Proofs.AdmissionProofs Proofs.Ancestry Proofs.HgBlockFrames Proofs.BlockInv Proofs.Static.
Import ListNotations RecordSetNotations.
Open Scope Z_scope.

Definition rmemo (st : hg) (x : Z) : option Z := zget x (round_memo st).
Definition wmemo (st : hg) (x : Z) : option bool := zget x (witness_memo st).
Definition wit (st : hg) (y : Z) : bool := match wmemo st y with Some true => true | _ => false end.
(* memoised round of a parent reference; -1 for the empty parent *)
Definition prnd (st : hg) (p : Z) : option Z := if p =? -1 then Some (-1) else rmemo st p.

(* the (event, witness flag) listing of a round *)
Definition wl_of (ri : rinfo) : list (Z * bool) := map (fun en => (fst en, fst (snd en))) (ri_created ri).
Definition wl (st : hg) (r : Z) : list (Z * bool) :=
  match get_round st r with Some ri => wl_of ri | None => [] end.
Definition wits (st : hg) (r : Z) : list Z := map fst (filter snd (wl st r)).

Lemma witnesses_wl ri : witnesses ri = map fst (filter snd (wl_of ri)).
Proof.
  unfold witnesses, wl_of. induction (ri_created ri) as [|[x [w f]] l IH]; [reflexivity|].
  cbn [filter map fst snd]. destruct w; cbn [map fst]; rewrite IH; reflexivity.
Qed.

Lemma wits_get_round st r ri : get_round st r = Some ri -> wits st r = witnesses ri.
Proof. intros H. unfold wits, wl. rewrite H. symmetry. apply witnesses_wl. Qed.

Definition ss_true (g : peerset) (st : hg) (x w : Z) : bool :=
  match strongly_see st x w g with Some true => true | _ => false end.

Definition cntss (g : peerset) (st : hg) (x : Z) (ws : list Z) : Z :=
  Z.of_nat (length (filter (fun w => negb (w =? x) && ss_true g st x w) ws)).

(* the round equation, read in the current state *)
Definition req (g : peerset) (st : hg) (x : Z) (ex : evst) (r : Z) : Prop :=
  exists spr opr, prnd st (e_sp (ev_e ex)) = Some spr /\ prnd st (e_op (ev_e ex)) = Some opr /\
    (Z.max spr opr = -1 -> r = 0) /\
    (Z.max spr opr <> -1 ->
       get_round st (Z.max spr opr) <> None /\
       r = if super_majority g <=? cntss g st x (wits st (Z.max spr opr))
           then Z.max spr opr + 1 else Z.max spr opr).

Definition weq (g : peerset) (st : hg) (ex : evst) (r : Z) (w : bool) : Prop :=
  exists spr, prnd st (e_sp (ev_e ex)) = Some spr /\
    w = mem_key (e_creator (ev_e ex)) (keys g) && (spr <? r).

(* no witness on creator q's chain with index in (lo, hi] *)
Definition no_wit_between (st : hg) (q lo hi : Z) : Prop :=
  forall y ey, get_event st y = Some ey -> e_creator (ev_e ey) = q ->
    lo < e_index (ev_e ey) <= hi -> wit st y = false.

(* z's last ancestor on a's creator chain is at or above a, with no witness strictly above a *)
Definition cond (st : hg) (z a : Z) : Prop :=
  exists ez ea t y, get_event st z = Some ez /\ get_event st a = Some ea /\
    aget (e_creator (ev_e ea)) (ev_la ez) = Some (t, y) /\ e_index (ev_e ea) <= t /\
    no_wit_between st (e_creator (ev_e ea)) (e_index (ev_e ea)) t.

Record cinv (g : peerset) (E : option Z) (st : hg) : Prop := {
  c_static : static g st;
  c_topo0 : 0 <= topo st;
  c_fuel : forall x ex, get_event st x = Some ex -> e_index (ev_e ex) < topo st;
  c_rdom : forall x r, rmemo st x = Some r ->
           0 <= r /\ exists ex, get_event st x = Some ex /\ req g st x ex r;
  c_wdom : forall x w, wmemo st x = Some w ->
           exists ex r, get_event st x = Some ex /\ rmemo st x = Some r /\ weq g st ex r w;
  c_all : forall x ex, get_event st x = Some ex -> E <> Some x ->
          exists r w, rmemo st x = Some r /\ wmemo st x = Some w /\ ev_round ex = Some r;
  c_exc : forall x, E = Some x ->
          rmemo st x = None /\ wmemo st x = None /\
          exists ex, get_event st x = Some ex /\ ev_round ex = None /\
            (* its parents are divided *)
            prnd st (e_sp (ev_e ex)) <> None /\ prnd st (e_op (ev_e ex)) <> None /\
            (* nobody else knows x yet *)
            (forall z ez t y, get_event st z = Some ez -> z <> x ->
               aget (e_creator (ev_e ex)) (ev_la ez) = Some (t, y) -> t < e_index (ev_e ex));
  c_tab : forall r x w, In (x, w) (wl st r) -> rmemo st x = Some r /\ wmemo st x = Some w;
  c_tabc : forall x r w, rmemo st x = Some r -> wmemo st x = Some w -> In (x, w) (wl st r);
  c_tabu : forall r, NoDup (map fst (wl st r));
  c_tabne : forall r, get_round st r <> None -> wl st r <> [];
  c_own : forall a ea, get_event st a = Some ea ->
          aget (e_creator (ev_e ea)) (ev_fd ea) = Some (e_index (ev_e ea), a);
  c_sound : forall a ea c i z, get_event st a = Some ea -> aget c (ev_fd ea) = Some (i, z) ->
          c <> e_creator (ev_e ea) ->
          exists ez, get_event st z = Some ez /\ e_creator (ev_e ez) = c /\ e_index (ev_e ez) = i /\ cond st z a;
  c_closed : forall a ea c i z, get_event st a = Some ea -> aget c (ev_fd ea) = Some (i, z) ->
          wit st a = false -> e_sp (ev_e ea) <> -1 ->
          exists es i' z', get_event st (e_sp (ev_e ea)) = Some es /\
                           aget c (ev_fd es) = Some (i', z') /\ i' <= i;
  c_top : forall z ez q t y, get_event st z = Some ez -> aget q (ev_la ez) = Some (t, y) ->
          exists ey i z', get_event st y = Some ey /\
                          aget (e_creator (ev_e ez)) (ev_fd ey) = Some (i, z') /\ i <= e_index (ev_e ez)
}.

(* [ckeep]: states that agree on everything the invariant reads *)
Definition ev_c (es : evst) := (ev_e es, ev_la es, ev_fd es, ev_round es).

Record ckeep (s s' : hg) : Prop := {
  ck_ev : forall x, option_map ev_c (get_event s' x) = option_map ev_c (get_event s x);
  ck_rm : round_memo s' = round_memo s;
  ck_wm : witness_memo s' = witness_memo s;
  ck_wl : forall r, wl s' r = wl s r;
  ck_rd : forall r, get_round s' r = None <-> get_round s r = None;
  ck_ps : peersets s' = peersets s;
  ck_topo : topo s' = topo s
}.

Lemma ckeep_refl s : ckeep s s.
Proof. constructor; reflexivity. Qed.
Lemma ckeep_sym s s' : ckeep s s' -> ckeep s' s.
Proof. intros [A B C D E F G]. constructor; auto. intros r. symmetry. apply E. Qed.
Lemma ckeep_trans a b c : ckeep a b -> ckeep b c -> ckeep a c.
Proof.
  intros [A1 B1 C1 D1 E1 F1 G1] [A2 B2 C2 D2 E2 F2 G2]. constructor; try congruence.
  intros r. rewrite E2. apply E1.
Qed.

(* what agreement on [ev_c] of an event gives *)
Lemma ev_c_fwd s s' x ex :
  option_map ev_c (get_event s' x) = option_map ev_c (get_event s x) -> get_event s x = Some ex ->
  exists ex', get_event s' x = Some ex' /\ ev_e ex' = ev_e ex /\ ev_la ex' = ev_la ex /\
              ev_fd ex' = ev_fd ex /\ ev_round ex' = ev_round ex.
Proof.
  intros E H. rewrite H in E.
  destruct (get_event s' x) as [ex'|]; [|discriminate]. cbn in E. unfold ev_c in E. inversion E. eauto 6.
Qed.

Lemma strongly_see_ev_c g s s' x w :
  option_map ev_c (get_event s' x) = option_map ev_c (get_event s x) ->
  option_map ev_c (get_event s' w) = option_map ev_c (get_event s w) ->
  strongly_see s' x w g = strongly_see s x w g.
Proof.
  intros Ex Ew. unfold strongly_see.
  destruct (get_event s' x) as [ex'|], (get_event s x) as [ex|]; cbn in Ex; try discriminate; [|reflexivity].
  destruct (get_event s' w) as [ew'|], (get_event s w) as [ew|]; cbn in Ew; try discriminate; [|reflexivity].
  unfold ev_c in *. inversion Ex. inversion Ew. congruence.
Qed.

Lemma ckeep_fwd s s' x ex : ckeep s s' -> get_event s x = Some ex ->
  exists ex', get_event s' x = Some ex' /\ ev_e ex' = ev_e ex /\ ev_la ex' = ev_la ex /\
              ev_fd ex' = ev_fd ex /\ ev_round ex' = ev_round ex.
Proof. intros K. apply ev_c_fwd, (ck_ev _ _ K). Qed.
Lemma ckeep_rmemo s s' x : ckeep s s' -> rmemo s' x = rmemo s x.
Proof. intros K. unfold rmemo. rewrite (ck_rm _ _ K). reflexivity. Qed.
Lemma cntss_ext g s s' x ws :
  (forall w, In w ws -> w <> x -> ss_true g s' x w = ss_true g s x w) -> cntss g s' x ws = cntss g s x ws.
Proof.
  intros H. unfold cntss. f_equal. f_equal. apply filter_ext_in. intros w Hw.
  destruct (Z.eqb_spec w x) as [->|Hne]; cbn [negb andb]; [reflexivity|]. apply H; auto.
Qed.

Lemma weq_ext g s s' ex ex' r w :
  ev_e ex' = ev_e ex -> (forall p, prnd s' p = prnd s p) -> weq g s ex r w -> weq g s' ex' r w.
Proof. intros Ee Hp [spr [H1 H2]]. exists spr. rewrite Ee, Hp. auto. Qed.
