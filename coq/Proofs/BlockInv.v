(* C02 / C09 (part): invariants of the block store and of the sequence of commit callbacks,
   for every reachable state. *)
From Coq Require Import ZArith List Bool Lia ZifyBool.
From RecordUpdate Require Import RecordSet.
From V Require Import Model.ZMap Model.Quorum Model.Voting Model.HgImpl Model.PeerSetSpec
  Proofs.ZMapFacts Proofs.HgFrames Proofs.HgBlockFrames.
Import ListNotations RecordSetNotations.
Open Scope Z_scope.

(* the body of a block: everything but the collected signatures *)
Definition body (b : block) : block := b <| b_sigs := [] |>.
Definition sigs_incl (d b : block) : Prop := forall v o, aget v (b_sigs d) = Some o -> aget v (b_sigs b) = Some o.
(* every recorded signature is over this node's body of the block *)
Definition sigs_valid (b : block) : Prop := forall v o, aget v (b_sigs b) = Some o -> o = b_bodyid b.

Record binv (st : hg) : Prop := {
  b_lb : -1 <= last_block st;
  b_idx : forall i b, zget i (blocks st) = Some b -> b_index b = i /\ 0 <= i <= last_block st;
  b_len : Z.of_nat (length (delivered st)) = last_block st + 1;
  b_del : forall k d, nth_error (delivered st) k = Some d ->
          b_index d = Z.of_nat k /\
          exists b, zget (Z.of_nat k) (blocks st) = Some b /\ body b = body d /\ sigs_incl d b;
  b_valid : forall i b, zget i (blocks st) = Some b -> sigs_valid b
}.

(* [body b = body d] spelled out: every field but b_sigs *)
Lemma body_fields b d : body b = body d ->
  b_index b = b_index d /\ b_rr b = b_rr d /\ b_ts b = b_ts d /\ b_txs b = b_txs d /\
  b_itxs b = b_itxs d /\ b_frame b = b_frame d /\ b_peers b = b_peers d /\
  b_committed b = b_committed d /\ b_receipts b = b_receipts d /\ b_bodyid b = b_bodyid d.
Proof.
  intros H. repeat split;
  [exact (f_equal b_index H)|exact (f_equal b_rr H)|exact (f_equal b_ts H)|exact (f_equal b_txs H)
  |exact (f_equal b_itxs H)|exact (f_equal b_frame H)|exact (f_equal b_peers H)
  |exact (f_equal b_committed H)|exact (f_equal b_receipts H)|exact (f_equal b_bodyid H)].
Qed.

Lemma fields_body b d :
  b_index b = b_index d -> b_rr b = b_rr d -> b_ts b = b_ts d -> b_txs b = b_txs d ->
  b_itxs b = b_itxs d -> b_frame b = b_frame d -> b_peers b = b_peers d ->
  b_committed b = b_committed d -> b_receipts b = b_receipts d -> b_bodyid b = b_bodyid d ->
  body b = body d.
Proof. destruct b, d. unfold body. cbn. intros; subst; reflexivity. Qed.

(* the invariant reads the block map, the last index and the delivered list only *)
Definition bl (st : hg) := (blocks st, last_block st, delivered st).

Lemma bl_fields st st' : bl st' = bl st ->
  blocks st' = blocks st /\ last_block st' = last_block st /\ delivered st' = delivered st.
Proof.
  intros H. exact (conj (f_equal (fun t => fst (fst t)) H) (conj (f_equal (fun t => snd (fst t)) H) (f_equal snd H))).
Qed.

Lemma bview_bl st st' : bview st' = bview st -> bl st' = bl st.
Proof. intros H. exact (f_equal (fun v => fst (fst (fst (fst (fst (fst (fst (fst v)))))))) H). Qed.

Lemma binv_bl st st' : bl st' = bl st -> binv st -> binv st'.
Proof.
  intros E [H1 H2 H3 H4 H5]. destruct (bl_fields _ _ E) as [Eb [El Ed]].
  constructor; rewrite ?Eb, ?El, ?Ed; assumption.
Qed.

Lemma binv_bview st st' : bview st' = bview st -> binv st -> binv st'.
Proof. intros E. apply binv_bl, bview_bl, E. Qed.

Lemma sigs_incl_refl b : sigs_incl b b.
Proof. intros v o H; exact H. Qed.

Lemma set_anchor_block_bl st b : bl (set_anchor_block st b) = bl st.
Proof. rewrite set_anchor_block_eq. reflexivity. Qed.

Lemma set_peerset_bl st r ps st' : set_peerset st r ps = Some st' -> bl st' = bl st.
Proof.
  destruct (set_peerset_eq st r ps) as (R & F & P & ->).
  destruct (table_has r (peersets st)); [discriminate|]. intros H.
  exact (eq_sym (f_equal (fun o => match o with Some s => bl s | None => bl st end) H)).
Qed.

Lemma process_receipts_bl st rr itxs : bl (process_receipts st rr itxs) = bl st.
Proof. destruct (process_receipts_eq st rr itxs) as (R & F & P & ->). reflexivity. Qed.

Lemma get_frame_bl st rr : bl (snd (get_frame st rr)) = bl st.
Proof.
  pose proof (get_frame_inv st rr) as C.
  destruct (zget rr (frames st)); [|destruct C as [C|(f & C & _)]]; rewrite C; reflexivity.
Qed.

Lemma add_consensus_events_bl l : forall s, bl (fold_left add_consensus_event l s) = bl s.
Proof.
  induction l as [|fe l IH]; intros s; cbn [fold_left]; [reflexivity|]. rewrite IH. reflexivity.
Qed.

Lemma bump_last_consensus_bl s r : bl (bump_last_consensus s r) = bl s.
Proof.
  unfold bump_last_consensus. destruct (last_consensus s) as [l|]; [destruct (l <? r)|];
    try reflexivity; reflexivity.
Qed.

Lemma fail_bl s : bl (fail s) = bl s.
Proof. reflexivity. Qed.

Lemma zget_zset_nonneg {A} k (v : A) m i : 0 <= k -> zget i (zset k v m) = if i =? k then Some v else zget i m.
Proof. intros H. rewrite zget_zset, (Z.eqb_sym i). replace (0 <=? k) with true by lia. rewrite andb_true_r. reflexivity. Qed.

Lemma zget_blocks_store st b i :
  0 <= b_index b ->
  zget i (blocks (store_set_block st b)) = if i =? b_index b then Some b else zget i (blocks st).
Proof. apply (zget_zset_nonneg (b_index b) b (blocks st)). Qed.

Lemma last_block_store st b : last_block (store_set_block st b) = Z.max (b_index b) (last_block st).
Proof. reflexivity. Qed.
Lemma delivered_store st b : delivered (store_set_block st b) = delivered st.
Proof. reflexivity. Qed.

(* replacing the stored copy of a delivered block by one with the same body and more signatures *)
Lemma binv_restore st b' :
  binv st -> 0 <= b_index b' <= last_block st ->
  (forall b, zget (b_index b') (blocks st) = Some b -> body b' = body b /\ sigs_incl b b') ->
  (exists b, zget (b_index b') (blocks st) = Some b) ->
  sigs_valid b' ->
  binv (store_set_block st b').
Proof.
  intros [H1 H2 H3 H4 H5] Hr Hsame [b0 Hb0] Hv.
  pose proof (fun i => zget_blocks_store st b' i (proj1 Hr)) as Gb.
  constructor; rewrite ?last_block_store, ?delivered_store, ?Z.max_r by lia; auto.
  - intros i b. rewrite Gb. destruct (Z.eqb_spec i (b_index b')) as [->|Hne].
    + intros H; inversion H; subst. split; [reflexivity|lia].
    + apply H2.
  - intros k d Hk. destruct (H4 k d Hk) as [Hi [b [Hb [Hbody Hincl]]]]. split; [exact Hi|].
    rewrite Gb. destruct (Z.eqb_spec (Z.of_nat k) (b_index b')) as [E|Hne]; [|eauto].
    exists b'. split; [reflexivity|]. rewrite <- E in Hsame. destruct (Hsame _ Hb) as [Hb' Hs'].
    split; [congruence|]. intros v o Hvo. apply Hs'. apply Hincl. exact Hvo.
  - intros i b. rewrite Gb. destruct (Z.eqb_spec i (b_index b')); [intros H; inversion H; subst; exact Hv|apply H5].
Qed.

(* a state that differs from [st] by a new block [b] at last_block + 1, delivered as [d] *)
Lemma binv_new_ext st st' b d :
  binv st ->
  (forall i, zget i (blocks st') = if i =? last_block st + 1 then Some b else zget i (blocks st)) ->
  last_block st' = last_block st + 1 -> delivered st' = delivered st ++ [d] ->
  b_index b = last_block st + 1 -> body b = body d -> sigs_incl d b -> sigs_valid b -> binv st'.
Proof.
  intros [H1 H2 H3 H4 H5] Gb Gl Gd Hi Hbody Hincl Hv.
  assert (Hbi : b_index d = b_index b).
  { apply (f_equal b_index) in Hbody. destruct b, d; cbn in *. congruence. }
  constructor; rewrite ?Gl, ?Gd.
  - lia.
  - intros i b0. rewrite Gb. destruct (Z.eqb_spec i (last_block st + 1)) as [->|Hne].
    + intros H; inversion H; subst. split; [auto|lia].
    + intros H. destruct (H2 _ _ H). split; [auto|lia].
  - rewrite app_length. cbn. lia.
  - intros k d0 Hk. destruct (Nat.lt_ge_cases k (length (delivered st))) as [Hlt|Hge].
    + rewrite nth_error_app1 in Hk by auto. destruct (H4 k d0 Hk) as [Hi0 [b0 [Hb0 R]]]. split; [auto|].
      rewrite Gb. destruct (Z.eqb_spec (Z.of_nat k) (last_block st + 1)); [lia|eauto].
    + rewrite nth_error_app2 in Hk by auto.
      destruct (k - length (delivered st))%nat as [|j] eqn:Ej; [|destruct j; discriminate].
      cbn in Hk. inversion Hk; subst d0. assert (Z.of_nat k = last_block st + 1) by lia.
      split; [lia|]. rewrite Gb. replace (Z.of_nat k =? last_block st + 1) with true by lia.
      exists b. auto.
  - intros i b0. rewrite Gb. destruct (Z.eqb_spec i (last_block st + 1)); [intros H; inversion H; subst; auto|apply H5].
Qed.

(* storing a new block at last_block + 1 and delivering a copy with the same body *)
Lemma binv_new st b d :
  binv st -> b_index b = last_block st + 1 -> body b = body d -> sigs_incl d b -> sigs_valid b ->
  binv (deliver (store_set_block st b) d).
Proof.
  intros OK Hi Hbody Hincl Hv. pose proof (b_lb st OK) as Hlb.
  apply (binv_new_ext st _ b d OK); try assumption.
  - intros i. rewrite <- Hi. apply (zget_blocks_store st b i). lia.
  - change (Z.max (b_index b) (last_block st) = last_block st + 1). lia.
  - reflexivity.
Qed.

(* what commit does to the block store and to the delivered list, when [b] is the stored block
   of its index: a finished copy [bf] (committed flag, receipts, body hash, own signature) is
   stored over it and delivered.  The proof forgets the body of each intermediate state
   (clearbody) once its components are recorded, so that every component is read off a variable. *)
Lemma commit_stored st b :
  0 <= b_index b <= last_block st -> b_sigs b = [] -> zget (b_index b) (blocks st) = Some b ->
  exists bf,
    (forall i, zget i (blocks (commit st b)) = if i =? b_index b then Some bf else zget i (blocks st)) /\
    last_block (commit st b) = last_block st /\ delivered (commit st b) = delivered st ++ [bf] /\
    b_index bf = b_index b /\ b_rr bf = b_rr b /\ sigs_valid bf.
Proof.
  intros Hk Hs Hb. pose proof (commit_unfold st b) as E. set (s' := commit st b) in *. clearbody s'.
  assert (V0 : forall b0, b_sigs b0 = [] -> sigs_valid b0) by (intros b0 H v o; rewrite H; discriminate).
  destruct (self st =? -1).
  { exists b. rewrite E. split; [|repeat split; exact (V0 b Hs)].
    intros i. destruct (Z.eqb_spec i (b_index b)) as [->|]; [exact Hb|reflexivity]. }
  cbv zeta in E.
  set (b1 := b <| b_committed := true |> <| b_receipts := _ |> <| b_bodyid := hd (-1) (oracle st) |>) in E.
  set (st1 := store_set_block _ b1) in E.
  assert (B1 : forall i, zget i (blocks st1) = if i =? b_index b then Some b1 else zget i (blocks st))
    by (intros i; apply (zget_zset_nonneg (b_index b) b1 (blocks st)), Hk).
  assert (L1 : last_block st1 = last_block st) by (apply Z.max_r, Hk).
  assert (D1 : delivered st1 = delivered st) by reflexivity.
  clearbody st1.
  destruct (get_peerset st1 (b_rr b1)) as [bps|].
  2:{ exists b1. rewrite E. split; [exact B1|]. split; [exact L1|]. split; [exact (f_equal (fun l => l ++ [b1]) D1)|].
      repeat split. exact (V0 b1 Hs). }
  rewrite sign_block_eq in E. cbv zeta in E. cbn [fst snd] in E.
  set (bf := b1 <| b_sigs := _ |>) in E.
  set (st2 := st1 <| blocks := _ |> <| last_block := _ |> <| self_sigs := _ |>) in E.
  assert (B2 : forall i, zget i (blocks st2) = if i =? b_index b then Some bf else zget i (blocks st)).
  { intros i. change (blocks st2) with (if mem_key (self st1) (keys bps) then zset (b_index b) bf (blocks st1) else blocks st1).
    subst bf. destruct (mem_key (self st1) (keys bps)); [|exact (B1 i)].
    rewrite (zget_zset_nonneg _ _ _ _ (proj1 Hk)), B1. destruct (i =? b_index b); reflexivity. }
  assert (L2 : last_block st2 = last_block st).
  { change (last_block st2) with (if mem_key (self st1) (keys bps) then Z.max (b_index b) (last_block st1) else last_block st1).
    destruct (mem_key _ _); lia. }
  assert (D2 : delivered st2 = delivered st) by exact D1.
  clearbody st2. destruct (commit_tail_eq st2 bf) as (R & F & P & E2). rewrite E2 in E. clear E2.
  exists bf. rewrite E. split; [exact B2|]. split; [exact L2|]. split; [exact (f_equal (fun l => l ++ [bf]) D2)|].
  repeat split. subst bf. change (b_sigs b1) with (b_sigs b). rewrite Hs.
  destruct (mem_key _ _); [|apply V0; reflexivity].
  intros v o. change (aget v [(self st1, b_bodyid b1)] = Some o -> o = b_bodyid b1). cbn [aget].
  destruct (self st1 =? v); [intros [= <-]; reflexivity|discriminate].
Qed.

Lemma commit_blocks s b :
  0 <= b_index b -> b_sigs b = [] ->
  exists bf,
    (forall i, zget i (blocks (commit (store_set_block s b) b)) = if i =? b_index b then Some bf else zget i (blocks s)) /\
    last_block (commit (store_set_block s b) b) = Z.max (b_index b) (last_block s) /\
    delivered (commit (store_set_block s b) b) = delivered s ++ [bf] /\
    b_index bf = b_index b /\ b_rr bf = b_rr b /\ sigs_valid bf.
Proof.
  intros Hk Hs. pose proof (zget_blocks_store s b) as B0. pose proof (last_block_store s b) as L0.
  set (st := store_set_block s b) in *. assert (D0 : delivered st = delivered s) by reflexivity. clearbody st.
  destruct (commit_stored st b) as (bf & Gb & Gl & Gd & R); [lia|exact Hs|rewrite B0, Z.eqb_refl by exact Hk; reflexivity|].
  exists bf. rewrite Gl, Gd, D0. split; [|split; [exact L0|split; [reflexivity|exact R]]].
  intros i. rewrite Gb, B0 by exact Hk. destruct (i =? b_index b); reflexivity.
Qed.

Lemma block_of_frame_index i f s : b_index (block_of_frame i f s) = i /\ b_sigs (block_of_frame i f s) = [] /\
                                   b_rr (block_of_frame i f s) = f_round f.
Proof. unfold block_of_frame. cbn. auto. Qed.

Definition del_ext (st st' : hg) : Prop := exists l, delivered st' = delivered st ++ l.
Lemma del_ext_refl st : del_ext st st. Proof. exists []. rewrite app_nil_r. reflexivity. Qed.
Lemma del_ext_trans a b c : del_ext a b -> del_ext b c -> del_ext a c.
Proof. intros [l1 H1] [l2 H2]. exists (l1 ++ l2). rewrite H2, H1, app_assoc. reflexivity. Qed.
Lemma del_ext_bl st st' : bl st' = bl st -> del_ext st st'.
Proof. intros H. exists []. rewrite app_nil_r. apply (bl_fields _ _ H). Qed.

Definition bstep (st st' : hg) : Prop := binv st -> binv st' /\ del_ext st st'.

Lemma bstep_refl st : bstep st st.
Proof. intros OK. split; [exact OK|apply del_ext_refl]. Qed.
Lemma bstep_trans a b c : bstep a b -> bstep b c -> bstep a c.
Proof.
  intros H1 H2 OK. destruct (H1 OK) as [OK1 D1]. destruct (H2 OK1) as [OK2 D2].
  split; [exact OK2|eapply del_ext_trans; eauto].
Qed.
Lemma bstep_bl st st' : bl st' = bl st -> bstep st st'.
Proof. intros E OK. split; [eapply binv_bl; eauto|apply del_ext_bl, E]. Qed.

Lemma process_frame_bstep s f : bstep s (process_frame s f).
Proof.
  unfold process_frame. destruct (f_events f) as [|fe rest]; [apply bstep_refl|].
  cbv zeta. set (s1 := fold_left add_consensus_event (fe :: rest) s).
  apply (bstep_trans s s1); [apply bstep_bl, add_consensus_events_bl|].
  set (b := block_of_frame (last_block s1 + 1) f s1).
  assert (C : bstep s1 (commit (store_set_block s1 b) b)).
  { intros OK1. pose proof (b_lb s1 OK1) as Hlb.
    destruct (block_of_frame_index (last_block s1 + 1) f s1) as [Hi [Hs _]]. fold b in Hi, Hs.
    destruct (commit_blocks s1 b ltac:(lia) Hs) as (bf & Gb & Gl & Gd & Gi & _ & Gv).
    rewrite Hi in *. split; [|exists [bf]; exact Gd].
    apply (binv_new_ext s1 _ bf bf OK1 Gb); [lia|exact Gd|exact Gi|reflexivity|apply sigs_incl_refl|exact Gv]. }
  destruct (b_txs b), (b_itxs b); try exact C. apply bstep_refl.
Qed.

Lemma process_sig_bstep st s : bstep st (process_sig st s).
Proof.
  destruct (process_sig_cases st s) as [->|(b & ps & Hb & _ & _ & Hover & ->)]; [apply bstep_refl|].
  cbv zeta. set (b' := b <| b_sigs := aset (bs_validator s) (bs_over s) (b_sigs b) |>).
  apply (bstep_trans st (store_set_block st b')); [|apply bstep_bl; reflexivity].
  intros OK. split; [|exists []; rewrite app_nil_r; apply delivered_store].
  destruct (b_idx st OK _ _ Hb) as [Hi Hr].
  assert (F : b_index b' = bs_index s /\ body b' = body b /\ b_bodyid b' = b_bodyid b /\
              b_sigs b' = aset (bs_validator s) (bs_over s) (b_sigs b)) by (subst b'; rewrite <- Hi; destruct b; auto).
  destruct F as [Hi' [Hbody [Hid Hsg]]].
  pose proof (b_valid st OK _ _ Hb) as Hvb.
  apply binv_restore; rewrite ?Hi'; eauto.
  - intros b0 Hb0. rewrite Hb in Hb0. inversion Hb0; subst b0. split; [exact Hbody|].
    intros v o Hvo. rewrite Hsg. destruct (Z.eq_dec (bs_validator s) v) as [->|Hne].
    + rewrite aget_aset_same, (Hvb v o Hvo). congruence.
    + rewrite aget_aset_other by auto. exact Hvo.
  - intros v o. rewrite Hsg, Hid. destruct (Z.eq_dec (bs_validator s) v) as [->|Hne].
    + rewrite aget_aset_same. intros H; inversion H. exact Hover.
    + rewrite aget_aset_other by auto. apply Hvb.
Qed.

(* operations a node performs on its hashgraph *)
Inductive hop := HInsert (e : event) | HSigPool.
Definition hstep (st : hg) (o : hop) : hg :=
  match o with HInsert e => step st e | HSigPool => process_sigpool st end.
Definition hrun (st : hg) (ops : list hop) : hg := fold_left hstep ops st.

(* any transitive relation that holds between states with the same [bl], across process_frame and
   across process_sig holds along every run *)
Section BlockSteps.
  Variable R : hg -> hg -> Prop.
  Hypothesis R_trans : forall a b c, R a b -> R b c -> R a c.
  Hypothesis R_bl : forall st st', bl st' = bl st -> R st st'.
  Hypothesis R_frame : forall s f, R s (process_frame s f).
  Hypothesis R_sig : forall st s, R st (process_sig st s).

  Lemma process_round_bsteps s p stop pr : R s (fst (fst (process_round (s, p, stop) pr))).
  Proof.
    unfold process_round.
    destruct (stop || failed s); [apply R_bl; reflexivity|].
    destruct (negb (snd pr)); [apply R_bl; reflexivity|].
    destruct (get_round s (fst pr)); [|apply R_bl, fail_bl].
    pose proof (R_bl _ _ (get_frame_bl s (fst pr))) as F.
    destruct (get_frame s (fst pr)) as [[f|] s1]; cbn [fst snd] in *; apply (R_trans _ _ _ F).
    - exact (R_trans _ _ _ (R_frame s1 f) (R_bl _ _ (bump_last_consensus_bl _ _))).
    - apply R_bl, fail_bl.
  Qed.

  Lemma process_decided_rounds_bsteps st : R st (process_decided_rounds st).
  Proof.
    unfold process_decided_rounds.
    pose proof (fold_left_preorder (fun acc acc' => R (fst (fst acc)) (fst (fst acc'))) process_round
                  (fun acc => R_bl _ _ eq_refl) (fun a b c => R_trans _ _ _)
                  (fun acc pr => let '(s, p, b) := acc in process_round_bsteps s p b pr) (pending st) (st, [], false)) as G.
    destruct (fold_left process_round (pending st) (st, [], false)) as [[s processed] stop]. cbn [fst] in G.
    apply (R_trans _ _ _ G), R_bl. reflexivity.
  Qed.

  Lemma hstep_bsteps st o : R st (hstep st o).
  Proof.
    destruct o as [e|]; cbn [hstep];
      [|apply (fold_left_preorder R); [intros s; apply R_bl; reflexivity|exact R_trans|exact R_sig]].
    unfold step, insert_and_run. pose proof (R_bl _ _ (bview_bl _ _ (insert_event_bview st e))) as F.
    destruct (insert_event st e) as [r s]. cbn [snd] in *. destruct r; cbn [snd]; try exact F.
    apply (R_trans _ _ _ F), (run_consensus_preorder R R_trans); intros s0;
      [apply R_bl, bview_bl, divide_rounds_bview|apply R_bl, bview_bl, decide_fame_bview|
       apply R_bl, bview_bl, decide_round_received_bview|apply process_decided_rounds_bsteps].
  Qed.

  Lemma hrun_bsteps ops st : R st (hrun st ops).
  Proof. apply (fold_left_preorder R); [intros s; apply R_bl; reflexivity|exact R_trans|exact hstep_bsteps]. Qed.
End BlockSteps.

Lemma process_round_binv s processed stop pr :
  binv s -> binv (fst (fst (process_round (s, processed, stop) pr))).
Proof.
  intros OK. apply (process_round_bsteps bstep bstep_trans bstep_bl process_frame_bstep s processed stop pr OK).
Qed.
Lemma process_sig_binv st s : binv st -> binv (process_sig st s).
Proof. intros OK. apply (process_sig_bstep st s OK). Qed.

Lemma hrun_bstep ops st : bstep st (hrun st ops).
Proof. exact (hrun_bsteps bstep bstep_trans bstep_bl process_frame_bstep process_sig_bstep ops st). Qed.

Lemma hstep_binv st o : binv st -> binv (hstep st o).
Proof. intros OK. apply (hstep_bsteps bstep bstep_trans bstep_bl process_frame_bstep process_sig_bstep st o OK). Qed.
Lemma step_binv st e : binv st -> binv (step st e).
Proof. exact (hstep_binv st (HInsert e)). Qed.
Lemma process_sigpool_binv st : binv st -> binv (process_sigpool st).
Proof. exact (hstep_binv st HSigPool). Qed.
Lemma hrun_del ops : forall st, binv st -> del_ext st (hrun st ops).
Proof. intros st OK. apply (hrun_bstep ops st OK). Qed.

Lemma binv_init self_ genesis oracle_ : binv (init_hg self_ genesis oracle_).
Proof.
  assert (E : bl (init_hg self_ genesis oracle_) = (zempty, -1, [])).
  { unfold init_hg. destruct (set_peerset (empty_hg self_) 0 genesis) as [st|] eqn:S; [|reflexivity].
    apply set_peerset_bl in S. transitivity (bl st); [reflexivity|exact S]. }
  pose proof (f_equal (fun t => fst (fst t)) E) as Eb. pose proof (f_equal (fun t => snd (fst t)) E) as El.
  pose proof (f_equal snd E) as Ed. cbn [bl fst snd] in Eb, El, Ed.
  constructor; rewrite ?Eb, ?El, ?Ed.
  - lia.
  - intros i b H. rewrite zget_empty in H. discriminate.
  - reflexivity.
  - intros k d H. destruct k; discriminate.
  - intros i b H. rewrite zget_empty in H. discriminate.
Qed.

Theorem hrun_binv self_ genesis oracle_ ops : binv (hrun (init_hg self_ genesis oracle_) ops).
Proof. apply (hrun_bstep ops), binv_init. Qed.

(* consequence: the commit callbacks carry consecutive indexes 0,1,2,... *)
Lemma binv_consecutive st : binv st -> forall k d, nth_error (delivered st) k = Some d -> b_index d = Z.of_nat k.
Proof. intros OK k d H. apply (b_del st OK k d H). Qed.

Lemma hrun_app st ops ops' : hrun st (ops ++ ops') = hrun (hrun st ops) ops'.
Proof. unfold hrun. apply fold_left_app. Qed.

(* a block delivered at some point is reported unchanged (same body, superset of signatures) at
   every later point *)
Theorem delivered_block_immutable self_ genesis oracle_ ops ops' k d :
  nth_error (delivered (hrun (init_hg self_ genesis oracle_) ops)) k = Some d ->
  nth_error (delivered (hrun (init_hg self_ genesis oracle_) (ops ++ ops'))) k = Some d /\
  exists b, zget (Z.of_nat k) (blocks (hrun (init_hg self_ genesis oracle_) (ops ++ ops'))) = Some b /\
            body b = body d /\ sigs_incl d b.
Proof.
  intros H. rewrite hrun_app.
  destruct (hrun_del ops' (hrun (init_hg self_ genesis oracle_) ops) (hrun_binv self_ genesis oracle_ ops)) as [l Hl].
  assert (H' : nth_error (delivered (hrun (hrun (init_hg self_ genesis oracle_) ops) ops')) k = Some d).
  { rewrite Hl. apply nth_error_app1_some. exact H. }
  split; [exact H'|].
  pose proof (hrun_binv self_ genesis oracle_ (ops ++ ops')) as OK. rewrite hrun_app in OK.
  destruct (b_del _ OK k d H') as [_ R]. exact R.
Qed.
