(* Processed rounds: QP / FR / DB of Proofs/Committed.v hold in every state of a run, and with them the received
   set of a processed round is final, an ancestor of a committed event is committed (not later), and the committed
   order extends causality.  One step of the node is treated once, for validator sets P given per round, from what
   the earlier stages establish about the states before and after it; the run-level theorems follow for a node that
   respects the distance bound (model after fix 05eda0b) and, with the constant assignment, for static membership. *)
From Coq Require Import ZArith List Bool Lia ZifyBool Permutation Sorted.
From RecordUpdate Require Import RecordSet.
From V Require Import Model.ZMap Model.Quorum Model.Voting Model.VotingRef Model.HgImpl Model.PeerSetSpec
  Model.Window Proofs.ZMapFacts Proofs.QuorumProofs Proofs.HgFrames Proofs.HgDagFrames Proofs.AdmissionProofs
  Proofs.Ancestry Proofs.HgBlockFrames Proofs.BlockInv Proofs.RoundOrder Proofs.OrderSort Proofs.OrderFrames
  Proofs.OrderProofs Proofs.VotingProofs Proofs.FameBridge Proofs.Static Proofs.FirstDesc Proofs.FdWalk
  Proofs.DivInv Proofs.CInvRun Proofs.Height Proofs.StronglySee Proofs.ViewOk Proofs.SameHistory
  Proofs.Agreement Proofs.NoFail Proofs.FameInv Proofs.FamousSet Proofs.DecidedFlag Proofs.RoundReceived
  Proofs.Committed Proofs.PeerSetProofs Proofs.LrMono Proofs.WindowStable Proofs.GapWindow Proofs.FirstDescD
  Proofs.InsertInvD Proofs.DivInvD Proofs.CInvRunD Proofs.StronglySeeD Proofs.RoundFunD Proofs.RoundAgreeD
  Proofs.ViewOkD Proofs.SameHistoryD Proofs.AgreementD Proofs.FameInvD Proofs.LateWitnessD Proofs.FamousSetD
  Proofs.DecidedFlagD Proofs.RoundReceivedD Proofs.UndeterminedD.
Import ListNotations RecordSetNotations.
Open Scope Z_scope.

(* FS: after the flag of round j is set, its famous witnesses stay the same *)
Theorem hstep_pinv P all st o : ids_determine all -> hop_ok all o -> ginv all st -> rinv st ->
  goodD P st -> goodD P (hstep st o) -> failed (hstep st o) = false ->
  (forall j w, flag st j -> (In w (fam (hstep st o) j) <-> In w (fam st j))) ->
  uinvD P st ->
  (forall x i, rr_of (hstep st o) x = Some i -> exists r, rmemo (hstep st o) x = Some r /\ rrspecD P (hstep st o) x r i) ->
  pinv st -> pinv (hstep st o).
Proof.
  intros ID Ho Gi R G G' Hf' FS UI RRS PI. destruct (hstep_ginv all st o ID Ho Gi) as [Gi' Mo].
  destruct (hstep_cases all st o ID Ho Gi) as [[Erv [Ecw _]]|[e [s [_ [E Est']]]]].
  { apply (pinv_same st); [exact Erv|apply (cw_fields _ _ Ecw)|exact PI]. }
  pose proof (same_bodies_ginv all P st _ ID Gi Gi' G G') as SB. pose proof (fun y => hstep_stored all st o y ID Ho Gi) as Sub.
  destruct PI as [Qp Fr Db]. set (st' := hstep st o) in *.
  destruct (step_ok_facts all st e s st' Gi Gi' R Qp Fr E Est' Hf') as [Eq [Q3 [PF _]]]. cbv zeta in *.
  set (s3 := decide_round_received (decide_fame (divide_rounds s))) in *.
  assert (Hl3 : forall R0, lcle s3 R0 <-> lcle st R0) by (intros R0; unfold lcle; rewrite (qs_lc _ _ Q3); reflexivity).
  assert (Hf4 : failed (process_decided_rounds s3) = false) by (rewrite <- Eq; exact Hf').
  destruct (process_decided_rounds_pinvD s3 PF Hf4) as [QP4 [FR4 [DBL4 [Fx4 Dx4]]]].
  rewrite <- Eq in QP4, FR4, DBL4, Fx4, Dx4.
  constructor; [exact QP4|exact FR4|].
  (* DB: rounds already processed before this step receive nothing new *)
  intros x ex' R0 Hx' Hrr Hlc.
  destruct (classic_lcle st R0) as [HlcR|HlcR]; [|apply (DBL4 x ex' R0 Hx' Hrr Hlc); intros C; apply HlcR; apply Hl3; exact C].
  assert (Rx' : rr_of st' x = Some R0) by (unfold rr_of; rewrite Hx'; exact Hrr).
  destruct (RRS x R0 Rx') as [r [Hrm [Hlt [Hfl [Hno Hrc]]]]].
  assert (HR0 : 0 <= R0).
  { destruct (cd_rdom _ _ _ (gD_c _ _ G') x r Hrm) as [H0 _]. lia. }
  pose proof (flag_below_lc st R0 R HlcR HR0) as FlR.
  (* x is stored in st: it is an ancestor of a famous witness of round R0 *)
  assert (Hxs : exists ex, get_event st x = Some ex).
  { destruct Hrc as [Hsee Hsm]. pose proof (super_majority_pos (P R0)) as Hp.
    assert (Hne' : exists w, In w (fam st' R0)).
    { destruct (fam st' R0) as [|w l]; [cbn in Hsm; lia|exists w; left; reflexivity]. }
    destruct Hne' as [w Hw'].
    assert (Hw : In w (fam st R0)) by (apply (FS R0 w FlR); exact Hw').
    apply (fam_frecD P st R0 w G) in Hw.
    destruct (wits_storedD P st G R0 w (frec_in_wits st R0 w true Hw)) as [ew Hew].
    assert (Hws' : get_event st' w <> None) by (apply Sub; rewrite Hew; discriminate).
    destruct (get_event st' w) as [ew'|] eqn:Hew'; [|contradiction].
    pose proof (Hsee w Hw') as Hs'. apply (see_true_ancD P st' w x ew' ex' G' Hew' Hx') in Hs'.
    destruct (anc_commonD P P st' st G' G (same_bodies_sym _ _ SB) w ew' ew x Hew' Hew Hs') as [_ Hst]. exact Hst. }
  destruct Hxs as [ex Hex].
  destruct (ev_rr ex) as [R00|] eqn:Hrr0.
  - (* already received in st: the same round, and everything persists *)
    destruct (m_rr _ _ Mo x ex R00 Hex Hrr0) as [ex2 [Hx2 Hr2]].
    fold st' in Hx2. rewrite Hx' in Hx2. inversion Hx2; subst ex2. assert (R00 = R0) by congruence. subst R00.
    destruct (Db x ex R0 Hex Hrr0 HlcR) as [f [Hz [Hin1 Hp]]]. exists f.
    split; [apply Fx4; rewrite (qs_fr _ _ Q3); exact Hz|]. split; [exact Hin1|].
    intros Hp'. assert (Hp0 : payload ex) by (unfold payload in *; rewrite (SB x ex ex' Hex Hx'); exact Hp').
    destruct (Hp Hp0) as [d [Hd [A B]]]. exists d. split; [apply Dx4; rewrite (qs_dl _ _ Q3); exact Hd|auto].
  - (* not received in st: impossible *)
    exfalso.
    assert (Hu : ustopD P st x) by (apply (uD_u _ _ UI x); [rewrite Hex; discriminate|unfold rr_of; rewrite Hex; exact Hrr0]).
    destruct Hu as [r' [j0 [Hr' [Hlt' [Hnf [_ Hall]]]]]].
    destruct (memo_agreeD P P st st' G G' SB (fun q _ _ => eq_refl) x ex ex' Hex Hx') as [Er _]. assert (r' = r) by congruence. subst r'.
    assert (Hj0 : R0 < j0).
    { destruct (Z.lt_ge_cases R0 j0) as [|Hge]; [assumption|exfalso]. apply Hnf.
      apply (flag_below_lc st j0 R); [|destruct (cd_rdom _ _ _ (gD_c _ _ G) x r Hr') as [H0 _]; lia].
      destruct HlcR as [l [Hl Hle]]. exists l. split; [exact Hl|lia]. }
    destruct (Hall R0 ltac:(lia)) as [_ Hnr]. apply Hnr.
    apply (rcond_transferD P st st' R0 x ex ex' G G' SB Sub (fun w => FS R0 w FlR) Hex Hx'). exact Hrc.
  Qed.

Section State.
  Variables (P : Z -> peerset) (all : list event) (st : hg).
  Hypothesis G : goodD P st.
  Hypothesis R : rinv st.
  Hypothesis UI : uinvD P st.
  Hypothesis RRS : forall x i, rr_of st x = Some i -> exists r, rmemo st x = Some r /\ rrspecD P st x r i.

  (* an ancestor of an event received in a processed round is received, and not later *)
  Theorem committed_ancestor_st x a R0 :
    rr_of st x = Some R0 -> lcle st R0 -> Ancestry.anc st x a ->
    exists R', rr_of st a = Some R' /\ R' <= R0.
  Proof.
    intros Hx Hlc Hanc.
    destruct (RRS x R0 Hx) as [rx [Hrx Sx]].
    assert (Hxs : exists ex, get_event st x = Some ex).
    { unfold rr_of in Hx. destruct (get_event st x) as [ex|]; [eauto|discriminate]. }
    destruct Hxs as [ex Hex].
    destruct (anc_storedD P st G x ex a Hex Hanc) as [ea Hea].
    destruct (rr_of st a) as [R'|] eqn:Ha.
    - exists R'. split; [reflexivity|].
      destruct (RRS a R' Ha) as [ra [Hra Sa]].
      apply (rr_monotone_stateD P st a x R' R0 ra rx ea ex G Hea Hex Hanc Hra Hrx Sa Sx).
    - exfalso.
      assert (Hu : ustopD P st a) by (apply (uD_u _ _ UI a); [rewrite Hea; discriminate|exact Ha]).
      destruct Hu as [r [j0 [Hr [Hlt [Hnf [_ Hall]]]]]].
      pose proof (round_anc_leD P st G x a Hanc ex rx r Hex Hrx Hr) as Hle.
      destruct Sx as [S1 [S2 [S3 [S4 S5]]]].
      assert (Hj0 : R0 < j0).
      { destruct (Z.lt_ge_cases R0 j0) as [|Hge]; [assumption|exfalso]. apply Hnf.
        apply (flag_below_lc st j0 R); [|destruct (cd_rdom _ _ _ (gD_c _ _ G) a r Hr) as [H0 _]; lia].
        destruct Hlc as [l [Hl Hle']]. exists l. split; [exact Hl|lia]. }
      destruct (Hall R0 ltac:(lia)) as [_ Hnr]. apply Hnr. split; [|exact S5].
      intros w Hw. pose proof (S4 w Hw) as Hs'.
      apply (fam_frecD P st R0 w G) in Hw.
      destruct (wits_storedD P st G R0 w (frec_in_wits st R0 w true Hw)) as [ew Hew].
      apply (see_true_ancD P st w a ew ea G Hew Hea). eapply Ancestry.anc_trans; [|exact Hanc].
      apply (see_true_ancD P st w x ew ex G Hew Hex). exact Hs'.
  Qed.

  (* the same with the "proper ancestor" relation of OrderProofs.v and the stored fields *)
  Theorem committed_ancestor_o_st a b eb R0 :
    OrderProofs.anc st a b -> get_event st b = Some eb -> ev_rr eb = Some R0 -> lcle st R0 ->
    exists ea R', get_event st a = Some ea /\ ev_rr ea = Some R' /\ R' <= R0.
  Proof.
    intros Hanc Hb Hr Hlc.
    assert (Rb : rr_of st b = Some R0) by (unfold rr_of; rewrite Hb; exact Hr).
    destruct (committed_ancestor_st b a R0 Rb Hlc (oanc_anc st a b Hanc)) as [R' [Ra Hle]].
    unfold rr_of in Ra. destruct (get_event st a) as [ea|] eqn:Ha; [|discriminate].
    exists ea, R'. auto.
  Qed.

  Hypothesis Gi : ginv all st.
  Hypothesis PI : pinv st.

  (* every event of a delivered block, and every ancestor of it that carries a payload, is in a delivered block that is
     not later; inside the same block it comes first *)
  Theorem order_extends_causality_st k d j b a ea :
    nth_error (delivered st) k = Some d -> nth_error (f_events (b_frame d)) j = Some b ->
    OrderProofs.anc st a (fe_id b) -> get_event st a = Some ea -> payload ea ->
    exists k' d' i fa, nth_error (delivered st) k' = Some d' /\
      nth_error (f_events (b_frame d')) i = Some fa /\ fe_id fa = a /\
      ((k' < k)%nat \/ (k' = k /\ (i < j)%nat)).
  Proof.
    intros Hk Hj Hanc Hea Hp. destruct R as [RA RB]. destruct PI as [Qp Fr Db].
    assert (Hd : In d (delivered st)) by (eapply nth_error_In; exact Hk).
    destruct (delivered_block_payload all st d Gi Hd) as [Hfd _].
    assert (Hb : In b (f_events (b_frame d))) by (eapply nth_error_In; exact Hj).
    destruct (frame_events_received all st (b_rr d) (b_frame d) b Gi Hfd Hb) as [_ [_ [eb [Heb [Hrb _]]]]].
    pose proof (Fr _ _ Hfd) as Hlc.
    destruct (committed_ancestor_o_st a (fe_id b) eb (b_rr d) Hanc Heb Hrb Hlc) as [ea' [R' [Hea' [Hra Hle]]]].
    rewrite Hea in Hea'. inversion Hea'; subst ea'.
    assert (Hlc' : lcle st R') by (destruct Hlc as [l [Hl Hl']]; exists l; split; [exact Hl|lia]).
    destruct (Db a ea R' Hea Hra Hlc') as [f' [Hf' [Hin' Hpay]]].
    destruct (Hpay Hp) as [d' [Hd' [Hr' Hfd']]].
    destruct (In_nth_error _ _ Hd') as [k' Hk'].
    apply in_map_iff in Hin'. destruct Hin' as [fa [Hfa Hin']]. rewrite <- Hfd' in Hin'.
    destruct (In_nth_error _ _ Hin') as [i Hi].
    exists k', d', i, fa. split; [exact Hk'|]. split; [exact Hi|]. split; [exact Hfa|].
    pose proof (r_del_sorted st RA) as Srt.
    assert (Nk : nth_error (map b_rr (delivered st)) k = Some (b_rr d)) by (apply map_nth_error; exact Hk).
    assert (Nk' : nth_error (map b_rr (delivered st)) k' = Some (b_rr d')) by (apply map_nth_error; exact Hk').
    destruct (lt_eq_lt_dec k' k) as [[Hlt|Heq]|Hgt].
    - left; exact Hlt.
    - right. split; [exact Heq|]. subst k'. rewrite Hk in Hk'. inversion Hk'; subst d'.
      apply (delivered_block_respects_ancestry all st d i j fa b Gi Hd Hi Hj). rewrite Hfa. exact Hanc.
    - exfalso. pose proof (sorted_nth_lt_gen _ Srt k k' _ _ Hgt Nk Nk'). lia.
  Qed.

  (* the same for cached frames, for every ancestor (payload or not): it is in the cached frame of a round that is
     not later *)
  Theorem frames_extend_causality_st R0 f b a :
    zget R0 (frames st) = Some f -> In b (f_events f) -> OrderProofs.anc st a (fe_id b) ->
    exists R' f' fa, zget R' (frames st) = Some f' /\ In fa (f_events f') /\ fe_id fa = a /\ R' <= R0.
  Proof.
    intros Hfr Hb Hanc. destruct PI as [Qp Fr Db].
    destruct (frame_events_received all st R0 f b Gi Hfr Hb) as [_ [_ [eb [Heb [Hrb _]]]]].
    pose proof (Fr _ _ Hfr) as Hlc.
    destruct (committed_ancestor_o_st a (fe_id b) eb R0 Hanc Heb Hrb Hlc) as [ea [R' [Hea [Hra Hle]]]].
    assert (Hlc' : lcle st R') by (destruct Hlc as [l [Hl Hl']]; exists l; split; [exact Hl|lia]).
    destruct (Db a ea R' Hea Hra Hlc') as [f' [Hf' [Hin' _]]].
    apply in_map_iff in Hin'. destruct Hin' as [fa [Hfa Hin']].
    exists R', f', fa. auto.
  Qed.
End State.

Theorem pinv_along P all self_ genesis oracle_ ops k : along P all self_ genesis oracle_ ops ->
  failed (prefix self_ genesis oracle_ ops k) = false -> pinv (prefix self_ genesis oracle_ ops k).
Proof.
  intros A. apply (along_ind P all self_ genesis oracle_ ops A pinv (pinv_init self_ genesis oracle_)).
  clear k. intros k o ES Sd. pose proof (sd_f _ _ _ _ Sd) as Hf. pose proof (stepD_nf _ _ _ _ Sd) as Hfk.
  destruct (along_facts P all self_ genesis oracle_ ops A k Hfk) as [Gi [_ [R [_ [_ G]]]]].
  pose proof (uinv_along P all self_ genesis oracle_ ops k A Hfk) as UI.
  rewrite <- ES in Hf |- *.
  destruct (along_facts P all self_ genesis oracle_ ops A (S k) Hf) as [_ [_ [_ [_ [_ G']]]]].
  pose proof (rr_spec_along P all self_ genesis oracle_ ops A (S k) Hf) as RRS.
  pose proof (fun j w => fam_stable_along P all self_ genesis oracle_ ops A k j w Hf) as FS.
  rewrite ES in *. apply (hstep_pinv P all _ o (sd_id _ _ _ _ Sd) (sd_o _ _ _ _ Sd) Gi R G G' Hf FS UI RRS).
Qed.

Theorem pinv_preD self_ genesis oracle_ all ops : self_ <> -1 -> ids_determine all -> Forall (hop_ok all) ops ->
  gap_runb (init_hg self_ genesis oracle_) ops = true ->
  forall P, (forall q, 0 <= q <= last_round (hrun (init_hg self_ genesis oracle_) ops) ->
               P q = psat (hrun (init_hg self_ genesis oracle_) ops) q) ->
  forall k, failed (hrun (init_hg self_ genesis oracle_) (firstn k ops)) = false ->
  pinv (hrun (init_hg self_ genesis oracle_) (firstn k ops)).
Proof.
  intros Hs ID H Hg P HP k. apply (pinv_along P all self_ genesis oracle_ ops k), (gap_along self_ genesis oracle_ all ops P Hs ID H Hg HP).
Qed.

Section Final.
  Variables (self_ : Z) (genesis : peerset) (oracle_ : list Z) (all : list event) (ops : list hop).
  Hypothesis Hs : self_ <> -1.
  Hypothesis ID : ids_determine all.
  Hypothesis H : Forall (hop_ok all) ops.
  Hypothesis Hg : gap_runb (init_hg self_ genesis oracle_) ops = true.
  Let st := hrun (init_hg self_ genesis oracle_) ops.
  Hypothesis Hf : failed st = false.
  Let P := psat st.

  Lemma final_rr_spec x i : rr_of st x = Some i -> exists r, rmemo st x = Some r /\ rrspecD P st x r i.
  Proof.
    intros Hx. pose proof (rr_spec_preD self_ genesis oracle_ all ops Hs ID H Hg P (fun q _ => eq_refl) (length ops)) as Q.
    cbv zeta beta in Q. rewrite firstn_all in Q. exact (Q Hf x i Hx).
  Qed.

  Let G : goodD P st := proj1 (gap_goodD self_ genesis oracle_ all ops Hs ID H Hg Hf).
  Let Rv : rinv st := proj2 (hrun_rtop self_ genesis oracle_ ops) Hf.
  Let UI : uinvD P st := hrun_uinvD self_ genesis oracle_ all ops Hs ID H Hg Hf.

  Theorem rr_monotone_gap a b ea eb ra rb :
    Ancestry.anc st b a -> get_event st a = Some ea -> get_event st b = Some eb ->
    ev_rr ea = Some ra -> ev_rr eb = Some rb -> ra <= rb.
  Proof.
    intros Hanc Ha Hb Hra Hrb.
    assert (Ra : rr_of st a = Some ra) by (unfold rr_of; rewrite Ha; exact Hra).
    assert (Rb : rr_of st b = Some rb) by (unfold rr_of; rewrite Hb; exact Hrb).
    destruct (final_rr_spec a ra Ra) as [r_a [Ma Sa]]. destruct (final_rr_spec b rb Rb) as [r_b [Mb Sb]].
    apply (rr_monotone_stateD P st a b ra rb r_a r_b ea eb G Ha Hb Hanc Ma Mb Sa Sb).
  Qed.

  Theorem committed_ancestorD x a R :
    rr_of st x = Some R -> lcle st R -> Ancestry.anc st x a ->
    exists R', rr_of st a = Some R' /\ R' <= R.
  Proof. exact (committed_ancestor_st P st G Rv UI final_rr_spec x a R). Qed.

  Theorem committed_ancestor_oD a b eb R :
    OrderProofs.anc st a b -> get_event st b = Some eb -> ev_rr eb = Some R ->
    (exists l, last_consensus st = Some l /\ R <= l) ->
    exists ea R', get_event st a = Some ea /\ ev_rr ea = Some R' /\ R' <= R.
  Proof. exact (committed_ancestor_o_st P st G Rv UI final_rr_spec a b eb R). Qed.

  Theorem hrun_pinvD : pinv st.
  Proof.
    pose proof (pinv_preD self_ genesis oracle_ all ops Hs ID H Hg (psat st) (fun q _ => eq_refl) (length ops)) as Q.
    rewrite firstn_all in Q. exact (Q Hf).
  Qed.

  Let Gi : ginv all st := hrun_ginv all self_ genesis oracle_ ops ID H.

  Theorem order_extends_causalityD k d j b a ea :
    nth_error (delivered st) k = Some d -> nth_error (f_events (b_frame d)) j = Some b ->
    OrderProofs.anc st a (fe_id b) -> get_event st a = Some ea -> payload ea ->
    exists k' d' i fa, nth_error (delivered st) k' = Some d' /\
      nth_error (f_events (b_frame d')) i = Some fa /\ fe_id fa = a /\
      ((k' < k)%nat \/ (k' = k /\ (i < j)%nat)).
  Proof. exact (order_extends_causality_st P all st G Rv UI final_rr_spec Gi hrun_pinvD k d j b a ea). Qed.

  Theorem frames_extend_causalityD R f b a :
    zget R (frames st) = Some f -> In b (f_events f) -> OrderProofs.anc st a (fe_id b) ->
    exists R' f' fa, zget R' (frames st) = Some f' /\ In fa (f_events f') /\ fe_id fa = a /\ R' <= R.
  Proof. exact (frames_extend_causality_st P all st G Rv UI final_rr_spec Gi hrun_pinvD R f b a). Qed.
End Final.

(* static membership (the constant assignment): what the stages before this one give about a reachable state *)
Lemma hrun_static_facts g all self_ oracle_ ops : ids_determine all -> no_accept all -> Forall (hop_ok all) ops ->
  let st := hrun (init_hg self_ g oracle_) ops in
  ginv all st /\ rinv st /\ failed st = false /\ goodD (fun _ => g) st /\ uinvD (fun _ => g) st /\
  (forall x i, rr_of st x = Some i -> exists r, rmemo st x = Some r /\ rrspecD (fun _ => g) st x r i).
Proof.
  intros ID NA H st. pose proof (hrun_nf g all self_ oracle_ ops ID NA H) as N.
  split; [apply (nf_g _ _ _ N)|]. split; [apply (nf_r _ _ _ N)|]. split; [apply (nf_f _ _ _ N)|].
  split; [apply good_goodD, (nf_good g all), N|]. split; [apply (hrun_uinv g all self_ oracle_ ops ID NA H)|].
  apply (rr_spec_run g all ID NA self_ oracle_ ops H).
Qed.

Theorem hrun_pinv g all : ids_determine all -> no_accept all -> forall self_ oracle_ ops,
  Forall (hop_ok all) ops -> pinv (hrun (init_hg self_ g oracle_) ops).
Proof.
  intros ID NA self_ oracle_ ops H. rewrite <- prefix_length.
  apply (pinv_along _ all self_ g oracle_ ops _ (static_along g all self_ oracle_ ops ID NA H)).
  rewrite prefix_length. apply (static_not_failed g all self_ oracle_ ops ID NA H).
Qed.

(* C04, static membership: every event of a delivered block, and every ancestor of it that carries a
   payload, is in a delivered block that is not later; inside the same block it comes first *)
Theorem order_extends_causality_static g all self_ oracle_ ops k d j b a ea :
  ids_determine all -> no_accept all -> Forall (hop_ok all) ops ->
  let st := hrun (init_hg self_ g oracle_) ops in
  nth_error (delivered st) k = Some d -> nth_error (f_events (b_frame d)) j = Some b ->
  OrderProofs.anc st a (fe_id b) -> get_event st a = Some ea -> payload ea ->
  exists k' d' i fa, nth_error (delivered st) k' = Some d' /\
    nth_error (f_events (b_frame d')) i = Some fa /\ fe_id fa = a /\
    ((k' < k)%nat \/ (k' = k /\ (i < j)%nat)).
Proof.
  intros ID NA H st. destruct (hrun_static_facts g all self_ oracle_ ops ID NA H) as [Gi [R [_ [G [UI RRS]]]]].
  exact (order_extends_causality_st _ all st G R UI RRS Gi (hrun_pinv g all ID NA self_ oracle_ ops H) k d j b a ea).
Qed.

(* the same for cached frames, for every ancestor (payload or not): it is in the cached frame of a
   round that is not later *)
Theorem frames_extend_causality_static g all self_ oracle_ ops R f b a :
  ids_determine all -> no_accept all -> Forall (hop_ok all) ops ->
  let st := hrun (init_hg self_ g oracle_) ops in
  zget R (frames st) = Some f -> In b (f_events f) -> OrderProofs.anc st a (fe_id b) ->
  exists R' f' fa, zget R' (frames st) = Some f' /\ In fa (f_events f') /\ fe_id fa = a /\ R' <= R.
Proof.
  intros ID NA H st. destruct (hrun_static_facts g all self_ oracle_ ops ID NA H) as [Gi [Rv [_ [G [UI RRS]]]]].
  exact (frames_extend_causality_st _ all st G Rv UI RRS Gi (hrun_pinv g all ID NA self_ oracle_ ops H) R f b a).
Qed.

(* an ancestor (in the "proper ancestor" relation of OrderProofs.v) of an event received in a processed round is
   received, and not later *)
Theorem committed_ancestor_o g all self_ oracle_ ops a b eb R :
  ids_determine all -> no_accept all -> Forall (hop_ok all) ops ->
  let st := hrun (init_hg self_ g oracle_) ops in
  OrderProofs.anc st a b -> get_event st b = Some eb -> ev_rr eb = Some R ->
  (exists l, last_consensus st = Some l /\ R <= l) ->
  exists ea R', get_event st a = Some ea /\ ev_rr ea = Some R' /\ R' <= R.
Proof.
  intros ID NA H st. destruct (hrun_static_facts g all self_ oracle_ ops ID NA H) as [_ [Rv [_ [G [UI RRS]]]]].
  exact (committed_ancestor_o_st _ st G Rv UI RRS a b eb R).
Qed.
