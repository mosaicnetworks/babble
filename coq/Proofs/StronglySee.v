(* Static membership, one state: [good g st] is the instance P = constant of [goodD] (Proofs/StronglySeeD.v),
   and the consequences of the coordinate invariant are read off the per-round-set statements there. *)
From Coq Require Import ZArith List Bool Lia ZifyBool.
From RecordUpdate Require Import RecordSet.
From V Require Import Model.ZMap Model.Quorum Model.Voting Model.HgImpl Proofs.ZMapFacts Proofs.HgFrames
  Proofs.HgDagFrames Proofs.AdmissionProofs Proofs.Ancestry Proofs.Static Proofs.FirstDesc Proofs.DivInv
  Proofs.Height Proofs.FirstDescD Proofs.StronglySeeD.
Import ListNotations RecordSetNotations.
Open Scope Z_scope.

Record good (g : peerset) (st : hg) : Prop := {
  gd_dag : dag_ok st;
  gd_la : la_ok st;
  gd_c : cinv g None st;
  gd_h : exists h, hmeasure st h
}.

Lemma good_goodD g st : good g st -> goodD (fun _ => g) st.
Proof. intros [A B C D]. exact (Build_goodD _ _ A B (cinv_cinvD _ _ _ C) D). Qed.

(* the table of a static state answers g everywhere *)
Lemma good_peerset g st : good g st -> forall q, get_peerset st q = Some g.
Proof. intros G q. exact (get_peerset_static g st q (c_static _ _ _ (gd_c _ _ G))). Qed.

Section Static.
  Variables (g : peerset) (st : hg).
  Hypothesis G : good g st.

  Definition wits_spec := wits_specD _ st (good_goodD g st G).
  Definition wits_stored := wits_storedD _ st (good_goodD g st G).

  Lemma witness_true x : wmemo st x = Some true ->
    exists ex r spr, get_event st x = Some ex /\ rmemo st x = Some r /\
      prnd st (e_sp (ev_e ex)) = Some spr /\ spr < r /\ mem_key (e_creator (ev_e ex)) (keys g) = true.
  Proof. exact (witness_trueD _ st (good_goodD g st G) x). Qed.

  Lemma quorum y ey j : get_event st y = Some ey -> rmemo st y = Some j -> 1 <= j ->
    super_majority g <= Z.of_nat (length (filter (ss_true g st y) (wits st (j - 1)))).
  Proof. exact (quorumD _ st (good_goodD g st G) y ey j). Qed.
End Static.
