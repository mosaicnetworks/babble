(* Stage S1: the last-ancestor coordinates are exactly "highest-index ancestor-or-self per
   creator", and _ancestor(x,y) decides ancestry, in every reachable state. *)
From Coq Require Import ZArith List Bool Lia ZifyBool.
From RecordUpdate Require Import RecordSet.
From V Require Import Model.ZMap Model.Quorum Model.HgImpl Proofs.ZMapFacts Proofs.HgFrames Proofs.HgDagFrames
  Proofs.AdmissionProofs.
Import ListNotations RecordSetNotations.
Open Scope Z_scope.

Definition parent_of (st : hg) (x p : Z) : Prop :=
  exists ex, get_event st x = Some ex /\ p <> -1 /\ (e_sp (ev_e ex) = p \/ e_op (ev_e ex) = p).

(* ancestor-or-self *)
Inductive anc (st : hg) : Z -> Z -> Prop :=
| anc_refl x : anc st x x
| anc_step x p y : parent_of st x p -> anc st p y -> anc st x y.

Lemma anc_inv st x y : anc st x y -> x = y \/ exists p, parent_of st x p /\ anc st p y.
Proof. intros H; destruct H as [x|x p y Hp Ha]; [left; reflexivity|right; eauto]. Qed.

Lemma anc_trans st x y z : anc st x y -> anc st y z -> anc st x z.
Proof. induction 1; intros; [auto|]. econstructor; eauto. Qed.

Lemma parent_of_frame st st' x p : dag_frame st st' -> parent_of st x p -> parent_of st' x p.
Proof.
  intros F [ex [Hx [Hn Hp]]]. destruct (proj2 (frame_get_event st st' x F) _ Hx) as [ex' [Hx' E]].
  exists ex'. rewrite E. auto.
Qed.
Lemma parent_of_frame_back st st' x p : dag_frame st st' -> parent_of st' x p -> parent_of st x p.
Proof.
  intros F [ex' [Hx' [Hn Hp]]]. destruct (proj1 (frame_get_event st st' x F) _ Hx') as [ex [Hx E]].
  exists ex. rewrite E. auto.
Qed.
Lemma anc_frame st st' x y : dag_frame st st' -> anc st x y <-> anc st' x y.
Proof.
  intros F. split; induction 1; try constructor.
  - econstructor; [eapply parent_of_frame; eauto|auto].
  - econstructor; [eapply parent_of_frame_back; eauto|auto].
Qed.

Lemma NoDup_app_intro' {A} (l1 l2 : list A) :
  NoDup l1 -> NoDup l2 -> (forall x, In x l1 -> ~ In x l2) -> NoDup (l1 ++ l2).
Proof.
  induction 1 as [|x r Hx Hr IH]; cbn [app]; intros H2 Hd; [auto|].
  constructor.
  - rewrite in_app_iff; intros [?|?]; [contradiction|]. apply (Hd x); [left; reflexivity|auto].
  - apply IH; [auto|]. intros y Hy; apply Hd; right; auto.
Qed.


Definition ukeys {A} (l : list (Z * A)) : Prop := NoDup (map fst l).

Lemma aget_In_fst {A} c (l : list (Z * A)) v : aget c l = Some v -> In c (map fst l).
Proof.
  induction l as [|[k w] r IH]; cbn [aget map fst]; [discriminate|].
  destruct (Z.eqb_spec k c); [intros _; left; auto|intros H; right; auto].
Qed.
Lemma aget_not_In {A} c (l : list (Z * A)) : ~ In c (map fst l) -> aget c l = None.
Proof.
  induction l as [|[k w] r IH]; cbn [aget map fst]; [reflexivity|]. intros H.
  destruct (Z.eqb_spec k c); [exfalso; apply H; left; auto|apply IH; intros C; apply H; right; auto].
Qed.

Lemma map_fst_aset {A} k (v : A) l :
  (In k (map fst l) -> map fst (aset k v l) = map fst l) /\
  (~ In k (map fst l) -> map fst (aset k v l) = map fst l ++ [k]).
Proof.
  induction l as [|[k' v'] r [IH1 IH2]]; cbn [aset map fst app].
  - split; [intros []|reflexivity].
  - destruct (Z.eqb_spec k' k) as [->|Hne]; cbn [map fst].
    + split; [reflexivity|intros H; exfalso; apply H; left; reflexivity].
    + split.
      * intros [E|H]; [congruence|]. rewrite IH1 by auto. reflexivity.
      * intros H. rewrite IH2; [reflexivity|]. intros C; apply H; right; exact C.
Qed.

Lemma ukeys_aset {A} k (v : A) l : ukeys l -> ukeys (aset k v l).
Proof.
  unfold ukeys. intros H. destruct (in_dec Z.eq_dec k (map fst l)) as [Hin|Hnin].
  - rewrite (proj1 (map_fst_aset k v l) Hin). exact H.
  - rewrite (proj2 (map_fst_aset k v l) Hnin). apply NoDup_app_intro'; auto.
    + constructor; [intros []|constructor].
    + intros x Hx [<-|[]]. contradiction.
Qed.

Definition merge1 (acc : coords) (po : Z * (Z * Z)) : coords :=
  match aget (fst po) acc with
  | Some (i, _) => if i <? fst (snd po) then aset (fst po) (snd po) acc else acc
  | None => aset (fst po) (snd po) acc
  end.

Lemma merge_la_fold sla ola : merge_la sla ola = fold_left merge1 ola sla.
Proof. reflexivity. Qed.

Lemma merge1_ukeys acc po : ukeys acc -> ukeys (merge1 acc po).
Proof.
  unfold merge1. intros H. destruct (aget (fst po) acc) as [[i y]|]; [destruct (i <? fst (snd po))|]; auto using ukeys_aset.
Qed.

Lemma merge1_get acc po c :
  aget c (merge1 acc po) =
  if fst po =? c then
    match aget c acc with
    | Some (i, y) => if i <? fst (snd po) then Some (snd po) else Some (i, y)
    | None => Some (snd po)
    end
  else aget c acc.
Proof.
  unfold merge1. destruct (Z.eqb_spec (fst po) c) as [E|Hne].
  - rewrite E. destruct (aget c acc) as [[i y]|] eqn:G.
    + destruct (i <? fst (snd po)); [apply aget_aset_same|exact G].
    + apply aget_aset_same.
  - destruct (aget (fst po) acc) as [[i y]|]; [destruct (i <? fst (snd po))|];
      rewrite ?aget_aset_other by auto; reflexivity.
Qed.

(* the greater-index one of two entries (ties: the first) *)
Definition mm (a b : option (Z * Z)) : option (Z * Z) :=
  match a, b with
  | Some (i, y), Some (j, z) => if i <? j then Some (j, z) else Some (i, y)
  | Some v, None => Some v
  | None, Some w => Some w
  | None, None => None
  end.

(* the merged entry for creator c is the greater-index one of the two inputs (ties: self-parent's) *)
Lemma fold_merge1_get ola : forall acc c, ukeys ola ->
  aget c (fold_left merge1 ola acc) = mm (aget c acc) (aget c ola).
Proof.
  unfold mm. induction ola as [|[k [j z]] r IH]; intros acc c U; cbn [fold_left aget].
  - destruct (aget c acc) as [[i y]|]; reflexivity.
  - assert (Ur : ukeys r) by (inversion U; auto).
    assert (Hk : ~ In k (map fst r)) by (inversion U; auto).
    rewrite (IH _ c Ur), merge1_get. cbn [fst snd].
    destruct (Z.eqb_spec k c) as [->|Hne].
    + rewrite (aget_not_In c r Hk).
      destruct (aget c acc) as [[i y]|]; [destruct (i <? j)|]; reflexivity.
    + destruct (aget c acc) as [[i y]|]; reflexivity.
Qed.

Lemma merge_la_get sla ola c : ukeys ola ->
  aget c (merge_la sla ola) = mm (aget c sla) (aget c ola).
Proof. intros U. rewrite merge_la_fold. apply fold_merge1_get. exact U. Qed.

Lemma merge_la_ukeys sla ola : ukeys sla -> ukeys (merge_la sla ola).
Proof.
  rewrite merge_la_fold. revert sla. induction ola as [|po r IH]; intros sla U; cbn [fold_left]; [exact U|].
  apply IH. apply merge1_ukeys. exact U.
Qed.

Record la_ok (st : hg) : Prop := {
  la_u : forall x ex, get_event st x = Some ex -> ukeys (ev_la ex);
  la_s : forall x ex c i y, get_event st x = Some ex -> aget c (ev_la ex) = Some (i, y) ->
         exists ey, get_event st y = Some ey /\ e_creator (ev_e ey) = c /\ e_index (ev_e ey) = i /\ anc st x y;
  la_c : forall x ex y ey, get_event st x = Some ex -> anc st x y -> get_event st y = Some ey ->
         exists i y', aget (e_creator (ev_e ey)) (ev_la ex) = Some (i, y') /\ e_index (ev_e ey) <= i
}.

Lemma frame_get_la st st' x ex' :
  dag_frame st st' -> get_event st' x = Some ex' ->
  exists ex, get_event st x = Some ex /\ ev_la ex = ev_la ex' /\ ev_e ex = ev_e ex'.
Proof.
  intros [He _] H'. specialize (He x). unfold get_event in *. rewrite H' in He.
  destruct (zget x (events st)) as [ex|]; [|discriminate]. cbn in He. unfold ev_static in He.
  inversion He. eauto.
Qed.

Lemma la_ok_frame st st' : la_ok st -> dag_frame st st' -> la_ok st'.
Proof.
  intros [U S C] F. constructor.
  - intros x ex' H'. destruct (frame_get_la _ _ _ _ F H') as [ex [H [El _]]]. rewrite <- El. eauto.
  - intros x ex' c i y H' Hg. destruct (frame_get_la _ _ _ _ F H') as [ex [H [El _]]].
    rewrite <- El in Hg. destruct (S _ _ _ _ _ H Hg) as [ey [Hy [Hc [Hi Ha]]]].
    destruct (proj2 (frame_get_event st st' y F) _ Hy) as [ey' [Hy' E]].
    exists ey'. rewrite E. split; [auto|split; [auto|split; [auto|]]]. apply (anc_frame st st' x y F). exact Ha.
  - intros x ex' y ey' H' Ha Hy'. destruct (frame_get_la _ _ _ _ F H') as [ex [H [El _]]].
    destruct (proj1 (frame_get_event st st' y F) _ Hy') as [ey [Hy E]].
    rewrite <- El, <- E. apply (C x ex y ey H); [|exact Hy]. apply (anc_frame st st' x y F). exact Ha.
Qed.

Definition la_of (st : hg) (p c : Z) : option (Z * Z) :=
  match get_event st p with Some ep => aget c (ev_la ep) | None => None end.

Lemma aget_aset {A} k (v : A) l c : aget c (aset k v l) = if k =? c then Some v else aget c l.
Proof.
  destruct (Z.eqb_spec k c) as [->|Hne]; [apply aget_aset_same|apply aget_aset_other; auto].
Qed.

Lemma init_la_get st e : la_ok st ->
  ukeys (fst (init_coords st e)) /\
  forall c, aget c (fst (init_coords st e)) =
            if e_creator e =? c then Some (e_index e, e_id e) else mm (la_of st (e_sp e) c) (la_of st (e_op e) c).
Proof.
  intros LA. unfold init_coords, la_of. cbn [fst].
  destruct (get_event st (e_sp e)) as [s|] eqn:Hs; destruct (get_event st (e_op e)) as [o|] eqn:Ho.
  - split; [apply ukeys_aset, merge_la_ukeys, (la_u st LA _ _ Hs)|].
    intros c. rewrite aget_aset. destruct (e_creator e =? c); [reflexivity|].
    rewrite merge_la_get by apply (la_u st LA _ _ Ho). unfold mm. reflexivity.
  - split; [apply ukeys_aset, (la_u st LA _ _ Hs)|].
    intros c. rewrite aget_aset. destruct (e_creator e =? c); [reflexivity|].
    unfold mm. destruct (aget c (ev_la s)) as [[i y]|]; reflexivity.
  - split; [apply ukeys_aset, (la_u st LA _ _ Ho)|].
    intros c. rewrite aget_aset. destruct (e_creator e =? c); [reflexivity|].
    unfold mm. destruct (aget c (ev_la o)) as [[i y]|]; reflexivity.
  - split; [apply ukeys_aset; constructor|].
    intros c. rewrite aget_aset. destruct (e_creator e =? c); reflexivity.
Qed.

Lemma mm_some_l a b i y : a = Some (i, y) -> exists i' y', mm a b = Some (i', y') /\ i <= i'.
Proof.
  intros ->. unfold mm. destruct b as [[j z]|]; [destruct (i <? j) eqn:E|]; eauto; try (eexists _, _; split; [reflexivity|lia]).
Qed.
Lemma mm_some_r a b i y : b = Some (i, y) -> exists i' y', mm a b = Some (i', y') /\ i <= i'.
Proof.
  intros ->. unfold mm. destruct a as [[j z]|]; [destruct (j <? i) eqn:E|]; eexists _, _; (split; [reflexivity|lia]).
Qed.
Lemma mm_from a b i y : mm a b = Some (i, y) -> a = Some (i, y) \/ b = Some (i, y).
Proof.
  unfold mm. destruct a as [[j z]|], b as [[k w]|]; try (destruct (j <? k)); intros H; inversion H; auto.
Qed.

Lemma get_event_neg st p : p < 0 -> get_event st p = None.
Proof. intros H. unfold get_event. apply zget_neg. exact H. Qed.

Section InsertStep.
  Variables (st st2 : hg) (e : event) (es : evst).
  Hypothesis OK : dag_ok st.
  Hypothesis LA : la_ok st.
  Hypothesis Hes : es = mkEvst e None None None (fst (init_coords st e)) (snd (init_coords st e)) (topo st).
  Hypothesis GE : forall x, get_event st2 x = if x =? e_id e then Some es else get_event st x.
  Hypothesis Fresh : get_event st (e_id e) = None.
  Hypothesis Hsp : check_self_parent st e = InsOk.
  Hypothesis Hop : check_other_parent st e = InsOk.

  Lemma old_get x ex : get_event st x = Some ex -> get_event st2 x = Some ex.
  Proof. intros H. rewrite GE. destruct (Z.eqb_spec x (e_id e)); [congruence|exact H]. Qed.

  Lemma parent_stored x p : parent_of st x p -> exists ep, get_event st p = Some ep.
  Proof.
    intros [ex [Hx [Hn [Hp|Hp]]]].
    - destruct (d_sp st OK _ _ Hx) as [[E _]|[ps [Hps _]]]; [congruence|]. rewrite Hp in Hps. eauto.
    - destruct (d_op st OK _ _ Hx) as [E|[po Hpo]]; [congruence|]. rewrite Hp in Hpo. eauto.
  Qed.

  Lemma anc_stored x y ex : get_event st x = Some ex -> anc st x y -> exists ey, get_event st y = Some ey.
  Proof.
    intros Hx Ha. revert ex Hx. induction Ha as [x|x p y Hp Ha IH]; intros ex Hx; [eauto|].
    destruct (parent_stored _ _ Hp) as [ep Hep]. eapply IH; eauto.
  Qed.

  Lemma parent_old_iff x ex p : get_event st x = Some ex -> (parent_of st2 x p <-> parent_of st x p).
  Proof.
    intros Hx. split; intros [ex' [Hx' R]].
    - rewrite (old_get _ _ Hx) in Hx'. inversion Hx'; subst ex'. exists ex. auto.
    - rewrite Hx in Hx'. inversion Hx'; subst ex'. exists ex. split; [apply old_get; auto|auto].
  Qed.

  Lemma anc_old_iff x ex y : get_event st x = Some ex -> (anc st2 x y <-> anc st x y).
  Proof.
    intros Hx. split; intros Ha.
    - revert ex Hx. induction Ha as [x|x p y Hp Ha IH]; intros ex Hx; [constructor|].
      apply (parent_old_iff _ _ _ Hx) in Hp. destruct (parent_stored _ _ Hp) as [ep Hep].
      econstructor; [exact Hp|eapply IH; eauto].
    - revert ex Hx. induction Ha as [x|x p y Hp Ha IH]; intros ex Hx; [constructor|].
      destruct (parent_stored _ _ Hp) as [ep Hep].
      econstructor; [apply (parent_old_iff _ _ _ Hx); exact Hp|eapply IH; eauto].
  Qed.

  Lemma new_parent p : parent_of st2 (e_id e) p <-> (p <> -1 /\ (e_sp e = p \/ e_op e = p)).
  Proof.
    split.
    - intros [ex [Hx R]]. rewrite GE, Z.eqb_refl in Hx. inversion Hx; subst ex. rewrite Hes in R. exact R.
    - intros R. exists es. rewrite GE, Z.eqb_refl. split; [reflexivity|]. rewrite Hes. exact R.
  Qed.

  (* the parents named by a checked event are stored *)
  Lemma checked_parent_stored p : p <> -1 -> (e_sp e = p \/ e_op e = p) -> exists ep, get_event st p = Some ep.
  Proof.
    intros Hn [E|E]; subst p.
    - destruct (check_self_parent_ok st e Hsp) as [pi [_ [[_ [Hs _]]|[front [spe [_ [H _]]]]]]]; [congruence|eauto].
    - destruct (check_other_parent_ok st e Hop) as [E|H]; [congruence|exact H].
  Qed.

  Lemma anc_new y : anc st2 (e_id e) y <->
    (y = e_id e \/ exists p, p <> -1 /\ (e_sp e = p \/ e_op e = p) /\ anc st p y).
  Proof.
    split.
    - intros Ha. destruct (anc_inv _ _ _ Ha) as [E|[p [Hp Ha']]]; [left; symmetry; exact E|right].
      apply new_parent in Hp. destruct Hp as [Hn Hp]. exists p. split; [auto|split; [auto|]].
      destruct (checked_parent_stored p Hn Hp) as [ep Hep]. apply (proj1 (anc_old_iff p ep y Hep)). exact Ha'.
    - intros [->|[p [Hn [Hp Ha]]]]; [constructor|].
      destruct (checked_parent_stored p Hn Hp) as [ep Hep].
      apply anc_step with p; [apply (proj2 (new_parent p)); auto|apply (proj2 (anc_old_iff p ep y Hep)); exact Ha].
  Qed.

  Lemma la_ok_store : la_ok st2.
  Proof.
    destruct (init_la_get st e LA) as [UL GL].
    assert (Ela : ev_la es = fst (init_coords st e)) by (rewrite Hes; reflexivity).
    assert (Eev : ev_e es = e) by (rewrite Hes; reflexivity).
    assert (Hnew : get_event st2 (e_id e) = Some es) by (rewrite GE, Z.eqb_refl; reflexivity).
    assert (Cases : forall x ex, get_event st2 x = Some ex -> (x = e_id e /\ ex = es) \/ get_event st x = Some ex).
    { intros x ex. rewrite GE. destruct (Z.eqb_spec x (e_id e)); [intros [= <-]|]; auto. }
    constructor.
    - (* unique keys *)
      intros x ex H. destruct (Cases x ex H) as [[_ ->]|H0]; [rewrite Ela; exact UL|exact (la_u st LA _ _ H0)].
    - (* soundness *)
      intros x ex c i y H. destruct (Cases x ex H) as [[-> ->]|Hx].
      + rewrite Ela, GL. destruct (Z.eqb_spec (e_creator e) c) as [Ec|Hnc].
        * intros [= <- <-]. exists es. rewrite Eev. split; [exact Hnew|split; [exact Ec|split; [reflexivity|constructor]]].
        * (* an entry inherited from a parent p *)
          assert (G : forall p, (e_sp e = p \/ e_op e = p) -> la_of st p c = Some (i, y) ->
                      exists ey, get_event st2 y = Some ey /\ e_creator (ev_e ey) = c /\ e_index (ev_e ey) = i /\ anc st2 (e_id e) y).
          { intros p Hp Hl. unfold la_of in Hl. destruct (get_event st p) as [ep|] eqn:Hep; [|discriminate].
            destruct (la_s st LA _ _ _ _ _ Hep Hl) as [ey [Hy [Hc [Hi Ha]]]].
            exists ey. split; [exact (old_get _ _ Hy)|split; [exact Hc|split; [exact Hi|]]].
            apply (proj2 (anc_new y)). right. exists p. split; [|split; [exact Hp|exact Ha]].
            intros ->. rewrite get_event_neg in Hep by lia. discriminate. }
          intros Hm. destruct (mm_from _ _ _ _ Hm); [apply (G (e_sp e))|apply (G (e_op e))]; auto.
      + intros Hg. destruct (la_s st LA _ _ _ _ _ Hx Hg) as [ey [Hy [Hc [Hi Ha]]]].
        exists ey. split; [exact (old_get _ _ Hy)|split; [exact Hc|split; [exact Hi|]]].
        apply (proj2 (anc_old_iff x ex y Hx)). exact Ha.
    - (* completeness *)
      intros x ex y ey H. destruct (Cases x ex H) as [[-> ->]|Hx]; intros Ha Hy.
      + apply (proj1 (anc_new y)) in Ha. rewrite Ela, GL. destruct Ha as [->|[p [Hn [Hp Ha]]]].
        * rewrite Hnew in Hy. injection Hy as <-. rewrite Eev, Z.eqb_refl.
          exists (e_index e), (e_id e). split; [reflexivity|lia].
        * destruct (checked_parent_stored p Hn Hp) as [ep Hep].
          destruct (anc_stored _ _ _ Hep Ha) as [ey0 Hy0].
          rewrite (old_get _ _ Hy0) in Hy. injection Hy as <-.
          destruct (la_c st LA _ _ _ _ Hep Ha Hy0) as [i [y' [Hg Hle]]].
          destruct (Z.eqb_spec (e_creator e) (e_creator (ev_e ey0))) as [Ec|Hnc].
          -- exists (e_index e), (e_id e). split; [reflexivity|].
             (* a stored event of the same creator sits below the new index *)
             destruct (d_listed st OK _ _ Hy0) as [pi [Hpi [Hge Hn']]]. rewrite <- Ec in Hpi.
             destruct (checked_extends st e pi OK Hsp Hpi) as [_ [Hidx _]].
             assert ((Z.to_nat (e_index (ev_e ey0)) < length (pi_items pi))%nat) by (apply nth_error_Some; congruence).
             lia.
          -- assert (Hl : la_of st p (e_creator (ev_e ey0)) = Some (i, y')) by (unfold la_of; rewrite Hep; exact Hg).
             destruct Hp as [Hp|Hp]; subst p.
             ++ destruct (mm_some_l _ (la_of st (e_op e) (e_creator (ev_e ey0))) _ _ Hl) as [i' [y'' [Hm Hle']]].
                exists i', y''. split; [exact Hm|lia].
             ++ destruct (mm_some_r (la_of st (e_sp e) (e_creator (ev_e ey0))) _ _ _ Hl) as [i' [y'' [Hm Hle']]].
                exists i', y''. split; [exact Hm|lia].
      + apply (proj1 (anc_old_iff x ex y Hx)) in Ha.
        destruct (anc_stored _ _ _ Hx Ha) as [ey0 Hy0].
        rewrite (old_get _ _ Hy0) in Hy. injection Hy as <-.
        exact (la_c st LA _ _ _ _ Hx Ha Hy0).
  Qed.
End InsertStep.

Lemma la_ok_no_events st : (forall x, get_event st x = None) -> la_ok st.
Proof. intros E. constructor; intros x ex; rewrite E; discriminate. Qed.

Lemma step_la_inv st e all :
  dag_ok st -> la_ok st -> from_attempts st all -> ids_determine all -> In e all -> 0 <= e_id e ->
  la_ok (step st e).
Proof.
  intros OK LA FA ID Hin Hid. unfold step, insert_and_run.
  destruct (insert_event st e) as [r s] eqn:E.
  destruct r; cbn [snd];
    try (rewrite (insert_reject_noop st e _ s E ltac:(discriminate) ltac:(discriminate)); exact LA).
  - (* InsOk *)
    destruct (insert_event_ok_shape st e all s OK FA ID Hin Hid E) as [st2 [GE [Fresh [F [OK2 [Hsp Hop]]]]]].
    cbv zeta in GE.
    assert (LA2 : la_ok st2) by (apply (la_ok_store st st2 e _ OK LA eq_refl GE Fresh Hsp Hop)).
    eapply la_ok_frame; [|apply run_consensus_frame]. eapply la_ok_frame; eauto.
  - (* InsStore cannot happen in a reachable state *)
    exfalso. destruct (insert_event_inv st e all _ s OK FA ID Hin Hid E) as [_ [_ Hn]]. congruence.
Qed.

Theorem run_la_ok self_ genesis oracle_ evs :
  ids_determine evs -> (forall e, In e evs -> 0 <= e_id e) ->
  dag_ok (run (init_hg self_ genesis oracle_) evs) /\ la_ok (run (init_hg self_ genesis oracle_) evs).
Proof.
  intros ID Hpos.
  apply (run_invariant (fun st => (dag_ok st /\ la_ok st) /\ from_attempts st evs) evs).
  - intros st e Hin [[OK LA] FA].
    destruct (step_inv st e evs OK FA ID Hin (Hpos e Hin)) as [OK' FA'].
    split; [split; [exact OK'|exact (step_la_inv st e evs OK LA FA ID Hin (Hpos e Hin))]|exact FA'].
  - split; [split; [apply dag_ok_init|apply la_ok_no_events, init_no_events]|apply init_no_event].
Qed.

(* the event of creator c at height j is an ancestor of every higher event of c *)
Lemma chain_anc st : dag_ok st -> forall n z ez y ey,
  get_event st z = Some ez -> get_event st y = Some ey ->
  e_creator (ev_e ey) = e_creator (ev_e ez) ->
  e_index (ev_e ey) <= e_index (ev_e ez) -> e_index (ev_e ez) - e_index (ev_e ey) = Z.of_nat n ->
  anc st z y.
Proof.
  intros OK. induction n as [|n IH]; intros z ez y ey Hz Hy Hc Hle Hd.
  - assert (z = y) by (eapply (dag_ok_no_fork st z y ez ey OK); eauto; lia). subst. constructor.
  - destruct (d_sp st OK _ _ Hz) as [[Hs Hi0]|[ps [Hps [Hcp Hip]]]].
    + destruct (d_listed st OK _ _ Hy) as [_ [_ [Hge _]]]. lia.
    + apply anc_step with (e_sp (ev_e ez)).
      * exists ez. split; [auto|split; [|left; reflexivity]]. intros C. rewrite C, get_event_neg in Hps by lia. discriminate.
      * apply (IH (e_sp (ev_e ez)) ps y ey Hps Hy); [congruence|lia|lia].
Qed.

Theorem ancestor_correct st x y ex ey :
  dag_ok st -> la_ok st -> get_event st x = Some ex -> get_event st y = Some ey ->
  (ancestor st x y = Some true <-> anc st x y).
Proof.
  intros OK LA Hx Hy. unfold ancestor. destruct (Z.eqb_spec x y) as [->|Hne].
  - split; [constructor|reflexivity].
  - rewrite Hx, Hy. split.
    + destruct (aget (e_creator (ev_e ey)) (ev_la ex)) as [[i z]|] eqn:G; [|discriminate].
      intros H. assert (Hle : e_index (ev_e ey) <= i) by (inversion H; lia).
      destruct (la_s st LA _ _ _ _ _ Hx G) as [ez [Hz [Hc [Hi Ha]]]].
      eapply anc_trans; [exact Ha|].
      apply (chain_anc st OK (Z.to_nat (i - e_index (ev_e ey))) z ez y ey Hz Hy); [congruence|lia|lia].
    + intros Ha. destruct (la_c st LA _ _ _ _ Hx Ha Hy) as [i [z [G Hle]]]. rewrite G.
      f_equal. lia.
Qed.
