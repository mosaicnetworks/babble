(* Bridge between HgImpl.fame_of (store lookups) and the abstract voting loop over explicit
   witness lists. *)
From Coq Require Import ZArith List Bool.
From V Require Import Model.ZMap Model.Quorum Model.Voting Model.HgImpl.
Import ListNotations.
Open Scope Z_scope.

Lemma fame_loop_ext P rw1 rw2 r : forall js votes,
  (forall j, In j js -> rw1 j = rw2 j) ->
  fame_loop P rw1 r js votes = fame_loop P rw2 r js votes.
Proof.
  induction js as [|j rest IH]; intros votes H; cbn [fame_loop]; [reflexivity|].
  rewrite (H j (or_introl eq_refl)).
  destruct (rw2 j) as [ws|]; [|reflexivity].
  destruct (fame_round_j P r j ws votes) as [[votes' [v|]]|]; try reflexivity.
  apply IH. intros j' Hj'. apply H. right. exact Hj'.
Qed.

(* the view of a node: the witnesses it knows per round (none where the round or its peer-set is missing) *)
Definition view_witnesses (st : hg) (j : Z) : list Z :=
  match round_witnesses st j with Some ws => ws | None => [] end.

Lemma fame_of_as_view st x r :
  (forall j, In j (zrange (r + 1) (last_round st)) -> round_witnesses st j <> None) ->
  fame_of st x r =
  fame_loop (vparams_of st x) (fun j => Some (view_witnesses st j)) r (zrange (r + 1) (last_round st)) [].
Proof.
  intros H. unfold fame_of. apply fame_loop_ext. intros j Hj. unfold view_witnesses.
  specialize (H j Hj). destruct (round_witnesses st j); [reflexivity|contradiction].
Qed.
