(* C05, commit side: the stream of committed transactions (the concatenation of the delivered
   blocks' transaction lists) is the concatenation, in commit order, of the payloads of the
   committed events; no event is committed twice; hence no transaction is committed twice when
   the admitted events have pairwise disjoint, duplicate-free payloads; every committed
   transaction is in the payload of an admitted event.  Plus the bridge to Model/NodeModel.v
   (per-node pools) and the purely combinatorial statement.
   Uses the global invariant [ginv] of Proofs/OrderProofs.v and its consequences
   [delivered_block_payload], [frame_events_received], [committed_once]. *)
From Coq Require Import ZArith List Bool Lia Sorted Permutation.
From V Require Import Model.ZMap Model.Quorum Model.HgImpl Model.NodeModel
  Proofs.AdmissionProofs Proofs.BlockInv Proofs.OrderFrames Proofs.OrderProofs Proofs.RoundOrder
  Proofs.NodeProofs.
Import ListNotations.
Open Scope Z_scope.

Lemma flat_map_flat_map {A B C} (f : B -> list C) (g : A -> list B) l :
  flat_map f (flat_map g l) = flat_map (fun a => flat_map f (g a)) l.
Proof.
  induction l as [|a l IH]; cbn [flat_map]; [reflexivity|]. rewrite flat_map_app, IH. reflexivity.
Qed.

Lemma flat_map_map {A B C} (f : B -> list C) (g : A -> B) l :
  flat_map f (map g l) = flat_map (fun a => f (g a)) l.
Proof. induction l as [|a l IH]; cbn [flat_map map]; [reflexivity|]. rewrite IH. reflexivity. Qed.

Lemma NoDup_flat_map_pos {A B} (f : A -> list B) (l : list A) :
  (forall a, In a l -> NoDup (f a)) ->
  (forall k k' a a' x, nth_error l k = Some a -> nth_error l k' = Some a' -> In x (f a) -> In x (f a') -> k = k') ->
  NoDup (flat_map f l).
Proof.
  induction l as [|a l IH]; intros Hnd Hpos; cbn [flat_map]; [constructor|].
  assert (IH' : NoDup (flat_map f l)).
  { apply IH; [intros b Hb; apply Hnd; right; exact Hb|].
    intros k k' b b' x Hk Hk' Hx Hx'.
    assert (E : S k = S k') by (eapply Hpos; [exact Hk|exact Hk'|exact Hx|exact Hx']). lia. }
  assert (Ha : NoDup (f a)) by (apply Hnd; left; reflexivity).
  assert (Hdis : forall x, In x (f a) -> ~ In x (flat_map f l)).
  { intros x Hx HI. apply in_flat_map in HI. destruct HI as [b [Hb Hxb]].
    destruct (In_nth_error _ _ Hb) as [k Hk].
    assert (E : 0%nat = S k) by (eapply (Hpos 0%nat (S k) a b x); [reflexivity|exact Hk|exact Hx|exact Hxb]).
    discriminate. }
  clear -IH' Ha Hdis. induction (f a) as [|x r IHr]; cbn [app]; [exact IH'|].
  inversion Ha as [|? ? Hx Hr]; subst. constructor.
  - intros HI. apply in_app_or in HI. destruct HI as [HI|HI]; [exact (Hx HI)|].
    exact (Hdis x (or_introl eq_refl) HI).
  - apply IHr; [exact Hr|]. intros y Hy. apply Hdis. right; exact Hy.
Qed.

Lemma NoDup_flat_map_disjoint {A B} (f : A -> list B) (l : list A) :
  NoDup l -> (forall a, In a l -> NoDup (f a)) ->
  (forall a a' x, In a l -> In a' l -> In x (f a) -> In x (f a') -> a = a') ->
  NoDup (flat_map f l).
Proof.
  intros Nl Hnd Hdis. apply NoDup_flat_map_pos; [exact Hnd|].
  intros k k' a a' x Hk Hk' Hx Hx'.
  assert (E : a = a') by (eapply Hdis; [eapply nth_error_In; exact Hk|eapply nth_error_In; exact Hk'|exact Hx|exact Hx']).
  subst a'. eapply (proj1 (NoDup_nth_error l) Nl); [|congruence].
  apply nth_error_Some. congruence.
Qed.

Lemma NoDup_app_l {A} (l l' : list A) : NoDup (l ++ l') -> NoDup l.
Proof.
  induction l as [|a l IH]; intros N; [constructor|]. cbn [app] in N. inversion N as [|? ? Ha Nr]; subst.
  constructor; [intros H; apply Ha; apply in_or_app; left; exact H|exact (IH Nr)].
Qed.
Lemma NoDup_app_r {A} (l l' : list A) : NoDup (l ++ l') -> NoDup l'.
Proof. induction l as [|a l IH]; intros N; [exact N|]. cbn [app] in N. inversion N; subst. auto. Qed.

Lemma NoDup_flat_map_piece {A B} (f : A -> list B) (l : list A) a :
  NoDup (flat_map f l) -> In a l -> NoDup (f a).
Proof.
  induction l as [|b l IH]; intros N HI; [destruct HI|]. cbn [flat_map] in N.
  destruct HI as [->|HI]; [exact (NoDup_app_l _ _ N)|apply IH; [exact (NoDup_app_r _ _ N)|exact HI]].
Qed.

Lemma NoDup_app_disjoint {A} (l l' : list A) x : NoDup (l ++ l') -> In x l -> In x l' -> False.
Proof.
  induction l as [|a l IH]; intros N H H'; [destruct H|]. cbn [app] in N. inversion N as [|? ? Ha Nr]; subst.
  destruct H as [->|H]; [apply Ha; apply in_or_app; right; exact H'|exact (IH Nr H H')].
Qed.

Lemma NoDup_flat_map_pos_inv {A B} (f : A -> list B) (l : list A) :
  NoDup (flat_map f l) ->
  forall k k' a a' x, nth_error l k = Some a -> nth_error l k' = Some a' -> In x (f a) -> In x (f a') -> k = k'.
Proof.
  induction l as [|b l IH]; intros N k k' a a' x Hk Hk' Hx Hx'; [destruct k; discriminate|].
  cbn [flat_map] in N. pose proof (NoDup_app_r _ _ N) as Nl.
  destruct k as [|k], k' as [|k']; cbn [nth_error] in Hk, Hk'.
  - reflexivity.
  - inversion Hk; subst. exfalso. eapply (NoDup_app_disjoint _ _ x N); [exact Hx|].
    apply in_flat_map. exists a'. split; [eapply nth_error_In; exact Hk'|exact Hx'].
  - inversion Hk'; subst. exfalso. eapply (NoDup_app_disjoint _ _ x N); [exact Hx'|].
    apply in_flat_map. exists a. split; [eapply nth_error_In; exact Hk|exact Hx].
  - f_equal. eapply IH; eauto.
Qed.

Lemma NoDup_flat_map_same {A B} (f : A -> list B) (l : list A) a a' x :
  NoDup (flat_map f l) -> In a l -> In a' l -> In x (f a) -> In x (f a') -> a = a'.
Proof.
  intros N Ha Ha' Hx Hx'. destruct (In_nth_error _ _ Ha) as [k Hk]. destruct (In_nth_error _ _ Ha') as [k' Hk'].
  rewrite (NoDup_flat_map_pos_inv f l N k k' a a' x Hk Hk' Hx Hx') in Hk. congruence.
Qed.

Theorem commit_once_lists (blocks events : list (list Z)) :
  NoDup (concat events) -> (exists sel, concat blocks = concat sel /\ NoDup sel /\ incl sel events) ->
  NoDup (concat blocks).
Proof.
  intros N [sel [E [Ns Hi]]]. rewrite E. rewrite <- (map_id events), <- flat_map_concat_map in N.
  rewrite <- (map_id sel), <- flat_map_concat_map.
  apply NoDup_flat_map_disjoint; [exact Ns| |].
  - intros l Hl. exact (NoDup_flat_map_piece (fun x : list Z => x) events l N (Hi l Hl)).
  - intros l l' t Hl Hl'. exact (NoDup_flat_map_same (fun x : list Z => x) events l l' t N (Hi l Hl) (Hi l' Hl')).
Qed.

(* the committed events, in commit order: block after block, frame order inside a block *)
Definition committed_events (st : hg) : list Z :=
  flat_map (fun d => map fe_id (f_events (b_frame d))) (delivered st).
(* the committed transactions, in commit order *)
Definition committed_txs (st : hg) : list Z := flat_map b_txs (delivered st).
(* payload of a stored event *)
Definition etxs (st : hg) (x : Z) : list Z :=
  match get_event st x with Some e => e_txs (ev_e e) | None => [] end.

Lemma txs_of_etxs st fe : txs_of st fe = etxs st (fe_id fe).
Proof. reflexivity. Qed.

(* the committed transaction stream is the concatenation of the committed events' payloads *)
Theorem committed_stream all st :
  ginv all st -> committed_txs st = flat_map (etxs st) (committed_events st).
Proof.
  intros G. unfold committed_txs, committed_events. rewrite flat_map_flat_map.
  apply flat_map_ext_in. intros d Hd.
  destruct (delivered_block_payload all st d G Hd) as [_ [Ht _]]. rewrite Ht, flat_map_map. reflexivity.
Qed.

(* no event is committed twice, neither in two blocks nor twice in one *)
Theorem committed_events_nodup all self_ genesis oracle_ ops :
  ids_determine all -> Forall (hop_ok all) ops ->
  NoDup (committed_events (hrun (init_hg self_ genesis oracle_) ops)).
Proof.
  intros ID Hops. unfold committed_events. apply NoDup_flat_map_pos.
  - intros d Hd. destruct (In_nth_error _ _ Hd) as [k Hk].
    assert (X : exists x, In x (map fe_id (f_events (b_frame d))) \/ map fe_id (f_events (b_frame d)) = []).
    { destruct (map fe_id (f_events (b_frame d))) as [|x r]; [exists 0; right; reflexivity|exists x; left; left; reflexivity]. }
    destruct X as [x [Hx|E]]; [|rewrite E; constructor].
    exact (proj2 (committed_once all self_ genesis oracle_ ops k k d d x ID Hops Hk Hk Hx Hx)).
  - intros k k' d d' x Hk Hk' Hx Hx'.
    exact (proj1 (committed_once all self_ genesis oracle_ ops k k' d d' x ID Hops Hk Hk' Hx Hx')).
Qed.

(* every committed event is a stored (admitted) event *)
Lemma committed_event_stored all st x :
  ginv all st -> In x (committed_events st) -> exists ex, get_event st x = Some ex.
Proof.
  intros G HI. unfold committed_events in HI. apply in_flat_map in HI. destruct HI as [d [Hd Hx]].
  apply in_map_iff in Hx. destruct Hx as [fe [<- Hfe]].
  destruct (delivered_block_payload all st d G Hd) as [Hf _].
  destruct (frame_events_received all st _ _ fe G Hf Hfe) as [_ [_ [ex [Hex _]]]]. eauto.
Qed.

(* payloads of the admitted events: duplicate-free and pairwise disjoint *)
Definition payloads_disjoint (st : hg) : Prop :=
  (forall x ex, get_event st x = Some ex -> NoDup (e_txs (ev_e ex))) /\
  (forall x y ex ey t, get_event st x = Some ex -> get_event st y = Some ey ->
     In t (e_txs (ev_e ex)) -> In t (e_txs (ev_e ey)) -> x = y).

Theorem no_transaction_committed_twice all self_ genesis oracle_ ops :
  ids_determine all -> Forall (hop_ok all) ops ->
  payloads_disjoint (hrun (init_hg self_ genesis oracle_) ops) ->
  NoDup (committed_txs (hrun (init_hg self_ genesis oracle_) ops)).
Proof.
  intros ID Hops [Pn Pd]. pose proof (hrun_ginv all self_ genesis oracle_ ops ID Hops) as G.
  rewrite (committed_stream all _ G).
  apply NoDup_flat_map_disjoint; [apply (committed_events_nodup all); assumption| |].
  - intros x _. unfold etxs. destruct (get_event _ x) as [ex|] eqn:Hx; [eapply Pn; exact Hx|constructor].
  - intros x y t _ _ Hx Hy. unfold etxs in Hx, Hy.
    destruct (get_event _ x) as [ex|] eqn:Ex; [|destruct Hx].
    destruct (get_event _ y) as [ey|] eqn:Ey; [|destruct Hy].
    eapply Pd; eauto.
Qed.

(* every committed transaction is in the payload of a committed event, which is an admitted event:
   stored under its identifier, one of the attempted events, with a valid signature *)
Theorem committed_was_submitted all self_ genesis oracle_ ops t :
  ids_determine all -> Forall (hop_ok all) ops ->
  let st := hrun (init_hg self_ genesis oracle_) ops in
  In t (committed_txs st) ->
  exists x ex, In x (committed_events st) /\ get_event st x = Some ex /\ In t (e_txs (ev_e ex)) /\
               In (ev_e ex) all /\ e_id (ev_e ex) = x /\ e_sigok (ev_e ex) = true.
Proof.
  intros ID Hops st Ht. pose proof (hrun_ginv all self_ genesis oracle_ ops ID Hops) as G. fold st in G.
  rewrite (committed_stream all _ G) in Ht. apply in_flat_map in Ht. destruct Ht as [x [Hx Htx]].
  unfold etxs in Htx. destruct (get_event st x) as [ex|] eqn:Ex; [|destruct Htx].
  exists x, ex. split; [exact Hx|]. split; [exact Ex|]. split; [exact Htx|].
  destruct G as [[D FA _ _] _ _ _].
  split; [exact (FA _ _ Ex)|]. split; [exact (d_id _ D _ _ Ex)|exact (d_sig _ D _ _ Ex)].
Qed.

(* position form: the j-th and j'-th committed transactions are equal only if j = j' *)
Corollary committed_positions all self_ genesis oracle_ ops j j' t :
  ids_determine all -> Forall (hop_ok all) ops ->
  let st := hrun (init_hg self_ genesis oracle_) ops in
  payloads_disjoint st ->
  nth_error (committed_txs st) j = Some t -> nth_error (committed_txs st) j' = Some t -> j = j'.
Proof.
  intros ID Hops st P Hj Hj'.
  pose proof (no_transaction_committed_twice all self_ genesis oracle_ ops ID Hops P) as N. fold st in N.
  eapply (proj1 (NoDup_nth_error _) N); [apply nth_error_Some; congruence|congruence].
Qed.

(* if the attempted events have duplicate-free payloads and no transaction is in the payload of
   two different attempted events, the admitted ones have, in every reachable state *)
Lemma payloads_disjoint_from_attempts all st :
  ginv all st ->
  (forall e, In e all -> NoDup (e_txs e)) ->
  (forall e e' t, In e all -> In e' all -> In t (e_txs e) -> In t (e_txs e') -> e = e') ->
  payloads_disjoint st.
Proof.
  intros [[D FA _ _] _ _ _] Hn Hd. split.
  - intros x ex Hx. apply Hn. exact (FA _ _ Hx).
  - intros x y ex ey t Hx Hy Ht Ht'.
    assert (E : ev_e ex = ev_e ey) by (eapply Hd; [exact (FA _ _ Hx)|exact (FA _ _ Hy)|exact Ht|exact Ht']).
    rewrite <- (d_id _ D _ _ Hx), <- (d_id _ D _ _ Hy), E. reflexivity.
Qed.

(* Bridge to Model/NodeModel.v.  [P c] is the pool state of the node with key c (any reachable
   one: [prun]); [slot e] says which of its creator's self-events e is.  If every attempted event
   carries the payload that its creator's addSelfEvent put in that self-event, different events of
   one creator are different self-events, and the transactions accepted by the nodes
   (addTransactions) are pairwise distinct within and across nodes, then the attempted events
   have duplicate-free, pairwise disjoint payloads. *)
Definition from_pools (all : list event) (creators : list Z) (P : Z -> pools) (slot : event -> nat) : Prop :=
  (forall e, In e all -> In (e_creator e) creators /\
      nth_error (map fst (p_created (P (e_creator e)))) (slot e) = Some (e_txs e)) /\
  (forall e e', In e all -> In e' all -> e_creator e = e_creator e' -> slot e = slot e' -> e = e').

(* for any pools that obey the conservation law *)
Theorem pools_payloads_disjoint_gen all creators (P : Z -> pools) slot :
  (forall c, In c creators -> conserved (P c)) ->
  from_pools all creators P slot ->
  NoDup creators -> NoDup (flat_map (fun c => p_submitted (P c)) creators) ->
  (forall e, In e all -> NoDup (e_txs e)) /\
  (forall e e' t, In e all -> In e' all -> In t (e_txs e) -> In t (e_txs e') -> e = e').
Proof.
  intros Hcv [Hsl Hinj] Nc Ns.
  assert (Own : forall c, In c creators -> NoDup (flat_map (fun l : list Z => l) (map fst (p_created (P c))))).
  { intros c Hc. pose proof (NoDup_flat_map_piece _ _ c Ns Hc) as N. cbv beta in N.
    rewrite (proj1 (Hcv c Hc)) in N. rewrite flat_map_map. exact (NoDup_app_l _ _ N). }
  assert (Sub : forall e t, In e all -> In t (e_txs e) -> In t (p_submitted (P (e_creator e)))).
  { intros e t He Ht. destruct (Hsl e He) as [Hc Hn]. rewrite (proj1 (Hcv _ Hc)). apply in_or_app. left.
    rewrite <- (flat_map_map (fun l : list Z => l) fst). apply in_flat_map.
    exists (e_txs e). split; [exact (nth_error_In _ _ Hn)|exact Ht]. }
  split.
  - intros e He. destruct (Hsl e He) as [Hc Hn].
    exact (NoDup_flat_map_piece (fun l : list Z => l) _ (e_txs e) (Own _ Hc) (nth_error_In _ _ Hn)).
  - intros e e' t He He' Ht Ht'. destruct (Hsl e He) as [Hc Hn]. destruct (Hsl e' He') as [Hc' Hn'].
    pose proof (NoDup_flat_map_same _ _ _ _ t Ns Hc Hc' (Sub e t He Ht) (Sub e' t He' Ht')) as Ec.
    apply Hinj; [exact He|exact He'|exact Ec|]. rewrite <- Ec in Hn'.
    exact (NoDup_flat_map_pos_inv (fun l : list Z => l) _ (Own _ Hc) _ _ _ _ t Hn Hn' Ht Ht').
Qed.

Theorem pools_payloads_disjoint all creators (O : Z -> list pop) slot :
  from_pools all creators (fun c => prun (O c)) slot ->
  NoDup creators -> NoDup (flat_map (fun c => p_submitted (prun (O c))) creators) ->
  (forall e, In e all -> NoDup (e_txs e)) /\
  (forall e e' t, In e all -> In e' all -> In t (e_txs e) -> In t (e_txs e') -> e = e').
Proof. apply (pools_payloads_disjoint_gen all creators (fun c => prun (O c))). intros c _. apply prun_conserved. Qed.

(* end to end: pools of the creating nodes + hashgraph of any node *)
Theorem no_transaction_committed_twice_pools all creators O slot self_ genesis oracle_ ops :
  ids_determine all -> Forall (hop_ok all) ops ->
  from_pools all creators (fun c => prun (O c)) slot ->
  NoDup creators -> NoDup (flat_map (fun c => p_submitted (prun (O c))) creators) ->
  NoDup (committed_txs (hrun (init_hg self_ genesis oracle_) ops)).
Proof.
  intros ID Hops FP Nc Ns. apply (no_transaction_committed_twice all); [exact ID|exact Hops|].
  destruct (pools_payloads_disjoint all creators O slot FP Nc Ns) as [Hn Hd].
  eapply payloads_disjoint_from_attempts; [apply hrun_ginv; eassumption|exact Hn|exact Hd].
Qed.

(* with the hypothesis on the attempted events directly *)
Theorem no_transaction_committed_twice_attempts all self_ genesis oracle_ ops :
  ids_determine all -> Forall (hop_ok all) ops ->
  (forall e, In e all -> NoDup (e_txs e)) ->
  (forall e e' t, In e all -> In e' all -> In t (e_txs e) -> In t (e_txs e') -> e = e') ->
  NoDup (committed_txs (hrun (init_hg self_ genesis oracle_) ops)).
Proof.
  intros ID Hops Hn Hd. apply (no_transaction_committed_twice all); [exact ID|exact Hops|].
  eapply payloads_disjoint_from_attempts; [apply hrun_ginv; eassumption|exact Hn|exact Hd].
Qed.

(* a sufficient, checkable form of the hypothesis: the concatenation of all attempted payloads
   is duplicate-free *)
Lemma attempts_nodup_payloads all :
  NoDup (flat_map e_txs all) ->
  (forall e, In e all -> NoDup (e_txs e)) /\
  (forall e e' t, In e all -> In e' all -> In t (e_txs e) -> In t (e_txs e') -> e = e').
Proof.
  intros N. split; [intros e He; exact (NoDup_flat_map_piece _ _ e N He)|].
  intros e e' t He He'. exact (NoDup_flat_map_same _ _ e e' t N He He').
Qed.
