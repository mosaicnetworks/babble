(* What is known about an event that has NOT been received, in every state of a run that respects the distance
   bound (model after fix 05eda0b) and, with the constant assignment, in every state of a static run.
   UN: a stored event without round-received is in the undetermined list.
   U : an undetermined event x of round r: there is a round j0 > r whose flag is not set and that is not fully
       decided ([full_decD]), and every round strictly between r and j0 is flagged decided and does NOT receive x
       (its famous witnesses do not all see x, or are fewer than a super-majority of the set the table gives for
       that round).
   So DecideRoundReceived is complete: nothing that could be received is left behind. *)
From Coq Require Import ZArith List Bool Lia ZifyBool Permutation.
From RecordUpdate Require Import RecordSet.
From V Require Import Model.ZMap Model.Quorum Model.Voting Model.VotingRef Model.HgImpl Model.PeerSetSpec
  Model.Window Proofs.ZMapFacts Proofs.QuorumProofs Proofs.HgFrames Proofs.HgDagFrames Proofs.AdmissionProofs
  Proofs.Ancestry Proofs.HgBlockFrames Proofs.BlockInv Proofs.RoundOrder Proofs.OrderFrames Proofs.OrderProofs
  Proofs.VotingProofs Proofs.FameBridge Proofs.Static Proofs.FirstDesc Proofs.FdWalk Proofs.DivInv
  Proofs.CInvRun Proofs.Height Proofs.StronglySee Proofs.ViewOk Proofs.SameHistory Proofs.Agreement
  Proofs.NoFail Proofs.FameInv Proofs.FamousSet Proofs.DecidedFlag Proofs.RoundReceived Proofs.PeerSetProofs
  Proofs.LrMono Proofs.WindowStable Proofs.GapWindow Proofs.FirstDescD Proofs.InsertInvD Proofs.DivInvD
  Proofs.CInvRunD Proofs.StronglySeeD Proofs.RoundFunD Proofs.RoundAgreeD Proofs.ViewOkD Proofs.SameHistoryD
  Proofs.AgreementD Proofs.FameInvD Proofs.LateWitnessD Proofs.FamousSetD Proofs.DecidedFlagD
  Proofs.RoundReceivedD.
Import ListNotations RecordSetNotations.
Open Scope Z_scope.

Lemma full_dec_no_round g st i : get_round st i = None -> ~ full_dec g st i.
Proof.
  intros Hg [Hsm _]. unfold wits, wl in Hsm. rewrite Hg in Hsm. cbn in Hsm. pose proof (super_majority_pos g). lia.
Qed.

Lemma flag_no_round st i : get_round st i = None -> ~ flag st i.
Proof. intros Hg [ri [C _]]. congruence. Qed.

Definition UN (st : hg) : Prop := forall x, get_event st x <> None -> rr_of st x = None -> In x (undetermined st).

(* the stop condition of the loop of DecideRoundReceived for x *)
Definition ustopD (P : Z -> peerset) (st : hg) (x : Z) : Prop :=
  exists r j0, rmemo st x = Some r /\ r < j0 /\ ~ flag st j0 /\ ~ full_decD (P j0) st j0 /\
    forall j, r < j < j0 -> flag st j /\ ~ rcond (P j) st j x.

Lemma full_dec_no_roundD g st i : get_round st i = None -> ~ full_decD g st i.
Proof. intros Hg D. apply (full_dec_no_round g st i Hg). apply full_decD_iff. exact D. Qed.

(* WitnessesDecided answers true on a fully decided round *)
Lemma full_dec_witnesses_decidedD P g st i tr : cinvD P None st -> get_round st i = Some tr ->
  full_decD g st i -> fst (witnesses_decided tr g) = true.
Proof.
  intros G Hg [Hsm Hall]. unfold witnesses_decided. destruct (ri_decided tr); [reflexivity|].
  destruct (existsb _ _) eqn:Ex.
  - exfalso. apply existsb_exists in Ex. destruct Ex as [[x [w f]] [Hin Hf]]. cbn in Hf.
    destruct w; [|discriminate]. destruct f; try discriminate.
    assert (Hx : In x (wits st i)).
    { rewrite (wits_get_round st i tr Hg). unfold witnesses. apply in_map_iff. exists (x, (true, Undefined)).
      split; [reflexivity|]. apply filter_In. auto. }
    destruct (Hall x Hx) as [v [ri [Hg' Ha]]]. rewrite Hg in Hg'. inversion Hg'; subst ri.
    assert (E : aget x (ri_created tr) = Some (true, Undefined)).
    { apply ukeys_In_aget; [|exact Hin].
      pose proof (cd_tabu _ _ _ G i) as U. unfold wl in U. rewrite Hg in U. unfold wl_of in U.
      rewrite map_map in U. cbn [fst] in U. exact U. }
    rewrite E in Ha. inversion Ha. destruct v; discriminate.
  - cbn [fst]. apply Z.leb_le. rewrite (wits_get_round st i tr Hg) in Hsm. exact Hsm.
Qed.

(* the loop, when it does not receive x *)
Lemma rr_loop_stopD P x r : forall n lo st,
  gT P st -> lower_bound st = None -> r < lo -> get_round st (lo + Z.of_nat n) = None ->
  (forall j, r < j < lo -> flag st j /\ ~ rcond (P j) st j x) ->
  snd (rr_loop st x (zseq lo n)) = false -> failed (fst (rr_loop st x (zseq lo n))) = false ->
  exists j0, lo <= j0 /\ ~ flag (fst (rr_loop st x (zseq lo n))) j0 /\ ~ full_decD (P j0) (fst (rr_loop st x (zseq lo n))) j0 /\
    forall j, r < j < j0 -> flag (fst (rr_loop st x (zseq lo n))) j /\ ~ rcond (P j) (fst (rr_loop st x (zseq lo n))) j x.
Proof.
  induction n as [|n IH]; intros lo st G Hlb Hlo Hend Pre; cbn [zseq rr_loop].
  { cbn [fst snd]. intros _ _. exists lo. replace (lo + Z.of_nat 0) with lo in Hend by lia.
    split; [lia|]. split; [apply flag_no_round; exact Hend|]. split; [apply full_dec_no_roundD; exact Hend|exact Pre]. }
  rename lo into i.
  destruct (get_round st i) as [tr|] eqn:Hg.
  2:{ rewrite Hlb. cbn [fst snd]. intros _ _. exists i. split; [lia|]. split; [apply flag_no_round; exact Hg|].
      split; [apply full_dec_no_roundD; exact Hg|exact Pre]. }
  assert (Hrng : 0 <= i <= last_round st) by (apply (gt_c _ _ G); rewrite Hg; discriminate).
  rewrite (gt_t _ _ G i Hrng).
  destruct (witnesses_decided_cases tr (P i)) as [_ [_ Hn]].
  pose proof (full_dec_witnesses_decidedD P (P i) st i tr (gt_i _ _ G) Hg) as Hfd.
  destruct (witnesses_decided tr (P i)) as [d tr'] eqn:Ewd. cbn [fst snd] in *.
  pose proof (witnesses_decided_state st i tr (P i) d tr' Hg Ewd) as W.
  set (st1 := st <| rounds := zset i tr' (rounds st) |>) in *. destruct W as [T1 K1 C1 S1 Eg1 Fl1].
  assert (Hlb1 : lower_bound st1 = None) by exact Hlb.
  assert (G1 : gT P st1) by (apply (gT_step P st st1 G (ckeep_ckeepD _ _ K1) (bview_set_rounds _ _) eq_refl)).
  pose proof (passed_keepD P st st1 x r i T1 C1 (fun w => S1 w x) Pre) as Pre1.
  assert (Hend1 : get_round st1 (i + 1 + Z.of_nat n) = None).
  { rewrite Eg1. destruct (Z.eqb_spec i (i + 1 + Z.of_nat n)); [lia|]. replace (i + 1 + Z.of_nat n) with (i + Z.of_nat (S n)) by lia. exact Hend. }
  destruct d; cbn [negb].
  - specialize (Fl1 eq_refl).
    assert (Hg1 : get_round st1 i = Some tr') by (rewrite Eg1, Z.eqb_refl; reflexivity).
    match goal with |- context [fold_left ?f ?l ?a] => destruct (fold_left f l a) as [sees|] eqn:Hfold end.
    2:{ cbn [fst snd]. intros _ C. rewrite failed_fail in C. discriminate. }
    pose proof (rr_test_rcond (P i) st1 x i tr' sees Hg1 Hfold) as Htest.
    destruct ((sees =? Z.of_nat (length (famous_witnesses tr'))) && (super_majority (P i) <=? sees)) eqn:Hcond.
    + destruct (get_event st1 x) as [ex|]; cbn [fst snd]; [discriminate|].
      intros _ C. rewrite failed_fail in C. discriminate.
    + intros Hsnd Hfl.
      destruct (IH (i + 1) st1 G1 Hlb1 ltac:(lia) Hend1) as [j0 [Hj0 R]]; [|exact Hsnd|exact Hfl|exists j0; split; [lia|exact R]].
      intros j Hj. destruct (Z.eq_dec j i) as [->|Hne]; [|apply Pre1; lia].
      split; [exact Fl1|]. intros Hr. apply Htest in Hr. discriminate.
  - rewrite Hlb1. cbn [fst snd]. intros _ _. exists i. split; [lia|].
    assert (Hnf : ~ full_decD (P i) st i) by (intros D; specialize (Hfd D); discriminate).
    split; [|split; [|exact Pre1]].
    + intros [rj [Hgj Hdj]]. rewrite Eg1, Z.eqb_refl in Hgj. inversion Hgj; subst rj.
      destruct (Hn Hdj) as [Hold|[Ex Hsm]].
      * (* the flag was already set: then WitnessesDecided answers true *)
        unfold witnesses_decided in Ewd. rewrite Hold in Ewd. inversion Ewd.
      * apply Hnf. apply (full_dec_of_tableD P (P i) st i tr (gt_i _ _ G) Hg Ex Hsm).
    + intros D. apply Hnf. apply (full_dec_crtD (P i) st1 st i); [symmetry; apply C1|exact D].
Qed.

Lemma ustop_keepD P s s' x :
  tmono s s' -> (forall j, crt s' j = crt s j) -> (forall w, see s' w x = see s w x) -> rmemo s' x = rmemo s x ->
  (forall j, flag s' j -> flag s j \/ full_decD (P j) s j) ->
  ustopD P s x -> ustopD P s' x.
Proof.
  intros T C S M B [r [j0 [Hr [Hlt [Hnf [Hnd Hall]]]]]]. exists r, j0. rewrite M.
  assert (Hnd' : ~ full_decD (P j0) s' j0) by (intros D; apply Hnd; apply (full_dec_crtD (P j0) s' s j0); [symmetry; apply C|exact D]).
  split; [exact Hr|]. split; [exact Hlt|]. split; [intros Hf; destruct (B j0 Hf); contradiction|]. split; [exact Hnd'|].
  exact (passed_keepD P s s' x r j0 T C S Hall).
Qed.

Lemma ckeepD_fwd0 s s' x ex : ckeepD s s' -> get_event s x = Some ex -> exists ex', get_event s' x = Some ex'.
Proof.
  intros K H0. pose proof (kd_ev _ _ K x) as E. rewrite H0 in E.
  destruct (get_event s' x) as [ex'|]; [eauto|discriminate].
Qed.
Lemma ckeepD_bwd0 s s' x ex' : ckeepD s s' -> get_event s' x = Some ex' -> exists ex, get_event s x = Some ex.
Proof. intros K. apply (ckeepD_fwd0 s' s x ex' (ckeepD_sym _ _ K)). Qed.

Lemma decide_rr_one_fullD P s und y : gT P s -> rinv s -> failed s = false -> get_event s y <> None ->
  failed (fst (decide_rr_one (s, und) y)) = false ->
  (forall x, x <> y -> rr_of (fst (decide_rr_one (s, und) y)) x = rr_of s x) /\
  ((snd (decide_rr_one (s, und) y) = und /\ rr_of (fst (decide_rr_one (s, und) y)) y <> None) \/
   (snd (decide_rr_one (s, und) y) = und ++ [y] /\ rr_of (fst (decide_rr_one (s, und) y)) y = rr_of s y /\
    ustopD P (fst (decide_rr_one (s, und) y)) y)).
Proof.
  intros G R Hf Hy Hf'.
  split; [apply (decide_rr_one_rrD P s und y (gT_passD _ _ G) R)|].
  revert Hf'. rewrite (decide_rr_one_eq P s und y (gt_i _ _ G) Hf). destruct (rmemo s y) as [r|] eqn:Hr.
  2:{ cbn [fst]. rewrite failed_fail. discriminate. }
  assert (Hrl : 0 <= r <= last_round s).
  { destruct (get_event s y) as [ey|] eqn:Hyy; [|contradiction].
    destruct (cd_all _ _ _ (gt_i _ _ G) y ey Hyy ltac:(discriminate)) as [r' [w [Hr' [Hw' _]]]].
    rewrite Hr in Hr'. inversion Hr'; subst r'.
    pose proof (cd_tabc _ _ _ (gt_i _ _ G) y r w Hr Hw') as Hin.
    apply (rinv_contig _ R). intros D. unfold wl in Hin. rewrite D in Hin. destruct Hin. }
  destruct (rr_loop_spec y (zrange (r + 1) (last_round s)) s) as [Sf St].
  pose proof (rr_loop_stopD P y r (Z.to_nat (last_round s - (r + 1) + 1)) (r + 1) s G (r_lb _ (proj1 R)) ltac:(lia)) as Stop.
  rewrite <- zrange_zseq in Stop.
  pose proof (rr_loop_ckeep y (zrange (r + 1) (last_round s)) s) as K.
  destruct (rr_loop s y (zrange (r + 1) (last_round s))) as [s' received]. cbn [fst snd] in *.
  intros Hf'. destruct received.
  - left. split; [reflexivity|]. destruct (St eq_refl) as [i0 [ey [Hyy [Gy _]]]].
    unfold rr_of. rewrite Gy, Z.eqb_refl. destruct ey; discriminate.
  - right. split; [reflexivity|]. pose proof (Sf eq_refl) as Ek.
    split; [unfold rr_of; rewrite (ekeep_get_event _ _ y Ek); reflexivity|].
    destruct Stop as [j0 [Hj0 [Hnf [Hnd Hall]]]]; [| |reflexivity|exact Hf'|].
    + replace (r + 1 + Z.of_nat (Z.to_nat (last_round s - (r + 1) + 1))) with (last_round s + 1) by lia.
      destruct (get_round s (last_round s + 1)) eqn:E; [|reflexivity].
      exfalso. assert (H : get_round s (last_round s + 1) <> None) by congruence. apply (rinv_contig _ R) in H. lia.
    + intros j Hj. lia.
    + exists r, j0. rewrite (ckeep_rmemo s s' y K). split; [exact Hr|]. split; [lia|auto].
Qed.

Record uinvD (P : Z -> peerset) (st : hg) : Prop := {
  uD_un : UN st;
  uD_u : forall x, get_event st x <> None -> rr_of st x = None -> ustopD P st x
}.

(* both parts read the tables of s only, and the undetermined list of s' *)
Lemma uinv_cwD P s s' : cw s' = cw s ->
  (forall x, get_event s x <> None -> rr_of s x = None -> In x (undetermined s') /\ ustopD P s x) -> uinvD P s'.
Proof.
  intros C H. destruct (cw_fields _ _ C) as [Ev [Ro [Rm _]]].
  assert (GE : forall x, get_event s' x = get_event s x) by (intros x; unfold get_event; rewrite Ev; reflexivity).
  constructor; intros x Hx Hr; unfold rr_of in Hr; rewrite GE in Hx, Hr; destruct (H x Hx Hr) as [A B]; [exact A|].
  apply (ustop_keepD P s s' x (tmono_rounds _ _ Ro) (crt_events_only _ _ Ro) (fun w => see_events_only _ _ Ev w x));
    [unfold rmemo; rewrite Rm; reflexivity| |exact B].
  intros j Hf. left. exact (flag_rounds _ _ Ro j Hf).
Qed.

Lemma uinv_sameD P s s' : cw s' = cw s -> undetermined s' = undetermined s -> uinvD P s -> uinvD P s'.
Proof. intros C Un [A B]. apply (uinv_cwD P s s' C). intros x Hx Hr. rewrite Un. auto. Qed.

Lemma decide_round_received_uinvD P st : gT P st -> rinv st -> failed (decide_round_received st) = false -> UN st ->
  (forall x, In x (undetermined st) -> get_event st x <> None) -> uinvD P (decide_round_received st).
Proof.
  intros G R Hfin Hun Hst.
  destruct (decide_round_received_fold P st (fun l s und => failed s = false ->
              (forall x, In x l -> get_event st x <> None) /\
              (forall x, In x und -> rr_of s x = None -> ustopD P s x) /\
              (forall x, get_event s x <> None -> rr_of s x = None -> In x (und ++ l)))) as [s [und [H [C [Ef U]]]]];
    [|exact G|exact R|exact (fun _ => conj Hst (conj (fun x (Hx : In x []) => match Hx with end) Hun))|].
  { intros y l s und Gs Rs Ks Q F1.
    assert (Fs : failed s = false).
    { destruct (failed s) eqn:E; [|reflexivity]. rewrite (decide_rr_one_failed_stuck s und y E) in F1. rewrite <- E. exact F1. }
    destruct (Q Fs) as [Hl [A B]].
    assert (Hys : get_event s y <> None).
    { pose proof (Hl y (or_introl eq_refl)) as H0. destruct (get_event st y) as [ey|] eqn:E; [|contradiction].
      destruct (ckeepD_fwd0 _ _ _ _ Ks E) as [ey' E']. rewrite E'. discriminate. }
    destruct (decide_rr_one_fullD P s und y Gs Rs Fs Hys F1) as [Oth Cases].
    pose proof (decide_rr_one_ckeepD P s und y (gt_i _ _ Gs)) as K1. pose proof (decide_rr_one_tmono s und y) as T1.
    pose proof (fun j => decide_rr_one_crt s und y j) as C1.
    pose proof (fun j => decide_rr_one_flag0 P s und y j (gT_passD _ _ Gs)) as B1.
    destruct (decide_rr_one (s, und) y) as [s' und']. cbn [fst snd] in *.
    assert (Hst' : forall x, get_event s' x <> None -> get_event s x <> None).
    { intros x Hx. destruct (get_event s' x) as [ex'|] eqn:E; [|contradiction].
      destruct (ckeepD_bwd0 _ _ _ _ K1 E) as [ex E0]. rewrite E0. discriminate. }
    assert (Keep : forall x, ustopD P s x -> ustopD P s' x).
    { intros x. apply (ustop_keepD P s s' x T1 C1); [intros w; apply ckeepD_see; exact K1|apply ckeepD_rmemo; exact K1|exact B1]. }
    split; [intros x Hx; apply Hl; right; exact Hx|]. split.
    + intros x Hx Hr. destruct Cases as [[Eu Hn]|[Eu [Ery Uy]]]; rewrite Eu in Hx.
      * destruct (Z.eq_dec x y) as [->|Hne]; [contradiction|].
        apply Keep, A; [exact Hx|rewrite <- (Oth x Hne); exact Hr].
      * apply in_app_or in Hx. destruct Hx as [Hx|[<-|[]]]; [|exact Uy].
        destruct (Z.eq_dec x y) as [->|Hne]; [exact Uy|]. apply Keep, A; [exact Hx|rewrite <- (Oth x Hne); exact Hr].
    + intros x Hx Hr. destruct (Z.eq_dec x y) as [->|Hne].
      * destruct Cases as [[_ Hn]|[Eu _]]; [contradiction|]. rewrite Eu. apply in_or_app. left. apply in_or_app. right. left. reflexivity.
      * rewrite (Oth x Hne) in Hr. pose proof (B x (Hst' x Hx) Hr) as Hin.
        apply in_app_or in Hin. destruct Hin as [Hin|[E|Hin]]; [|congruence|apply in_or_app; right; exact Hin].
        apply in_or_app. left. destruct Cases as [[Eu _]|[Eu _]]; rewrite Eu; [exact Hin|apply in_or_app; left; exact Hin]. }
  rewrite Ef in Hfin. destruct (H Hfin) as [_ [A B]]. rewrite app_nil_r in B.
  apply (uinv_cwD P s _ C). intros x Hx Hr. rewrite (U Hfin). pose proof (B x Hx Hr) as Hin. auto.
Qed.

Lemma uinvD_init P self_ genesis oracle_ : uinvD P (init_hg self_ genesis oracle_).
Proof.
  assert (E0 : forall x, get_event (init_hg self_ genesis oracle_) x = None).
  { intros x. destruct (cw_fields _ _ (cw_init self_ genesis oracle_)) as [Ev _]. unfold get_event. rewrite Ev. cbn. apply zget_empty. }
  constructor; intros x Hx; rewrite E0 in Hx; contradiction.
Qed.

Lemma hstep_uinvD P all st o : stepD P all st o -> uinvD P st -> uinvD P (hstep st o).
Proof.
  intros Sd UI. destruct (hstep_stagesD P all st o Sd) as [[C Un]|[e [s [s1 [s2 [s3 [-> Sg]]]]]]].
  { exact (uinv_sameD P st _ C Un UI). }
  destruct Sg as [E Fresh Hid _ E1 E2 E3 E4 _ _ _ G2 R2 Hf3]. rewrite E4.
  destruct (insert_ok_shape st e s Fresh Hid E) as [_ [_ [_ [Us _]]]].
  pose proof (fun x => stored_insert st e s x Fresh Hid E) as Gs.
  assert (U2 : undetermined s2 = undetermined st ++ [e_id e]).
  { rewrite E2, (o_und _ _ (decide_fame_okeep s1)), E1, (q_und _ _ (divide_rounds_qkeep s)). exact Us. }
  assert (Q2 : forall x, rr_of s2 x = if x =? e_id e then None else rr_of st x).
  { intros x. rewrite E2, (rr_of_okeep _ _ x (decide_fame_okeep s1)), E1, rr_of_divide_rounds.
    apply (rr_of_insert st e s x Fresh Hid E). }
  assert (Fr2 : dag_frame s s2) by (rewrite E2, E1; eapply dag_frame_trans; [apply divide_rounds_frame|apply decide_fame_frame]).
  assert (UN2 : UN s2).
  { intros x Hx Hr. rewrite U2. apply in_or_app. rewrite Q2 in Hr.
    destruct (Z.eqb_spec x (e_id e)) as [->|Hne]; [right; left; reflexivity|left]. apply (uD_un _ _ UI x); [|exact Hr].
    destruct (get_event s2 x) as [ex2|] eqn:E2x; [|contradiction].
    destruct (proj1 (frame_get_event s s2 x Fr2) _ E2x) as [exs [Es _]].
    destruct (proj1 (Gs x)) as [C|C]; [rewrite Es; discriminate|contradiction|exact C]. }
  assert (Hst2 : forall x, In x (undetermined s2) -> get_event s2 x <> None).
  { intros x Hx. rewrite U2 in Hx. apply (stored_frame s s2 x Fr2), Gs.
    apply in_app_or in Hx. destruct Hx as [Hx|[<-|[]]]; [right|left; reflexivity].
    destruct (u_ex _ (g_o _ _ (gi_core _ _ (sd_g _ _ _ _ Sd))) x Hx) as [ex Hex]. rewrite Hex. discriminate. }
  rewrite E3 in Hf3 |- *.
  exact (uinv_sameD P _ _ (cw_process_decided_rounds _) (undv_process_decided_rounds _)
           (decide_round_received_uinvD P s2 G2 R2 Hf3 UN2 Hst2)).
Qed.

Theorem uinv_along P all self_ genesis oracle_ ops k : along P all self_ genesis oracle_ ops ->
  failed (prefix self_ genesis oracle_ ops k) = false -> uinvD P (prefix self_ genesis oracle_ ops k).
Proof.
  intros A. apply (along_ind P all self_ genesis oracle_ ops A (uinvD P) (uinvD_init P self_ genesis oracle_)).
  intros j o _. apply hstep_uinvD.
Qed.

Theorem uinv_preD self_ genesis oracle_ all ops : self_ <> -1 -> ids_determine all -> Forall (hop_ok all) ops ->
  gap_runb (init_hg self_ genesis oracle_) ops = true ->
  forall P, (forall q, 0 <= q <= last_round (hrun (init_hg self_ genesis oracle_) ops) ->
               P q = psat (hrun (init_hg self_ genesis oracle_) ops) q) ->
  forall k, failed (hrun (init_hg self_ genesis oracle_) (firstn k ops)) = false ->
  uinvD P (hrun (init_hg self_ genesis oracle_) (firstn k ops)).
Proof.
  intros Hs ID H Hg P HP k. apply (uinv_along P all self_ genesis oracle_ ops k), (gap_along self_ genesis oracle_ all ops P Hs ID H Hg HP).
Qed.

(* in the final state, with the node's own table *)
Theorem hrun_uinvD self_ genesis oracle_ all ops :
  self_ <> -1 -> ids_determine all -> Forall (hop_ok all) ops ->
  gap_runb (init_hg self_ genesis oracle_) ops = true ->
  failed (hrun (init_hg self_ genesis oracle_) ops) = false ->
  uinvD (psat (hrun (init_hg self_ genesis oracle_) ops)) (hrun (init_hg self_ genesis oracle_) ops).
Proof.
  intros Hs ID H Hg Hf.
  pose proof (uinv_preD self_ genesis oracle_ all ops Hs ID H Hg _ (fun q _ => eq_refl) (length ops)) as Q.
  rewrite firstn_all in Q. exact (Q Hf).
Qed.

(* static membership: the constant assignment *)
Theorem hrun_uinv g all self_ oracle_ ops :
  ids_determine all -> no_accept all -> Forall (hop_ok all) ops ->
  uinvD (fun _ => g) (hrun (init_hg self_ g oracle_) ops).
Proof.
  intros ID NA H. rewrite <- prefix_length.
  apply (uinv_along _ all self_ g oracle_ ops _ (static_along g all self_ oracle_ ops ID NA H)).
  rewrite prefix_length. apply (static_not_failed g all self_ oracle_ ops ID NA H).
Qed.
