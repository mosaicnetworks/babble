(* The sticky "witnesses decided" flag of a round: what does not depend on the validator sets.  Round tables evolve
   monotonically (entries persist, a recorded fame and a set flag never change: [tmono]); DivideRounds sets no flag.
   Also: the static-membership invariant [good g] is kept by DecideFame and DecideRoundReceived.  The development
   over it is in Proofs/DecidedFlagD.v. *)
From Coq Require Import ZArith List Bool Lia ZifyBool Permutation.
From RecordUpdate Require Import RecordSet.
From V Require Import Model.ZMap Model.Quorum Model.HgImpl Proofs.ZMapFacts Proofs.HgFrames Proofs.HgDagFrames
  Proofs.AdmissionProofs Proofs.BlockInv Proofs.RoundOrder Proofs.OrderProofs Proofs.Static Proofs.DivInv
  Proofs.CInvRun Proofs.StronglySee Proofs.NoFail Proofs.FameInv.
Import ListNotations RecordSetNotations.
Open Scope Z_scope.

Definition ent_mono (l l' : list (Z * (bool * trilean))) : Prop :=
  forall x w f, aget x l = Some (w, f) -> exists f', aget x l' = Some (w, f') /\ (f <> Undefined -> f' = f).

Definition tmono (s s' : hg) : Prop :=
  forall r ri, get_round s r = Some ri -> exists ri', get_round s' r = Some ri' /\
    (ri_decided ri = true -> ri_decided ri' = true) /\ ent_mono (ri_created ri) (ri_created ri').

Lemma ent_mono_refl l : ent_mono l l.
Proof. intros x w f H. exists f. auto. Qed.
Lemma ent_mono_trans a b c : ent_mono a b -> ent_mono b c -> ent_mono a c.
Proof.
  intros H1 H2 x w f Ha. destruct (H1 x w f Ha) as [f1 [Hb E1]]. destruct (H2 x w f1 Hb) as [f2 [Hc E2]].
  exists f2. split; [exact Hc|]. intros Hn. rewrite <- (E1 Hn). apply E2. rewrite (E1 Hn). exact Hn.
Qed.
Lemma tmono_refl s : tmono s s.
Proof. intros r ri H. exists ri. split; [exact H|split; [auto|apply ent_mono_refl]]. Qed.
Lemma tmono_trans a b c : tmono a b -> tmono b c -> tmono a c.
Proof.
  intros H1 H2 r ri Ha. destruct (H1 r ri Ha) as [rb [Hb [D1 E1]]]. destruct (H2 r rb Hb) as [rc [Hc [D2 E2]]].
  exists rc. split; [exact Hc|split; [auto|eapply ent_mono_trans; eauto]].
Qed.
Lemma tmono_rounds s s' : rounds s' = rounds s -> tmono s s'.
Proof. intros E r ri H. exists ri. unfold get_round in *. rewrite E. split; [exact H|split; [auto|apply ent_mono_refl]]. Qed.

Lemma tmono_frec s s' r x v : tmono s s' -> frec s r x v -> frec s' r x v.
Proof.
  intros T [ri [Hg Ha]]. destruct (T r ri Hg) as [ri' [Hg' [_ E]]].
  destruct (E x true (tri_of v) Ha) as [f' [Ha' Hf]]. rewrite (Hf (tri_of_not_undefined v)) in Ha'. exists ri'. auto.
Qed.

Definition flag (st : hg) (r : Z) : Prop := exists ri, get_round st r = Some ri /\ ri_decided ri = true.

Lemma tmono_flag s s' r : tmono s s' -> flag s r -> flag s' r.
Proof. intros T [ri [Hg Hd]]. destruct (T r ri Hg) as [ri' [Hg' [D _]]]. exists ri'. auto. Qed.

Lemma tmono_zset s (s' : hg) r0 ri0 ri0' : get_round s r0 = Some ri0 -> rounds s' = zset r0 ri0' (rounds s) ->
  (ri_decided ri0 = true -> ri_decided ri0' = true) -> ent_mono (ri_created ri0) (ri_created ri0') -> tmono s s'.
Proof.
  intros Hg E D M r ri Hr.
  rewrite (get_round_zset s s' r0 ri0' r (get_round_some_nonneg _ _ _ Hg) E).
  destruct (Z.eqb_spec r0 r) as [<-|]; [|exists ri; split; [exact Hr|split; [auto|apply ent_mono_refl]]].
  rewrite Hg in Hr. inversion Hr; subst ri. exists ri0'. auto.
Qed.

Lemma ent_mono_add_created ri y w : ent_mono (ri_created ri) (ri_created (add_created ri y w)).
Proof.
  unfold add_created. destruct (aget y (ri_created ri)); [apply ent_mono_refl|].
  replace (ri_created (ri <| ri_created := ri_created ri ++ [(y, (w, Undefined))] |>))
    with (ri_created ri ++ [(y, (w, Undefined))]) by (reflexivity).
  intros x w0 f H. exists f. split; [apply aget_app_some; exact H|auto].
Qed.

Lemma tmono_add_created st (st' : hg) r0 y w :
  rounds st' = zset r0 (add_created (round_or_new st r0) y w) (rounds st) -> tmono st st'.
Proof.
  intros E r ri Hr. unfold get_round. rewrite E, zget_zset.
  destruct ((r0 =? r) && (0 <=? r0)) eqn:Eb; [|exists ri; split; [exact Hr|split; [auto|apply ent_mono_refl]]].
  apply andb_true_iff in Eb. destruct Eb as [Er _]. apply Z.eqb_eq in Er. subst r0.
  unfold round_or_new. rewrite Hr. eexists. split; [reflexivity|].
  split; [rewrite add_created_decided; auto|apply ent_mono_add_created].
Qed.

Lemma tmono_divide_rounds st : tmono st (divide_rounds st).
Proof. apply (divide_rounds_rel tmono tmono_refl tmono_trans tmono_rounds). intros s s' r0 y w. apply tmono_add_created. Qed.

(* DivideRounds sets no flag *)
Lemma flag_add_created st (st' : hg) r0 y w :
  rounds st' = zset r0 (add_created (round_or_new st r0) y w) (rounds st) -> forall r, flag st' r -> flag st r.
Proof.
  intros E r [ri' [Hg Hd]]. unfold get_round in Hg. rewrite E, zget_zset in Hg.
  destruct ((r0 =? r) && (0 <=? r0)) eqn:Eb; [|exists ri'; auto].
  apply andb_true_iff in Eb. destruct Eb as [Er _]. apply Z.eqb_eq in Er. subst r0.
  inversion Hg; subst ri'. rewrite add_created_decided in Hd. unfold round_or_new in Hd.
  destruct (get_round st r) as [ri|] eqn:Hri; [exists ri; auto|discriminate].
Qed.

Lemma flag_rounds s s' : rounds s' = rounds s -> forall r, flag s' r -> flag s r.
Proof. intros E r [ri [Hg Hd]]. exists ri. unfold get_round in *. rewrite <- E. auto. Qed.

Lemma flag_divide_rounds st r : flag (divide_rounds st) r -> flag st r.
Proof.
  apply (divide_rounds_rel (fun s s' => flag s' r -> flag s r)); [auto|auto| |].
  - intros s s' E. apply (flag_rounds s s' E).
  - intros s s' r0 y w E. apply (flag_add_created s s' r0 y w E).
Qed.

Lemma ent_mono_set_fame ri y v :
  (forall w f, aget y (ri_created ri) = Some (w, f) -> f = Undefined) ->
  ent_mono (ri_created ri) (ri_created (set_fame ri y v)).
Proof.
  intros Hu x w f Hx. unfold set_fame. fold (tri_of v).
  destruct (aget y (ri_created ri)) as [[w0 t]|] eqn:Ey.
  - replace (ri_created (ri <| ri_created := aset y (w0, tri_of v) (ri_created ri) |>))
      with (aset y (w0, tri_of v) (ri_created ri)) by (reflexivity).
    rewrite Ancestry.aget_aset. destruct (Z.eqb_spec y x) as [->|Hne]; [|exists f; auto].
    rewrite Ey in Hx. inversion Hx; subst w0 t. exists (tri_of v). split; [reflexivity|].
    intros Hn. exfalso. apply Hn. apply (Hu w f eq_refl).
  - replace (ri_created (ri <| ri_created := ri_created ri ++ [(y, (true, tri_of v))] |>))
      with (ri_created ri ++ [(y, (true, tri_of v))]) by (reflexivity).
    exists f. split; [apply aget_app_some; exact Hx|auto].
Qed.

Lemma fame_fold_mono s r ws : forall ri0 ri',
  (forall y, In y ws -> exists f, aget y (ri_created ri0) = Some (true, f)) ->
  fold_left (fun (a : option rinfo) y =>
               match a with
               | None => None
               | Some ri' =>
                 if is_decided ri' y then Some ri'
                 else match fame_of s y r with
                      | None => None
                      | Some None => Some ri'
                      | Some (Some v) => Some (set_fame ri' y v)
                      end
               end) ws (Some ri0) = Some ri' ->
  ent_mono (ri_created ri0) (ri_created ri') /\ ri_decided ri' = ri_decided ri0.
Proof.
  induction ws as [|y ws IH]; intros ri0 ri' Hw; cbn [fold_left].
  - intros E; inversion E; subst. split; [apply ent_mono_refl|reflexivity].
  - assert (Hws : forall z, In z ws -> exists f, aget z (ri_created ri0) = Some (true, f))
      by (intros z Hz; apply Hw; right; exact Hz).
    destruct (is_decided ri0 y) eqn:Ed; [apply IH; exact Hws|].
    destruct (fame_of s y r) as [[v|]|].
    + intros Hf.
      assert (M1 : ent_mono (ri_created ri0) (ri_created (set_fame ri0 y v))).
      { apply ent_mono_set_fame. intros w f Ha. destruct (Hw y (or_introl eq_refl)) as [f0 Hf0].
        rewrite Hf0 in Ha. inversion Ha; subst w f0. unfold is_decided in Ed. rewrite Hf0 in Ed.
        destruct f; [reflexivity|discriminate|discriminate]. }
      destruct (IH (set_fame ri0 y v) ri') as [M2 D2]; [|exact Hf|].
      * intros z Hz. destruct (Hws z Hz) as [f Hf0]. destruct (M1 z true f Hf0) as [f' [Hf' _]]. eauto.
      * split; [eapply ent_mono_trans; eauto|rewrite D2; apply set_fame_decided].
    + apply IH; exact Hws.
    + intros E. exfalso. clear -E. induction ws as [|z ws IHw]; cbn [fold_left] in E; [discriminate|auto].
Qed.

(* what WitnessesDecided does to the RoundInfo *)
Lemma witnesses_decided_cases ri ps :
  ri_created (snd (witnesses_decided ri ps)) = ri_created ri /\
  (ri_decided ri = true -> ri_decided (snd (witnesses_decided ri ps)) = true) /\
  (ri_decided (snd (witnesses_decided ri ps)) = true -> ri_decided ri = true \/
     (existsb (fun e : Z * (bool * trilean) => match snd e with (true, Undefined) => true | _ => false end) (ri_created ri) = false /\
      super_majority ps <= Z.of_nat (length (witnesses ri)))).
Proof.
  split; [apply created_witnesses_decided|]. split; [apply witnesses_decided_sticky|].
  unfold witnesses_decided. destruct (ri_decided ri) eqn:Hd; [auto|].
  destruct (existsb _ _) eqn:Ex; [cbn [snd]; rewrite Hd; discriminate|]. cbn [snd].
  replace (ri_decided (ri <| ri_decided := super_majority ps <=? Z.of_nat (length (witnesses ri)) |>))
    with (super_majority ps <=? Z.of_nat (length (witnesses ri))) by (reflexivity).
  intros H. right. split; [reflexivity|apply Z.leb_le; exact H].
Qed.

Lemma witnesses_same_created ri ri' : ri_created ri' = ri_created ri -> witnesses ri' = witnesses ri.
Proof. unfold witnesses. intros ->. reflexivity. Qed.

Lemma decide_fame_fold_good g l : forall s dec, good g s -> good g (fst (fold_left decide_fame_round l (s, dec))).
Proof.
  induction l as [|pr l IH]; intros s dec G; cbn [fold_left]; [exact G|].
  pose proof (good_step g s _ G (decide_fame_round_frame s dec pr) (decide_fame_round_ckeep s dec pr)) as G1.
  destruct (decide_fame_round (s, dec) pr) as [s' dec']. cbn [fst] in *. apply IH. exact G1.
Qed.

Lemma rr_loop_tmono x : forall is_ st, tmono st (fst (rr_loop st x is_)).
Proof.
  induction is_ as [|i rest IH]; intros st; cbn [rr_loop]; [apply tmono_refl|].
  destruct (get_round st i) as [tr|] eqn:Hg;
    [|destruct (lower_bound st) as [lb0|]; [destruct (i <=? lb0); [apply IH|apply tmono_refl]|apply tmono_refl]].
  assert (Tf : forall s, tmono s (fail s)) by (intros s; apply tmono_rounds; reflexivity).
  destruct (get_peerset st i) as [tps|]; [|apply Tf].
  destruct (witnesses_decided_cases tr tps) as [Hc [Hs _]].
  destruct (witnesses_decided tr tps) as [d tr']. cbn [snd] in *.
  set (st1 := st <| rounds := zset i tr' (rounds st) |>).
  assert (T1 : tmono st st1).
  { apply (tmono_zset st st1 i tr tr' Hg); [unfold st1; reflexivity|exact Hs|rewrite Hc; apply ent_mono_refl]. }
  assert (Hi : 0 <= i) by (eapply get_round_some_nonneg; eauto).
  assert (Hg1 : get_round st1 i = Some tr').
  { rewrite (get_round_zset st st1 i tr' i Hi) by (unfold st1; reflexivity).
    rewrite Z.eqb_refl. reflexivity. }
  destruct d; cbn [negb].
  - match goal with |- context [fold_left ?f ?l ?a] => destruct (fold_left f l a) as [sees|] end;
      [|cbn [fst]; eapply tmono_trans; [exact T1|apply Tf]].
    destruct (_ && _).
    + destruct (get_event st1 x) as [ex|] eqn:Hx; cbn [fst]; [|eapply tmono_trans; [exact T1|apply Tf]].
      eapply tmono_trans; [exact T1|].
      set (st2 := set_evst st1 x (ex <| ev_rr := Some i |>)).
      assert (T2 : tmono st1 st2) by (apply tmono_rounds; unfold st2; reflexivity).
      eapply tmono_trans; [exact T2|].
      assert (Hg2 : get_round st2 i = Some tr') by (unfold st2, get_round, set_evst; unfold get_round in Hg1; exact Hg1).
      apply (tmono_zset st2 _ i tr' (tr' <| ri_received := ri_received tr' ++ [x] |>) Hg2); [reflexivity|auto|apply ent_mono_refl].
    + eapply tmono_trans; [exact T1|apply IH].
  - destruct (lower_bound st1) as [lb|]; [|exact T1].
    destruct (lb <? i); [exact T1|]. eapply tmono_trans; [exact T1|apply IH].
Qed.

Lemma decide_rr_one_tmono s und x : tmono s (fst (decide_rr_one (s, und) x)).
Proof.
  unfold decide_rr_one. destruct (failed s); [apply tmono_refl|].
  pose proof (nomemo_eq_rounds _ _ (round_f_nomemo (fuel_of s) s x)) as R1.
  destruct (round_f (fuel_of s) s x) as [[r0|] s1]; cbn [snd] in R1.
  - pose proof (rr_loop_tmono x (zrange (r0 + 1) (last_round s1)) s1) as H.
    destruct (rr_loop s1 x (zrange (r0 + 1) (last_round s1))) as [s' received]. cbn [fst] in *.
    eapply tmono_trans; [apply tmono_rounds; exact R1|exact H].
  - cbn [fst]. apply tmono_rounds. rewrite <- R1. reflexivity.
Qed.

Lemma decide_round_received_tmono st : tmono st (decide_round_received st).
Proof.
  unfold decide_round_received.
  assert (G : forall l s und, tmono s (fst (fold_left decide_rr_one l (s, und)))).
  { induction l as [|x l IH]; intros s und; cbn [fold_left]; [apply tmono_refl|].
    pose proof (decide_rr_one_tmono s und x) as H. destruct (decide_rr_one (s, und) x) as [s' und']. cbn [fst] in *.
    eapply tmono_trans; [exact H|apply IH]. }
  specialize (G (undetermined st) st []).
  destruct (fold_left decide_rr_one (undetermined st) (st, [])) as [s und]. cbn [fst] in G.
  destruct (failed s); [exact G|]. eapply tmono_trans; [exact G|apply tmono_rounds; reflexivity].
Qed.

Section Run.
  Variables (g : peerset) (all : list event).
  Hypothesis ID : ids_determine all.
  Hypothesis NA : no_accept all.

  Lemma hrun_nf_from ops : Forall (hop_ok all) ops -> forall st, nf_inv g all st -> nf_inv g all (hrun st ops).
  Proof.
    induction 1 as [|o ops Ho Hops IH]; intros st N; cbn [hrun fold_left]; [exact N|].
    apply IH. apply hstep_nf; assumption.
  Qed.
End Run.
