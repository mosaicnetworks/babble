(* Fame agreement between any two reachable states of the per-event pipeline under static membership, without
   view hypotheses.  Reachable states in which no pass failed satisfy [good] and [rinv]; two of them over the same
   universe share event bodies; so the premises of the state-level theorems of Proofs/AgreementD.v hold with the
   constant assignment; likewise rounds, witness flags, Lamport timestamps and strongly-see of shared events agree.
   Last, the premises on the universe of events in boolean form. *)
From Coq Require Import ZArith List Bool Lia ZifyBool.
From V Require Import Model.ZMap Model.Quorum Model.Voting Model.HgImpl Proofs.AdmissionProofs Proofs.Ancestry
  Proofs.BlockInv Proofs.RoundOrder Proofs.OrderProofs Proofs.Static Proofs.FirstDesc Proofs.DivInv
  Proofs.CInvRun Proofs.Height Proofs.StronglySee Proofs.ViewOk Proofs.SameHistory Proofs.StronglySeeD
  Proofs.RoundFunD Proofs.AgreementD.
Import ListNotations.
Open Scope Z_scope.

Definition reachable (g : peerset) (all : list event) (st : hg) : Prop :=
  exists self_ oracle_ ops, Forall (hop_ok all) ops /\ st = hrun (init_hg self_ g oracle_) ops.

Lemma reach_good g all st :
  ids_determine all -> no_accept all -> reachable g all st -> failed st = false ->
  good g st /\ rinv st /\ from_attempts st all.
Proof.
  intros ID NA [self_ [oracle_ [ops [Hops ->]]]] Hf.
  destruct (hrun_reach g all self_ oracle_ ops ID NA Hops) as [Gi LA C].
  split; [|split].
  - constructor; [apply (g_dag _ _ (gi_core _ _ Gi))|exact LA|apply C; exact Hf|].
    eexists. apply (ginv_hmeasure all _ Gi Hf).
  - apply (proj2 (hrun_rtop self_ g oracle_ ops) Hf).
  - apply (g_from _ _ (gi_core _ _ Gi)).
Qed.

Definition same_bodies_of_universe all g s1 s2 (ID : ids_determine all) (G1 : good g s1) (G2 : good g s2) :=
  same_bodies_of_universeD all _ _ s1 s2 ID (good_goodD g s1 G1) (good_goodD g s2 G2).

Theorem fame_agreement_states g s1 s2 x r v1 v2 :
  good g s1 -> rinv s1 -> good g s2 -> rinv s2 -> same_bodies s1 s2 -> no_cross_fork s1 s2 ->
  fame_of s1 x r = Some (Some v1) -> fame_of s2 x r = Some (Some v2) -> v1 = v2.
Proof.
  intros G1 R1 G2 R2.
  exact (fame_agreement_statesD _ s1 s2 x r v1 v2 (good_goodD g s1 G1) R1 (fun q _ => good_peerset g s1 G1 q)
           (good_goodD g s2 G2) R2 (fun q _ => good_peerset g s2 G2 q)).
Qed.

(* a decision reached by a node that knows fewer events is the decision of every node that
   knows more *)
Theorem fame_stable_states g s1 s2 x r v :
  good g s1 -> rinv s1 -> good g s2 -> rinv s2 -> same_bodies s1 s2 -> no_cross_fork s1 s2 ->
  (forall y e, get_event s1 y = Some e -> get_event s2 y <> None) ->
  fame_of s1 x r = Some (Some v) -> fame_of s2 x r = Some (Some v).
Proof.
  intros G1 R1 G2 R2.
  exact (fame_stable_statesD _ s1 s2 x r v (good_goodD g s1 G1) R1 (fun q _ => good_peerset g s1 G1 q)
           (good_goodD g s2 G2) R2 (fun q _ => good_peerset g s2 G2 q)).
Qed.

(* Lamport timestamps are a function of the ancestry *)
Lemma lt_agree_nat all s1 s2 : ginv all s1 -> ginv all s2 -> failed s1 = false -> failed s2 = false ->
  same_bodies s1 s2 -> forall n x e1 e2 t1,
  get_event s1 x = Some e1 -> get_event s2 x = Some e2 -> ev_lt e1 = Some t1 -> (Z.to_nat t1 < n)%nat ->
  ev_lt e2 = Some t1.
Proof.
  intros Gi1 Gi2 Hf1 Hf2 SB. induction n as [|n IH]; intros x e1 e2 t1 H1 H2 Ht1 Hn; [inversion Hn|].
  destruct (ev_lt e2) as [t2|] eqn:Ht2; [|exfalso; apply (gi_all _ _ Gi2 Hf2 x e2 H2 Ht2)].
  destruct (lamport_strict all s1 x e1 t1 Gi1 H1 Ht1) as [a1 [b1 [Ha1 [Hb1 [Ga1 [Gb1 E1]]]]]].
  destruct (lamport_strict all s2 x e2 t2 Gi2 H2 Ht2) as [a2 [b2 [Ha2 [Hb2 [Ga2 [Gb2 E2]]]]]].
  pose proof (SB x e1 e2 H1 H2) as Ee. rewrite <- Ee in Ha2, Hb2.
  assert (Hp : forall p c1 c2, parent_ts s1 p = Some c1 -> parent_ts s2 p = Some c2 -> c1 < t1 -> -1 <= c1 -> c1 = c2).
  { intros p c1 c2. unfold parent_ts. destruct (p =? -1); [congruence|].
    destruct (get_event s1 p) as [ep1|] eqn:Hp1; [|discriminate].
    destruct (get_event s2 p) as [ep2|] eqn:Hp2; [|discriminate].
    intros Hc1 Hc2 Hlt Hge.
    pose proof (g_l _ _ (gi_core _ _ Gi1)) as L1.
    pose proof (memo_consistent_nonneg s1 p c1 (l_memo _ L1) (l_ev _ L1 p ep1 c1 Hp1 Hc1)) as Hnn.
    assert (Hm : (Z.to_nat c1 < n)%nat) by (clear - Hn Hlt Hnn; lia).
    rewrite (IH p ep1 ep2 c1 Hp1 Hp2 Hc1 Hm) in Hc2. injection Hc2 as Hc2. exact Hc2. }
  assert (L : a1 < t1 /\ b1 < t1) by (clear - E1; lia).
  pose proof (Hp _ a1 a2 Ha1 Ha2 (proj1 L) Ga1) as Ea. pose proof (Hp _ b1 b2 Hb1 Hb2 (proj2 L) Gb1) as Eb.
  f_equal. clear - E1 E2 Ea Eb. lia.
Qed.

Section Reachable.
  Variables (g : peerset) (all : list event).
  Hypothesis ID : ids_determine all.
  Hypothesis NA : no_accept all.

  Lemma reach_pair st1 st2 :
    reachable g all st1 -> reachable g all st2 -> failed st1 = false -> failed st2 = false ->
    good g st1 /\ rinv st1 /\ good g st2 /\ rinv st2 /\ same_bodies st1 st2.
  Proof.
    intros Re1 Re2 Hf1 Hf2.
    destruct (reach_good g all st1 ID NA Re1 Hf1) as [G1 [R1 FA1]].
    destruct (reach_good g all st2 ID NA Re2 Hf2) as [G2 [R2 FA2]].
    exact (conj G1 (conj R1 (conj G2 (conj R2 (same_bodies_of_universe all g st1 st2 ID G1 G2 FA1 FA2))))).
  Qed.

  Theorem reach_fame_agreement st1 st2 x r v1 v2 :
    reachable g all st1 -> reachable g all st2 -> failed st1 = false -> failed st2 = false ->
    no_cross_fork st1 st2 ->
    fame_of st1 x r = Some (Some v1) -> fame_of st2 x r = Some (Some v2) -> v1 = v2.
  Proof.
    intros Re1 Re2 Hf1 Hf2. destruct (reach_pair st1 st2 Re1 Re2 Hf1 Hf2) as [G1 [R1 [G2 [R2 SB]]]].
    exact (fame_agreement_states g st1 st2 x r v1 v2 G1 R1 G2 R2 SB).
  Qed.

  Theorem reach_fame_stable st1 st2 x r v :
    reachable g all st1 -> reachable g all st2 -> failed st1 = false -> failed st2 = false ->
    no_cross_fork st1 st2 ->
    (forall y e, get_event st1 y = Some e -> get_event st2 y <> None) ->
    fame_of st1 x r = Some (Some v) -> fame_of st2 x r = Some (Some v).
  Proof.
    intros Re1 Re2 Hf1 Hf2. destruct (reach_pair st1 st2 Re1 Re2 Hf1 Hf2) as [G1 [R1 [G2 [R2 SB]]]].
    exact (fame_stable_states g st1 st2 x r v G1 R1 G2 R2 SB).
  Qed.

  Theorem reach_round_agree st1 st2 x e1 e2 :
    reachable g all st1 -> reachable g all st2 -> failed st1 = false -> failed st2 = false ->
    get_event st1 x = Some e1 -> get_event st2 x = Some e2 ->
    ev_round e1 = ev_round e2 /\ ev_round e1 <> None /\
    zget x (round_memo st1) = zget x (round_memo st2) /\ zget x (witness_memo st1) = zget x (witness_memo st2).
  Proof.
    intros Re1 Re2 Hf1 Hf2. destruct (reach_pair st1 st2 Re1 Re2 Hf1 Hf2) as [G1 [_ [G2 [_ SB]]]].
    exact (round_agreeD _ _ st1 st2 (good_goodD g st1 G1) (good_goodD g st2 G2) SB (fun _ _ _ => eq_refl) x e1 e2).
  Qed.

  Theorem reach_lamport_agree st1 st2 x e1 e2 :
    reachable g all st1 -> reachable g all st2 -> failed st1 = false -> failed st2 = false ->
    get_event st1 x = Some e1 -> get_event st2 x = Some e2 -> ev_lt e1 = ev_lt e2 /\ ev_lt e1 <> None.
  Proof.
    intros Re1 Re2 Hf1 Hf2 H1 H2. destruct (reach_pair st1 st2 Re1 Re2 Hf1 Hf2) as [_ [_ [_ [_ SB]]]].
    destruct Re1 as [sf1 [o1 [ops1 [Ho1 ->]]]]. destruct Re2 as [sf2 [o2 [ops2 [Ho2 ->]]]].
    pose proof (hrun_ginv all sf1 g o1 ops1 ID Ho1) as Gi1. pose proof (hrun_ginv all sf2 g o2 ops2 ID Ho2) as Gi2.
    destruct (ev_lt e1) as [t1|] eqn:Ht1; [|exfalso; apply (gi_all _ _ Gi1 Hf1 x e1 H1 Ht1)].
    split; [|discriminate]. symmetry.
    apply (lt_agree_nat all _ _ Gi1 Gi2 Hf1 Hf2 SB (S (Z.to_nat t1)) x e1 e2 t1 H1 H2 Ht1). lia.
  Qed.

  Theorem reach_strongly_see_agree st1 st2 x w e1x e2x e1w e2w :
    reachable g all st1 -> reachable g all st2 -> failed st1 = false -> failed st2 = false ->
    get_event st1 x = Some e1x -> get_event st2 x = Some e2x ->
    get_event st1 w = Some e1w -> get_event st2 w = Some e2w ->
    strongly_see st1 x w g = strongly_see st2 x w g /\ strongly_see st1 x w g <> None.
  Proof.
    intros Re1 Re2 Hf1 Hf2. destruct (reach_pair st1 st2 Re1 Re2 Hf1 Hf2) as [G1 [_ [G2 [_ SB]]]].
    exact (strongly_see_agreeD _ _ st1 st2 (good_goodD g st1 G1) (good_goodD g st2 G2) SB (fun _ _ _ => eq_refl)
             g x w e1x e2x e1w e2w).
  Qed.
End Reachable.

Definition no_acceptb (all : list event) : bool :=
  forallb (fun e => forallb (fun t => negb (itx_accept t)) (e_itxs e)) all.

Lemma no_acceptb_sound all : no_acceptb all = true -> no_accept all.
Proof.
  unfold no_acceptb. rewrite forallb_forall. intros H e t He Ht.
  specialize (H e He). rewrite forallb_forall in H. specialize (H t Ht).
  destruct (itx_accept t); [discriminate|reflexivity].
Qed.

(* no creator has two different events of one index in the universe *)
Definition fork_free (all : list event) : Prop :=
  forall e e', In e all -> In e' all -> e_creator e = e_creator e' -> e_index e = e_index e' -> e_id e = e_id e'.
Definition fork_freeb (all : list event) : bool :=
  forallb (fun e => forallb (fun e' =>
     implb ((e_creator e =? e_creator e') && (e_index e =? e_index e')) (e_id e =? e_id e')) all) all.

Lemma fork_freeb_sound all : fork_freeb all = true -> fork_free all.
Proof.
  unfold fork_freeb. rewrite forallb_forall. intros H e e' He He' Hc Hi.
  specialize (H e He). rewrite forallb_forall in H. specialize (H e' He').
  replace (e_creator e =? e_creator e') with true in H by lia.
  replace (e_index e =? e_index e') with true in H by lia. cbn in H. lia.
Qed.

Lemma no_cross_fork_of_universe all s1 s2 :
  fork_free all -> dag_ok s1 -> dag_ok s2 -> from_attempts s1 all -> from_attempts s2 all ->
  no_cross_fork s1 s2.
Proof.
  intros FF OK1 OK2 F1 F2 x1 x2 e1 e2 H1 H2 Hc Hi.
  rewrite <- (d_id _ OK1 _ _ H1), <- (d_id _ OK2 _ _ H2).
  apply FF; [eapply F1; eauto|eapply F2; eauto|exact Hc|exact Hi].
Qed.

Lemma reachable_hrun g all self_ oracle_ ops :
  Forall (hop_ok all) ops -> reachable g all (hrun (init_hg self_ g oracle_) ops).
Proof. intros H. exists self_, oracle_, ops. auto. Qed.

Lemma In_firstn {A} (x : A) n : forall l, In x (firstn n l) -> In x l.
Proof.
  induction n as [|n IH]; intros l H; [destruct H|]. destruct l as [|a l]; [destruct H|].
  cbn [firstn] in H. destruct H as [->|H]; [left; reflexivity|right; apply IH; exact H].
Qed.

Lemma hop_ok_inserts_firstn all n :
  forallb (fun e => 0 <=? e_id e) all = true -> Forall (hop_ok all) (map HInsert (firstn n all)).
Proof.
  intros H. apply Forall_forall. intros o Ho. apply in_map_iff in Ho. destruct Ho as [e [<- He]].
  apply In_firstn in He. cbn. split; [exact He|]. rewrite forallb_forall in H. specialize (H e He). lia.
Qed.
