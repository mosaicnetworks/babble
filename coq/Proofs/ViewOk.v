(* The store lookups made by DecideFame as parameters of the voting loop, with an arbitrary first-round vote;
   contiguity of the round table.  Proofs/ViewOkD.v shows that they form a well-formed view of the voting. *)
From Coq Require Import ZArith List Bool Lia ZifyBool Permutation.
From RecordUpdate Require Import RecordSet.
From V Require Import Model.ZMap Model.Quorum Model.Voting Model.VotingRef Model.HgImpl
  Proofs.ZMapFacts Proofs.QuorumProofs Proofs.AdmissionProofs Proofs.Ancestry Proofs.BlockInv Proofs.RoundOrder
  Proofs.VotingProofs Proofs.FameBridge Proofs.Static Proofs.FirstDesc Proofs.DivInv Proofs.Height
  Proofs.StronglySee.
Import ListNotations RecordSetNotations.
Open Scope Z_scope.

Lemma NoDup_map_inj_in {A B} (f : A -> B) l :
  NoDup l -> (forall a b, In a l -> In b l -> f a = f b -> a = b) -> NoDup (map f l).
Proof.
  induction l as [|a l IH]; intros N H; cbn [map]; [constructor|].
  inversion N as [|? ? Hn Nl]; subst. constructor.
  - intros C. apply in_map_iff in C. destruct C as [b [E Hb]].
    assert (b = a) by (apply H; [right; exact Hb|left; reflexivity|exact E]). subst b. contradiction.
  - apply IH; [exact Nl|]. intros x y Hx Hy. apply H; right; assumption.
Qed.

(* the parameters of the voting loop with an arbitrary first-round vote; vparams_of st x is the instance
   "y sees x" *)
Definition vparams_with (st : hg) (sees : Z -> option bool) : vparams :=
  mkVP sees
       (fun j => match get_round st (j - 1) with Some ri => Some (witnesses ri) | None => None end)
       (fun j y w => match get_peerset st (j - 1) with
                     | Some pps => strongly_see st y w pps
                     | None => None end)
       (fun j => match get_peerset st (j - 1) with Some ps => Some (super_majority ps) | None => None end)
       (coin_of st).

Lemma vparams_of_with st x : vparams_of st x = vparams_with st (fun y => see st y x).
Proof. reflexivity. Qed.

(* the rounds present in the table are exactly 0 .. last_round *)
Definition contig (st : hg) : Prop := forall r, get_round st r <> None <-> 0 <= r <= last_round st.

Lemma rinv_contig st : rinv st -> contig st.
Proof. intros R r. apply (r_contig st (proj1 R)). Qed.

Section View.
  Variables (g : peerset) (st : hg).
  Hypothesis G : good g st.

  Lemma ssb_ss_true x j y w : ssb (vparams_of st x) j y w = ss_true g st y w.
  Proof.
    unfold ssb, vparams_of, ss_true. cbn [vp_ss]. rewrite (good_peerset g st G (j - 1)).
    destruct (strongly_see st y w g) as [[|]|]; reflexivity.
  Qed.
End View.
