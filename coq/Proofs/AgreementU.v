(* The statements of Proofs/Agreement.v on hrun, without the premise "no pass failed": by Proofs/NoFail.v it
   holds in every reachable state under static membership. *)
From Coq Require Import ZArith List Bool.
From V Require Import Model.ZMap Model.Quorum Model.Voting Model.VotingRef Model.HgImpl
  Proofs.AdmissionProofs Proofs.BlockInv Proofs.OrderProofs Proofs.VotingProofs Proofs.FameBridge
  Proofs.Static Proofs.FirstDesc Proofs.CInvRun Proofs.StronglySee Proofs.ViewOk Proofs.SameHistory Proofs.ViewOkD
  Proofs.Agreement Proofs.NoFail.
Import ListNotations.
Open Scope Z_scope.

Section U.
  Variables (genesis : peerset) (all : list event).
  Hypothesis ID : ids_determine all.
  Hypothesis NA : no_accept all.
  Variables (self1 self2 : Z) (oracle1 oracle2 : list Z) (ops1 ops2 : list hop).
  Hypothesis H1 : Forall (hop_ok all) ops1.
  Hypothesis H2 : Forall (hop_ok all) ops2.
  Let st1 := hrun (init_hg self1 genesis oracle1) ops1.
  Let st2 := hrun (init_hg self2 genesis oracle2) ops2.
  Let Re1 : reachable genesis all st1 := reachable_hrun genesis all self1 oracle1 ops1 H1.
  Let Re2 : reachable genesis all st2 := reachable_hrun genesis all self2 oracle2 ops2 H2.
  Let F1 : failed st1 = false := hrun_not_failed genesis all self1 oracle1 ops1 ID NA H1.
  Let F2 : failed st2 = false := hrun_not_failed genesis all self2 oracle2 ops2 ID NA H2.

  Lemma u_cinv : cinv genesis None st1.
  Proof. exact (nf_c _ _ _ (hrun_nf genesis all self1 oracle1 ops1 ID NA H1)). Qed.

  (* the premises of the partial theorems of Properties/C01.v hold in every reachable state *)
  Lemma u_view_ok x r ex : 1 <= ps_len genesis -> -1 <= r <= last_round st1 -> get_event st1 x = Some ex ->
    view_ok (ps_len genesis) r (vparams_of st1 x) (view_witnesses st1) (last_round st1) /\
    (forall j, In j (zrange (r + 1) (last_round st1)) -> round_witnesses st1 j <> None).
  Proof.
    intros Hn Hr Hx. destruct (reach_good genesis all st1 ID NA Re1 F1) as [G [R _]].
    split; [apply (view_ok_reach genesis st1 G (rinv_contig _ R) x r ex Hn Hr Hx)|].
    exact (round_witnesses_zrange genesis st1 G (rinv_contig _ R) r (proj1 Hr)).
  Qed.

  Lemma u_fame_agreement x r v1 v2 : no_cross_fork st1 st2 ->
    fame_of st1 x r = Some (Some v1) -> fame_of st2 x r = Some (Some v2) -> v1 = v2.
  Proof. exact (reach_fame_agreement genesis all ID NA st1 st2 x r v1 v2 Re1 Re2 F1 F2). Qed.

  (* with the fork-freedom premise on the universe instead of the two states *)
  Lemma u_fame_agreement_universe x r v1 v2 : fork_free all ->
    fame_of st1 x r = Some (Some v1) -> fame_of st2 x r = Some (Some v2) -> v1 = v2.
  Proof.
    intros FF. apply u_fame_agreement.
    destruct (reach_good genesis all st1 ID NA Re1 F1) as [G1 [_ FA1]].
    destruct (reach_good genesis all st2 ID NA Re2 F2) as [G2 [_ FA2]].
    exact (no_cross_fork_of_universe all st1 st2 FF (gd_dag _ _ G1) (gd_dag _ _ G2) FA1 FA2).
  Qed.

  Lemma u_fame_stable x r v : no_cross_fork st1 st2 ->
    (forall y e, get_event st1 y = Some e -> get_event st2 y <> None) ->
    fame_of st1 x r = Some (Some v) -> fame_of st2 x r = Some (Some v).
  Proof. exact (reach_fame_stable genesis all ID NA st1 st2 x r v Re1 Re2 F1 F2). Qed.

  Lemma u_round x e1 e2 : get_event st1 x = Some e1 -> get_event st2 x = Some e2 ->
    ev_round e1 = ev_round e2 /\ ev_round e1 <> None /\
    zget x (round_memo st1) = zget x (round_memo st2) /\ zget x (witness_memo st1) = zget x (witness_memo st2).
  Proof. exact (reach_round_agree genesis all ID NA st1 st2 x e1 e2 Re1 Re2 F1 F2). Qed.

  Lemma u_lamport x e1 e2 : get_event st1 x = Some e1 -> get_event st2 x = Some e2 ->
    ev_lt e1 = ev_lt e2 /\ ev_lt e1 <> None.
  Proof. exact (reach_lamport_agree genesis all ID NA st1 st2 x e1 e2 Re1 Re2 F1 F2). Qed.

  Lemma u_strongly_see x w e1x e2x e1w e2w :
    get_event st1 x = Some e1x -> get_event st2 x = Some e2x ->
    get_event st1 w = Some e1w -> get_event st2 w = Some e2w ->
    strongly_see st1 x w genesis = strongly_see st2 x w genesis /\ strongly_see st1 x w genesis <> None.
  Proof. exact (reach_strongly_see_agree genesis all ID NA st1 st2 x w e1x e2x e1w e2w Re1 Re2 F1 F2). Qed.

  (* round and timestamp of a shared event, as one observation *)
  Lemma u_obs x : get_event st1 x <> None -> get_event st2 x <> None ->
    option_map (fun e => (ev_round e, ev_lt e)) (get_event st1 x) =
    option_map (fun e => (ev_round e, ev_lt e)) (get_event st2 x).
  Proof.
    intros N1 N2.
    destruct (get_event st1 x) as [e1|] eqn:E1; [|contradiction].
    destruct (get_event st2 x) as [e2|] eqn:E2; [|contradiction].
    destruct (u_round x e1 e2 E1 E2) as [A _]. destruct (u_lamport x e1 e2 E1 E2) as [B _].
    cbn [option_map]. congruence.
  Qed.
End U.
