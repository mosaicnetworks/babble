(* Proofs about Model/Gate.v (C17). *)
From Coq Require Import ZArith List Bool Lia.
From RecordUpdate Require Import RecordSet.
From V Require Import Model.Gate.
Import ListNotations RecordSetNotations.
Open Scope Z_scope.

(* the part of a node that a frozen node may not change: all but the transaction pool *)
Definition core (n : node) : node := n <| n_pool := 0 |>.
Definition same_core (a b : node) : Prop := core a = core b.

Lemma add_transaction_core : forall n, same_core (add_transaction n) n.
Proof. reflexivity. Qed.

Lemma add_transaction_pool : forall n, n_pool (add_transaction n) = n_pool n + 1.
Proof. reflexivity. Qed.

Lemma gate_closed : forall s r, gate_passes s r = true -> s = Babbling \/ (s = Suspended /\ is_sync r = true).
Proof. intros s r H. destruct s; cbn in H; try discriminate; auto. Qed.

Lemma process_rpc_refused : forall n r,
  gate_passes (n_state n) r = false -> process_rpc n r = (n, RespGate).
Proof. intros n r H. unfold process_rpc. rewrite H. reflexivity. Qed.

Lemma process_rpc_sync_suspended : forall n k l,
  n_state n = Suspended -> process_rpc n (RSync k l) = (n, sync_response n k l).
Proof. intros n k l H. unfold process_rpc. rewrite H. reflexivity. Qed.

Lemma process_rpc_sync_babbling : forall n k l,
  n_state n = Babbling -> process_rpc n (RSync k l) = (n, sync_response n k l).
Proof. intros n k l H. unfold process_rpc. rewrite H. reflexivity. Qed.

Lemma step_frozen : forall n i,
  n_state n <> Babbling ->
  let (n', o) := step n i in
  same_core n' n /\
  n_pool n' = n_pool n + (match i with ITx => 1 | _ => 0 end) /\
  o = frozen_answer n i.
Proof.
  intros n i Hs. destruct i as [r | | e]; cbn [step].
  - (* rpc *)
    destruct (gate_passes (n_state n) r) eqn:Hg.
    + apply gate_closed in Hg. destruct Hg as [Hb | [Hsus Hsy]]; [contradiction |].
      destruct r; cbn in Hsy; try discriminate.
      rewrite (process_rpc_sync_suspended n known limit Hsus).
      split; [reflexivity |]. split; [lia |].
      cbn [frozen_answer]. rewrite Hsus. reflexivity.
    + rewrite (process_rpc_refused n r Hg).
      split; [reflexivity |]. split; [lia |].
      destruct r; cbn [frozen_answer]; try reflexivity.
      destruct (n_state n); cbn in Hg; try discriminate; try reflexivity.
  - split; [apply add_transaction_core |]. split; [apply add_transaction_pool | reflexivity].
  - destruct (n_state n) eqn:E; try contradiction;
      (split; [reflexivity |]; split; [lia | reflexivity]).
Qed.

Lemma frozen_answer_same_core : forall a b i, same_core a b -> frozen_answer a i = frozen_answer b i.
Proof.
  intros a b i H. change (frozen_answer (core a) i = frozen_answer (core b) i).
  rewrite H. reflexivity.
Qed.

Lemma count_tx_cons : forall i is,
  count_tx (i :: is) = (match i with ITx => 1 | _ => 0 end) + count_tx is.
Proof.
  intros i is. unfold count_tx. cbn [filter]. destruct i; cbn [length]; lia.
Qed.

Lemma run_frozen : forall is n,
  n_state n <> Babbling ->
  same_core (fst (run n is)) n /\
  n_pool (fst (run n is)) = n_pool n + count_tx is /\
  snd (run n is) = map (frozen_answer n) is.
Proof.
  induction is as [| i is IH]; intros n Hs.
  - cbn. split; [reflexivity |]. split; [unfold count_tx; cbn; lia | reflexivity].
  - cbn [run]. pose proof (step_frozen n i Hs) as H1.
    destruct (step n i) as [n1 o]. destruct H1 as [Hc [Hp Ho]].
    assert (Hs1 : n_state n1 <> Babbling) by (rewrite (f_equal n_state Hc : n_state n1 = n_state n); exact Hs).
    specialize (IH n1 Hs1). destruct (run n1 is) as [n2 os]. cbn [fst snd] in *.
    destruct IH as [Hc2 [Hp2 Ho2]].
    split; [exact (eq_trans Hc2 Hc) |].
    split; [rewrite Hp2, Hp, count_tx_cons; lia |].
    cbn [map]. rewrite Ho, Ho2. f_equal.
    apply map_ext. intro j. apply frozen_answer_same_core. exact Hc.
Qed.

(* every answer of a frozen node is an error, except the sync answer of a Suspended node *)
Lemma frozen_answer_refuses : forall n i r,
  frozen_answer n i = Some r ->
  resp_is_err r = true \/
  (n_state n = Suspended /\ exists k l, i = IRpc (RSync k l) /\ r = sync_response n k l).
Proof.
  intros n i r H. destruct i as [q | | e]; cbn in H; try discriminate.
  destruct q; inversion H; subst; clear H; try (left; reflexivity).
  destruct (n_state n) eqn:E; try (left; reflexivity).
  right. split; [reflexivity |]. eauto.
Qed.

Lemma event_diff_spec : forall evs known e,
  In e (event_diff evs known) <-> In e evs /\ known_of known (ev_creator e) < ev_index e.
Proof.
  intros evs known e. unfold event_diff. rewrite filter_In. unfold unknown_to.
  rewrite Z.ltb_lt. reflexivity.
Qed.

(* the answer lists a prefix of the diff: nothing the requester knows, nothing the node does not have *)
Lemma sync_response_events : forall n k l err evs kn,
  sync_response n k l = RespSync err evs kn ->
  kn = known_events n /\
  (err = true -> evs = [] /\ diff_fails (n_parts n) k = true) /\
  (err = false ->
     diff_fails (n_parts n) k = false /\
     exists m, evs = firstn m (event_diff (n_evs n) k) /\
       (length evs = length (event_diff (n_evs n) k) \/
        Z.of_nat (length evs) = Z.max 0 (zmin l (n_sync_limit n)))).
Proof.
  intros n k l err evs kn H. unfold sync_response in H.
  destruct (diff_fails (n_parts n) k) eqn:Hf.
  - inversion H; subst. split; [reflexivity |]. split; [auto | discriminate].
  - cbv zeta in H.
    destruct (zmin l (n_sync_limit n) <? Z.of_nat (length (event_diff (n_evs n) k))) eqn:Hl;
      inversion H; subst; clear H; (split; [reflexivity |]); (split; [discriminate |]); intros _;
      (split; [reflexivity |]).
    + exists (Z.to_nat (zmin l (n_sync_limit n))). split; [reflexivity |]. right.
      apply Z.ltb_lt in Hl. rewrite firstn_length. lia.
    + exists (length (event_diff (n_evs n) k)). split; [symmetry; apply firstn_all |]. left. reflexivity.
Qed.

Lemma sync_response_sound : forall n k l err evs kn e,
  sync_response n k l = RespSync err evs kn -> In e evs ->
  In e (n_evs n) /\ known_of k (ev_creator e) < ev_index e.
Proof.
  intros n k l err evs kn e H Hin.
  destruct (sync_response_events n k l err evs kn H) as [_ [He Hn]].
  destruct err.
  - destruct (He eq_refl) as [E _]. subst. contradiction.
  - destruct (Hn eq_refl) as [_ [m [E _]]]. subst.
    apply event_diff_spec. rewrite <- (firstn_skipn m). apply in_or_app. left. exact Hin.
Qed.

Lemma sync_response_complete : forall n k l evs kn e,
  sync_response n k l = RespSync false evs kn ->
  Z.of_nat (length (event_diff (n_evs n) k)) <= zmin l (n_sync_limit n) ->
  In e (n_evs n) -> known_of k (ev_creator e) < ev_index e -> In e evs.
Proof.
  intros n k l evs kn e H Hlen Hin Hlt. unfold sync_response in H.
  destruct (diff_fails (n_parts n) k); [discriminate |]. cbv zeta in H.
  destruct (zmin l (n_sync_limit n) <? Z.of_nat (length (event_diff (n_evs n) k))) eqn:Hl.
  - apply Z.ltb_lt in Hl. lia.
  - inversion H; subst. apply event_diff_spec. split; assumption.
Qed.

(* sync_response is not a function of the state *)
Lemma sync_response_state : forall n s k l,
  sync_response (n <| n_state := s |>) k l = sync_response n k l.
Proof. intros. reflexivity. Qed.

Lemma suspend_state : forall n,
  n_state (suspend n) = match n_state n with Shutdown => Shutdown | _ => Suspended end.
Proof. intro n. unfold suspend. destruct (n_state n) eqn:E; cbn; try rewrite E; reflexivity. Qed.

Lemma check_suspend_fires : forall n,
  too_many n = true \/ evicted n = true ->
  n_state (check_suspend n) = match n_state n with Shutdown => Shutdown | _ => Suspended end.
Proof.
  intros n H. unfold check_suspend.
  assert (E : too_many n || evicted n = true) by (apply orb_true_iff; exact H).
  rewrite E. apply suspend_state.
Qed.

Lemma check_suspend_quiet : forall n,
  too_many n = false -> evicted n = false -> check_suspend n = n.
Proof. intros n H1 H2. unfold check_suspend. rewrite H1, H2. reflexivity. Qed.

Lemma check_suspend_core : forall n,
  n_evs (check_suspend n) = n_evs n /\ n_self (check_suspend n) = n_self n /\
  n_delivered (check_suspend n) = n_delivered n /\
  n_pool (check_suspend n) = n_pool n /\ n_ipool (check_suspend n) = n_ipool n /\
  n_undet (check_suspend n) = n_undet n /\
  n_init_undet (check_suspend n) = n_init_undet n /\ n_validators (check_suspend n) = n_validators n /\
  n_suspend_limit (check_suspend n) = n_suspend_limit n /\ n_removed (check_suspend n) = n_removed n /\
  n_accepted (check_suspend n) = n_accepted n /\ n_lcr (check_suspend n) = n_lcr n.
Proof.
  intro n. unfold check_suspend, suspend.
  destruct (too_many n || evicted n); [destruct (n_state n) |]; cbn; repeat split.
Qed.

Lemma too_many_spec : forall n,
  too_many n = true <-> n_undet n - n_init_undet n > n_suspend_limit n * n_validators n.
Proof. intro n. unfold too_many. rewrite Z.ltb_lt. lia. Qed.

Lemma evicted_spec : forall n,
  evicted n = true <->
  exists l, n_lcr n = Some l /\ n_removed n > 0 /\ n_removed n > n_accepted n /\ l >= n_removed n.
Proof.
  intro n. unfold evicted. destruct (n_lcr n) as [l |].
  - rewrite !andb_true_iff, !Z.ltb_lt, Z.leb_le. split.
    + intros [[H1 H2] H3]. exists l. repeat split; try lia.
    + intros [l' [E [H1 [H2 H3]]]]. inversion E; subst. repeat split; lia.
  - split; [discriminate |]. intros [l [E _]]. discriminate.
Qed.

Lemma step_heartbeat_babbling : forall n e,
  n_state n = Babbling -> fst (step n (IHeartbeat e)) = check_suspend (apply_effect n e).
Proof. intros n e H. cbn [step]. rewrite H. reflexivity. Qed.

Lemma apply_effect_state : forall n e, n_state (apply_effect n e) = n_state n.
Proof. reflexivity. Qed.

Lemma check_suspend_still_babbling : forall m,
  n_state (check_suspend m) = Babbling ->
  check_suspend m = m /\ too_many m = false /\ evicted m = false.
Proof.
  intros m H.
  destruct (too_many m) eqn:Ht.
  - rewrite (check_suspend_fires m (or_introl Ht)) in H. destruct (n_state m); discriminate.
  - destruct (evicted m) eqn:Hev.
    + rewrite (check_suspend_fires m (or_intror Hev)) in H. destruct (n_state m); discriminate.
    + split; [apply check_suspend_quiet; assumption | split; reflexivity].
Qed.

(* after a turn of the babble loop a node that is still Babbling is within the limit and not evicted *)
Lemma heartbeat_bound : forall n e,
  let n' := fst (step n (IHeartbeat e)) in
  n_state n = Babbling -> n_state n' = Babbling ->
  n_undet n' - n_init_undet n' <= n_suspend_limit n' * n_validators n' /\ evicted n' = false.
Proof.
  intros n e n' Hb. subst n'. rewrite (step_heartbeat_babbling n e Hb).
  generalize (apply_effect n e). intros m Hm.
  destruct (check_suspend_still_babbling m Hm) as [E [Ht Hev]]. rewrite E.
  split; [| exact Hev]. unfold too_many in Ht. apply Z.ltb_ge in Ht. lia.
Qed.

(* and a Babbling node over the limit (or evicted) after the turn's work leaves the loop Suspended *)
Lemma heartbeat_suspends : forall n e,
  n_state n = Babbling ->
  too_many (apply_effect n e) = true \/ evicted (apply_effect n e) = true ->
  n_state (fst (step n (IHeartbeat e))) = Suspended.
Proof.
  intros n e Hb H. rewrite (step_heartbeat_babbling n e Hb).
  rewrite (check_suspend_fires _ H), apply_effect_state, Hb. reflexivity.
Qed.

Lemma frozen_full : forall n is,
  n_state n <> Babbling ->
  let n' := fst (run n is) in
  n_state n' = n_state n /\ n_evs n' = n_evs n /\ n_self n' = n_self n /\
  n_delivered n' = n_delivered n /\ n_undet n' = n_undet n /\ n_ipool n' = n_ipool n /\
  n_pool n' = n_pool n + count_tx is /\
  snd (run n is) = map (frozen_answer n) is /\
  (forall i r, In i is -> frozen_answer n i = Some r ->
     resp_is_err r = true \/
     (n_state n = Suspended /\ exists k l, i = IRpc (RSync k l) /\ r = sync_response n k l)).
Proof.
  intros n is Hs n'. subst n'.
  destruct (run_frozen is n Hs) as [Hc [Hp Ho]].
  split; [exact (f_equal n_state Hc) |]. split; [exact (f_equal n_evs Hc) |].
  split; [exact (f_equal n_self Hc) |]. split; [exact (f_equal n_delivered Hc) |].
  split; [exact (f_equal n_undet Hc) |]. split; [exact (f_equal n_ipool Hc) |].
  split; [exact Hp |]. split; [exact Ho |].
  intros i r _ Hf. apply frozen_answer_refuses. exact Hf.
Qed.

Lemma suspended_sync_same : forall n k l,
  process_rpc (n <| n_state := Suspended |>) (RSync k l) = (n <| n_state := Suspended |>, sync_response n k l) /\
  process_rpc (n <| n_state := Babbling |>) (RSync k l) = (n <| n_state := Babbling |>, sync_response n k l).
Proof. intros. split; reflexivity. Qed.

Lemma suspends : forall n,
  n_state n = Babbling ->
  (n_undet n - n_init_undet n > n_suspend_limit n * n_validators n \/
   exists l, n_lcr n = Some l /\ n_removed n > 0 /\ n_removed n > n_accepted n /\ l >= n_removed n) ->
  n_state (check_suspend n) = Suspended.
Proof.
  intros n Hb H.
  assert (H' : too_many n = true \/ evicted n = true).
  { destruct H as [H | H]; [left; apply too_many_spec; exact H | right; apply evicted_spec; exact H]. }
  rewrite (check_suspend_fires n H'), Hb. reflexivity.
Qed.

Lemma suspends_only_if : forall n,
  n_state n = Babbling -> n_state (check_suspend n) <> Babbling ->
  (n_undet n - n_init_undet n > n_suspend_limit n * n_validators n \/
   exists l, n_lcr n = Some l /\ n_removed n > 0 /\ n_removed n > n_accepted n /\ l >= n_removed n).
Proof.
  intros n Hb H.
  destruct (too_many n) eqn:Ht; [left; apply too_many_spec; exact Ht |].
  destruct (evicted n) eqn:He; [right; apply evicted_spec; exact He |].
  rewrite (check_suspend_quiet n Ht He) in H. contradiction.
Qed.

Lemma maintenance_frozen : forall n is inp fs,
  n_state n = init_state true inp fs ->
  n_state n = Suspended /\ n_evs (fst (run n is)) = n_evs n /\ n_self (fst (run n is)) = n_self n /\
  n_delivered (fst (run n is)) = n_delivered n.
Proof.
  intros n is inp fs H. cbn in H. split; [exact H |].
  assert (Hs : n_state n <> Babbling) by (rewrite H; discriminate).
  destruct (frozen_full n is Hs) as [_ [H1 [H2 [H3 _]]]]. auto.
Qed.
