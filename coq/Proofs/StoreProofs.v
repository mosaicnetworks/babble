(* C16 proofs: the Badger-backed store refines the plain-map reference. *)
From Coq Require Import ZArith List Bool Lia ZifyBool ZifyNat.
From V Require Import Model.Store Model.StoreSpec Model.StoreWitness.
Import ListNotations.
Open Scope Z_scope.

Lemma skipn_nth_error {A} : forall (n : nat) (l : list A),
  skipn n l = match nth_error l n with Some x => x :: skipn (S n) l | None => [] end.
Proof. induction n as [|n IH]; intros [|a l]; try reflexivity. apply IH. Qed.

(* w lies in l from position n to the end *)
Lemma skipn_window {A} (l : list A) : forall w n k, (length w + n = length l)%nat ->
  (forall p x, nth_error w p = Some x -> nth_error l (p + n) = Some x) ->
  skipn k w = skipn (k + n) l.
Proof.
  induction w as [|a w IH]; intros n k Hl H; cbn [length] in Hl.
  - rewrite skipn_nil. symmetry. apply skipn_all2. lia.
  - assert (IH' : forall k, skipn k w = skipn (S (k + n)) l).
    { intros k'. rewrite <- Nat.add_succ_r. apply IH; [lia|].
      intros p x Hp. rewrite Nat.add_succ_r. exact (H (S p) x Hp). }
    destruct k as [|k]; [|apply IH'].
    cbn [skipn plus]. rewrite skipn_nth_error, (H O a eq_refl : nth_error l n = Some a).
    f_equal. apply (IH' O).
Qed.

Lemma in_removelast' {A} : forall (l : list A) x, In x (removelast l) -> In x l.
Proof.
  induction l as [|a l IH]; intros x H; [exact H|].
  cbn [removelast] in H. destruct l as [|b l]; [contradiction|].
  destruct H as [H|H]; [left; exact H|right; apply IH; exact H].
Qed.

Lemma nth_error_app_last {A} (l : list A) y p x :
  nth_error (l ++ [y]) p = Some x -> (p = length l /\ x = y) \/ nth_error l p = Some x.
Proof.
  intros H. destruct (Nat.lt_ge_cases p (length l)) as [Hl|Hl].
  - right. now rewrite nth_error_app1 in H.
  - left. rewrite nth_error_app2 in H by exact Hl.
    destruct (p - length l)%nat as [|n] eqn:D; [|now destruct n].
    injection H as <-. split; [lia|reflexivity].
Qed.

Lemma nth_error_app_shift {A} (pre l : list A) p :
  nth_error (pre ++ l) (length pre + p) = nth_error l p.
Proof. induction pre as [|a pre IH]; [reflexivity|exact IH]. Qed.

Lemma list_set_same {A} : forall (l : list A) n x, nth_error l n = Some x -> list_set l n x = l.
Proof.
  induction l as [|a l IH]; intros [|n] x H; try discriminate.
  - now injection H as ->.
  - cbn [list_set]. f_equal. now apply IH.
Qed.

Lemma znth_nth_error {A} (l : list A) (p : nat) : znth l (Z.of_nat p) = nth_error l p.
Proof. unfold znth. destruct (Z.of_nat p <? 0) eqn:E; [lia|]. now rewrite Nat2Z.id. Qed.

Lemma znth_nil {A} i : znth (@nil A) i = None.
Proof. unfold znth. destruct (i <? 0); [reflexivity|]. now destruct (Z.to_nat i). Qed.

Lemma znth_range {A} (l : list A) i x : znth l i = Some x -> 0 <= i < zlen l.
Proof.
  unfold znth, zlen. destruct (i <? 0) eqn:E; [discriminate|]. intros H.
  assert (Hn : nth_error l (Z.to_nat i) <> None) by (rewrite H; discriminate).
  apply nth_error_Some in Hn. lia.
Qed.

Lemma znth_none {A} (l : list A) i : i < 0 \/ zlen l <= i -> znth l i = None.
Proof.
  unfold znth, zlen. intros H. destruct (i <? 0) eqn:E; [reflexivity|].
  apply nth_error_None. lia.
Qed.

Lemma znth_in_range {A} (l : list A) i : 0 <= i < zlen l -> exists x, znth l i = Some x.
Proof.
  unfold znth, zlen. intros H. destruct (i <? 0) eqn:E; [lia|].
  destruct (nth_error l (Z.to_nat i)) eqn:N; [eauto|]. apply nth_error_None in N. lia.
Qed.

Lemma znth_app1 {A} (l : list A) x i :
  znth (l ++ [x]) i = if i =? zlen l then Some x else znth l i.
Proof.
  unfold znth, zlen. destruct (Z.eqb_spec i (Z.of_nat (length l))) as [->|N].
  - rewrite Nat2Z.id, nth_error_app2, Nat.sub_diag by apply Nat.le_refl. now destruct (_ <? 0) eqn:E; [lia|].
  - destruct (i <? 0) eqn:E; [reflexivity|]. destruct (Nat.lt_ge_cases (Z.to_nat i) (length l)) as [L|L].
    + now apply nth_error_app1.
    + rewrite (proj2 (nth_error_None l _) L). apply nth_error_None. rewrite app_length. cbn. lia.
Qed.

Lemma znth_app_some {A} (l : list A) y i x : znth l i = Some x -> znth (l ++ [y]) i = Some x.
Proof.
  intros H. rewrite znth_app1. pose proof (znth_range _ _ _ H) as R.
  now destruct (Z.eqb_spec i (zlen l)); [lia|].
Qed.

Lemma zlen_app1 {A} (l : list A) x : zlen (l ++ [x]) = zlen l + 1.
Proof. unfold zlen. rewrite app_length. cbn. lia. Qed.

Lemma zlen_app {A} (l l' : list A) : zlen (l ++ l') = zlen l + zlen l'.
Proof. unfold zlen. now rewrite app_length, Nat2Z.inj_add. Qed.

Lemma zlen_nonneg {A} (l : list A) : 0 <= zlen l.
Proof. apply Nat2Z.is_nonneg. Qed.

Lemma skipn_znth {A} (l : list A) (t : Z) : 0 <= t ->
  skipn (Z.to_nat t) l =
  match znth l t with Some x => x :: skipn (Z.to_nat (t + 1)) l | None => [] end.
Proof.
  intros H. unfold znth. destruct (t <? 0) eqn:E; [lia|].
  replace (Z.to_nat (t + 1)) with (S (Z.to_nat t)) by lia. apply skipn_nth_error.
Qed.

Lemma znth_nodup {A} (l : list A) :
  (forall i j x, znth l i = Some x -> znth l j = Some x -> i = j) -> NoDup l.
Proof.
  intros H. apply NoDup_nth_error. intros i j Hi E.
  apply nth_error_Some in Hi. destruct (nth_error l i) as [x|] eqn:N; [|congruence].
  apply Nat2Z.inj. apply (H _ _ x); rewrite znth_nth_error; congruence.
Qed.

Lemma zmem_In x l : zmem x l = true <-> In x l.
Proof.
  induction l as [|y l IH]; cbn; [split; [discriminate|contradiction]|].
  rewrite orb_true_iff, IH, Z.eqb_eq. tauto.
Qed.

Lemma zmem_app x l y : zmem x (l ++ [y]) = zmem x l || Z.eqb y x.
Proof.
  induction l as [|z l IH]; cbn; [now rewrite orb_false_r|]. rewrite IH. now rewrite orb_assoc.
Qed.

Lemma fupd_same {A} (f : Z -> A) k v : fupd f k v k = v.
Proof. unfold fupd. now rewrite Z.eqb_refl. Qed.
Lemma fupd_other {A} (f : Z -> A) k v k' : k <> k' -> fupd f k v k' = f k'.
Proof. unfold fupd. intros N. destruct (Z.eqb k k') eqn:E; [apply Z.eqb_eq in E; contradiction|reflexivity]. Qed.

Lemma aget_aset_same {A} k (v : A) l : aget k (aset k v l) = Some v.
Proof.
  induction l as [|[k' v'] l IH]; cbn; [now rewrite Z.eqb_refl|].
  destruct (Z.eqb k' k) eqn:E; cbn; [now rewrite Z.eqb_refl|]. now rewrite E.
Qed.

Lemma aget_aset_other {A} k k2 (v : A) l : k <> k2 -> aget k2 (aset k v l) = aget k2 l.
Proof.
  intros N. induction l as [|[k' v'] l IH]; cbn.
  - destruct (Z.eqb k k2) eqn:E; [apply Z.eqb_eq in E; contradiction|reflexivity].
  - destruct (Z.eqb k' k) eqn:E; cbn.
    + apply Z.eqb_eq in E. subst k'.
      destruct (Z.eqb k k2) eqn:E2; [apply Z.eqb_eq in E2; contradiction|reflexivity].
    + destruct (Z.eqb k' k2); [reflexivity|exact IH].
Qed.

Lemma aset_keys {A} k (v : A) l : aget k l <> None -> map fst (aset k v l) = map fst l.
Proof.
  induction l as [|[k' v'] l IH]; cbn; [congruence|].
  destruct (Z.eqb k' k) eqn:E; cbn.
  - apply Z.eqb_eq in E. now subst.
  - intros H. now rewrite IH.
Qed.

Lemma zmem_keys {A} k (l : list (Z * A)) :
  zmem k (map fst l) = match aget k l with Some _ => true | None => false end.
Proof.
  induction l as [|[k' v'] l IH]; cbn; [reflexivity|]. destruct (Z.eqb k' k); [reflexivity|exact IH].
Qed.

Lemma aget_app {A} k (l : list (Z * A)) k2 v2 :
  aget k (l ++ [(k2, v2)]) =
  match aget k l with Some x => Some x | None => if Z.eqb k2 k then Some v2 else None end.
Proof.
  induction l as [|[k' v'] l IH]; cbn; [reflexivity|]. destruct (Z.eqb k' k); [reflexivity|exact IH].
Qed.

Lemma aget_In_nodup {A} k (v : A) l : NoDup (map fst l) -> In (k, v) l -> aget k l = Some v.
Proof.
  induction l as [|[k' v'] l IH]; cbn; intros ND H; [contradiction|].
  inversion ND as [|? ? Hn ND']; subst.
  destruct H as [H|H].
  - injection H as -> ->. now rewrite Z.eqb_refl.
  - destruct (Z.eqb k' k) eqn:E; [|now apply IH].
    apply Z.eqb_eq in E. subst k'. exfalso. apply Hn. apply (in_map fst) in H. exact H.
Qed.

Lemma aget_map_reset {A B} (f : Z * A -> B) k (l : list (Z * A)) :
  aget k (map (fun cr => (fst cr, f cr)) l) =
  match aget k l with Some _ => aget k (map (fun cr => (fst cr, f cr)) l) | None => None end.
Proof.
  induction l as [|[k' v'] l IH]; cbn; [reflexivity|].
  destruct (Z.eqb k' k); [reflexivity|exact IH].
Qed.

Lemma aget_reset {A} k (l : list (Z * A)) (v0 : A) r :
  aget k (map (fun cr => (fst cr, v0)) l) = Some r -> r = v0.
Proof.
  induction l as [|[k' v'] l IH]; cbn; [discriminate|].
  destruct (Z.eqb k' k); [intros H; now injection H|exact IH].
Qed.

Lemma lru_find_In {A} k (l : list (Z * A)) v : lru_find k l = Some v -> In (k, v) l.
Proof.
  induction l as [|[k' v'] l IH]; cbn; [discriminate|].
  destruct (Z.eqb k' k) eqn:E.
  - apply Z.eqb_eq in E. intros H. injection H as ->. subst. now left.
  - intros H. right. now apply IH.
Qed.

Lemma lru_find_None {A} k (l : list (Z * A)) k' v' :
  lru_find k l = None -> In (k', v') l -> k' <> k.
Proof.
  induction l as [|[k2 v2] l IH]; cbn; [contradiction|].
  destruct (Z.eqb k2 k) eqn:E; [discriminate|]. apply Z.eqb_neq in E.
  intros H [H1|H1]; [injection H1 as <- <-; exact E|now apply IH].
Qed.

Lemma lru_remove_In {A} k (l : list (Z * A)) k' v' :
  In (k', v') (lru_remove k l) -> In (k', v') l /\ k' <> k.
Proof.
  unfold lru_remove. rewrite filter_In. cbn. intros [H1 H2]. split; [exact H1|].
  apply negb_true_iff, Z.eqb_neq in H2. exact H2.
Qed.

Lemma lru_get_incl {A} k (c : lru A) : incl (lru_items (snd (lru_get k c))) (lru_items c).
Proof.
  unfold lru_get. destruct (lru_find k (lru_items c)) eqn:F; cbn [snd lru_items]; [|apply incl_refl].
  intros [k' v'] [H|H]; [rewrite <- H; now apply lru_find_In|now apply lru_remove_In in H].
Qed.

Lemma lru_add_sub {A} k (v : A) c k' v' :
  In (k', v') (lru_items (lru_add k v c)) ->
  (k' = k /\ v' = v) \/ (k' <> k /\ In (k', v') (lru_items c)).
Proof.
  unfold lru_add. destruct (lru_find k (lru_items c)) eqn:F; cbn [lru_items].
  - intros [H|H]; [injection H as <- <-; now left|].
    apply lru_remove_In in H. right. tauto.
  - intros H.
    assert (H' : In (k', v') ((k, v) :: lru_items c)).
    { destruct (_ >? _) in H; [now apply in_removelast' in H|exact H]. }
    destruct H' as [H'|H']; [injection H' as <- <-; now left|].
    right. split; [|exact H']. eapply lru_find_None; eauto.
Qed.

Lemma dbkey_eqb_eq a b : dbkey_eqb a b = true <-> a = b.
Proof.
  split.
  - destruct a, b; try discriminate; cbn [dbkey_eqb];
      rewrite ?andb_true_iff, ?Z.eqb_eq; intros H; try destruct H; now subst.
  - intros <-. destruct a; cbn [dbkey_eqb]; now rewrite !Z.eqb_refl.
Qed.

Lemma db_get_set_same k v d : db_get (db_set k v d) k = Some v.
Proof.
  unfold db_get, db_set. cbn. replace (dbkey_eqb k k) with true; [reflexivity|].
  symmetry. now apply dbkey_eqb_eq.
Qed.

Lemma db_get_set_other k k' v d : k <> k' -> db_get (db_set k v d) k' = db_get d k'.
Proof.
  intros N. unfold db_get, db_set. cbn. destruct (dbkey_eqb k k') eqn:E; [|reflexivity].
  apply dbkey_eqb_eq in E. contradiction.
Qed.

Lemma db_get_event_of d id o : db_get d (KEvent id) = option_map VEvent o -> db_get_event d id = o.
Proof. unfold db_get_event. intros ->. now destruct o. Qed.
Lemma db_get_id_of d k o : db_get d k = option_map VId o -> db_get_id d k = o.
Proof. unfold db_get_id. intros ->. now destruct o. Qed.
Lemma db_get_block_of d i o : db_get d (KBlock i) = option_map VBlock o -> db_get_block d i = o.
Proof. unfold db_get_block. intros ->. now destruct o. Qed.
Lemma db_get_z_of d k o : db_get d k = option_map VZ o -> db_get_z d k = o.
Proof. unfold db_get_z. intros ->. now destruct o. Qed.

(* the keys a cache stands for are not index entries: on them dbSetEvents is the one write *)
Definition cache_key (k : dbkey) : Prop := match k with KTopo _ | KPart _ _ => False | _ => True end.

Lemma db_set_event_get d e k : cache_key k ->
  db_get (db_set_event d e) k = db_get (db_set (KEvent (ev_id e)) (VEvent e) d) k.
Proof.
  unfold db_set_event. destruct k; try contradiction; intros _;
    now destruct (db_get d (KEvent (ev_id e))).
Qed.

(* the participant cache after InmemStore.SetEvent: written only when the LRU misses *)
Definition window_write (b : bstore) (e : event) : result rim :=
  match lru_find (ev_id e) (lru_items (b_events b)) with
  | Some _ => Ok (b_rim b)
  | None => pec_set (b_rim b) (ev_creator e) (ev_id e) (ev_index e)
  end.

(* every step in normal form: the new store by field updates, a read's answer by what the LRU
   finds.  SetEvent is acknowledged exactly when the participant cache accepts.  The reads that
   leave the store alone, and the reopen, stand as [bstep] has them *)
Definition bnorm (b : bstore) (o : sop) : bstore * sres :=
  match o with
  | OAddParticipant c =>
      (set_db (set_rim b match aget c (b_rim b) with
                         | Some _ => b_rim b
                         | None => b_rim b ++ [(c, ri_new (b_cs b))]
                         end)
              match db_get (b_db b) (KRoot c) with
              | Some _ => b_db b
              | None => db_set (KRoot c) (VZ 0) (b_db b)
              end, RUnit)
  | OSetEvent e =>
      match window_write b e with
      | Err x => (b, RErr x)
      | Ok m' => (set_db (set_events (set_rim b m')
                            (lru_add (ev_id e) e (snd (lru_get (ev_id e) (b_events b)))))
                         (db_set_event (b_db b) e), RUnit)
      end
  | OGetEvent id =>
      (set_events b (snd (lru_get id (b_events b))),
       match lru_find id (lru_items (b_events b)) with
       | Some e => REvent e
       | None => opt_res REvent (db_get_event (b_db b) id)
       end)
  | OSetBlock bl =>
      (set_db (set_last_block
                 (set_blocks b (lru_add (bl_index bl) bl (snd (lru_get (bl_index bl) (b_blocks b)))))
                 (if bl_index bl >? b_last_block b then bl_index bl else b_last_block b))
              (db_set (KBlock (bl_index bl)) (VBlock bl) (b_db b)), RUnit)
  | OGetBlock i =>
      (set_blocks b (snd (lru_get i (b_blocks b))),
       match lru_find i (lru_items (b_blocks b)) with
       | Some bl => RBlock bl
       | None => opt_res RBlock (db_get_block (b_db b) i)
       end)
  | OSetRound r p =>
      (set_db (set_last_round (set_rounds b (lru_add r p (b_rounds b)))
                 (if r >? b_last_round b then r else b_last_round b))
              (db_set (KRound r) (VZ p) (b_db b)), RUnit)
  | OGetRound r =>
      (set_rounds b (snd (lru_get r (b_rounds b))), opt_res RZ (lru_find r (lru_items (b_rounds b))))
  | OSetFrame r p =>
      (set_db (set_frames b (lru_add r p (snd (lru_get r (b_frames b)))))
              (db_set (KFrame r) (VZ p) (b_db b)), RUnit)
  | OGetFrame r =>
      (set_frames b (snd (lru_get r (b_frames b))), opt_res RZ (lru_find r (lru_items (b_frames b))))
  | _ => bstep b o
  end.

Ltac sb := cbn [b_cs b_events b_blocks b_rounds b_frames b_rim b_last_round b_last_block b_db
  set_events set_blocks set_rounds set_frames set_rim set_last_round set_last_block set_db
  fst snd lru_items lru_cap bnorm] in *.

Lemma bstep_eq b o : bstep b o = bnorm b o.
Proof.
  destruct o; try reflexivity; cbn [bstep bnorm].
  - unfold b_add_participant. destruct b. sb.
    destruct (aget c b_rim); sb; now destruct (db_get b_db (KRoot c)).
  - unfold b_set_event, im_set_event, window_write, lru_get.
    destruct (lru_find (ev_id e) (lru_items (b_events b))); [reflexivity|].
    now destruct (pec_set _ _ _ _).
  - unfold b_get_event, lru_get. destruct (lru_find id (lru_items (b_events b))); [reflexivity|].
    destruct b. now destruct (db_get_event _ id).
  - unfold b_set_block. destruct (lru_get _ (b_blocks b)) as [h c1]. sb. now destruct (_ >? _).
  - unfold b_get_block, lru_get. destruct (lru_find i (lru_items (b_blocks b))); [reflexivity|].
    destruct b. now destruct (db_get_block _ i).
  - unfold b_set_round. sb. now destruct (r >? b_last_round b).
  - unfold b_get_round, lru_get. now destruct (lru_find r (lru_items (b_rounds b))), b.
  - unfold b_set_frame. now destruct (lru_get r (b_frames b)).
  - unfold b_get_frame, lru_get. now destruct (lru_find r (lru_items (b_frames b))), b.
Qed.

Lemma rejected_inv b o : rejected o (snd (bstep b o)) = true ->
  exists e x, o = OSetEvent e /\ window_write b e = Err x /\ bstep b o = (b, RErr x).
Proof.
  destruct o; try discriminate. rewrite bstep_eq. cbn [bnorm].
  destruct (window_write b e) as [m'|x] eqn:Hw; [discriminate|]. intros _. now exists e, x.
Qed.

Lemma rejected_write_noop b e b' x : bstep b (OSetEvent e) = (b', RErr x) -> b' = b.
Proof.
  intros H. destruct (rejected_inv b (OSetEvent e)) as (e' & x' & _ & _ & H'); [now rewrite H|].
  congruence.
Qed.

(* C16_cache_coherent: every cache entry equals the DB entry for the same key *)

Definition coh {A} (key : Z -> dbkey) (val : A -> dbval) (c : lru A) (d : db) : Prop :=
  forall k v, In (k, v) (lru_items c) -> db_get d (key k) = Some (val v).

Lemma coh_get {A} key val k (c : lru A) d : coh key val c d -> coh key val (snd (lru_get k c)) d.
Proof. intros C k' v H. apply C, (lru_get_incl k c), H. Qed.

Lemma coh_set_other {A} key val (c : lru A) k0 v0 d :
  (forall k, key k <> k0) -> coh key val c d -> coh key val c (db_set k0 v0 d).
Proof. intros N C k v H. rewrite db_get_set_other by (apply not_eq_sym, N). now apply C. Qed.

Lemma coh_set_event {A} key val (c : lru A) d e : (forall k, cache_key (key k)) ->
  coh key val c (db_set (KEvent (ev_id e)) (VEvent e) d) -> coh key val c (db_set_event d e).
Proof. intros T C k v H. rewrite db_set_event_get by apply T. now apply C. Qed.

(* write-through: the same value goes into the cache and under the key's DB entry *)
Lemma coh_add {A} key val k v (c : lru A) d :
  (forall k1 k2, key k1 = key k2 -> k1 = k2) -> coh key val c d ->
  coh key val (lru_add k v c) (db_set (key k) (val v) d).
Proof.
  intros Inj C k' v' H. apply lru_add_sub in H. destruct H as [[-> ->]|[N H]].
  - apply db_get_set_same.
  - rewrite db_get_set_other by (intros E; apply N; symmetry; apply Inj, E). now apply C.
Qed.

Lemma coh_hit {A} key (val : A -> dbval) c d k v o :
  coh key val c d -> (forall a a', val a = val a' -> a = a') ->
  db_get d (key k) = option_map val o -> lru_find k (lru_items c) = Some v -> o = Some v.
Proof.
  intros C Inj H F. apply lru_find_In, C in F. rewrite H in F.
  destruct o as [a|]; [|discriminate]. injection F as F. f_equal. now apply Inj.
Qed.

Record cache_ok (b : bstore) : Prop := mkCacheOk {
  co_events : coh KEvent VEvent (b_events b) (b_db b);
  co_blocks : coh KBlock VBlock (b_blocks b) (b_db b);
  co_rounds : coh KRound VZ (b_rounds b) (b_db b);
  co_frames : coh KFrame VZ (b_frames b) (b_db b) }.

Lemma cache_ok_init cs : cache_ok (binit cs).
Proof. constructor; intros k v []. Qed.

Lemma cache_ok_step b o : cache_ok b -> cache_ok (fst (bstep b o)).
Proof.
  intros C. pose proof C as [Ce Cb Cr Cf]. rewrite bstep_eq. destruct o; try exact C; cbn [bnorm].
  - (* add participant: at most a Root entry is written *)
    destruct (db_get (b_db b) (KRoot c)); constructor; sb;
      try assumption; apply coh_set_other; (discriminate || assumption).
  - destruct (window_write b e) as [m'|x]; [|exact C].
    constructor; sb; (apply coh_set_event; [exact (fun _ => I)|]);
      try (apply coh_set_other; [discriminate|assumption]).
    apply coh_add; [congruence|now apply coh_get].
  - constructor; sb; auto using coh_get.
  - constructor; sb; try (apply coh_set_other; [discriminate|assumption]).
    apply coh_add; [congruence|now apply coh_get].
  - constructor; sb; auto using coh_get.
  - constructor; sb; try (apply coh_set_other; [discriminate|assumption]).
    apply coh_add; [congruence|assumption].
  - constructor; sb; auto using coh_get.
  - constructor; sb; try (apply coh_set_other; [discriminate|assumption]).
    apply coh_add; [congruence|now apply coh_get].
  - constructor; sb; auto using coh_get.
  - (* reopen: the caches are empty *) constructor; intros k v [].
Qed.

Lemma brun_invariant (P : bstore -> Prop) :
  (forall b o, P b -> P (fst (bstep b o))) -> forall ops b, P b -> P (fst (brun b ops)).
Proof.
  intros Hs. induction ops as [|o ops IH]; intros b H; [exact H|].
  cbn [brun]. specialize (IH _ (Hs b o H)). destruct (bstep b o) as [b1 x]. cbn [fst] in IH.
  now destruct (brun b1 ops).
Qed.

Lemma wf_set_event s e : wf_op s (OSetEvent e) = true ->
  match sp_events s (ev_id e) with
  | Some e0 => ev_creator e = ev_creator e0 /\ ev_index e = ev_index e0 /\ ev_topo e = ev_topo e0
  | None => zmem (ev_creator e) (sp_parts s) = true /\
            ev_index e = zlen (sp_part s (ev_creator e)) /\ ev_topo e = zlen (sp_topo s)
  end.
Proof.
  cbn [wf_op]. intros H. destruct (sp_events s (ev_id e));
    apply andb_prop in H; destruct H as [H H3]; apply andb_prop in H; destruct H as [H1 H2];
    apply Z.eqb_eq in H2, H3; [apply Z.eqb_eq in H1|]; auto.
Qed.

Record spec_ok (s : spec) : Prop := mkSpecOk {
  so_event : forall id e, sp_events s id = Some e ->
     ev_id e = id /\ znth (sp_part s (ev_creator e)) (ev_index e) = Some id
     /\ znth (sp_topo s) (ev_topo e) = Some id;
  so_topo : forall i id, znth (sp_topo s) i = Some id ->
     exists e, sp_events s id = Some e /\ ev_topo e = i;
  so_part : forall c i id, znth (sp_part s c) i = Some id ->
     exists e, sp_events s id = Some e /\ ev_creator e = c /\ ev_index e = i;
  so_unknown : forall c, zmem c (sp_parts s) = false -> sp_part s c = [];
  so_nodup : NoDup (sp_parts s) }.

Lemma spec_ok_init : spec_ok sinit.
Proof.
  constructor; cbn; try discriminate; try constructor; auto; intros; now rewrite znth_nil in *.
Qed.

Definition mono (L L' : list Z) : Prop := forall i x, znth L i = Some x -> znth L' i = Some x.

Lemma spec_ok_set_event s e : spec_ok s -> wf_op s (OSetEvent e) = true ->
  spec_ok (s_set_event s e).
Proof.
  intros [Se St Sp Su Sn] W. apply wf_set_event in W. unfold s_set_event.
  destruct (sp_events s (ev_id e)) as [e0|] eqn:E0.
  - (* known id: e sits where e0 sat *)
    destruct W as (Wc & Wi & Wt). destruct (Se _ _ E0) as (_ & Hp & Ht).
    assert (Hold : forall id e1, sp_events s id = Some e1 ->
              exists e2, fupd (sp_events s) (ev_id e) (Some e) id = Some e2 /\
                         ev_creator e2 = ev_creator e1 /\ ev_index e2 = ev_index e1 /\
                         ev_topo e2 = ev_topo e1).
    { intros id e1 H. destruct (Z.eq_dec (ev_id e) id) as [<-|N].
      - rewrite fupd_same. exists e. assert (e1 = e0) by congruence. subst e1. auto.
      - rewrite fupd_other by exact N. eauto. }
    constructor; cbn; auto.
    + intros id e1 H. destruct (Z.eq_dec (ev_id e) id) as [<-|N].
      * rewrite fupd_same in H. injection H as <-. rewrite Wc, Wi, Wt. auto.
      * rewrite fupd_other in H by exact N. auto.
    + intros i id H. destruct (St _ _ H) as (e1 & H1 & H2).
      destruct (Hold _ _ H1) as (e2 & H3 & _ & _ & H4). exists e2. split; congruence.
    + intros c i id H. destruct (Sp _ _ _ H) as (e1 & H1 & H2 & H3).
      destruct (Hold _ _ H1) as (e2 & H4 & H5 & H6 & _). exists e2. repeat split; congruence.
  - (* new id: appended to its creator's list and to the topological list *)
    destruct W as (Wc & Wi & Wt).
    assert (Hold : forall id e1, sp_events s id = Some e1 ->
                     fupd (sp_events s) (ev_id e) (Some e) id = Some e1).
    { intros id e1 H. rewrite fupd_other; [exact H|congruence]. }
    constructor; cbn; auto.
    + intros id e1 H. destruct (Z.eq_dec (ev_id e) id) as [<-|N].
      * rewrite fupd_same in H. injection H as <-.
        rewrite fupd_same, Wi, Wt, !znth_app1, !Z.eqb_refl. auto.
      * rewrite fupd_other in H by exact N. destruct (Se _ _ H) as (H1 & H2 & H3).
        split; [exact H1|]. split; [|now apply znth_app_some]. unfold fupd.
        destruct (Z.eqb_spec (ev_creator e) (ev_creator e1)) as [->|]; [now apply znth_app_some|exact H2].
    + intros i id H. rewrite znth_app1 in H. destruct (Z.eqb_spec i (zlen (sp_topo s))) as [->|_].
      * injection H as <-. exists e. rewrite fupd_same. auto.
      * destruct (St _ _ H) as (e1 & H1 & H2). eauto.
    + intros c i id H. destruct (Z.eq_dec (ev_creator e) c) as [<-|Nc].
      * rewrite fupd_same, znth_app1 in H. destruct (Z.eqb_spec i (zlen (sp_part s (ev_creator e)))) as [->|_].
        -- injection H as <-. exists e. rewrite fupd_same. auto.
        -- destruct (Sp _ _ _ H) as (e1 & H1 & H2). eauto.
      * rewrite fupd_other in H by exact Nc. destruct (Sp _ _ _ H) as (e1 & H1 & H2). eauto.
    + intros c H. destruct (Z.eq_dec (ev_creator e) c) as [<-|Nc]; [congruence|].
      rewrite fupd_other by exact Nc. auto.
Qed.

Lemma spec_ok_step s o : spec_ok s -> wf_op s o = true -> spec_ok (fst (sstep s o)).
Proof.
  intros S W. destruct o; cbn [sstep fst]; try exact S.
  - unfold s_add_participant. destruct (zmem c (sp_parts s)) eqn:M; [exact S|].
    destruct S as [Se St Sp Su Sn]. constructor; cbn; auto.
    + intros c0 H. rewrite zmem_app in H. apply orb_false_iff in H. now apply Su.
    + apply NoDup_rev in Sn. rewrite <- (rev_involutive (sp_parts s ++ [c])), rev_app_distr.
      apply NoDup_rev. cbn. constructor; [|exact Sn].
      rewrite <- in_rev. intros H. apply zmem_In in H. congruence.
  - now apply spec_ok_set_event.
  - destruct S. constructor; cbn; auto.
  - destruct S. constructor; cbn; auto.
  - destruct S. constructor; cbn; auto.
Qed.

(* the rolling index is a window [oldest .. last] of the creator's full list *)

Record ri_ok (re : bool) (r : rindex) (L : list Z) : Prop := mkRiOk {
  ro_oldest : 0 <= ri_oldest r;
  ro_empty : ri_items r = [] -> ri_last r = -1;
  ro_items : forall p x, nth_error (ri_items r) p = Some x ->
                         znth L (ri_oldest r + Z.of_nat p) = Some x;
  ro_last : re = false -> ri_last r + 1 = zlen L }.

Lemma ri_ok_new re cs L : (re = false -> L = []) -> ri_ok re (ri_new cs) L.
Proof.
  intros H. constructor; cbn; try reflexivity; try lia.
  - intros p x Hp. destruct p; discriminate.
  - intros E. now rewrite (H E).
Qed.

Lemma ri_ok_weaken re r L : ri_ok re r L -> ri_ok true r L.
Proof. intros [A B C D]. constructor; auto. discriminate. Qed.

(* Set either appends at idx (after an empty window or right after the last index, possibly
   dropping a prefix of the window first) or overwrites inside the window; it refuses an index
   beyond last + 1 (SkippedIndex) or below the window (TooLate) *)
Lemma ri_set_cases r item idx :
  match ri_set r item idx with
  | Ok r' =>
      ((ri_last r < 0 \/ idx = ri_last r + 1) /\ ri_last r' = idx /\
       exists pre l1, ri_items r = pre ++ l1 /\ ri_items r' = l1 ++ [item]) \/
      (ri_oldest r <= idx <= ri_last r /\ ri_last r' = ri_last r /\
       ri_items r' = list_set (ri_items r) (Z.to_nat (idx - ri_oldest r)) item)
  | Err x => 0 <= ri_last r /\
      ((x = SkippedIndex /\ ri_last r + 1 < idx) \/ (x = TooLate /\ idx < ri_oldest r))
  end.
Proof.
  unfold ri_set.
  destruct ((0 <=? ri_last r) && (idx >? ri_last r + 1)) eqn:E1;
    [split; [lia|left; split; [reflexivity|lia]]|].
  destruct ((ri_last r <? 0) || (idx =? ri_last r + 1)) eqn:E2.
  - left. split; [lia|]. split; [reflexivity|]. cbn [ri_items].
    destruct (ri_len r >=? ri_size r).
    + exists (firstn (Z.to_nat (ri_size r / 2)) (ri_items r)), (ri_items (ri_roll r)).
      split; [|reflexivity]. cbn. now rewrite firstn_skipn.
    + now exists [], (ri_items r).
  - destruct (idx <? ri_oldest r) eqn:E3; [split; [lia|right; split; [reflexivity|lia]]|].
    right. split; [lia|split; reflexivity].
Qed.

(* the creator's list grows from L to L', which holds id at idx *)
Lemma ri_set_ok re r L L' id idx r' :
  ri_ok re r L -> ri_set r id idx = Ok r' -> mono L L' -> znth L' idx = Some id ->
  (re = false -> zlen L' = Z.max (zlen L) (idx + 1)) -> ri_ok re r' L'.
Proof.
  intros [A B C D] S M Hid HL. pose proof (znth_range _ _ _ Hid) as Ridx.
  pose proof (ri_set_cases r id idx) as H. rewrite S in H. clear S.
  unfold ri_oldest, ri_len in *. change (Z.of_nat (length ?l)) with (zlen l) in *.
  destruct H as [(Hc & Hl & pre & l1 & Hpre & Hl1)|(Hc & Hl & Hset)].
  - (* append; an empty window starts anew at idx, else the window slides by |pre| *)
    rewrite Hpre, zlen_app in A, C.
    pose proof (zlen_nonneg pre) as Hp0. pose proof (zlen_nonneg l1) as H10.
    assert (Hcase : l1 = [] \/ idx = ri_last r + 1).
    { destruct Hc as [Hc|Hc]; [left|now right]. destruct l1; [reflexivity|].
      unfold zlen in A, Hp0. cbn [length] in A. clear - A Hp0 Hc. lia. }
    constructor; unfold ri_oldest, ri_len; change (Z.of_nat (length ?l)) with (zlen l);
      rewrite ?Hl, ?Hl1, ?zlen_app1.
    + clear - Hcase A Ridx Hp0 H10. destruct Hcase as [-> | ->]; [cbn|]; lia.
    + intros H. now destruct l1.
    + intros p x Hp. apply nth_error_app_last in Hp. destruct Hp as [[-> ->]|Hp].
      * change (Z.of_nat (length l1)) with (zlen l1).
        replace (idx - (zlen l1 + 1) + 1 + zlen l1) with idx by (clear - H10; lia). exact Hid.
      * destruct Hcase as [-> | ->]; [now destruct p|]. apply M.
        rewrite <- (nth_error_app_shift pre) in Hp. apply C in Hp.
        rewrite Nat2Z.inj_add in Hp. fold (zlen pre) in Hp. rewrite <- Hp. f_equal. clear - Hp0. lia.
    + intros E. rewrite (HL E), <- (D E). clear - Hcase Hc A Ridx Hp0 H10.
      destruct Hcase as [-> | ->]; [cbn in *|]; lia.
  - (* overwrite inside the window: the entry is there already *)
    unfold zlen in A, C, Hc, Hset.
    assert (Hsame : ri_items r' = ri_items r).
    { rewrite Hset. apply list_set_same.
      destruct (nth_error (ri_items r) _) as [x|] eqn:N.
      - apply C, M in N. rewrite <- Hid, <- N. f_equal. lia.
      - apply nth_error_None in N. lia. }
    constructor; unfold ri_oldest, ri_len; rewrite ?Hl, ?Hsame;
      [exact A|exact B|intros p x Hp; apply M, C, Hp|].
    intros E. rewrite (HL E), <- (D E). clear - Hc. lia.
Qed.

(* a NEW event of this creator: index = number of its events so far *)
Lemma ri_set_new re r L id r' :
  ri_ok re r L -> ri_set r id (zlen L) = Ok r' -> ri_ok re r' (L ++ [id]).
Proof.
  intros O S. apply (ri_set_ok re r L _ id (zlen L) r' O S).
  - intros i x. apply znth_app_some.
  - now rewrite znth_app1, Z.eqb_refl.
  - intros _. rewrite zlen_app1. lia.
Qed.

(* re-setting a KNOWN event: it already sits at its index in the creator's list *)
Lemma ri_set_known re r L id idx r' :
  ri_ok re r L -> ri_set r id idx = Ok r' -> znth L idx = Some id -> ri_ok re r' L.
Proof.
  intros O S Hid. apply (ri_set_ok re r L L id idx r' O S); [now intros i x|exact Hid|].
  intros _. apply znth_range in Hid. lia.
Qed.

Lemma ri_get_ok r L skip l : ri_ok false r L -> -1 <= skip ->
  ri_get r skip = Ok l -> l = skipn (Z.to_nat (skip + 1)) L.
Proof.
  intros [A B C D] Hs G. specialize (D eq_refl). unfold ri_get in G.
  assert (Hw : (length (ri_items r) + Z.to_nat (ri_oldest r) = length L)%nat)
    by (unfold ri_oldest, ri_len, zlen in *; lia).
  destruct (skip >? ri_last r) eqn:E1.
  - injection G as <-. symmetry. apply skipn_all2. unfold zlen in D. lia.
  - destruct (skip + 1 <? ri_oldest r) eqn:E2; [discriminate|]. injection G as <-.
    rewrite (skipn_window L _ _ _ Hw); [f_equal; lia|].
    intros p x N. apply C in N. unfold znth in N. destruct (_ <? 0); [discriminate|].
    rewrite <- N. f_equal. lia.
Qed.

Lemma ri_get_item_ok re r L i x : ri_ok re r L -> ri_get_item r i = Ok x -> znth L i = Some x.
Proof.
  intros O G. unfold ri_get_item in G.
  destruct (i <? ri_oldest r) eqn:E1; [discriminate|].
  destruct (i - ri_oldest r >=? ri_len r) eqn:E2; [discriminate|].
  destruct (nth_error _ _) as [y|] eqn:N; [|discriminate]. injection G as <-.
  apply (ro_items _ _ _ O) in N. rewrite <- N. f_equal. lia.
Qed.

(* rim.GetLast answers the last element of the creator's list *)
Lemma ri_get_last_ok r L : ri_ok false r L ->
  match ri_items r with
  | [] => Err Empty
  | _ :: _ => match nth_error (ri_items r) (length (ri_items r) - 1) with
              | Some x => Ok x
              | None => Err Empty
              end
  end = match znth L (zlen L - 1) with Some x => Ok x | None => Err Empty end.
Proof.
  intros [A B C D]. specialize (D eq_refl). unfold ri_oldest, ri_len in *.
  destruct (ri_items r) as [|a l] eqn:EI.
  - rewrite (B eq_refl) in D. now rewrite znth_none by lia.
  - destruct (nth_error (a :: l) (length (a :: l) - 1)) as [x|] eqn:N.
    + apply C in N. cbn [length] in *.
      replace (zlen L - 1) with
        (ri_last r - Z.of_nat (S (length l)) + 1 + Z.of_nat (S (length l) - 1)) by lia.
      now rewrite N.
    + apply nth_error_None in N. cbn [length] in N. lia.
Qed.

(* the DB content the reference stands for; peer sets and roots are not modelled *)
Definition img (s : spec) (k : dbkey) : option dbval :=
  match k with
  | KEvent id => option_map VEvent (sp_events s id)
  | KPart c i => option_map VId (znth (sp_part s c) i)
  | KTopo i => option_map VId (znth (sp_topo s) i)
  | KBlock i => option_map VBlock (sp_blocks s i)
  | KRound r => option_map VZ (sp_rounds s r)
  | KFrame r => option_map VZ (sp_frames s r)
  | _ => None
  end.

Definition tracked (k : dbkey) : Prop := match k with KPeerSet _ | KRoot _ => False | _ => True end.

Record db_ok (d : db) (s : spec) : Prop := mkDbOk {
  dk_img : forall k, tracked k -> db_get d k = img s k;
  dk_fuel_part : forall c, (length (sp_part s c) <= db_n d)%nat;
  dk_fuel_topo : (length (sp_topo s) <= db_n d)%nat }.

Lemma db_ok_init : db_ok db_empty sinit.
Proof. constructor; cbn; auto. intros [] _; cbn; now rewrite ?znth_nil. Qed.

(* one write, mirrored by the reference, which lists no more ids than before *)
Lemma db_ok_set d s s' k v : db_ok d s ->
  (forall k', tracked k' -> img s' k' = if dbkey_eqb k k' then Some v else img s k') ->
  sp_part s' = sp_part s -> sp_topo s' = sp_topo s -> db_ok (db_set k v d) s'.
Proof.
  intros [Di Fp Ft] H Ep Et. constructor; rewrite ?Ep, ?Et; cbn [db_set db_n]; auto.
  intros k' T. rewrite (H k' T), <- (Di k' T). reflexivity.
Qed.

Lemma db_ok_set_event d s e : db_ok d s -> wf_op s (OSetEvent e) = true ->
  db_ok (db_set_event d e) (s_set_event s e).
Proof.
  intros D W. pose proof D as [Di Fp Ft]. apply wf_set_event in W.
  unfold db_set_event, s_set_event. rewrite (Di (KEvent (ev_id e)) I). cbn [img].
  destruct (sp_events s (ev_id e)) as [e0|]; cbn [option_map].
  - apply (db_ok_set d s); auto. intros [] _; try reflexivity.
    cbn. unfold fupd. now destruct (Z.eqb _ _).
  - (* a new id: its two index entries are the next positions of the two lists *)
    destruct W as (_ & Wi & Wt). constructor; cbn [sp_part sp_topo db_n db_set].
    + intros k T. specialize (Di k T). unfold db_get in *.
      destruct k; try exact Di; cbn; cbn in Di; rewrite Di; unfold fupd.
      * now destruct (Z.eqb _ _).
      * rewrite znth_app1, Wt, Z.eqb_sym. now destruct (Z.eqb _ _).
      * destruct (Z.eqb_spec (ev_creator e) creator) as [<-|]; [|reflexivity].
        rewrite znth_app1, Wi, Z.eqb_sym. now destruct (Z.eqb _ _).
    + intros c. specialize (Fp c). unfold fupd.
      destruct (Z.eqb_spec (ev_creator e) c) as [<-|]; [rewrite app_length; cbn [length]|]; lia.
    + rewrite app_length. cbn [length]. lia.
Qed.

(* the participant list of the reference is not stored *)
Lemma db_ok_add_participant d s c : db_ok d s -> db_ok d (s_add_participant s c).
Proof.
  intros D. unfold s_add_participant. destruct (zmem c (sp_parts s)); [exact D|].
  destruct D. now constructor.
Qed.

Lemma db_ok_step b s o : db_ok (b_db b) s -> wf_op s o = true ->
  rejected o (snd (bstep b o)) = false -> db_ok (b_db (fst (bstep b o))) (fst (sstep s o)).
Proof.
  intros D W A. rewrite bstep_eq in *. destruct o; cbn [sstep fst]; try exact D; sb.
  (* SetBlock, SetRound, SetFrame: one write, the reference updated at the same key *)
  3-5: (apply (db_ok_set _ s); auto; intros [] _; try reflexivity;
        cbn; unfold fupd; now destruct (Z.eqb _ _)).
  - apply db_ok_add_participant. destruct (db_get (b_db b) (KRoot c)); [exact D|].
    apply (db_ok_set _ s); auto. intros [] T; (reflexivity || destruct T).
  - destruct (window_write b e); [now apply db_ok_set_event|discriminate A].
Qed.

Lemma db_part_scan_ok d s c : db_ok d s -> forall fuel i, 0 <= i ->
  (length (sp_part s c) - Z.to_nat i < fuel)%nat ->
  db_part_scan fuel d c i = skipn (Z.to_nat i) (sp_part s c).
Proof.
  intros D. induction fuel as [|f IH]; intros i Hi Hf; [lia|].
  cbn [db_part_scan]. rewrite (db_get_id_of _ _ _ (dk_img _ _ D (KPart c i) I)), (skipn_znth _ _ Hi).
  destruct (znth (sp_part s c) i) as [x|] eqn:N; [|reflexivity].
  f_equal. apply znth_range in N. unfold zlen in N. apply IH; lia.
Qed.

Lemma db_participant_events_ok d s c skip : db_ok d s -> -1 <= skip ->
  db_participant_events d c skip = skipn (Z.to_nat (skip + 1)) (sp_part s c).
Proof.
  intros D H. unfold db_participant_events, db_fuel. apply db_part_scan_ok; [exact D|lia|].
  pose proof (dk_fuel_part _ _ D c). lia.
Qed.

Lemma firstn_cons_pos {A} (n : Z) (x : A) l : 0 < n ->
  firstn (Z.to_nat n) (x :: l) = x :: firstn (Z.to_nat (n - 1)) l.
Proof. intros H. replace (Z.to_nat n) with (S (Z.to_nat (n - 1))) by lia. reflexivity. Qed.

Lemma db_topo_scan_ok d s bound : db_ok d s -> spec_ok s -> forall fuel t, 0 <= t ->
  (length (sp_topo s) - Z.to_nat t < fuel)%nat ->
  db_topo_scan fuel d t bound =
  Ok (omap (sp_events s) (firstn (Z.to_nat (bound - t)) (skipn (Z.to_nat t) (sp_topo s)))).
Proof.
  intros D S. induction fuel as [|f IH]; intros t Ht Hf; [lia|].
  cbn [db_topo_scan]. rewrite (db_get_id_of _ _ _ (dk_img _ _ D (KTopo t) I)), (skipn_znth _ _ Ht).
  destruct (znth (sp_topo s) t) as [id|] eqn:N; [|now rewrite firstn_nil].
  destruct (t <? bound) eqn:E; [|now replace (Z.to_nat (bound - t)) with O by lia].
  destruct (so_topo _ S _ _ N) as (e & He & _). apply znth_range in N. unfold zlen in N.
  rewrite (db_get_event_of _ _ _ (dk_img _ _ D (KEvent id) I)), He.
  rewrite IH by lia. rewrite firstn_cons_pos by lia. cbn [omap]. rewrite He.
  now replace (bound - (t + 1)) with (bound - t - 1) by lia.
Qed.

Lemma db_topological_events_ok d s start count : db_ok d s -> spec_ok s -> 0 <= start ->
  db_topological_events d start count =
  Ok (omap (sp_events s) (firstn (Z.to_nat count) (skipn (Z.to_nat start) (sp_topo s)))).
Proof.
  intros D S H. unfold db_topological_events, db_fuel.
  rewrite (db_topo_scan_ok d s (start + count) D S) by (try lia; pose proof (dk_fuel_topo _ _ D); lia).
  do 3 f_equal. lia.
Qed.

Record sim (re : bool) (b : bstore) (s : spec) : Prop := mkSim {
  si_db : db_ok (b_db b) s;
  si_spec : spec_ok s;
  si_cache : cache_ok b;
  si_keys : map fst (b_rim b) = sp_parts s;
  si_rim : forall c r, aget c (b_rim b) = Some r -> ri_ok re r (sp_part s c);
  si_lastb : re = false -> b_last_block b = sp_last_block s }.

Lemma sim_init cs : sim false (binit cs) sinit.
Proof.
  constructor; cbn; auto using db_ok_init, spec_ok_init, cache_ok_init. discriminate.
Qed.

Lemma sim_zmem re b s c : sim re b s ->
  zmem c (sp_parts s) = match aget c (b_rim b) with Some _ => true | None => false end.
Proof. intros H. rewrite <- (si_keys _ _ _ H). apply zmem_keys. Qed.

Lemma sim_event_hit re b s id e : sim re b s ->
  lru_find id (lru_items (b_events b)) = Some e -> sp_events s id = Some e.
Proof.
  intros [D _ C _ _ _] F.
  eapply coh_hit; [apply (co_events _ C)|congruence|exact (dk_img _ _ D (KEvent id) I)|exact F].
Qed.

Lemma sim_block_hit re b s i bl : sim re b s ->
  lru_find i (lru_items (b_blocks b)) = Some bl -> sp_blocks s i = Some bl.
Proof.
  intros [D _ C _ _ _] F.
  eapply coh_hit; [apply (co_blocks _ C)|congruence|exact (dk_img _ _ D (KBlock i) I)|exact F].
Qed.

Lemma sim_set_event_rim re b s e m' : sim re b s -> wf_op s (OSetEvent e) = true ->
  window_write b e = Ok m' ->
  map fst m' = map fst (b_rim b) /\
  forall c r, aget c m' = Some r -> ri_ok re r (sp_part (s_set_event s e) c).
Proof.
  intros Hsim W. pose proof Hsim as [D S C K R L]. pose proof (wf_set_event _ _ W) as We.
  unfold window_write, s_set_event.
  destruct (lru_find (ev_id e) (lru_items (b_events b))) as [e1|] eqn:F.
  - (* LRU hit: the id is known, the windows stay *)
    intros H. injection H as <-. split; [reflexivity|].
    now rewrite (sim_event_hit _ _ _ _ _ Hsim F).
  - unfold pec_set. destruct (aget (ev_creator e) (b_rim b)) as [r0|] eqn:G0; [|discriminate].
    destruct (ri_set r0 _ _) as [r0'|] eqn:RS; [|discriminate]. intros H. injection H as <-.
    split; [apply aset_keys; congruence|]. intros c r G.
    destruct (Z.eq_dec (ev_creator e) c) as [<-|Nc].
    + rewrite aget_aset_same in G. injection G as <-. specialize (R _ _ G0).
      destruct (sp_events s (ev_id e)) as [e0|] eqn:E0; cbn [sp_part].
      * destruct We as (Wc & Wi & _). eapply ri_set_known; [exact R|exact RS|].
        destruct (so_event _ S _ _ E0) as (_ & Hp & _). now rewrite Wc, Wi.
      * destruct We as (_ & Wi & _). rewrite fupd_same. eapply ri_set_new; [exact R|].
        now rewrite <- Wi.
    + rewrite aget_aset_other in G by exact Nc. specialize (R _ _ G).
      destruct (sp_events s (ev_id e)); cbn [sp_part]; [exact R|]. now rewrite fupd_other.
Qed.

Lemma known_eq (m : rim) (s : spec) :
  NoDup (map fst m) ->
  (forall c r, aget c m = Some r -> ri_ok false r (sp_part s c)) ->
  pec_known m = map (fun c => (c, zlen (sp_part s c) - 1)) (map fst m).
Proof.
  intros ND H. unfold pec_known. rewrite map_map. apply map_ext_in.
  intros [c r] Hin. cbn [fst snd]. f_equal.
  pose proof (aget_In_nodup _ _ _ ND Hin) as G. apply H in G.
  pose proof (ro_last _ _ _ G eq_refl). lia.
Qed.

Lemma sim_step_windows re b s o : sim re b s -> wf_op s o = true ->
  rejected o (snd (bstep b o)) = false ->
  map fst (b_rim (fst (bstep b o))) = sp_parts (fst (sstep s o)) /\
  (forall c r, aget c (b_rim (fst (bstep b o))) = Some r ->
     ri_ok (is_reopen o || re) r (sp_part (fst (sstep s o)) c)) /\
  (is_reopen o || re = false ->
     b_last_block (fst (bstep b o)) = sp_last_block (fst (sstep s o))).
Proof.
  intros Hsim W A. rewrite bstep_eq in *. pose proof Hsim as [D S C K R L].
  destruct o;
    cbn [sstep fst is_reopen orb s_set_block s_set_round s_set_frame sp_parts sp_part sp_last_block];
    try exact (conj K (conj R L)); sb.
  - (* OAddParticipant *)
    unfold s_add_participant. rewrite (sim_zmem _ _ _ c Hsim).
    destruct (aget c (b_rim b)) as [r0|] eqn:G; [exact (conj K (conj R L))|].
    cbn [sp_parts sp_part sp_last_block]. split; [now rewrite map_app, K|]. split; [|exact L].
    intros c0 r1 G1. rewrite aget_app in G1. destruct (aget c0 (b_rim b)) eqn:G0.
    + injection G1 as <-. now apply R.
    + destruct (Z.eqb c c0) eqn:E; [|discriminate]. apply Z.eqb_eq in E. subst c0.
      injection G1 as <-. apply ri_ok_new. intros _. apply (so_unknown _ S).
      now rewrite (sim_zmem _ _ _ c Hsim), G0.
  - (* OSetEvent *)
    destruct (window_write b e) as [m'|x] eqn:Hw; [|discriminate A].
    destruct (sim_set_event_rim re b s e m' Hsim W Hw) as [Hk Hr]. sb.
    unfold s_set_event at 1 3. destruct (sp_events s (ev_id e)); cbn [sp_parts sp_last_block];
      (split; [congruence|]; split; [exact Hr|exact L]).
  - (* OSetBlock *)
    split; [exact K|]. split; [exact R|]. intros E. rewrite (L E).
    destruct (_ >? _) eqn:G; lia.
  - (* OReopen: every window is empty, nothing is claimed about it *)
    cbn [bstep b_reopen fst b_rim]. split; [now rewrite map_map|]. split; [|discriminate].
    intros c r G. rewrite (aget_reset _ _ _ _ G). apply ri_ok_new. discriminate.
Qed.

Lemma sim_step_result re b s o : sim re b s -> wf_op s o = true ->
  rejected o (snd (bstep b o)) = false -> observed re o = true ->
  snd (bstep b o) = snd (sstep s o).
Proof.
  intros Hsim W A Ob. pose proof Hsim as [D S C K R L]. rewrite bstep_eq in *.
  destruct o; try discriminate Ob; cbn [bnorm bstep sstep snd]; try reflexivity;
    try (apply negb_true_iff in Ob; subst re).
  - (* OSetEvent *) cbn [bnorm] in A. destruct (window_write b e); [reflexivity|discriminate A].
  - (* OGetEvent: the cache agrees with the DB, the DB with the reference *)
    rewrite (db_get_event_of _ _ _ (dk_img _ _ D (KEvent id) I)).
    destruct (lru_find id _) eqn:F; [|reflexivity]. now rewrite (sim_event_hit _ _ _ _ _ Hsim F).
  - (* OParticipantEvents: the window, or the DB scan when the window refuses *)
    f_equal. assert (Hskip : -1 <= skip) by apply Z.leb_le, W.
    unfold b_participant_events, pec_get.
    destruct (aget c (b_rim b)) as [r|] eqn:G; [|now apply db_participant_events_ok].
    destruct (ri_get r skip) as [l|x] eqn:RG; [|now apply db_participant_events_ok].
    eapply ri_get_ok; eauto.
  - (* OParticipantEvent *)
    unfold b_participant_event, pec_get_item.
    rewrite (db_get_id_of _ _ _ (dk_img _ _ D (KPart c index) I)).
    destruct (aget c (b_rim b)) as [r|] eqn:G; [|now destruct (znth (sp_part s c) index)].
    destruct (ri_get_item r index) as [x|y] eqn:RG; [|now destruct (znth (sp_part s c) index)].
    now rewrite (ri_get_item_ok _ _ _ _ _ (R _ _ G) RG).
  - (* OLastEventFrom *)
    unfold pec_get_last. rewrite (sim_zmem _ _ _ c Hsim).
    destruct (aget c (b_rim b)) as [r|] eqn:G; [|reflexivity].
    rewrite (ri_get_last_ok _ _ (R _ _ G)). now destruct (znth _ _).
  - (* OKnownEvents *)
    f_equal. rewrite <- K. apply known_eq; [|exact R]. rewrite K. apply (so_nodup _ S).
  - (* OGetBlock *)
    rewrite (db_get_block_of _ _ _ (dk_img _ _ D (KBlock i) I)).
    destruct (lru_find i _) eqn:F; [|reflexivity]. now rewrite (sim_block_hit _ _ _ _ _ Hsim F).
  - (* OLastBlockIndex *) now rewrite L.
  - (* ODbGetRound *) rewrite (db_get_z_of _ _ _ (dk_img _ _ D (KRound r) I)). now destruct (sp_rounds s r).
  - (* ODbGetFrame *) rewrite (db_get_z_of _ _ _ (dk_img _ _ D (KFrame r) I)). now destruct (sp_frames s r).
  - (* ODbTopological *)
    rewrite (db_topological_events_ok _ s start count D S) by apply Z.leb_le, W. reflexivity.
Qed.

Lemma sim_step re b s o : sim re b s -> wf_op s o = true ->
  rejected o (snd (bstep b o)) = false ->
  sim (re || is_reopen o) (fst (bstep b o)) (fst (sstep s o)) /\
  (observed re o = true -> snd (bstep b o) = snd (sstep s o)).
Proof.
  intros Hsim W A. split; [|now apply sim_step_result]. rewrite orb_comm.
  destruct (sim_step_windows re b s o Hsim W A) as (K & R & L). destruct Hsim as [D S C _ _ _].
  constructor; auto using db_ok_step, spec_ok_step, cache_ok_step.
Qed.

Lemma brun_cons b o ops : brun b (o :: ops) =
  (fst (brun (fst (bstep b o)) ops), snd (bstep b o) :: snd (brun (fst (bstep b o)) ops)).
Proof. cbn [brun]. destruct (bstep b o) as [b1 x]. cbn [fst snd]. now destruct (brun b1 ops). Qed.

Lemma srun_cons s o ops : srun s (o :: ops) =
  (fst (srun (fst (sstep s o)) ops), snd (sstep s o) :: snd (srun (fst (sstep s o)) ops)).
Proof. cbn [srun]. destruct (sstep s o) as [s1 x]. cbn [fst snd]. now destruct (srun s1 ops). Qed.

Lemma jrun_cons b s o ops : jrun b s (o :: ops) =
  let x := snd (bstep b o) in
  let j := jrun (fst (bstep b o)) (if rejected o x then s else fst (sstep s o)) ops in
  ((rejected o x || wf_op s o) && fst (fst j), x :: snd (fst j),
   (if rejected o x then x else snd (sstep s o)) :: snd j).
Proof.
  cbn [jrun]. destruct (bstep b o) as [b1 x]. cbn [fst snd].
  destruct (rejected o x); [|destruct (sstep s o)]; cbn [fst snd];
    now destruct (jrun b1 _ ops) as [[w xs] ys].
Qed.

Lemma refines_acked_from : forall ops re b s, sim re b s ->
  fst (fst (jrun b s ops)) = true ->
  observe re ops (snd (fst (jrun b s ops))) = observe re ops (snd (jrun b s ops)) /\
  exists re' s', sim re' (fst (brun b ops)) s'.
Proof.
  induction ops as [|o ops IH]; intros re b s Hsim W; [split; [reflexivity|now exists re, s]|].
  rewrite jrun_cons in *. rewrite brun_cons. cbn [fst snd observe] in *.
  destruct (rejected o (snd (bstep b o))) eqn:Rj.
  - (* rejected write: nothing happened *)
    destruct (rejected_inv b o Rj) as (e & x & -> & _ & B). rewrite B in *. cbn [fst snd] in *.
    cbn [is_reopen]. rewrite orb_false_r. destruct (IH re b s Hsim W) as [IH1 IH2]. now rewrite IH1.
  - apply andb_true_iff in W. destruct W as [W1 W2].
    destruct (sim_step re b s o Hsim W1 Rj) as [Hsim1 Hres].
    destruct (IH _ _ _ Hsim1 W2) as [IH1 IH2]. split; [|exact IH2].
    rewrite IH1. destruct (observed re o); [now rewrite Hres|reflexivity].
Qed.

Lemma refines_acked :
  forall cs ops, fst (fst (jrun (binit cs) sinit ops)) = true ->
    observe false ops (snd (fst (jrun (binit cs) sinit ops))) =
    observe false ops (snd (jrun (binit cs) sinit ops)).
Proof.
  intros cs ops W. exact (proj1 (refines_acked_from ops false (binit cs) sinit (sim_init cs) W)).
Qed.

Lemma jrun_brun : forall ops b s, snd (fst (jrun b s ops)) = snd (brun b ops).
Proof.
  induction ops as [|o ops IH]; intros b s; [reflexivity|].
  rewrite jrun_cons, brun_cons. cbn [fst snd]. f_equal. apply IH.
Qed.

Lemma writes_ok_cons o x ops xs : writes_ok (o :: ops) (x :: xs) = true ->
  rejected o x = false /\ writes_ok ops xs = true.
Proof. destruct o; cbn; auto. destruct x; (discriminate || auto). Qed.

(* when every write is acknowledged the reference of the joint run is the plain reference *)
Lemma jrun_acked : forall ops b s, writes_ok ops (snd (brun b ops)) = true ->
  jrun b s ops = (wf_from s ops, snd (brun b ops), snd (srun s ops)).
Proof.
  induction ops as [|o ops IH]; intros b s A; [reflexivity|].
  rewrite brun_cons in A. apply writes_ok_cons in A. destruct A as [Rj A].
  rewrite jrun_cons, brun_cons, srun_cons. cbn zeta. rewrite Rj, (IH _ _ A). reflexivity.
Qed.

Lemma refines_map :
  forall cs ops, wf_ops ops = true ->
    writes_ok ops (snd (brun (binit cs) ops)) = true ->
    observe false ops (snd (brun (binit cs) ops)) = observe false ops (snd (srun sinit ops)).
Proof.
  intros cs ops W A. pose proof (refines_acked cs ops) as H.
  rewrite (jrun_acked _ _ _ A) in H. exact (H W).
Qed.

(* listing the events of a part of the topological list: every id in it is stored, under
   its own id *)
Lemma topo_listing s l : spec_ok s -> incl l (sp_topo s) ->
  map ev_id (omap (sp_events s) l) = l /\
  forall i, znth (omap (sp_events s) l) i =
            match znth l i with Some x => sp_events s x | None => None end.
Proof.
  intros So. induction l as [|x l IH]; intros Hl.
  - split; [reflexivity|]. intros i. cbn [omap]. now rewrite !znth_nil.
  - destruct (In_nth_error _ _ (Hl x (or_introl eq_refl))) as [n Hn]. rewrite <- znth_nth_error in Hn.
    destruct (so_topo _ So _ _ Hn) as (e & He & _). destruct (so_event _ So _ _ He) as (Hid & _).
    destruct IH as [IH1 IH2]; [intros y Hy; apply Hl; now right|].
    cbn [omap]. rewrite He. split; [cbn; now rewrite Hid, IH1|].
    intros i. unfold znth. destruct (i <? 0); [reflexivity|].
    destruct (Z.to_nat i) as [|p]; cbn [nth_error]; [now rewrite He|].
    rewrite <- !znth_nth_error. apply IH2.
Qed.

Lemma listings_of_sim re b s : sim re b s -> listings_exact (b_db b).
Proof.
  intros [D So C K R L].
  assert (De : forall id, db_get_event (b_db b) id = sp_events s id)
    by (intros id; apply db_get_event_of, (dk_img _ _ D (KEvent id) I)).
  split; [|split].
  - intros c. cbn zeta. rewrite (db_participant_events_ok _ s c (-1) D) by lia.
    change (skipn (Z.to_nat (-1 + 1)) (sp_part s c)) with (sp_part s c).
    split; [|split].
    + apply znth_nodup. intros i j x Hi Hj.
      destruct (so_part _ So _ _ _ Hi) as (e1 & H1 & _ & H1i).
      destruct (so_part _ So _ _ _ Hj) as (e2 & H2 & _ & H2i). congruence.
    + intros id e H Hc. rewrite De in H.
      destruct (so_event _ So _ _ H) as (_ & Hp & _). now rewrite <- Hc.
    + intros i id H. destruct (so_part _ So _ _ _ H) as (e & H1 & H2 & H3).
      exists e. rewrite De. auto.
  - exists (zlen (sp_topo s)). split; [unfold zlen; lia|]. intros N HN.
    rewrite (db_topological_events_ok _ s 0 N D So) by lia.
    change (skipn (Z.to_nat 0) (sp_topo s)) with (sp_topo s).
    rewrite firstn_all2 by (unfold zlen in HN; lia).
    destruct (topo_listing s (sp_topo s) So (incl_refl _)) as [Hmap Hz].
    assert (Hb : forall i e, znth (omap (sp_events s) (sp_topo s)) i = Some e ->
                             ev_topo e = i /\ sp_events s (ev_id e) = Some e).
    { intros i e H. rewrite Hz in H. destruct (znth (sp_topo s) i) as [id|] eqn:Nz; [|discriminate].
      destruct (so_topo _ So _ _ Nz) as (e' & He' & Ht). rewrite He' in H. injection H as ->.
      destruct (so_event _ So _ _ He') as (Hid & _). split; [exact Ht|]. now rewrite Hid. }
    eexists. split; [reflexivity|]. split; [|split; [|split]].
    + unfold zlen. now rewrite <- (map_length ev_id), Hmap.
    + rewrite Hmap. apply znth_nodup. intros i j x Hi Hj.
      destruct (so_topo _ So _ _ Hi) as (e1 & H1 & <-).
      destruct (so_topo _ So _ _ Hj) as (e2 & H2 & <-). congruence.
    + intros id e H. rewrite De in H.
      destruct (so_event _ So _ _ H) as (Hid & _ & Ht). split; [exact Hid|].
      now rewrite Hz, Ht.
    + intros i e H. rewrite De. now apply Hb.
  - intros id e N H HN. rewrite De in H.
    destruct (so_event _ So _ _ H) as (Hid & _ & Ht). pose proof (znth_range _ _ _ Ht) as Rt.
    rewrite (db_topological_events_ok _ s 0 N D So) by lia.
    change (skipn (Z.to_nat 0) (sp_topo s)) with (sp_topo s).
    eexists. split; [reflexivity|].
    destruct (topo_listing s (firstn (Z.to_nat N) (sp_topo s)) So) as [_ Hz].
    { intros x Hx. rewrite <- (firstn_skipn (Z.to_nat N) (sp_topo s)). apply in_or_app. now left. }
    rewrite Hz. unfold znth, zlen in *. destruct (ev_topo e <? 0); [discriminate|].
    rewrite <- (firstn_skipn (Z.to_nat N) (sp_topo s)), nth_error_app1 in Ht
      by (rewrite firstn_length; lia).
    now rewrite Ht.
Qed.

Lemma listings_exact_general :
  forall cs ops, fst (fst (jrun (binit cs) sinit ops)) = true ->
    listings_exact (b_db (fst (brun (binit cs) ops))).
Proof.
  intros cs ops W.
  destruct (proj2 (refines_acked_from ops false (binit cs) sinit (sim_init cs) W)) as (re & s & H).
  exact (listings_of_sim _ _ _ H).
Qed.

Lemma listings_exact_acked :
  forall cs ops, wf_ops ops = true ->
    writes_ok ops (snd (brun (binit cs) ops)) = true ->
    listings_exact (b_db (fst (brun (binit cs) ops))).
Proof.
  intros cs ops W A. apply listings_exact_general. now rewrite (jrun_acked _ _ _ A).
Qed.

(* a NEW event is never rejected; the only possible rejection is TooLate, for a KNOWN event
   (one that the LRU has dropped and that lies below its creator's window) *)
Lemma rejection_is_too_late b s e x : sim false b s -> wf_op s (OSetEvent e) = true ->
  window_write b e = Err x ->
  x = TooLate /\ sp_events s (ev_id e) <> None.
Proof.
  intros Hsim W. pose proof Hsim as [D So C K R L]. apply wf_set_event in W.
  (* the creator is a participant, its window ends at the end of its list *)
  assert (Wm : zmem (ev_creator e) (sp_parts s) = true /\
               ev_index e <= zlen (sp_part s (ev_creator e)) /\
               (sp_events s (ev_id e) = None -> ev_index e = zlen (sp_part s (ev_creator e)))).
  { destruct (sp_events s (ev_id e)) as [e0|] eqn:E0;
      [|destruct W as (Wc & -> & _); repeat split; [exact Wc|apply Z.le_refl]].
    destruct W as (Wc & Wi & _). destruct (so_event _ So _ _ E0) as (_ & Hp & _).
    rewrite <- Wc, <- Wi in Hp. split; [|apply znth_range in Hp; split; [lia|discriminate]].
    destruct (zmem (ev_creator e) (sp_parts s)) eqn:Z; [reflexivity|].
    rewrite (so_unknown _ So _ Z), znth_nil in Hp. discriminate. }
  destruct Wm as (Wm & Wle & Wnew). rewrite (sim_zmem _ _ _ _ Hsim) in Wm.
  unfold window_write, pec_set.
  destruct (lru_find (ev_id e) _); [discriminate|].
  destruct (aget (ev_creator e) (b_rim b)) as [r|] eqn:Gr; [|discriminate].
  pose proof (ro_last _ _ _ (R _ _ Gr) eq_refl) as HL.
  pose proof (ri_set_cases r (ev_id e) (ev_index e)) as Hc.
  destruct (ri_set r (ev_id e) (ev_index e)) as [r'|y]; [discriminate|].
  intros H. injection H as <-. destruct Hc as (H0 & [[-> Hc]|[-> Hc]]); [clear - Hc HL Wle; lia|].
  split; [reflexivity|]. intros E0. specialize (Wnew E0). pose proof (ro_oldest _ _ _ (R _ _ Gr)) as HO.
  unfold ri_oldest, ri_len in *. clear - Wnew HL HO Hc. lia.
Qed.

(* two references that differ only in event payloads *)
Definition coords (e : event) := (ev_id e, ev_creator e, ev_index e, ev_topo e).

Record sp_like (s s' : spec) : Prop := mkSpLike {
  sl_parts : sp_parts s = sp_parts s';
  sl_events : forall id, option_map coords (sp_events s id) = option_map coords (sp_events s' id);
  sl_part : forall c, sp_part s c = sp_part s' c;
  sl_topo : sp_topo s = sp_topo s' }.

Lemma sp_like_refl s : sp_like s s.
Proof. now constructor. Qed.

Lemma sp_like_known s s' id : sp_like s s' -> sp_events s id <> None <-> sp_events s' id <> None.
Proof.
  intros Hl. pose proof (sl_events _ _ Hl id) as E.
  destruct (sp_events s id), (sp_events s' id); try discriminate; split; congruence.
Qed.

Lemma wf_op_like s s' o : sp_like s s' -> wf_op s o = wf_op s' o.
Proof.
  intros [P E Pt T]. destruct o; cbn [wf_op]; try reflexivity. specialize (E (ev_id e)).
  destruct (sp_events s (ev_id e)) as [e0|], (sp_events s' (ev_id e)) as [e0'|]; try discriminate.
  - injection E as _ -> -> ->. reflexivity.
  - now rewrite P, Pt, T.
Qed.

Lemma sstep_like s s' o : sp_like s s' -> sp_like (fst (sstep s o)) (fst (sstep s' o)).
Proof.
  intros Hl. pose proof Hl as [P E Pt T]. destruct o; cbn [sstep fst]; try exact Hl.
  3-5: now constructor.
  - unfold s_add_participant. rewrite <- P. destruct (zmem c (sp_parts s)); [exact Hl|].
    constructor; cbn; auto.
  - unfold s_set_event. pose proof (E (ev_id e)) as Ee.
    assert (E' : forall id, option_map coords (fupd (sp_events s) (ev_id e) (Some e) id) =
                            option_map coords (fupd (sp_events s') (ev_id e) (Some e) id)).
    { intros id. unfold fupd. destruct (Z.eqb _ _); [reflexivity|apply E]. }
    destruct (sp_events s (ev_id e)), (sp_events s' (ev_id e)); try discriminate;
      constructor; cbn; auto.
    + intros c. unfold fupd. now rewrite !Pt.
    + now rewrite T.
Qed.

Lemma like_rejected s s' e : sp_like s s' -> spec_ok s' -> wf_op s (OSetEvent e) = true ->
  sp_events s (ev_id e) <> None -> sp_like (s_set_event s e) s'.
Proof.
  intros Hl So' W N. pose proof Hl as [P E Pt T]. apply wf_set_event in W. unfold s_set_event.
  destruct (sp_events s (ev_id e)) as [e0|] eqn:E0; [|congruence]. destruct W as (Wc & Wi & Wt).
  constructor; cbn; auto. intros id. unfold fupd.
  destruct (Z.eqb_spec (ev_id e) id) as [<-|]; [|apply E]. specialize (E (ev_id e)). rewrite E0 in E.
  destruct (sp_events s' (ev_id e)) as [e0'|] eqn:E0'; [|discriminate].
  destruct (so_event _ So' _ _ E0') as (Hid & _). injection E as E1 E2 E3 E4.
  unfold coords. cbn. congruence.
Qed.

Lemma no_reopen_from : forall ops b s s', sim false b s' -> sp_like s s' ->
  wf_from s ops = true -> no_reopen ops = true ->
  exists s2, sim false (fst (brun b ops)) s2 /\ sp_like (fst (srun s ops)) s2.
Proof.
  induction ops as [|o ops IH]; intros b s s' Hsim Hl W NR; [now exists s'|].
  cbn [wf_from no_reopen] in *. apply andb_true_iff in W. destruct W as [W1 W2].
  apply andb_true_iff in NR. destruct NR as [NR1 NR2]. apply negb_true_iff in NR1.
  rewrite brun_cons, srun_cons. cbn [fst].
  assert (W1' : wf_op s' o = true) by now rewrite <- (wf_op_like s s' o Hl).
  destruct (rejected o (snd (bstep b o))) eqn:Rj.
  - (* a rejected write is the update of a known event: only its payload is lost *)
    destruct (rejected_inv b o Rj) as (e & x & -> & Hw & ->). cbn [fst].
    destruct (rejection_is_too_late b s' e x Hsim W1' Hw) as [_ Hk].
    apply (sp_like_known _ _ _ Hl) in Hk.
    apply (IH b _ s' Hsim); [|exact W2|exact NR2].
    cbn [sstep fst]. apply like_rejected; auto. apply (si_spec _ _ _ Hsim).
  - destruct (sim_step false b s' o Hsim W1' Rj) as [Hsim1 _]. rewrite NR1 in Hsim1.
    apply (IH _ _ _ Hsim1); [now apply sstep_like|exact W2|exact NR2].
Qed.

Lemma listings_exact_no_reopen :
  forall cs ops, wf_ops ops = true -> no_reopen ops = true ->
    listings_exact (b_db (fst (brun (binit cs) ops))).
Proof.
  intros cs ops W NR.
  destruct (no_reopen_from ops (binit cs) sinit sinit (sim_init cs) (sp_like_refl _) W NR) as [s2 [H _]].
  exact (listings_of_sim _ _ _ H).
Qed.

Lemma wf_from_app : forall ops s o, wf_from s (ops ++ [o]) = true ->
  wf_from s ops = true /\ wf_op (fst (srun s ops)) o = true.
Proof.
  induction ops as [|a ops IH]; intros s o W.
  - cbn in *. apply andb_true_iff in W. tauto.
  - rewrite srun_cons. cbn [fst app wf_from] in *. apply andb_true_iff in W. destruct W as [W1 W2].
    destruct (IH _ _ W2) as [H1 H2]. now rewrite W1, H1.
Qed.

(* before the first reopen a wf write is rejected only with TooLate, only for a known id *)
Lemma only_too_late :
  forall cs ops e, wf_ops (ops ++ [OSetEvent e]) = true -> no_reopen ops = true ->
    let b := fst (brun (binit cs) ops) in
    forall x, snd (bstep b (OSetEvent e)) = RErr x ->
      x = TooLate /\ sp_events (fst (srun sinit ops)) (ev_id e) <> None.
Proof.
  intros cs ops e W NR b x Hx. apply wf_from_app in W. destruct W as [W1 W2].
  destruct (no_reopen_from ops (binit cs) sinit sinit (sim_init cs) (sp_like_refl _) W1 NR)
    as [s2 [Hsim Hl]]. fold b in Hsim.
  rewrite (wf_op_like _ _ _ Hl) in W2.
  destruct (rejected_inv b (OSetEvent e)) as (e' & x' & Ee & Hw & B); [now rewrite Hx|].
  injection Ee as <-. rewrite B in Hx. injection Hx as ->.
  destruct (rejection_is_too_late b s2 e x Hsim W2 Hw) as [Hx1 Hk].
  split; [exact Hx1|]. now apply (sp_like_known _ _ _ Hl).
Qed.

Lemma cache_coherent_unfolded : forall cs ops,
  let b := fst (brun (binit cs) ops) in
  coh KEvent VEvent (b_events b) (b_db b) /\ coh KBlock VBlock (b_blocks b) (b_db b) /\
  coh KRound VZ (b_rounds b) (b_db b) /\ coh KFrame VZ (b_frames b) (b_db b).
Proof.
  intros cs ops b. destruct (brun_invariant cache_ok cache_ok_step ops _ (cache_ok_init cs)) as [A B C D].
  exact (conj A (conj B (conj C D))).
Qed.

(* the refinement WITHOUT the "writes were acknowledged" hypothesis is false *)
Lemma refines_map_unconditional_refuted :
  ~ (forall cs ops, wf_ops ops = true ->
      observe false ops (snd (brun (binit cs) ops)) = observe false ops (snd (srun sinit ops))).
Proof.
  intros H. specialize (H 2 w_reset_rejected eq_refl). vm_compute in H. discriminate H.
Qed.

Lemma refines_map_across_reopen_refuted :
  ~ (forall cs ops, wf_ops ops = true -> writes_ok ops (snd (brun (binit cs) ops)) = true ->
      observe_all ops (snd (brun (binit cs) ops)) = observe_all ops (snd (srun sinit ops))).
Proof.
  intros H. specialize (H 5 w_listing_after_reopen eq_refl eq_refl). vm_compute in H. discriminate H.
Qed.

(* gap-free listings WITHOUT acknowledgement / no-reopen hypothesis are false *)
Lemma listings_exact_unconditional_refuted :
  ~ (forall cs ops, wf_ops ops = true -> listings_exact (b_db (fst (brun (binit cs) ops)))).
Proof.
  intros H. destruct (H 5 w_topo_gap eq_refl) as (_ & _ & H3).
  destruct (H3 103 (mkev 103 8 0 3 1) 10 eq_refl eq_refl) as (es & H1 & H2).
  vm_compute in H1. injection H1 as <-. vm_compute in H2. discriminate H2.
Qed.

(* model adequacy: the fuel of the two DB scans never runs out.  For EVERY reachable DB (any
   operation sequence, disciplined or not) a scan with db_fuel d steps meets a missing key, so
   more fuel changes nothing: the bounded loops are the unbounded Go loops. *)

Inductive db_reach : db -> Prop :=
| dr_empty : db_reach db_empty
| dr_set : forall k v d, db_reach d -> db_reach (db_set k v d).

Lemma db_reach_step b o : db_reach (b_db b) -> db_reach (b_db (fst (bstep b o))).
Proof.
  intros H. rewrite bstep_eq. destruct o; try exact H; sb; try (now constructor).
  - destruct (db_get (b_db b) (KRoot c)); [exact H|now constructor].
  - destruct (window_write b e); [sb|exact H].
    unfold db_set_event. destruct (db_get (b_db b) (KEvent (ev_id e))); repeat constructor; exact H.
Qed.

Lemma dbkey_eq_dec (a b : dbkey) : {a = b} + {a <> b}.
Proof. decide equality; apply Z.eq_dec. Qed.

Lemma db_reach_support d : db_reach d ->
  exists ks, (length ks <= db_n d)%nat /\ forall k, db_get d k <> None -> In k ks.
Proof.
  induction 1 as [|k v d H (ks & Hl & Hs)].
  - exists []. split; [apply Nat.le_refl|]. intros k H. now cbn in H.
  - exists (k :: ks). split; [apply le_n_S, Hl|]. intros k' Hk.
    destruct (dbkey_eq_dec k k') as [->|N]; [now left|right].
    apply Hs. now rewrite db_get_set_other in Hk.
Qed.

(* a scan that reads the key of position i first and, when that key is present, depends on the
   remaining fuel only through the scan from i + 1: each present key met uses up one element of
   the support, which is shorter than the fuel *)
Lemma scan_stable {R} (key : Z -> dbkey) (scan : nat -> Z -> R) d :
  db_reach d -> (forall i j, key i = key j -> i = j) ->
  (forall f g i, (db_get d (key i) <> None -> scan f (i + 1) = scan g (i + 1)) ->
     scan (S f) i = scan (S g) i) ->
  forall extra i, scan (db_fuel d + extra)%nat i = scan (db_fuel d) i.
Proof.
  intros Rd Inj Hs extra i. destruct (db_reach_support d Rd) as (ks & Hl & Hk). unfold db_fuel.
  assert (H : forall f ks i g, (length ks < f)%nat -> (f <= g)%nat ->
            (forall j, i <= j -> db_get d (key j) <> None -> In (key j) ks) -> scan g i = scan f i).
  { clear ks Hl Hk. induction f as [|f IH]; intros ks j g Hl Hg Hk; [lia|]. destruct g as [|g]; [lia|].
    apply Hs. intros P. apply (IH (remove dbkey_eq_dec (key j) ks)); [|lia|].
    - pose proof (remove_length_lt dbkey_eq_dec ks (key j) (Hk j (Z.le_refl j) P)). lia.
    - intros j' Hj Pj. apply in_in_remove; [|apply Hk; [lia|exact Pj]].
      intros E. apply Inj in E. lia. }
  apply (H _ ks); [lia|lia|auto].
Qed.

Lemma fuel_irrelevant :
  forall cs ops c i t bound extra,
    let d := b_db (fst (brun (binit cs) ops)) in
    db_part_scan (db_fuel d + extra) d c i = db_part_scan (db_fuel d) d c i /\
    db_topo_scan (db_fuel d + extra) d t bound = db_topo_scan (db_fuel d) d t bound.
Proof.
  intros cs ops c i t bound extra d.
  assert (R : db_reach d).
  { apply (brun_invariant (fun b => db_reach (b_db b)) db_reach_step). constructor. }
  split.
  - apply (scan_stable (KPart c) (fun f i => db_part_scan f d c i) d R); [congruence|].
    intros f g j H. cbn [db_part_scan]. unfold db_get_id.
    destruct (db_get d (KPart c j)) as [[]|]; try reflexivity. now rewrite H.
  - apply (scan_stable KTopo (fun f t => db_topo_scan f d t bound) d R); [congruence|].
    intros f g j H. cbn [db_topo_scan]. unfold db_get_id.
    destruct (db_get d (KTopo j)) as [[]|]; try reflexivity. now rewrite H.
Qed.
