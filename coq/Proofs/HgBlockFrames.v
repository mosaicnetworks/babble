(* Which functions can change the block store, the delivered list, the validator-set table and
   the node-level components: only commit (inside ProcessDecidedRounds) and ProcessSigPool.
   [bview] projects those components; InsertEvent and the ordering passes preserve it. *)
From Coq Require Import ZArith List Bool Lia.
From RecordUpdate Require Import RecordSet.
From V Require Import Model.ZMap Model.Quorum Model.Voting Model.HgImpl Proofs.ZMapFacts Proofs.HgFrames.
Import ListNotations RecordSetNotations.
Open Scope Z_scope.

Definition bview (st : hg) :=
  (blocks st, last_block st, delivered st, peersets st, validators st, anchor st, self st, oracle st,
   self_sigs st, frames st, last_consensus st).

Lemma bview_ins_rest st st' : ins_rest st' = ins_rest st -> bview st' = bview st.
Proof.
  intros H.
  exact (f_equal (fun '(ps, _, _, lc, _, bl, lb, fr, _, _, an, se, va, ss, de, orc) =>
                    (bl, lb, de, ps, va, an, se, orc, ss, fr, lc)) H).
Qed.
Lemma bview_ord_rest st st' : ord_rest st' = ord_rest st -> bview st' = bview st.
Proof. intros H. apply bview_ins_rest, ins_rest_ord_rest, H. Qed.

Lemma bview_set_rounds st p : bview (st <| rounds := p |>) = bview st.
Proof. reflexivity. Qed.

Lemma insert_event_bview st e : bview (snd (insert_event st e)) = bview st.
Proof. apply bview_ins_rest, insert_event_ins_rest. Qed.

(** DivideRounds / DecideFame / DecideRoundReceived *)
Lemma divide_one_bview st x : bview (divide_one st x) = bview st.
Proof. apply bview_ord_rest, divide_one_ord_rest. Qed.
Lemma divide_rounds_bview st : bview (divide_rounds st) = bview st.
Proof. apply bview_ord_rest, divide_rounds_ord_rest. Qed.
Lemma decide_fame_round_bview s dec pr : bview (fst (decide_fame_round (s, dec) pr)) = bview s.
Proof. apply bview_ord_rest, decide_fame_round_ord_rest. Qed.
Lemma decide_fame_bview st : bview (decide_fame st) = bview st.
Proof. apply bview_ord_rest, decide_fame_ord_rest. Qed.
Lemma decide_rr_one_bview s und x : bview (fst (decide_rr_one (s, und) x)) = bview s.
Proof. apply bview_ord_rest, decide_rr_one_ord_rest. Qed.
Lemma decide_round_received_bview st : bview (decide_round_received st) = bview st.
Proof. apply bview_ord_rest, decide_round_received_ord_rest. Qed.
