(* Stage S2: the consensus passes and the coordinate invariant.  The passes other than the division of
   the new event only touch components the invariant does not read ([ckeep]); the division keeps
   [cinvD P] as long as the table answers P q for the rounds it creates.  Under static membership
   [cinv] then holds in every reachable state of the per-event pipeline (hrun), as long as no
   consensus pass has failed. *)
From Coq Require Import ZArith List Bool Lia ZifyBool.
From RecordUpdate Require Import RecordSet.
From V Require Import Model.ZMap Model.Quorum Model.Voting Model.HgImpl Proofs.ZMapFacts Proofs.HgFrames
  Proofs.HgDagFrames Proofs.AdmissionProofs Proofs.Ancestry Proofs.HgBlockFrames Proofs.BlockInv
  Proofs.RoundOrder Proofs.OrderFrames Proofs.OrderProofs Proofs.Static Proofs.FirstDescD Proofs.FirstDesc
  Proofs.FdWalk Proofs.DivInv Proofs.InsertInvD Proofs.DivInvD.
Import ListNotations RecordSetNotations.
Open Scope Z_scope.

Lemma ckeep_set_evst s x es es' :
  get_event s x = Some es -> ev_c es' = ev_c es -> ckeep s (set_evst s x es').
Proof.
  intros Hx Hc. constructor; try (reflexivity).
  intros y. rewrite get_event_set_evst.
  destruct (Z.eqb_spec x y) as [->|]; cbn [andb]; [|reflexivity].
  destruct (0 <=? y); [|reflexivity]. rewrite Hx. cbn [option_map]. congruence.
Qed.

Lemma ckeep_fail s : ckeep s (fail s).
Proof. apply ckeep_same_fields; reflexivity. Qed.
Lemma ckeep_set_pending s p : ckeep s (s <| pending := p |>).
Proof. apply ckeep_same_fields; reflexivity. Qed.
Lemma ckeep_set_undetermined s p : ckeep s (s <| undetermined := p |>).
Proof. apply ckeep_same_fields; reflexivity. Qed.

Lemma lamport_f_witness_memo fuel : forall st x, witness_memo (snd (lamport_f fuel st x)) = witness_memo st.
Proof.
  induction fuel as [|f IH]; intros st x; cbn [lamport_f].
  - destruct (zget x (lt_memo st)); reflexivity.
  - destruct (zget x (lt_memo st)); [reflexivity|].
    destruct (get_event st x) as [ex|]; [|reflexivity].
    assert (H1 : witness_memo (snd (if e_sp (ev_e ex) =? -1 then (Some (-1), st) else lamport_f f st (e_sp (ev_e ex)))) = witness_memo st).
    { destruct (e_sp (ev_e ex) =? -1); [reflexivity|apply IH]. }
    destruct (if e_sp (ev_e ex) =? -1 then (Some (-1), st) else lamport_f f st (e_sp (ev_e ex))) as [[plt|] st1];
      cbn [snd] in *; [|exact H1].
    destruct (e_op (ev_e ex) =? -1).
    + cbn [snd]. rewrite <- H1. reflexivity.
    + destruct (get_event st1 (e_op (ev_e ex))).
      * pose proof (IH st1 (e_op (ev_e ex))) as H2.
        destruct (lamport_f f st1 (e_op (ev_e ex))) as [[t|] s]; cbn [snd] in *; [|congruence].
        rewrite <- H1, <- H2. reflexivity.
      * cbn [snd]. rewrite <- H1. reflexivity.
Qed.

Lemma lamport_f_ckeep fuel st x : ckeep st (snd (lamport_f fuel st x)).
Proof.
  pose proof (lamport_f_nomemo fuel st x) as N.
  apply ckeep_same_fields.
  - apply nomemo_eq_events; exact N.
  - apply lamport_f_round_memo.
  - apply lamport_f_witness_memo.
  - apply nomemo_eq_rounds; exact N.
  - apply nomemo_eq_peersets; exact N.
  - apply nomemo_eq_topo; exact N.
Qed.

Lemma divide_lt_ckeep st x : ckeep st (divide_lt st x).
Proof.
  unfold divide_lt. pose proof (lamport_f_ckeep (fuel_of st) st x) as K.
  destruct (lamport_f (fuel_of st) st x) as [[t|] s]; cbn [snd] in K.
  - eapply ckeep_trans; [exact K|]. unfold set_event_lt.
    destruct (get_event s x) as [ev|] eqn:E; [|apply ckeep_refl].
    eapply ckeep_set_evst; [exact E|]. reflexivity.
  - eapply ckeep_trans; [exact K|apply ckeep_fail].
Qed.

Lemma get_round_some_nonneg st r ri : get_round st r = Some ri -> 0 <= r.
Proof. unfold get_round. apply zget_some_nonneg. Qed.

Lemma ckeep_rounds_zset st r ri ri' (st' : hg) :
  get_round st r = Some ri -> wl_of ri' = wl_of ri ->
  events st' = events st -> round_memo st' = round_memo st -> witness_memo st' = witness_memo st ->
  rounds st' = zset r ri' (rounds st) -> peersets st' = peersets st -> topo st' = topo st ->
  ckeep st st'.
Proof.
  intros Hg Hw E R W Ro P T.
  pose proof (get_round_some_nonneg _ _ _ Hg) as Hr.
  constructor; auto.
  - intros y. unfold get_event. rewrite E. reflexivity.
  - intros r'. unfold wl. rewrite (get_round_zset st st' r ri' r' Hr Ro).
    destruct (Z.eqb_spec r r') as [<-|]; [rewrite Hg; exact Hw|reflexivity].
  - intros r'. rewrite (get_round_zset st st' r ri' r' Hr Ro).
    destruct (Z.eqb_spec r r') as [<-|]; [rewrite Hg; split; discriminate|reflexivity].
Qed.

Lemma ckeep_set_round st r ri ri' :
  get_round st r = Some ri -> wl_of ri' = wl_of ri -> ckeep st (set_round st r ri').
Proof. intros Hg Hw. eapply ckeep_rounds_zset; eauto; reflexivity. Qed.

Lemma aget_in_keys {A} k (l : list (Z * A)) : In k (map fst l) -> aget k l <> None.
Proof.
  induction l as [|[k' v] r IH]; cbn [map fst aget]; [intros []|].
  destruct (Z.eqb_spec k' k); [discriminate|]. intros [E|H]; [contradiction|auto].
Qed.

Lemma wl_of_aset ri x w t t' :
  aget x (ri_created ri) = Some (w, t) ->
  map (fun en : Z * (bool * trilean) => (fst en, fst (snd en))) (aset x (w, t') (ri_created ri)) = wl_of ri.
Proof.
  unfold wl_of. induction (ri_created ri) as [|[k [w0 t0]] l IH]; cbn [aget aset map]; [discriminate|].
  destruct (Z.eqb_spec k x) as [->|Hne].
  - intros H. inversion H; subst. reflexivity.
  - intros H. cbn [map fst snd]. rewrite IH by exact H. reflexivity.
Qed.

Lemma wl_of_set_fame ri x v : aget x (ri_created ri) <> None -> wl_of (set_fame ri x v) = wl_of ri.
Proof.
  intros H. unfold set_fame. destruct (aget x (ri_created ri)) as [[w t]|] eqn:E; [|contradiction].
  destruct ri as [cr rc dc]. cbn [ri_created] in E. unfold wl_of at 1. cbn.
  apply (wl_of_aset (mkRinfo cr rc dc) x w t _ E).
Qed.

Lemma wl_of_witnesses_decided ri ps : wl_of (snd (witnesses_decided ri ps)) = wl_of ri.
Proof.
  unfold witnesses_decided. destruct (ri_decided ri); [reflexivity|].
  destruct (existsb _ _); [reflexivity|]. cbn [snd]. reflexivity.
Qed.

Lemma witnesses_in_keys ri x : In x (witnesses ri) -> In x (map fst (ri_created ri)).
Proof.
  unfold witnesses. intros H. apply in_map_iff in H. destruct H as [en [E H]].
  apply filter_In in H. destruct H as [H _]. subst x. apply in_map. exact H.
Qed.

Lemma wl_of_keys ri ri' : wl_of ri' = wl_of ri -> map fst (ri_created ri') = map fst (ri_created ri).
Proof.
  unfold wl_of. intros H. apply (f_equal (map fst)) in H. rewrite !map_map in H. cbn [fst] in H. exact H.
Qed.

Lemma fame_fold_wl s r ws ri : incl ws (witnesses ri) -> forall ri0 ri',
  wl_of ri0 = wl_of ri ->
  fold_left (fun (a : option rinfo) x =>
               match a with
               | None => None
               | Some ri' =>
                 if is_decided ri' x then Some ri'
                 else match fame_of s x r with
                      | None => None
                      | Some None => Some ri'
                      | Some (Some v) => Some (set_fame ri' x v)
                      end
               end) ws (Some ri0) = Some ri' -> wl_of ri' = wl_of ri.
Proof.
  induction ws as [|x ws IH]; intros Hin ri0 ri' H0; cbn [fold_left].
  - intros E. inversion E; subst. exact H0.
  - assert (Hws : incl ws (witnesses ri)) by (intros y Hy; apply Hin; right; exact Hy).
    assert (Hx : aget x (ri_created ri0) <> None).
    { apply aget_in_keys. rewrite (wl_of_keys _ _ H0). apply witnesses_in_keys. apply Hin. left. reflexivity. }
    destruct (is_decided ri0 x); [apply IH; assumption|].
    destruct (fame_of s x r) as [[v|]|].
    + apply IH; [assumption|]. rewrite wl_of_set_fame by exact Hx. exact H0.
    + apply IH; assumption.
    + intros E. exfalso. clear -E. induction ws as [|y ws IH]; cbn [fold_left] in E; [discriminate|auto].
Qed.

Lemma decide_fame_round_ckeep s dec pr : ckeep s (fst (decide_fame_round (s, dec) pr)).
Proof.
  unfold decide_fame_round.
  destruct (failed s); [apply ckeep_refl|].
  destruct (get_round s (fst pr)) as [ri|] eqn:Hg; [|apply ckeep_fail].
  destruct (get_peerset s (fst pr)) as [rps|]; [|apply ckeep_fail].
  match goal with |- context [fold_left ?f ?l ?a] => destruct (fold_left f l a) as [ri'|] eqn:Hf end; [|apply ckeep_fail].
  pose proof (fame_fold_wl s (fst pr) (witnesses ri) ri (incl_refl _) ri ri' eq_refl Hf) as Hw.
  pose proof (wl_of_witnesses_decided ri' rps) as Hd.
  destruct (witnesses_decided ri' rps) as [d ri'']. cbn [fst snd] in *.
  eapply ckeep_set_round; [exact Hg|congruence].
Qed.

Lemma fold_ckeep_fst {A B} (f : hg * B -> A -> hg * B) (l : list A) :
  (forall s b a, ckeep s (fst (f (s, b) a))) ->
  forall st b, ckeep st (fst (fold_left f l (st, b))).
Proof.
  intros Hf. induction l as [|a r IH]; intros st b; cbn [fold_left]; [apply ckeep_refl|].
  specialize (Hf st b a). destruct (f (st, b) a) as [s' b']. cbn [fst] in Hf.
  eapply ckeep_trans; [exact Hf|apply IH].
Qed.

Lemma decide_fame_ckeep st : ckeep st (decide_fame st).
Proof.
  unfold decide_fame.
  pose proof (fold_ckeep_fst decide_fame_round (pending st) decide_fame_round_ckeep st []) as F.
  destruct (fold_left decide_fame_round (pending st) (st, [])) as [s decided]. cbn [fst] in F.
  destruct (failed s); [exact F|]. eapply ckeep_trans; [exact F|apply ckeep_set_pending].
Qed.

Lemma ckeep_set_rounds st i tr tr' :
  get_round st i = Some tr -> wl_of tr' = wl_of tr -> ckeep st (st <| rounds := zset i tr' (rounds st) |>).
Proof. intros Hg Hw. eapply ckeep_rounds_zset; eauto; reflexivity. Qed.

Lemma rr_loop_ckeep x : forall is_ st, ckeep st (fst (rr_loop st x is_)).
Proof.
  induction is_ as [|i rest IH]; intros st; cbn [rr_loop]; [apply ckeep_refl|].
  destruct (get_round st i) as [tr|] eqn:Hg;
    [|destruct (lower_bound st) as [lb0|]; [destruct (i <=? lb0); [apply IH|apply ckeep_refl]|apply ckeep_refl]].
  destruct (get_peerset st i) as [tps|]; [|apply ckeep_fail].
  pose proof (wl_of_witnesses_decided tr tps) as Hd.
  destruct (witnesses_decided tr tps) as [d tr']. cbn [snd] in Hd.
  set (st1 := st <| rounds := zset i tr' (rounds st) |>).
  assert (K1 : ckeep st st1) by (apply (ckeep_set_rounds st i tr tr' Hg Hd)).
  assert (Hi : 0 <= i) by (eapply get_round_some_nonneg; eauto).
  assert (Hg1 : get_round st1 i = Some tr').
  { rewrite (get_round_zset st st1 i tr' i Hi) by (unfold st1; reflexivity).
    rewrite Z.eqb_refl. reflexivity. }
  destruct d; cbn [negb].
  - match goal with |- context [fold_left ?f ?l ?a] => destruct (fold_left f l a) as [sees|] end;
      [|cbn [fst]; eapply ckeep_trans; [exact K1|apply ckeep_fail]].
    destruct (_ && _).
    + destruct (get_event st1 x) as [ex|] eqn:Hx; cbn [fst]; [|eapply ckeep_trans; [exact K1|apply ckeep_fail]].
      eapply ckeep_trans; [exact K1|].
      set (st2 := set_evst st1 x (ex <| ev_rr := Some i |>)).
      assert (K2 : ckeep st1 st2) by (eapply ckeep_set_evst; [exact Hx|reflexivity]).
      eapply ckeep_trans; [exact K2|].
      apply (ckeep_set_round st2 i tr'); [|reflexivity].
      unfold st2, get_round, set_evst. unfold get_round in Hg1. exact Hg1.
    + eapply ckeep_trans; [exact K1|apply IH].
  - destruct (lower_bound st1) as [lb|]; [|exact K1].
    destruct (lb <? i); [exact K1|]. eapply ckeep_trans; [exact K1|apply IH].
Qed.

(* with every stored event memoised, round_f only reads *)
Lemma round_f_pureD P f st x : cinvD P None st -> snd (round_f (S f) st x) = st.
Proof.
  intros I. destruct (rmemo st x) as [r|] eqn:E.
  - rewrite (round_f_memo_hit (S f) st x r E). reflexivity.
  - cbn [round_f]. unfold rmemo in E. rewrite E.
    destruct (get_event st x) as [ex|] eqn:Hx; [|reflexivity].
    exfalso. destruct (cd_all _ _ _ I x ex Hx ltac:(discriminate)) as [r [w [Hr _]]].
    unfold rmemo in Hr. congruence.
Qed.

Lemma decide_rr_one_keep P s und x : cinvD P None s -> ckeep s (fst (decide_rr_one (s, und) x)).
Proof.
  intros I. unfold decide_rr_one.
  destruct (failed s); [apply ckeep_refl|].
  pose proof (round_f_pureD P (Z.to_nat (topo s)) s x I) as Hp. unfold fuel_of.
  destruct (round_f (S (Z.to_nat (topo s))) s x) as [[r|] s1]; cbn [snd] in Hp; subst s1;
    [|cbn [fst]; apply ckeep_fail].
  pose proof (rr_loop_ckeep x (zrange (r + 1) (last_round s)) s) as Fl.
  destruct (rr_loop s x (zrange (r + 1) (last_round s))) as [s' received]. exact Fl.
Qed.

Lemma decide_round_received_keep P st : cinvD P None st -> ckeep st (decide_round_received st).
Proof.
  intros I. unfold decide_round_received.
  assert (G : forall l s und, ckeep st s -> ckeep st (fst (fold_left decide_rr_one l (s, und)))).
  { induction l as [|x l IH]; intros s und K; cbn [fold_left]; [exact K|].
    pose proof (decide_rr_one_keep P s und x (cinvD_ckeepD _ _ _ _ I (ckeep_ckeepD _ _ K))) as K1.
    destruct (decide_rr_one (s, und) x) as [s' und']. cbn [fst] in K1.
    apply IH. eapply ckeep_trans; eauto. }
  specialize (G (undetermined st) st [] (ckeep_refl st)).
  destruct (fold_left decide_rr_one (undetermined st) (st, [])) as [s und]. cbn [fst] in G.
  destruct (failed s); [exact G|]. eapply ckeep_trans; [exact G|apply ckeep_set_undetermined].
Qed.

Lemma decide_rr_one_ckeepD P s und x : cinvD P None s -> ckeepD s (fst (decide_rr_one (s, und) x)).
Proof. intros I. apply ckeep_ckeepD, (decide_rr_one_keep P), I. Qed.
Lemma decide_round_received_ckeepD P st : cinvD P None st -> ckeepD st (decide_round_received st).
Proof. intros I. apply ckeep_ckeepD, (decide_round_received_keep P), I. Qed.

(* [cw]: what the invariant reads, apart from the peer-set table.  ProcessDecidedRounds and ProcessSigPool
   leave it alone; that they leave the table alone under static membership is in Static.v *)
Definition cw (st : hg) := (events st, rounds st, round_memo st, witness_memo st, topo st).

Lemma cw_blk_rest s s' : blk_rest s' = blk_rest s -> cw s' = cw s.
Proof.
  intros H. exact (f_equal (fun '(ev, ro, _, _, rm, wm, _, _, to, _) => (ev, ro, rm, wm, to)) H).
Qed.

Lemma blk_rest_trans (a b c : hg) : blk_rest b = blk_rest a -> blk_rest c = blk_rest b -> blk_rest c = blk_rest a.
Proof. intros H1 H2. rewrite H2. exact H1. Qed.
Lemma set_peerset_blk_rest st r ps st' : set_peerset st r ps = Some st' -> blk_rest st' = blk_rest st.
Proof. intros H. apply blk_rest_commit_rest, (set_peerset_commit_rest _ _ _ _ H). Qed.

Lemma cw_process_round s processed stop pr : cw (fst (fst (process_round (s, processed, stop) pr))) = cw s.
Proof.
  apply cw_blk_rest.
  exact (process_round_steps _ blk_rest_trans set_peerset_blk_rest blk_rest_round_rest s processed stop pr).
Qed.
Lemma cw_process_decided_rounds st : cw (process_decided_rounds st) = cw st.
Proof. apply cw_blk_rest, process_decided_rounds_blk_rest. Qed.
Lemma cw_process_sigpool st : cw (process_sigpool st) = cw st.
Proof. apply cw_blk_rest, blk_rest_commit_rest, commit_rest_sig_rest, process_sigpool_sig_rest. Qed.

Lemma ckeepD_cw s s' : cw s' = cw s -> ckeepD s s'.
Proof. unfold cw. intros H. inversion H. apply ckeepD_same_fields; assumption. Qed.
Lemma ckeep_cw s s' : cw s' = cw s -> peersets s' = peersets s -> ckeep s s'.
Proof. intros H P. apply ckeep_iff. split; [apply ckeepD_cw|]; assumption. Qed.

Definition after_div (E : option Z) (y : Z) : option Z :=
  match E with Some x => if x =? y then None else E | None => None end.

Lemma divide_one_cinvD P E s y :
  cinvD P E s -> failed s = false -> peersets s <> [] ->
  (E = Some y -> forall q, get_round (divide_round s y) q <> None -> get_peerset s q = Some (P q)) ->
  failed (divide_one s y) = true \/ cinvD P (after_div E y) (divide_one s y).
Proof.
  intros I Hf Hne Hps. unfold divide_one. rewrite Hf.
  destruct (get_event s y) as [ev|] eqn:Hy; [|left; apply failed_fail].
  cbv zeta.
  assert (H1 : exists st1, (match ev_round ev with Some _ => s | None => divide_round s y end) = st1 /\
                 cinvD P (after_div E y) st1 /\ failed st1 = false).
  { destruct E as [x|]; cbn [after_div].
    - destruct (Z.eqb_spec x y) as [->|Hnxy].
      + destruct (cd_exc _ _ _ I y eq_refl) as [_ [_ [ex [Hx [Hr _]]]]].
        rewrite Hy in Hx. inversion Hx; subst ex. rewrite Hr.
        eexists. split; [reflexivity|]. split; [exact (divide_round_cinvD P s y I Hne (Hps eq_refl))|].
        rewrite (divide_round_failedD P s y I Hne). exact Hf.
      + destruct (cd_all _ _ _ I y ev Hy ltac:(congruence)) as [r [w [_ [_ Hr]]]]. rewrite Hr. eauto.
    - destruct (cd_all _ _ _ I y ev Hy ltac:(discriminate)) as [r [w [_ [_ Hr]]]]. rewrite Hr. eauto. }
  destruct H1 as [st1 [-> [I1 F1]]]. rewrite F1.
  destruct (get_event st1 y) as [ev1|]; [|left; apply failed_fail].
  destruct (ev_lt ev1); [right; exact I1|].
  right. eapply cinvD_ckeepD; [exact I1|apply ckeep_ckeepD, divide_lt_ckeep].
Qed.

Lemma divide_one_cinv g E s y :
  cinv g E s -> failed s = false ->
  failed (divide_one s y) = true \/ cinv g (after_div E y) (divide_one s y).
Proof.
  intros I Hf. pose proof (c_static _ _ _ I) as S. apply cinv_cinvD in I.
  assert (Hne : peersets s <> []) by (rewrite S; discriminate).
  destruct (divide_one_cinvD _ E s y I Hf Hne (fun _ q _ => get_peerset_static g s q S)) as [F|I1]; [left; exact F|].
  right. apply cinv_iff. split; [|exact I1].
  exact (static_eq _ _ _ (bview_peersets _ _ (divide_one_bview s y)) S).
Qed.

Lemma divide_rounds_cinv g l : forall s E,
  failed s = true \/ cinv g E s ->
  match E with Some x => In x l | None => True end ->
  failed (fold_left divide_one l s) = true \/ cinv g None (fold_left divide_one l s).
Proof.
  induction l as [|y l IH]; intros s E H HE; cbn [fold_left].
  - destruct E; [destruct HE|exact H].
  - destruct (failed s) eqn:Hf.
    + rewrite (divide_one_failed s y Hf). apply (IH s None); [left; exact Hf|exact Logic.I].
    + destruct H as [H|I]; [congruence|].
      apply (IH (divide_one s y) (after_div E y)).
      * apply divide_one_cinv; assumption.
      * destruct E as [x|]; cbn [after_div]; [|exact Logic.I].
        destruct (Z.eqb_spec x y) as [->|Hne]; [exact Logic.I|].
        destruct HE as [E0|HE]; [congruence|exact HE].
Qed.

(* the passes after DivideRounds keep the invariant *)
Lemma run_consensus_cinvD_divided P st :
  failed (divide_rounds st) = true \/ cinvD P None (divide_rounds st) ->
  failed (run_consensus st) = true \/ cinvD P None (run_consensus st).
Proof.
  intros H1. unfold run_consensus. set (s1 := divide_rounds st) in *.
  destruct (failed s1) eqn:Hf1; [left; exact Hf1|]. destruct H1 as [H1|I1]; [congruence|].
  cbv zeta. set (s2 := decide_fame s1).
  assert (I2 : cinvD P None s2) by (eapply cinvD_ckeepD; [exact I1|apply ckeep_ckeepD, decide_fame_ckeep]).
  destruct (failed s2) eqn:Hf2; [left; exact Hf2|].
  set (s3 := decide_round_received s2).
  assert (I3 : cinvD P None s3) by (eapply cinvD_ckeepD; [exact I2|apply (decide_round_received_ckeepD P), I2]).
  destruct (failed s3) eqn:Hf3; [left; exact Hf3|].
  right. eapply cinvD_ckeepD; [exact I3|]. apply ckeepD_cw, cw_process_decided_rounds.
Qed.

Lemma run_consensus_cinv g all st x :
  from_attempts st all -> no_accept all ->
  cinv g (Some x) st -> In x (undetermined st) ->
  failed (run_consensus st) = true \/ cinv g None (run_consensus st).
Proof.
  intros FA NA I Hin.
  destruct (run_consensus_cinvD_divided (fun _ => g) st) as [F|I'].
  - destruct (divide_rounds_cinv g (undetermined st) st (Some x) (or_intror I) Hin) as [F|I1];
      [left; exact F|right; exact (cinv_cinvD _ _ _ I1)].
  - left; exact F.
  - right. apply cinv_iff. split; [|exact I'].
    exact (static_eq _ _ _ (run_consensus_peersets all st FA NA) (c_static _ _ _ I)).
Qed.

Lemma cw_init self_ g oracle_ : cw (init_hg self_ g oracle_) = cw (empty_hg self_).
Proof.
  unfold init_hg. destruct (set_peerset (empty_hg self_) 0 g) as [st|] eqn:S; [|reflexivity].
  rewrite <- (cw_blk_rest _ _ (set_peerset_blk_rest _ _ _ _ S)). reflexivity.
Qed.

Lemma cw_fields s s' : cw s' = cw s ->
  events s' = events s /\ rounds s' = rounds s /\ round_memo s' = round_memo s /\
  witness_memo s' = witness_memo s /\ topo s' = topo s.
Proof. unfold cw. intros H. inversion H. auto. Qed.

Lemma cinvD_init P self_ g oracle_ : cinvD P None (init_hg self_ g oracle_).
Proof.
  destruct (cw_fields _ _ (cw_init self_ g oracle_)) as [Ev [Ro [Rm [Wm To]]]].
  assert (GE : forall x, get_event (init_hg self_ g oracle_) x = None).
  { intros x. unfold get_event. rewrite Ev. cbn. apply zget_empty. }
  assert (GR : forall x, rmemo (init_hg self_ g oracle_) x = None).
  { intros x. unfold rmemo. rewrite Rm. cbn. apply zget_empty. }
  assert (GW : forall x, wmemo (init_hg self_ g oracle_) x = None).
  { intros x. unfold wmemo. rewrite Wm. cbn. apply zget_empty. }
  assert (GL : forall r, wl (init_hg self_ g oracle_) r = []).
  { intros r. unfold wl, get_round. rewrite Ro. cbn. rewrite zget_empty. reflexivity. }
  constructor; try (intros *; rewrite ?GE, ?GR, ?GW, ?GL; intros; try discriminate; try contradiction; fail).
  - rewrite To. cbn. lia.
  - intros r. rewrite GL. constructor.
  - intros r Hr. exfalso. apply Hr. unfold get_round. rewrite Ro. cbn. apply zget_empty.
Qed.

Lemma cinv_init self_ g oracle_ : cinv g None (init_hg self_ g oracle_).
Proof. apply cinv_iff. split; [apply static_init|apply cinvD_init]. Qed.

Record reach_inv (g : peerset) (all : list event) (st : hg) : Prop := {
  ri_g : ginv all st;
  ri_la : la_ok st;
  ri_c : failed st = false -> cinv g None st
}.

Lemma hstep_failed_mono st o : failed st = true -> failed (hstep st o) = true.
Proof.
  intros Hf. destruct o as [e|]; cbn [hstep].
  - unfold step, insert_and_run. pose proof (insert_event_failed st e) as F.
    destruct (insert_event st e) as [r s]. cbn [snd] in F. rewrite <- F in Hf.
    destruct r; cbn [snd]; try exact Hf.
    unfold run_consensus. rewrite (divide_rounds_failed s Hf), Hf. exact Hf.
  - rewrite process_sigpool_failed. exact Hf.
Qed.

Lemma reach_insert g all st e s :
  ids_determine all -> no_accept all -> In e all -> 0 <= e_id e -> reach_inv g all st ->
  insert_event st e = (InsOk, s) -> reach_inv g all (run_consensus s).
Proof.
  intros ID NA Hin Hid [G LA C] E. destruct (ginv_dag _ _ G) as [OK FA].
  assert (Es : hstep st (HInsert e) = run_consensus s)
    by (cbn [hstep]; unfold step, insert_and_run; rewrite E; reflexivity).
  constructor.
  - rewrite <- Es. apply (hstep_ginv all st (HInsert e) ID (conj Hin Hid) G).
  - rewrite <- Es. apply (step_la_inv st e all OK LA FA ID Hin Hid).
  - intros Hf. assert (Hf0 : failed st = false).
    { destruct (failed st) eqn:F; [|reflexivity]. rewrite <- Es, (hstep_failed_mono st _ F) in Hf. discriminate. }
    destruct (insert_event_inv st e all _ s OK FA ID Hin Hid E) as [_ [FA' _]].
    destruct (insert_cinv g all st e s OK LA FA ID Hin Hid (C Hf0) E) as [I' Hund].
    destruct (run_consensus_cinv g all s (e_id e) FA' NA I' Hund) as [H|H]; [congruence|exact H].
Qed.

Lemma reach_sigpool g all st : reach_inv g all st -> reach_inv g all (process_sigpool st).
Proof.
  intros [G LA C]. constructor.
  - apply (process_sigpool_ginv all st G).
  - eapply la_ok_frame; [exact LA|apply process_sigpool_frame].
  - rewrite process_sigpool_failed. intros Hf. eapply cinv_ckeep; [exact (C Hf)|].
    apply ckeep_cw; [apply cw_process_sigpool|apply process_sigpool_peersets].
Qed.

Theorem hrun_reach g all self_ oracle_ ops :
  ids_determine all -> no_accept all -> Forall (hop_ok all) ops ->
  reach_inv g all (hrun (init_hg self_ g oracle_) ops).
Proof.
  intros ID NA H.
  refine (proj1 (hrun_along all (reach_inv g all) (fun _ _ => True) ID _ (fun _ => I) (fun _ _ _ _ _ => I) _ _ ops H _ _)).
  - intros st R. exact (ginv_dag all st (ri_g _ _ _ R)).
  - intros st e s Hin Hid R E. split; [exact (reach_insert g all st e s ID NA Hin Hid R E)|exact I].
  - intros st R. split; [exact (reach_sigpool g all st R)|exact I].
  - constructor; [apply ginv_init| |intros _; apply cinv_init].
    apply la_ok_no_events. intros x. destruct (cw_fields _ _ (cw_init self_ g oracle_)) as [Ev _].
    unfold get_event. rewrite Ev. cbn. apply zget_empty.
Qed.
