(* C13: the premises of [after_reset_served] are satisfiable, and its conclusion is not vacuous:
   Proofs/ResetWitnessDeliv.v is a history of real node.core objects (harness/cmd/resetwit
   -searchok -mindeliv 2; corpus/C13-after-reset-example.trace) in which node 3 fast-forwards from
   node 2 and then delivers two more blocks. *)
From Coq Require Import ZArith List Bool Lia.
From V Require Import Model.ZMap Model.Quorum Model.HgImpl Model.HgReset
  Proofs.ZMapFacts Proofs.BlockInv Proofs.AdmissionProofs Proofs.OrderProofs Proofs.Agreement Proofs.Static
  Proofs.ResetProofs Proofs.ResetExample Proofs.ResetWitnessDeliv.
Import ListNotations.
Open Scope Z_scope.

Definition rd_server : hg := hrun (init_hg rd_server_self rd_genesis rd_server_oracle) rd_server_ops.
Definition rd_v0 : hg := hrun (init_hg rd_victim_self rd_genesis rd_victim_oracle) rd_victim_ops_before.

Lemma rd_premises : ids_determine rd_all /\ no_accept rd_all /\ Forall (hop_ok rd_all) rd_server_ops /\
  rd_server_self <> -1.
Proof.
  split; [apply ids_determine_distinct; vm_compute; reflexivity|].
  split; [apply no_acceptb_sound; vm_compute; reflexivity|].
  split; [apply hops_ok_by_id; reflexivity|].
  discriminate.
Qed.

(* what the model computes on a history: the anchor's index and round received, the fast-forward's
   verdict, (index, round received) of the deliveries right after the reset and after the further
   operations *)
Definition ff_summary (ans : option (block * frame * list event) * hg) (v0 : hg) (ops : list hop)
  : option (bool * Z * Z * list (Z * Z) * list (Z * Z)) :=
  match fst ans with
  | Some (b, f, cores) =>
    let '(ok, v') := node_fast_forward v0 b f cores in
    Some (ok, b_index b, b_rr b, map (fun d => (b_index d, b_rr d)) (delivered v'),
          map (fun d => (b_index d, b_rr d)) (delivered (hrun v' ops)))
  | None => None
  end.

Lemma ff_summary_intro ans v0 ops b f cores s' v' i r d1 d2 : ans = (Some (b, f, cores), s') ->
  node_fast_forward v0 b f cores = (true, v') -> b_index b = i -> b_rr b = r ->
  map (fun d => (b_index d, b_rr d)) (delivered v') = d1 ->
  map (fun d => (b_index d, b_rr d)) (delivered (hrun v' ops)) = d2 ->
  ff_summary ans v0 ops = Some (true, i, r, d1, d2).
Proof. intros -> N <- <- <- <-. unfold ff_summary. cbn [fst]. rewrite N. reflexivity. Qed.

(* on the example: anchor (index 0, round received 1), a successful fast-forward, no deliveries at
   the moment of the reset, two deliveries afterwards with (index, round received) = (1, 2), (2, 3);
   event 24 (created by the reset node itself after the reset, self-parent 23) is stored at the end
   and is not one of the frame's events *)
Lemma rd_facts :
  ff_observe (anchor_block_with_frame rd_server) rd_v0
    (fun b f v' => let v := hrun v' rd_victim_ops_after in
       b_index b = 0 /\ b_rr b = 1 /\
       map (fun d => (b_index d, b_rr d)) (delivered v') = [] /\
       map (fun d => (b_index d, b_rr d)) (delivered v) = [(1, 2); (2, 3)] /\
       is_some (get_event v 24) = true /\ memz 24 (map fe_id (all_frame_events f)) = false).
Proof. vm_compute. repeat split; reflexivity. Qed.

Definition rd_summary := ff_summary (anchor_block_with_frame rd_server) rd_v0 rd_victim_ops_after.

Lemma rd_summary_value : rd_summary = Some (true, 0, 1, [], [(1, 2); (2, 3)]).
Proof.
  destruct (ff_observe_elim _ _ _ rd_facts) as (b & f & cores & s' & v' & A & N & I & R & D1 & D2 & _).
  exact (ff_summary_intro _ _ _ _ _ _ _ _ _ _ _ _ A N I R D1 D2).
Qed.

Lemma rd_example : exists b f cores s' v',
  anchor_block_with_frame rd_server = (Some (b, f, cores), s') /\
  node_fast_forward rd_v0 b f cores = (true, v') /\
  b_index b = 0 /\ b_rr b = 1 /\
  map (fun d => (b_index d, b_rr d)) (delivered v') = [] /\
  map (fun d => (b_index d, b_rr d)) (delivered (hrun v' rd_victim_ops_after)) = [(1, 2); (2, 3)].
Proof.
  destruct (ff_observe_elim _ _ _ rd_facts) as (b & f & cores & s' & v' & A & N & I & R & D1 & D2 & _).
  exists b, f, cores, s', v'. exact (conj A (conj N (conj I (conj R (conj D1 D2))))).
Qed.

(** the C07 part on the same history: the operations of the reset node are drawn from the same
    universe, and event 24 is stored at the end and is not one of the frame's events, so the clauses
    of [dag_okR] about the events admitted after the reset speak about something *)
Lemma rd_victim_ops_ok : Forall (hop_ok rd_all) rd_victim_ops_after.
Proof. apply hops_ok_by_id. reflexivity. Qed.

Lemma rd_admitted_example : exists b f cores s' v' es,
  anchor_block_with_frame rd_server = (Some (b, f, cores), s') /\
  node_fast_forward rd_v0 b f cores = (true, v') /\
  get_event (hrun v' rd_victim_ops_after) 24 = Some es /\ ~ In 24 (map fe_id (all_frame_events f)).
Proof.
  destruct (ff_observe_elim _ _ _ rd_facts) as (b & f & cores & s' & v' & A & N & _ & _ & _ & _ & G & F).
  destruct (get_event (hrun v' rd_victim_ops_after) 24) as [es|] eqn:E; [|discriminate].
  exists b, f, cores, s', v', es. split; [exact A|]. split; [exact N|]. split; [exact E|].
  intros Hin. apply memz_In in Hin. congruence.
Qed.
