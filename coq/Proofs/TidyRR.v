(* The "round-received increases along the delivered blocks" hypothesis of the C09 / C10 lemmas
   (Proofs/SigProofs.v, Proofs/PeerSetProofs.v) discharged with Proofs/RoundOrder.v, which proves
   it for every reachable state (hrun_rtop): the conditional lemmas of SigProofs / PeerSetProofs,
   instantiated. *)
From Coq Require Import ZArith List Bool Lia Sorted.
From V Require Import Model.ZMap Model.Quorum Model.HgImpl Model.PeerSetSpec
  Proofs.BlockInv Proofs.RoundOrder Proofs.PeerSetProofs Proofs.SigProofs.
Import ListNotations.
Open Scope Z_scope.

(* every reachable state, whatever the node is (bare hashgraph or core), whatever the operations *)
Lemma reach_rr_increasing self_ genesis oracle_ ops :
  rr_increasing_list (delivered (hrun (init_hg self_ genesis oracle_) ops)).
Proof. exact (proj1 (hrun_rtop self_ genesis oracle_ ops)). Qed.

(** * C09 *)

(* the signer of every recorded signature is in the set the FINAL table gives for the block's
   round-received *)
Theorem recorded_member_final self_ genesis oracle_ ops i b v o :
  self_ <> -1 ->
  zget i (blocks (hrun (init_hg self_ genesis oracle_) ops)) = Some b -> aget v (b_sigs b) = Some o ->
  exists ps, get_peerset (hrun (init_hg self_ genesis oracle_) ops) (b_rr b) = Some ps /\ mem_key v (keys ps) = true.
Proof.
  intros Hs Hb Hv.
  exact (s_members _ _ _ _ (reach_c09inv self_ genesis oracle_ ops Hs)
           (reach_rr_increasing self_ genesis oracle_ ops) i b v o Hb Hv).
Qed.

Theorem recorded_valid self_ genesis oracle_ ops i b v o :
  self_ <> -1 ->
  zget i (blocks (hrun (init_hg self_ genesis oracle_) ops)) = Some b -> aget v (b_sigs b) = Some o ->
  o = b_bodyid b /\
  NoDup (map fst (b_sigs b)) /\
  (exists k ps, In (k, ps) (peersets (hrun (init_hg self_ genesis oracle_) ops)) /\ mem_key v (keys ps) = true) /\
  (exists ps, get_peerset (hrun (init_hg self_ genesis oracle_) ops) (b_rr b) = Some ps /\ mem_key v (keys ps) = true).
Proof.
  intros Hs Hb Hv. pose proof (reach_c09inv self_ genesis oracle_ ops Hs) as I.
  split; [exact (b_valid _ (hrun_binv self_ genesis oracle_ ops) i b Hb v o Hv)|].
  split; [exact (s_nodup _ _ _ _ I i b Hb)|].
  split; [exact (s_members_some _ _ _ _ I i b v o Hb Hv)|].
  exact (recorded_member_final self_ genesis oracle_ ops i b v o Hs Hb Hv).
Qed.

Theorem anchor_trusted self_ genesis oracle_ ops a :
  self_ <> -1 -> anchor (hrun (init_hg self_ genesis oracle_) ops) = Some a ->
  exists b, zget a (blocks (hrun (init_hg self_ genesis oracle_) ops)) = Some b /\
    (exists k ps, In (k, ps) (peersets (hrun (init_hg self_ genesis oracle_) ops)) /\
                  trust_count ps < Z.of_nat (length (b_sigs b))) /\
    (exists ps, get_peerset (hrun (init_hg self_ genesis oracle_) ops) (b_rr b) = Some ps /\
                trust_count ps < Z.of_nat (length (b_sigs b))).
Proof.
  intros Hs Ha.
  destruct (s_anchor _ _ _ _ (reach_c09inv self_ genesis oracle_ ops Hs) a Ha) as [b [Hb [H1 H2]]].
  exists b. split; [exact Hb|]. split; [exact H1|].
  exact (H2 (reach_rr_increasing self_ genesis oracle_ ops)).
Qed.

Theorem anchor_third_reach self_ genesis oracle_ ops a :
  self_ <> -1 -> anchor (hrun (init_hg self_ genesis oracle_) ops) = Some a ->
  exists b ps, zget a (blocks (hrun (init_hg self_ genesis oracle_) ops)) = Some b /\
    get_peerset (hrun (init_hg self_ genesis oracle_) ops) (b_rr b) = Some ps /\
    NoDup (map fst (b_sigs b)) /\
    (forall v, In v (map fst (b_sigs b)) -> In v (keys ps) /\ aget v (b_sigs b) = Some (b_bodyid b)) /\
    3 * Z.of_nat (length (map fst (b_sigs b))) > ps_len ps.
Proof.
  intros Hs Ha.
  exact (anchor_third genesis _ _ _ a (hrun_binv self_ genesis oracle_ ops)
           (reach_c09inv self_ genesis oracle_ ops Hs) (reach_rr_increasing self_ genesis oracle_ ops) Ha).
Qed.

(** * C10 *)

(* THE STATEMENT, unconditionally: the validator set of round r is genesis modified, in block
   order, by exactly the accepted receipts of the delivered blocks with round-received + 6 <= r *)
Theorem lookup_is_effective_prefix self_ genesis oracle_ ops r :
  self_ <> -1 -> 0 <= r ->
  get_peerset (hrun (init_hg self_ genesis oracle_) ops) r =
  Some (validators_at genesis (delivered (hrun (init_hg self_ genesis oracle_) ops)) r).
Proof.
  intros Hs Hr. unfold get_peerset.
  pose proof (f_equal fst (reach_table self_ genesis oracle_ ops Hs)) as E. unfold reach in E. cbn [fst] in E. rewrite E.
  apply lookup_is_prefix_replay; [apply reach_rr_increasing| |exact Hr].
  exact (c10inv_rr_nonneg _ _ (proj2 (hrun_c10inv self_ genesis oracle_ ops Hs))).
Qed.

(* consequence: the "already in the table" branch of SetPeerSet / replay_step is dead in
   reachable states -- a block that carries an accepted receipt always records its new set: the
   table has one entry per delivered block with an accepted receipt, plus genesis *)
Lemma replay_fresh_key genesis ds d :
  rr_increasing_list (ds ++ [d]) -> 0 <= b_rr d ->
  table_has (b_rr d + 6) (fst (replay_genesis genesis ds)) = false.
Proof.
  intros S Hd. destruct (table_has (b_rr d + 6) (fst (replay_genesis genesis ds))) eqn:T; [|reflexivity]. exfalso.
  apply table_has_In in T. destruct T as [p Hp]. unfold replay_genesis in Hp.
  destruct (replay_keys _ _ _ _ _ Hp) as [[p0 [X|[]]]|[d' [A B]]].
  - inversion X. lia.
  - destruct (sorted_snoc_inv _ _ S) as [_ L]. specialize (L d' A). lia.
Qed.
