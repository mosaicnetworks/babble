(* C13: what Hashgraph.Reset / InsertFrameEvent / core.fastForward leave behind (Model/HgReset.v).
   Footprints and the shape of the reset state, for ANY frame / block / victim state. *)
From Coq Require Import ZArith List Bool Lia ZifyBool Sorted.
From RecordUpdate Require Import RecordSet.
From V Require Import Model.ZMap Model.Quorum Model.Voting Model.HgImpl Model.HgReset Model.PeerSetSpec
  Proofs.ZMapFacts Proofs.HgFrames Proofs.AdmissionProofs Proofs.OrderFrames Proofs.OrderSort Proofs.PeerSetProofs Proofs.ResetRound.
Import ListNotations RecordSetNotations.
Open Scope Z_scope.

(* The footprint of an operation is stated as "the state with the written components erased is
   unchanged".  Such equations compose by transitivity, through folds by [fold_left_view], and turn
   into an equation between whole states by [view_eq]: the new state is the old one with the written
   components taken from the new one. *)
Lemma view_eq (V : hg -> hg) (W : hg -> hg -> hg) :
  (forall st x, W (V st) x = W st x) -> (forall st, W st st = st) ->
  forall st st', V st' = V st -> st' = W st st'.
Proof. intros HV HW st st' H. rewrite <- (HW st') at 1. rewrite <- (HV st'), H. apply HV. Qed.

(* everything InsertFrameEvent cannot touch: the state with the DAG, the round table, the memo
   tables and the consensus-event bookkeeping erased *)
Definition nodag (st : hg) : hg :=
  st <| events := zempty |> <| pevents := zempty |> <| rounds := zempty |> <| last_round := 0 |>
     <| round_memo := zempty |> <| witness_memo := zempty |> <| lt_memo := zempty |>
     <| topo := 0 |> <| cons_count := 0 |> <| last_cons_ev := [] |>.

Definition with_dag (st x : hg) : hg :=
  st <| events := events x |> <| pevents := pevents x |> <| rounds := rounds x |> <| last_round := last_round x |>
     <| round_memo := round_memo x |> <| witness_memo := witness_memo x |> <| lt_memo := lt_memo x |>
     <| topo := topo x |> <| cons_count := cons_count x |> <| last_cons_ev := last_cons_ev x |>.

Lemma with_dag_nodag st x : with_dag (nodag st) x = with_dag st x.
Proof. destruct st; reflexivity. Qed.
Lemma with_dag_same st : with_dag st st = st.
Proof. destruct st; reflexivity. Qed.
Definition nodag_eq : forall st st', nodag st' = nodag st -> st' = with_dag st st' :=
  view_eq nodag with_dag with_dag_nodag with_dag_same.

Lemma nodag_of_nomemo st : nodag (nomemo st) = nodag st.
Proof. destruct st; reflexivity. Qed.
Lemma nodag_nomemo st st' : nomemo st' = nomemo st -> nodag st' = nodag st.
Proof. intros H. rewrite <- (nodag_of_nomemo st'), H. apply nodag_of_nomemo. Qed.

Lemma fd_walk_nodag fuel : forall st c index x ah, nodag (fd_walk fuel st c index x ah) = nodag st.
Proof.
  induction fuel as [|f IH]; intros st c index x ah; cbn [fd_walk]; [reflexivity|].
  destruct (get_event st ah) as [a|]; [|reflexivity].
  destruct (aget c (ev_fd a)); [reflexivity|].
  set (st1 := set_evst st ah _).
  assert (F1 : nodag st1 = nodag st) by reflexivity. clearbody st1.
  pose proof (nodag_nomemo _ _ (witness_f_nomemo (fuel_of st1) st1 ah)) as F2.
  destruct (witness_f (fuel_of st1) st1 ah) as [[[|]|] st2]; cbn [snd] in F2; rewrite ?IH, F2; exact F1.
Qed.

Lemma update_ancestor_fd_nodag st e la : nodag (update_ancestor_fd st e la) = nodag st.
Proof. apply (fold_left_view nodag). intros s ce. apply fd_walk_nodag. Qed.

Lemma store_set_event_nodag st es st' : store_set_event st es = Some st' -> nodag st' = nodag st.
Proof. intros H. destruct (store_set_event_footprint st es st' H) as [P ->]. reflexivity. Qed.

Lemma insert_frame_event_nodag st fe e : nodag (snd (insert_frame_event st fe e)) = nodag st.
Proof.
  unfold insert_frame_event. cbv zeta. set (st3 := _ <| topo := _ |>).
  assert (N3 : nodag st3 = nodag st) by reflexivity. clearbody st3.
  destruct (store_set_event st3 _) as [st4|] eqn:E; cbn [snd]; [|exact N3].
  rewrite <- N3, <- (store_set_event_nodag _ _ _ E).
  generalize (update_ancestor_fd_nodag st4 e (fst (init_coords st3 e))).
  generalize (update_ancestor_fd st4 e (fst (init_coords st3 e))). intros st5 <-. reflexivity.
Qed.

Lemma insert_frame_events_nodag cores : forall l st, nodag (snd (insert_frame_events st l cores)) = nodag st.
Proof.
  induction l as [|fe rest IH]; intros st; cbn [insert_frame_events]; [reflexivity|].
  destruct (core_of cores (fe_id fe)) as [e|]; [|reflexivity].
  pose proof (insert_frame_event_nodag st fe e) as H.
  destruct (insert_frame_event st fe e) as [[|] s]; cbn [snd] in *; [|exact H].
  rewrite IH. exact H.
Qed.

(* what SetPeerSet leaves alone *)
Definition nopeers (st : hg) : hg :=
  st <| peersets := [] |> <| repertoire := [] |> <| first_rounds := [] |> <| pevents := zempty |>.

Definition with_peers (st x : hg) : hg :=
  st <| peersets := peersets x |> <| repertoire := repertoire x |> <| first_rounds := first_rounds x |>
     <| pevents := pevents x |>.

Lemma with_peers_nopeers st x : with_peers (nopeers st) x = with_peers st x.
Proof. destruct st; reflexivity. Qed.
Lemma with_peers_same st : with_peers st st = st.
Proof. destruct st; reflexivity. Qed.
Definition nopeers_eq : forall st st', nopeers st' = nopeers st -> st' = with_peers st st' :=
  view_eq nopeers with_peers with_peers_nopeers with_peers_same.

Lemma set_peerset_nopeers st r ps st' : set_peerset st r ps = Some st' -> nopeers st' = nopeers st.
Proof.
  destruct (set_peerset_eq st r ps) as (R & F & P & ->).
  destruct (table_has r (peersets st)); [discriminate|]. intros [= <-]. reflexivity.
Qed.

Lemma set_peersets_nopeers : forall l st, nopeers (snd (set_peersets st l)) = nopeers st.
Proof.
  induction l as [|[r ps] rest IH]; intros st; cbn [set_peersets]; [reflexivity|].
  destruct (set_peerset st r ps) as [s|] eqn:E; [|reflexivity].
  rewrite IH. eapply set_peerset_nopeers; eauto.
Qed.

(* InmemStore.Reset ranges over the Go map Frame.PeerSets, in no fixed order: the recorded table does
   not depend on the order *)
Definition key_lt (a b : Z * peerset) : Prop := fst a < fst b.

Lemma sorted_key_map (t : list (Z * peerset)) : StronglySorted key_lt t <-> StronglySorted Z.lt (map fst t).
Proof.
  induction t as [|a t IH]; cbn [map]; [split; constructor|]. split; intros H; inversion H; subst; constructor.
  - apply IH; assumption.
  - rewrite Forall_forall in *. intros x Hx. apply in_map_iff in Hx. destruct Hx as [b [<- Hb]]. apply H3. exact Hb.
  - apply IH; assumption.
  - rewrite Forall_forall in *. intros b Hb. apply H3. apply in_map. exact Hb.
Qed.

Lemma ps_insert_perm r ps t : Permutation.Permutation (ps_table_insert r ps t) ((r, ps) :: t).
Proof.
  induction t as [|[r' ps'] rest IH]; cbn [ps_table_insert]; [apply Permutation.Permutation_refl|].
  destruct (r <? r'); [apply Permutation.Permutation_refl|].
  eapply Permutation.perm_trans; [apply Permutation.perm_skip; exact IH|apply Permutation.perm_swap].
Qed.

Lemma ps_insert_sorted r ps t :
  StronglySorted key_lt t -> table_has r t = false -> StronglySorted key_lt (ps_table_insert r ps t).
Proof.
  induction t as [|[r' ps'] rest IH]; intros S H; cbn [ps_table_insert]; [constructor; constructor|].
  cbn [table_has existsb fst] in H. apply orb_false_iff in H. destruct H as [Hne Hrest].
  inversion S as [|x y S' F]; subst. rewrite Forall_forall in F.
  destruct (Z.ltb_spec r r') as [Hlt|Hge].
  - constructor; [exact S|]. rewrite Forall_forall. intros b [<-|Hb]; [exact Hlt|].
    specialize (F b Hb). unfold key_lt in *. cbn [fst] in *. lia.
  - constructor; [apply IH; assumption|]. rewrite Forall_forall. intros b Hb.
    apply (Permutation.Permutation_in b (ps_insert_perm r ps rest)) in Hb. destruct Hb as [<-|Hb]; [|apply F; exact Hb].
    unfold key_lt. cbn [fst]. lia.
Qed.

(* whatever the order in which SetPeerSet is called, the recorded table is the sorted list of the
   entries handed in *)
Lemma set_peersets_any_order : forall l st s,
  set_peersets st l = (true, s) -> StronglySorted key_lt (peersets st) ->
  Permutation.Permutation (peersets s) (peersets st ++ l) /\ StronglySorted key_lt (peersets s).
Proof.
  induction l as [|[r ps] rest IH]; intros st s H S; cbn [set_peersets] in H.
  - inversion H; subst. rewrite app_nil_r. split; [apply Permutation.Permutation_refl|exact S].
  - destruct (set_peerset_eq st r ps) as (R & F & P & E). rewrite E in H.
    destruct (table_has r (peersets st)) eqn:T; [discriminate|].
    set (st' := st <| peersets := _ |> <| repertoire := R |> <| first_rounds := F |> <| pevents := P |>) in H.
    assert (Pt : peersets st' = ps_table_insert r ps (peersets st)) by reflexivity. clearbody st'.
    assert (S' : StronglySorted key_lt (peersets st')) by (rewrite Pt; apply ps_insert_sorted; assumption).
    destruct (IH st' s H S') as [P1 P2]. split; [|exact P2].
    eapply Permutation.perm_trans; [exact P1|]. rewrite Pt.
    eapply Permutation.perm_trans; [apply Permutation.Permutation_app_tail, ps_insert_perm|].
    cbn [app]. apply Permutation.Permutation_middle.
Qed.

Lemma sorted_tables_equal (t t' : list (Z * peerset)) :
  Permutation.Permutation t t' -> StronglySorted key_lt t -> StronglySorted key_lt t' -> t = t'.
Proof.
  intros P S S'. apply (OrderSort.sorted_perm_unique key_lt t t' P S S').
  intros a b _ _ H1 H2. unfold key_lt in *. lia.
Qed.

(* InmemStore.Reset with the frame's entries presented in ANY order (a permutation of the sorted
   table the serving node recorded): the reset node's table is that table *)
Theorem reset_table_any_order st f l s :
  Permutation.Permutation l (f_peersets f) -> StronglySorted Z.lt (map fst (f_peersets f)) ->
  set_peersets (store_clear st) l = (true, s) ->
  peersets s = f_peersets f /\ forall r, get_peerset s r = ps_table_get r (f_peersets f).
Proof.
  intros P Sf H.
  destruct (set_peersets_any_order l (store_clear st) s H) as [P1 S1]; [constructor|].
  change (peersets (store_clear st)) with (@nil (Z * peerset)) in P1. cbn [app] in P1.
  assert (E : peersets s = f_peersets f).
  { apply sorted_tables_equal; [eapply Permutation.perm_trans; eauto|exact S1|apply sorted_key_map; exact Sf]. }
  split; [exact E|]. intros r. unfold get_peerset. rewrite E. reflexivity.
Qed.

(* InmemStore.Reset after the clearing of Hashgraph.Reset: everything is known but what SetPeerSet
   writes; the table is the frame's when that one is sorted *)
Lemma store_reset_eq v f s : store_reset (hg_clear v) f = (true, s) ->
  s = store_set_frame (with_peers (store_clear (hg_clear v)) s) f /\
  (StronglySorted Z.lt (map fst (f_peersets f)) -> peersets s = f_peersets f).
Proof.
  unfold store_reset. destruct (set_peersets (store_clear (hg_clear v)) (f_peersets f)) as [[|] s1] eqn:E; [|discriminate].
  intros H; inversion H; subst s; clear H. split.
  - pose proof (set_peersets_nopeers (f_peersets f) (store_clear (hg_clear v))) as N. rewrite E in N. cbn [snd] in N.
    rewrite (nopeers_eq _ _ N) at 1. reflexivity.
  - intros Hs. apply (reset_table_any_order (hg_clear v) f (f_peersets f) s1 (Permutation.Permutation_refl _) Hs E).
Qed.

(* the state handed to the InsertFrameEvent loop: what the loop and the block store read *)
Record cleared (v s : hg) : Prop := {
  cl_events : events s = zempty;
  cl_rounds : rounds s = zempty;
  cl_last_round : last_round s = -1;
  cl_rmemo : round_memo s = zempty;
  cl_wmemo : witness_memo s = zempty;
  cl_ltmemo : lt_memo s = lt_memo v;
  cl_blocks : blocks s = zempty;
  cl_last_block : last_block s = -1;
  cl_cc : cons_count s = cons_count v;
  cl_topo : topo s = 0;
  cl_delivered : delivered s = delivered v
}.

Lemma store_reset_cleared v f s : store_reset (hg_clear v) f = (true, s) -> cleared v s.
Proof.
  intros H. destruct (store_reset_eq v f s H) as [E _]. rewrite E. clear H E.
  destruct v. constructor; reflexivity.
Qed.

(* InsertFrameEvent is analysed on a store whose events all have a memoised witness flag
   ([wmemo_total] below): the first-descendant walk then takes the flags from the memo and changes
   first-descendant coordinates only *)

(* an event's state without the first-descendant coordinates *)
Definition ev_nofd (es : evst) := (ev_e es, ev_round es, ev_lt es, ev_rr es, ev_la es, ev_topo es).
Definition evinfo (st : hg) (x : Z) := option_map ev_nofd (get_event st x).

(* only first-descendant coordinates changed *)
Definition fd_rel (st st' : hg) : Prop :=
  st' = st <| events := events st' |> /\ forall x, evinfo st' x = evinfo st x.

Lemma fd_rel_refl st : fd_rel st st.
Proof. split; [destruct st; reflexivity|reflexivity]. Qed.
Lemma fd_rel_trans a b c : fd_rel a b -> fd_rel b c -> fd_rel a c.
Proof.
  intros [E1 I1] [E2 I2]. split; [|intros x; rewrite I2; apply I1].
  rewrite E2. rewrite E1 at 1. reflexivity.
Qed.

Definition wmemo_total (st : hg) : Prop :=
  forall x es, get_event st x = Some es -> zget x (witness_memo st) <> None.

Lemma evinfo_none st y : evinfo st y = None <-> get_event st y = None.
Proof. unfold evinfo. destruct (get_event st y); cbn; split; intros; congruence. Qed.

Lemma evinfo_some st st' x : evinfo st' x = evinfo st x ->
  (get_event st' x = None <-> get_event st x = None).
Proof. intros H. rewrite <- !evinfo_none, H. reflexivity. Qed.

Lemma fd_rel_wmemo st st' : fd_rel st st' -> wmemo_total st -> wmemo_total st'.
Proof.
  intros [E I] W x es H. assert (Hm : witness_memo st' = witness_memo st) by (rewrite E; reflexivity).
  rewrite Hm. destruct (get_event st x) as [es0|] eqn:H0; [eapply W; eauto|].
  apply (evinfo_some _ _ _ (I x)) in H0. congruence.
Qed.

Lemma fd_rel_set_fd st ah a fd' :
  get_event st ah = Some a -> fd_rel st (set_evst st ah (a <| ev_fd := fd' |>)).
Proof.
  intros H. split; [reflexivity|].
  intros x. unfold evinfo. rewrite get_event_set_evst.
  destruct (Z.eqb_spec ah x) as [->|Hne]; cbn [andb]; [|reflexivity].
  destruct (0 <=? x); [|reflexivity]. rewrite H. reflexivity.
Qed.

Lemma fd_walk_fd_rel fuel : forall st c index x ah, wmemo_total st -> fd_rel st (fd_walk fuel st c index x ah).
Proof.
  induction fuel as [|f IH]; intros st c index x ah W; cbn [fd_walk]; [apply fd_rel_refl|].
  destruct (get_event st ah) as [a|] eqn:Ha; [|apply fd_rel_refl].
  destruct (aget c (ev_fd a)); [apply fd_rel_refl|].
  set (st1 := set_evst st ah _).
  assert (R1 : fd_rel st st1) by (apply fd_rel_set_fd; exact Ha).
  pose proof (fd_rel_wmemo _ _ R1 W) as W1.
  assert (Hah : get_event st1 ah <> None).
  { intros C. apply (evinfo_some _ _ _ (proj2 R1 ah)) in C. congruence. }
  destruct (get_event st1 ah) as [a1|] eqn:Ha1; [|congruence].
  destruct (zget ah (witness_memo st1)) as [w|] eqn:Hw; [|exfalso; eapply W1; eauto].
  rewrite (witness_f_memoised _ _ _ _ Hw).
  destruct w; [exact R1|]. eapply fd_rel_trans; [exact R1|]. apply IH. exact W1.
Qed.

Lemma update_ancestor_fd_fd_rel st e la : wmemo_total st -> fd_rel st (update_ancestor_fd st e la).
Proof.
  unfold update_ancestor_fd. revert st. induction la as [|ce r IH]; intros st W; cbn [fold_left]; [apply fd_rel_refl|].
  pose proof (fd_walk_fd_rel (fuel_of st) st (e_creator e) (e_index e) (e_id e) (snd (snd ce)) W) as R1.
  eapply fd_rel_trans; [exact R1|]. apply IH. eapply fd_rel_wmemo; eauto.
Qed.

Lemma store_set_event_fresh st es st' :
  store_set_event st es = Some st' -> get_event st (e_id (ev_e es)) = None ->
  exists p p', zget (e_creator (ev_e es)) (pevents st) = Some p /\
               pidx_set p (e_id (ev_e es)) (e_index (ev_e es)) = Some p' /\
               st' = set_evst (st <| pevents := zset (e_creator (ev_e es)) p' (pevents st) |>) (e_id (ev_e es)) es.
Proof.
  unfold store_set_event. intros H Hf. rewrite Hf in H.
  destruct (zget (e_creator (ev_e es)) (pevents st)) as [p|] eqn:Hp; [|discriminate].
  destruct (pidx_set _ _ _) as [p'|] eqn:Hp'; [|discriminate]. inversion H. exists p, p'. auto.
Qed.

Lemma init_coords_events st st' e : events st' = events st -> init_coords st' e = init_coords st e.
Proof. intros E. unfold init_coords, get_event. rewrite E. reflexivity. Qed.

(* the effect of one successful InsertFrameEvent, field by field *)
Record ife_post (st : hg) (fe : frameev) (e : event) (s' : hg) : Prop := {
  ip_rmemo : round_memo s' = zset (fe_id fe) (fe_round fe) (round_memo st);
  ip_wmemo : witness_memo s' = zset (fe_id fe) (fe_wit fe) (witness_memo st);
  ip_ltmemo : lt_memo s' = zset (fe_id fe) (fe_lt fe) (lt_memo st);
  ip_rounds : rounds s' = zset (fe_round fe) (add_created (round_or_new st (fe_round fe)) (fe_id fe) (fe_wit fe)) (rounds st);
  ip_last_round : last_round s' = Z.max (fe_round fe) (last_round st);
  ip_topo : topo s' = topo st + 1;
  ip_cc : cons_count s' = cons_count st + 1;
  ip_lce : last_cons_ev s' = aset (e_creator e) (e_id e) (last_cons_ev st);
  ip_pev : exists p p', zget (e_creator e) (pevents st) = Some p /\ pidx_set p (e_id e) (e_index e) = Some p' /\
                        pevents s' = zset (e_creator e) p' (pevents st);
  ip_events : forall y, evinfo s' y =
                if y =? e_id e then Some (e, Some (fe_round fe), Some (fe_lt fe), None, fst (init_coords st e), topo st)
                else evinfo st y
}.

Lemma insert_frame_event_post st fe e s' :
  wmemo_total st -> 0 <= e_id e -> e_id e = fe_id fe -> get_event st (e_id e) = None ->
  insert_frame_event st fe e = (true, s') -> ife_post st fe e s'.
Proof.
  intros W Hid Eid Fresh. unfold insert_frame_event. cbv zeta.
  set (st3 := _ <| topo := _ |>).
  assert (Ev3 : events st3 = events st) by reflexivity.
  rewrite (init_coords_events st st3 e Ev3).
  set (es := mkEvst e _ _ _ _ _ _).
  destruct (store_set_event st3 es) as [st4|] eqn:S; [|discriminate].
  intros H. apply (f_equal snd) in H. cbn [snd] in H. subst s'.
  destruct (store_set_event_fresh _ _ _ S Fresh) as [p [p' [Hp [Hp' E4]]]].
  cbn [ev_e es] in Hp, Hp', E4.
  assert (G4 : forall y, get_event st4 y = if y =? e_id e then Some es else get_event st y).
  { intros y. rewrite E4, get_event_set_evst, (Z.eqb_sym y).
    rewrite (proj2 (Z.leb_le 0 (e_id e)) Hid). destruct (e_id e =? y); reflexivity. }
  (* update_ancestor_fd runs on a store where the new event too has a memoised witness flag *)
  assert (W4 : wmemo_total st4).
  { intros y ey. rewrite G4, E4. change (witness_memo _) with (zset (fe_id fe) (fe_wit fe) (witness_memo st)).
    rewrite zget_zset, <- Eid, (Z.eqb_sym y), (proj2 (Z.leb_le 0 (e_id e)) Hid).
    destruct (e_id e =? y); [discriminate|apply W]. }
  destruct (update_ancestor_fd_fd_rel st4 e (fst (init_coords st e)) W4) as [E5 I5].
  revert E5 I5. generalize (update_ancestor_fd st4 e (fst (init_coords st e))). intros st5 E5 I5.
  assert (Iev : forall y, evinfo (store_add_consensus_event st5 e) y =
                  if y =? e_id e then Some (ev_nofd es) else evinfo st y).
  { intros y. change (evinfo (store_add_consensus_event st5 e) y) with (evinfo st5 y).
    rewrite I5. unfold evinfo. rewrite G4. destruct (y =? e_id e); reflexivity. }
  (* the final state, written out over [st] *)
  revert Iev. rewrite E5, E4. subst es st3. clear - Hp Hp'.
  destruct st. intros Iev. constructor; try reflexivity; [|exact Iev].
  exists p, p'. split; [exact Hp|split; [exact Hp'|reflexivity]].
Qed.

Lemma core_of_id cores x e : core_of cores x = Some e -> e_id e = x.
Proof. unfold core_of. intros H. apply find_some in H. destruct H as [_ H]. lia. Qed.

(* a memo table after the loop has run over [done]: the recorded value for the events of [done],
   the entries of [m0] elsewhere *)
Definition memo_is {A} (m m0 : zmap A) (val : frameev -> A) (done : list frameev) : Prop :=
  (forall fe, In fe done -> zget (fe_id fe) m = Some (val fe)) /\
  (forall x, ~ In x (map fe_id done) -> zget x m = zget x m0).

Lemma memo_is_nil {A} (m : zmap A) val : memo_is m m val [].
Proof. split; [intros fe []|reflexivity]. Qed.

Lemma memo_is_snoc {A} (m m0 : zmap A) val done fe :
  memo_is m m0 val done -> 0 <= fe_id fe -> ~ In (fe_id fe) (map fe_id done) ->
  memo_is (zset (fe_id fe) (val fe) m) m0 val (done ++ [fe]).
Proof.
  intros [H1 H2] Hid Hnew. split.
  - intros g Hg. apply in_app_iff in Hg. destruct Hg as [Hg|[<-|[]]]; [|apply zget_zset_same; exact Hid].
    rewrite zget_zset_other; [apply H1; exact Hg|]. intros C. apply Hnew. rewrite C. apply in_map. exact Hg.
  - intros x Hx. rewrite map_app, in_app_iff in Hx. cbn [map In] in Hx.
    rewrite zget_zset_other; [apply H2|]; tauto.
Qed.

Lemma memo_is_only {A} (m : zmap A) val done x a :
  memo_is m zempty val done -> zget x m = Some a -> In x (map fe_id done).
Proof.
  intros [_ H2] Hx. destruct (in_dec Z.eq_dec x (map fe_id done)) as [Hi|Hn]; [exact Hi|].
  rewrite (H2 x Hn), zget_empty in Hx. discriminate.
Qed.

(* a RoundInfo the loop has written for round r: nothing received, nothing decided, every created
   entry is an event of [done] recorded for r, with its witness flag, fame undecided *)
Definition ri_ok (done : list frameev) (r : Z) (ri : rinfo) : Prop :=
  ri_received ri = [] /\ ri_decided ri = false /\
  forall x w t, In (x, (w, t)) (ri_created ri) ->
    t = Undefined /\ exists fe, In fe done /\ fe_id fe = x /\ fe_round fe = r /\ fe_wit fe = w.

Lemma ri_ok_incl done done' r ri : (forall fe, In fe done -> In fe done') -> ri_ok done r ri -> ri_ok done' r ri.
Proof.
  intros Hi [A [B C]]. split; [exact A|split; [exact B|]].
  intros x w t Hin. destruct (C x w t Hin) as [Ht [fe [Hfe R]]]. split; [exact Ht|]. exists fe. auto.
Qed.

Lemma ri_ok_or_new st done r :
  (forall ri, get_round st r = Some ri -> ri_ok done r ri) -> ri_ok done r (round_or_new st r).
Proof.
  intros H. unfold round_or_new. destruct (get_round st r) as [ri|]; [apply H; reflexivity|].
  split; [reflexivity|split; [reflexivity|intros x w t []]].
Qed.

Lemma ri_ok_add done ri fe : ri_ok done (fe_round fe) ri -> aget (fe_id fe) (ri_created ri) = None ->
  ri_ok (done ++ [fe]) (fe_round fe) (add_created ri (fe_id fe) (fe_wit fe)).
Proof.
  intros Hri Hn. rewrite (add_created_fresh _ _ _ Hn).
  destruct (ri_ok_incl done (done ++ [fe]) _ ri (fun g Hg => in_or_app _ _ g (or_introl Hg)) Hri) as [A [B C]].
  split; [exact A|split; [exact B|]]. cbn [ri_created set].
  intros x w t Hin. apply in_app_iff in Hin. destruct Hin as [Hin|[Hin|[]]]; [apply C; exact Hin|].
  inversion Hin; subst. split; [reflexivity|]. exists fe. split; [apply in_app_iff; right; left; reflexivity|auto].
Qed.

(* state of the loop after the frame events [done] (a prefix of the sorted frame events) *)
Record loop_inv (cores : list event) (v0 : hg) (done : list frameev) (s : hg) : Prop := {
  li_dom : forall y, get_event s y <> None <-> In y (map fe_id done);
  li_rec : forall fe, In fe done -> exists e la t,
           core_of cores (fe_id fe) = Some e /\
           evinfo s (fe_id fe) = Some (e, Some (fe_round fe), Some (fe_lt fe), None, la, t);
  li_rm : memo_is (round_memo s) zempty fe_round done;
  li_wm : memo_is (witness_memo s) zempty fe_wit done;
  (* Reset does not clear timestampCache *)
  li_lm : memo_is (lt_memo s) (lt_memo v0) fe_lt done;
  li_rounds : forall r ri, get_round s r = Some ri -> ri_ok done r ri;
  li_created : forall fe, In fe done -> exists ri, get_round s (fe_round fe) = Some ri /\
               aget (fe_id fe) (ri_created ri) = Some (fe_wit fe, Undefined);
  li_topo : topo s = Z.of_nat (length done);
  li_cc : cons_count s = cons_count v0 + Z.of_nat (length done);
  li_lr : -1 <= last_round s /\ (forall r, get_round s r <> None -> 0 <= r <= last_round s) /\
          (last_round s = -1 \/ get_round s (last_round s) <> None)
}.

Lemma li_w cores v0 done s : loop_inv cores v0 done s -> wmemo_total s.
Proof.
  intros L x es Hx. assert (Hin : In x (map fe_id done)) by (apply (li_dom _ _ _ _ L); congruence).
  apply in_map_iff in Hin. destruct Hin as [fe [<- Hfe]]. rewrite (proj1 (li_wm _ _ _ _ L) fe Hfe). discriminate.
Qed.

Lemma loop_inv_start cores v s : cleared v s -> loop_inv cores v [] s.
Proof.
  intros C.
  assert (Ge : forall y, get_event s y = None) by (intros y; unfold get_event; rewrite (cl_events _ _ C); apply zget_empty).
  assert (Gr : forall r, get_round s r = None) by (intros r; unfold get_round; rewrite (cl_rounds _ _ C); apply zget_empty).
  constructor; cbn [map In length Z.of_nat].
  - intros y. rewrite Ge. split; [congruence|intros []].
  - intros fe [].
  - rewrite (cl_rmemo _ _ C). apply memo_is_nil.
  - rewrite (cl_wmemo _ _ C). apply memo_is_nil.
  - rewrite (cl_ltmemo _ _ C). apply memo_is_nil.
  - intros r ri. rewrite Gr. discriminate.
  - intros fe [].
  - apply (cl_topo _ _ C).
  - rewrite (cl_cc _ _ C). lia.
  - rewrite (cl_last_round _ _ C). split; [lia|split; [|left; reflexivity]]. intros r. rewrite Gr. congruence.
Qed.

Lemma get_round_zset st st' r ri r' :
  rounds st' = zset r ri (rounds st) ->
  get_round st' r' = if (r =? r') && (0 <=? r) then Some ri else get_round st r'.
Proof. unfold get_round. intros ->. apply zget_zset. Qed.

Lemma loop_inv_step cores v0 done s fe e s' :
  loop_inv cores v0 done s ->
  core_of cores (fe_id fe) = Some e -> 0 <= fe_id fe -> 0 <= fe_round fe -> ~ In (fe_id fe) (map fe_id done) ->
  insert_frame_event s fe e = (true, s') ->
  loop_inv cores v0 (done ++ [fe]) s' /\ get_event s (e_id e) = None /\ ife_post s fe e s'.
Proof.
  intros L Hc Hid Hr Hnew H.
  pose proof (core_of_id _ _ _ Hc) as Eid.
  assert (Fresh : get_event s (e_id e) = None).
  { rewrite Eid. destruct (get_event s (fe_id fe)) eqn:G; [|reflexivity]. exfalso. apply Hnew.
    apply (li_dom _ _ _ _ L). congruence. }
  assert (Hid' : 0 <= e_id e) by (rewrite Eid; exact Hid).
  pose proof (insert_frame_event_post s fe e s' (li_w _ _ _ _ L) Hid' Eid Fresh H) as P.
  assert (Idone : forall g, In g done -> fe_id g <> fe_id fe).
  { intros g Hg C. apply Hnew. rewrite <- C. apply in_map. exact Hg. }
  (* the RoundInfo of the recorded round does not list the event yet *)
  pose proof (ri_ok_or_new s done (fe_round fe) (li_rounds _ _ _ _ L _)) as Hok.
  assert (Hri : aget (fe_id fe) (ri_created (round_or_new s (fe_round fe))) = None).
  { destruct (aget (fe_id fe) (ri_created _)) as [[w t]|] eqn:A; [|reflexivity]. exfalso.
    destruct (proj2 (proj2 Hok) _ _ _ (aget_In _ _ _ A)) as [_ [g [Hg [Eg _]]]]. eapply Idone; eauto. }
  pose proof (fun r' => get_round_zset s s' _ _ r' (ip_rounds _ _ _ _ P)) as GR.
  rewrite (proj2 (Z.leb_le 0 (fe_round fe)) Hr) in GR.
  split; [|exact (conj Fresh P)]. constructor.
  - intros y. rewrite map_app, in_app_iff. cbn [map In]. rewrite <- (li_dom _ _ _ _ L).
    rewrite <- !evinfo_none, (ip_events _ _ _ _ P y), Eid.
    destruct (Z.eqb_spec y (fe_id fe)) as [->|Hne]; split; intros X; try congruence; auto.
    destruct X as [X|[X|[]]]; [exact X|congruence].
  - intros g Hg. rewrite (ip_events _ _ _ _ P), Eid. apply in_app_iff in Hg. destruct Hg as [Hg|[<-|[]]].
    + destruct (Z.eqb_spec (fe_id g) (fe_id fe)) as [C|_]; [exfalso; eapply Idone; eauto|].
      apply (li_rec _ _ _ _ L g Hg).
    + rewrite Z.eqb_refl. exists e, (fst (init_coords s e)), (topo s). auto.
  - rewrite (ip_rmemo _ _ _ _ P). apply memo_is_snoc; [apply (li_rm _ _ _ _ L)|exact Hid|exact Hnew].
  - rewrite (ip_wmemo _ _ _ _ P). apply memo_is_snoc; [apply (li_wm _ _ _ _ L)|exact Hid|exact Hnew].
  - rewrite (ip_ltmemo _ _ _ _ P). apply memo_is_snoc; [apply (li_lm _ _ _ _ L)|exact Hid|exact Hnew].
  - intros r ri. rewrite GR. destruct (Z.eqb_spec (fe_round fe) r) as [<-|Hne]; cbn [andb].
    + intros X; inversion X. apply ri_ok_add; assumption.
    + intros G. apply (ri_ok_incl done); [intros g Hg; apply in_app_iff; auto|]. apply (li_rounds _ _ _ _ L _ _ G).
  - intros g Hg. apply in_app_iff in Hg. rewrite GR. destruct Hg as [Hg|[<-|[]]].
    + destruct (li_created _ _ _ _ L g Hg) as [ri0 [G A]].
      destruct (Z.eqb_spec (fe_round fe) (fe_round g)) as [Er|Hne]; cbn [andb]; [|exists ri0; auto].
      eexists. split; [reflexivity|]. rewrite (add_created_fresh _ _ _ Hri). cbn [ri_created set]. apply aget_app_some.
      unfold round_or_new. rewrite Er, G. exact A.
    + rewrite Z.eqb_refl. cbn [andb]. eexists. split; [reflexivity|]. rewrite (add_created_fresh _ _ _ Hri).
      cbn [ri_created set]. rewrite aget_app_none by exact Hri. cbn [aget]. rewrite Z.eqb_refl. reflexivity.
  - rewrite (ip_topo _ _ _ _ P), (li_topo _ _ _ _ L), app_length, Nat2Z.inj_add. reflexivity.
  - rewrite (ip_cc _ _ _ _ P), (li_cc _ _ _ _ L), app_length, Nat2Z.inj_add, Z.add_assoc. reflexivity.
  - destruct (li_lr _ _ _ _ L) as [B1 [B2 B3]]. rewrite (ip_last_round _ _ _ _ P). clear - B1 B2 B3 Hr GR. split; [lia|split].
    + intros r. rewrite GR. destruct (Z.eqb_spec (fe_round fe) r) as [<-|Hne]; cbn [andb]; [lia|].
      intros X. specialize (B2 r X). lia.
    + right. rewrite GR. destruct (Z.max_spec (fe_round fe) (last_round s)) as [[Hlt ->]|[Hge ->]].
      * destruct (Z.eqb_spec (fe_round fe) (last_round s)); cbn [andb]; [discriminate|].
        destruct B3 as [B3|B3]; [lia|exact B3].
      * rewrite Z.eqb_refl. cbn [andb]. discriminate.
Qed.

(* the loop keeps its invariant, and any predicate kept by each InsertFrameEvent of a fresh event *)
Lemma insert_frame_events_inv cores v0 (C : hg -> Prop) : forall todo done s s',
  loop_inv cores v0 done s -> C s ->
  NoDup (map fe_id (done ++ todo)) -> Forall (fun fe => 0 <= fe_id fe /\ 0 <= fe_round fe) todo ->
  (forall s fe e s', In fe todo -> core_of cores (fe_id fe) = Some e -> C s -> get_event s (e_id e) = None ->
     ife_post s fe e s' -> C s') ->
  insert_frame_events s todo cores = (true, s') -> loop_inv cores v0 (done ++ todo) s' /\ C s'.
Proof.
  induction todo as [|fe rest IH]; intros done s s' L HC ND Pos Step H; cbn [insert_frame_events] in H.
  - inversion H; subst. rewrite app_nil_r. auto.
  - destruct (core_of cores (fe_id fe)) as [e|] eqn:Hc; [|discriminate].
    destruct (insert_frame_event s fe e) as [[|] s1] eqn:E; [|discriminate].
    apply Forall_cons_iff in Pos. destruct Pos as [[P1 P2] Pos].
    assert (Hnew : ~ In (fe_id fe) (map fe_id done)).
    { rewrite map_app in ND. cbn [map] in ND. apply NoDup_remove_2 in ND. intros C0. apply ND. apply in_app_iff. auto. }
    destruct (loop_inv_step cores v0 done s fe e s1 L Hc P1 P2 Hnew E) as [L1 [Fresh P]].
    replace (done ++ fe :: rest) with ((done ++ [fe]) ++ rest) by (rewrite <- app_assoc; reflexivity).
    apply (IH (done ++ [fe]) s1 s' L1 (Step s fe e s1 (or_introl eq_refl) Hc HC Fresh P));
      [rewrite <- app_assoc; exact ND|exact Pos| |exact H].
    intros s0 fe0 e0 s0' Hin. apply Step. right. exact Hin.
Qed.

(* the invariant reads the DAG, the round table, the memo tables and two counters; the end of
   Hashgraph.Reset and core.fastForward write none of them *)
Lemma loop_inv_finish cores v0 done s b ps :
  loop_inv cores v0 done s -> loop_inv cores v0 done ((reset_finish s b) <| validators := ps |>).
Proof. intros L. destruct s. destruct L. constructor; assumption. Qed.

Lemma rfe_insert_perm cores x l : Permutation.Permutation (rfe_insert cores x l) (x :: l).
Proof.
  induction l as [|y r IH]; cbn [rfe_insert]; [apply Permutation.Permutation_refl|].
  destruct (rfe_less cores y x); [|apply Permutation.Permutation_refl].
  eapply Permutation.perm_trans; [apply Permutation.perm_skip; exact IH|apply Permutation.perm_swap].
Qed.
Lemma rfe_sort_perm cores l : Permutation.Permutation (rfe_sort cores l) l.
Proof.
  induction l as [|x r IH]; cbn [rfe_sort fold_right]; [constructor|].
  eapply Permutation.perm_trans; [apply rfe_insert_perm|]. apply Permutation.perm_skip. exact IH.
Qed.

Record frame_shape (f : frame) : Prop := {
  fs_nodup : NoDup (map fe_id (all_frame_events f));
  fs_pos : Forall (fun fe => 0 <= fe_id fe /\ 0 <= fe_round fe) (all_frame_events f);
  fs_table : StronglySorted Z.lt (map fst (f_peersets f))
}.

(* the state after core.fastForward(block, frame) *)
Record reset_post (v : hg) (b : block) (f : frame) (cores : list event) (v1 : hg) : Prop := {
  rp_blocks : blocks v1 = zset (b_index b) b zempty;
  rp_last_block : last_block v1 = Z.max (b_index b) (-1);
  rp_frames : frames v1 = zset (f_round f) f zempty;
  rp_table : peersets v1 = f_peersets f;
  rp_validators : validators v1 = ff_validators f;
  rp_lb : lower_bound v1 = Some (b_rr b);
  rp_lc : last_consensus v1 = Some (b_rr b);
  rp_und : undetermined v1 = [];
  rp_pending : pending v1 = [];
  rp_anchor : anchor v1 = None;
  rp_pl : pending_loaded v1 = 0;
  rp_sigpool : sigpool v1 = sigpool v;
  rp_self : self v1 = self v;
  rp_self_sigs : self_sigs v1 = self_sigs v;
  rp_delivered : delivered v1 = delivered v;
  rp_oracle : oracle v1 = oracle v;
  rp_failed : failed v1 = failed v;
  rp_dag : loop_inv cores v (sorted_frame_events cores f) v1
}.

(* the stages of a successful core.fastForward / node.fastForward *)
Lemma core_fast_forward_inv v b f cores v1 : core_fast_forward v b f cores = (true, v1) ->
  exists s1 s2, store_reset (hg_clear v) f = (true, s1) /\
    insert_frame_events s1 (sorted_frame_events cores f) cores = (true, s2) /\
    v1 = reset_finish s2 b <| validators := ff_validators f |>.
Proof.
  unfold core_fast_forward, reset_hg.
  destruct (store_reset (hg_clear v) f) as [[|] s1]; [|discriminate].
  destruct (insert_frame_events s1 (sorted_frame_events cores f) cores) as [[|] s2] eqn:E2; [|discriminate].
  intros [= <-]. exists s1, s2. auto.
Qed.

Lemma node_fast_forward_inv v b f cores v' : node_fast_forward v b f cores = (true, v') ->
  exists v1, core_fast_forward v b f cores = (true, v1) /\ v' = process_receipts v1 (b_rr b) (b_itxs b).
Proof.
  unfold node_fast_forward. destruct (core_fast_forward v b f cores) as [[|] v1]; [|discriminate].
  intros [= <-]. exists v1. split; reflexivity.
Qed.

Lemma sorted_frame_events_in cores f fe : In fe (sorted_frame_events cores f) <-> In fe (all_frame_events f).
Proof.
  split; apply Permutation.Permutation_in; [|apply Permutation.Permutation_sym]; apply rfe_sort_perm.
Qed.

Lemma sorted_frame_events_shape cores f : frame_shape f ->
  NoDup (map fe_id (sorted_frame_events cores f)) /\
  Forall (fun fe => 0 <= fe_id fe /\ 0 <= fe_round fe) (sorted_frame_events cores f).
Proof.
  intros [ND Pos _]. split.
  - eapply Permutation.Permutation_NoDup; [|exact ND].
    apply Permutation.Permutation_map, Permutation.Permutation_sym, rfe_sort_perm.
  - rewrite Forall_forall in *. intros fe Hin. apply Pos. apply (sorted_frame_events_in cores f fe), Hin.
Qed.

Lemma reset_hg_post v b f cores v1 :
  frame_shape f -> core_fast_forward v b f cores = (true, v1) -> reset_post v b f cores v1.
Proof.
  intros FS H. destruct (core_fast_forward_inv v b f cores v1 H) as (s1 & s2 & E1 & E2 & ->).
  destruct (sorted_frame_events_shape cores f FS) as [ND' Pos'].
  destruct (insert_frame_events_inv cores v (fun _ => True) _ [] s1 s2
              (loop_inv_start cores v s1 (store_reset_cleared v f s1 E1)) I ND' Pos' (fun _ _ _ _ _ _ _ _ _ => I) E2) as [L _].
  cbn [app] in L. apply (loop_inv_finish _ _ _ _ b (ff_validators f)) in L.
  (* both intermediate states, written out over [v] *)
  pose proof (insert_frame_events_nodag cores (sorted_frame_events cores f) s1) as N. rewrite E2 in N. cbn [snd] in N.
  destruct (store_reset_eq v f s1 E1) as [Es1 Pt]. specialize (Pt (fs_table f FS)).
  revert L. rewrite (nodag_eq _ _ N), Es1. clear - Pt.
  destruct v. intros L. constructor; try reflexivity; [exact Pt|exact L].
Qed.

(* node.fastForward: the anchor block's receipts are applied on top, exactly as core.commit does on
   a full-history node (replay_step of Model/PeerSetSpec.v) *)
Lemma node_fast_forward_table v b f cores v' :
  frame_shape f -> node_fast_forward v b f cores = (true, v') ->
  (peersets v', validators v') = replay_step (f_peersets f, ff_validators f) (b_rr b) (b_itxs b).
Proof.
  intros FS H. destruct (node_fast_forward_inv v b f cores v' H) as (v1 & E & ->).
  pose proof (reset_hg_post v b f cores v1 FS E) as P.
  destruct (process_receipts_eq v1 (b_rr b) (b_itxs b)) as (R & F & Q & ->).
  rewrite <- (rp_table _ _ _ _ _ P), <- (rp_validators _ _ _ _ _ P). symmetry. apply surjective_pairing.
Qed.

Lemma evinfo_get st x e r t q la tp :
  evinfo st x = Some (e, r, t, q, la, tp) ->
  exists es, get_event st x = Some es /\ ev_e es = e /\ ev_round es = r /\ ev_lt es = t /\ ev_rr es = q /\
             ev_la es = la /\ ev_topo es = tp.
Proof.
  unfold evinfo. destruct (get_event st x) as [es|]; cbn; [|discriminate].
  unfold ev_nofd. intros H; inversion H. exists es. repeat split; reflexivity.
Qed.

Record reset_dag (f : frame) (cores : list event) (v0 v1 : hg) : Prop := {
  (* the stored events are exactly the root events and the frame events *)
  rd_dom : forall y, get_event v1 y <> None <-> In y (map fe_id (all_frame_events f));
  (* each with the body shipped in the frame, the recorded round and Lamport timestamp, no
     round-received; the memo tables answer the recorded round / witness flag / timestamp; the
     RoundInfo of the recorded round lists it with the recorded witness flag, fame undecided *)
  rd_event : forall fe, In fe (all_frame_events f) ->
      exists e es ri, core_of cores (fe_id fe) = Some e /\ get_event v1 (fe_id fe) = Some es /\
        ev_e es = e /\ ev_round es = Some (fe_round fe) /\ ev_lt es = Some (fe_lt fe) /\ ev_rr es = None /\
        zget (fe_id fe) (round_memo v1) = Some (fe_round fe) /\
        zget (fe_id fe) (witness_memo v1) = Some (fe_wit fe) /\
        zget (fe_id fe) (lt_memo v1) = Some (fe_lt fe) /\
        get_round v1 (fe_round fe) = Some ri /\ aget (fe_id fe) (ri_created ri) = Some (fe_wit fe, Undefined);
  (* nothing else is memoised for rounds / witnesses; the Lamport memo keeps the entries it had
     (Reset does not clear timestampCache) *)
  rd_rmemo_only : forall x r, zget x (round_memo v1) = Some r -> In x (map fe_id (all_frame_events f));
  rd_wmemo_only : forall x w, zget x (witness_memo v1) = Some w -> In x (map fe_id (all_frame_events f));
  rd_ltmemo_old : forall x, ~ In x (map fe_id (all_frame_events f)) -> zget x (lt_memo v1) = zget x (lt_memo v0);
  (* the round table: nothing received, nothing decided, only frame events created *)
  rd_rounds : forall r ri, get_round v1 r = Some ri ->
      ri_received ri = [] /\ ri_decided ri = false /\
      forall x w t, In (x, (w, t)) (ri_created ri) ->
        t = Undefined /\ exists fe, In fe (all_frame_events f) /\ fe_id fe = x /\ fe_round fe = r /\ fe_wit fe = w;
  rd_last_round : -1 <= last_round v1 /\ (forall r, get_round v1 r <> None -> 0 <= r <= last_round v1) /\
                  (last_round v1 = -1 \/ get_round v1 (last_round v1) <> None);
  (* counters: the topological counter restarts from 0, totConsensusEvents continues *)
  rd_topo : topo v1 = Z.of_nat (length (all_frame_events f));
  rd_cc : cons_count v1 = cons_count v0 + Z.of_nat (length (all_frame_events f))
}.

Lemma reset_post_dag v b f cores v1 : reset_post v b f cores v1 -> reset_dag f cores v v1.
Proof.
  intros P. pose proof (rp_dag _ _ _ _ _ P) as L.
  pose proof (rfe_sort_perm cores (all_frame_events f)) as Perm. fold (sorted_frame_events cores f) in Perm.
  assert (InP : forall fe, In fe (all_frame_events f) <-> In fe (sorted_frame_events cores f))
    by (intros fe; symmetry; apply sorted_frame_events_in).
  assert (InI : forall y, In y (map fe_id (all_frame_events f)) <-> In y (map fe_id (sorted_frame_events cores f))).
  { intros y. split; apply Permutation.Permutation_in, Permutation.Permutation_map; [apply Permutation.Permutation_sym|]; exact Perm. }
  assert (Len : length (sorted_frame_events cores f) = length (all_frame_events f)) by (apply Permutation.Permutation_length; exact Perm).
  constructor.
  - intros y. rewrite InI. apply (li_dom _ _ _ _ L).
  - intros fe Hin. apply InP in Hin.
    destruct (li_rec _ _ _ _ L fe Hin) as [e [la [t [Hc Hi]]]].
    destruct (evinfo_get _ _ _ _ _ _ _ _ Hi) as [es [Hg [E1 [E2 [E3 [E4 _]]]]]].
    destruct (li_created _ _ _ _ L fe Hin) as [ri [Gr Ag]].
    exists e, es, ri.
    exact (conj Hc (conj Hg (conj E1 (conj E2 (conj E3 (conj E4 (conj (proj1 (li_rm _ _ _ _ L) fe Hin)
            (conj (proj1 (li_wm _ _ _ _ L) fe Hin) (conj (proj1 (li_lm _ _ _ _ L) fe Hin) (conj Gr Ag)))))))))).
  - intros x r H. apply InI. apply (memo_is_only _ _ _ _ _ (li_rm _ _ _ _ L) H).
  - intros x w H. apply InI. apply (memo_is_only _ _ _ _ _ (li_wm _ _ _ _ L) H).
  - intros x H. apply (li_lm _ _ _ _ L). intros C. apply H. apply InI. exact C.
  - intros r ri G. apply (ri_ok_incl (sorted_frame_events cores f)); [intros fe; apply InP|]. apply (li_rounds _ _ _ _ L r ri G).
  - apply (li_lr _ _ _ _ L).
  - rewrite (li_topo _ _ _ _ L), Len. reflexivity.
  - rewrite (li_cc _ _ _ _ L), Len. reflexivity.
Qed.

(* [frame_shapeb] (Model/HgReset.v) is a sound test for [frame_shape] *)
Lemma sorted_ltb_sound l : sorted_ltb l = true -> StronglySorted Z.lt l.
Proof.
  induction l as [|x r IH]; cbn [sorted_ltb]; [constructor|].
  intros H. apply andb_prop in H. destruct H as [H1 H2]. constructor; [auto|].
  rewrite forallb_forall in H1. rewrite Forall_forall. intros y Hy. specialize (H1 y Hy). lia.
Qed.
Lemma nodupb_sound l : nodupb l = true -> NoDup l.
Proof.
  induction l as [|x r IH]; cbn [nodupb]; [constructor|].
  intros H. apply andb_prop in H. destruct H as [H1 H2]. constructor; [|auto].
  intros C. apply negb_true_iff in H1. assert (X : existsb (Z.eqb x) r = true) by (apply existsb_exists; exists x; split; [exact C|apply Z.eqb_refl]).
  congruence.
Qed.
Lemma frame_shapeb_sound f : frame_shapeb f = true -> frame_shape f.
Proof.
  unfold frame_shapeb. intros H. apply andb_prop in H. destruct H as [H H3]. apply andb_prop in H. destruct H as [H1 H2].
  constructor; [apply nodupb_sound; exact H1| |apply sorted_ltb_sound; exact H3].
  rewrite forallb_forall in H2. rewrite Forall_forall. intros fe Hin. specialize (H2 fe Hin). lia.
Qed.
