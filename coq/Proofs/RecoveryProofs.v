(* C11 crash recovery: proofs about Model/Recovery.v. *)
From Coq Require Import ZArith List Bool Lia ZifyBool.
From RecordUpdate Require Import RecordSet.
From V Require Import Model.ZMap Model.Quorum Model.Voting Model.HgImpl Model.Recovery
  Proofs.ZMapFacts Proofs.HgFrames Proofs.HgDagFrames Proofs.AdmissionProofs Proofs.HgBlockFrames Proofs.BlockInv
  Proofs.HgSim Proofs.HgRepFrames.
Import ListNotations RecordSetNotations.
Open Scope Z_scope.

Definition to_hop (o : nop) : hop := match o with NInsert e => HInsert e | NSigPool => HSigPool end.
Lemma nstep_hstep st o : nstep st o = hstep st (to_hop o).
Proof. destruct o; reflexivity. Qed.
Lemma nrun_hrun ops : forall st, nrun st ops = hrun st (map to_hop ops).
Proof. induction ops as [|o r IH]; intros st; cbn; [reflexivity|]. rewrite <- nstep_hstep. apply IH. Qed.
Lemma nrun_app st ops ops' : nrun st (ops ++ ops') = nrun (nrun st ops) ops'.
Proof. unfold nrun. apply fold_left_app. Qed.
Lemma run_app st l l' : run st (l ++ l') = run (run st l) l'.
Proof. unfold run. apply fold_left_app. Qed.

(* premises on the events a node is ever offered: hash ordinals identify events *)
Definition wf (all : list event) : Prop := ids_determine all /\ (forall e, In e all -> 0 <= e_id e).

Record ninv (all : list event) (st : hg) : Prop := {
  n_dag : dag_ok st;
  n_from : from_attempts st all;
  n_binv : binv st
}.

Lemma ninv_init all self_ genesis oracle_ : ninv all (init_hg self_ genesis oracle_).
Proof. constructor; [apply dag_ok_init|apply init_no_event|apply binv_init]. Qed.

Lemma nstep_ninv all st o : wf all -> (forall e, o = NInsert e -> In e all) -> ninv all st -> ninv all (nstep st o).
Proof.
  intros [ID Pos] Hin [OK FA BI]. destruct o as [e|]; cbn [nstep].
  - specialize (Hin e eq_refl). destruct (step_inv st e all OK FA ID Hin (Pos e Hin)) as [OK' FA'].
    constructor; [exact OK'|exact FA'|apply step_binv; exact BI].
  - pose proof (process_sigpool_frame st) as F.
    constructor; [eapply dag_ok_frame; eauto|eapply from_attempts_frame; eauto|apply process_sigpool_binv; exact BI].
Qed.

Lemma incl_op_events_cons o r all : incl (op_events (o :: r)) all ->
  (forall e, o = NInsert e -> In e all) /\ incl (op_events r) all.
Proof.
  intros H. split.
  - intros e ->. apply H. cbn. left. reflexivity.
  - intros e He. apply H. unfold op_events. cbn [flat_map]. apply in_or_app. right. exact He.
Qed.

Lemma nrun_ninv all ops : forall st, wf all -> incl (op_events ops) all -> ninv all st -> ninv all (nrun st ops).
Proof.
  induction ops as [|o r IH]; intros st W I N; cbn; [exact N|].
  destruct (incl_op_events_cons _ _ _ I) as [I1 I2]. apply IH; auto. apply nstep_ninv; auto.
Qed.

Lemma reject_noop all st e : wf all -> ninv all st -> In e all -> fst (insert_and_run st e) <> InsOk -> step st e = st.
Proof.
  intros [ID Pos] [OK FA _] Hin Hr. unfold step. unfold insert_and_run in *.
  destruct (insert_event st e) as [r s] eqn:E.
  destruct (insert_event_inv st e all r s OK FA ID Hin (Pos e Hin) E) as [_ [_ Hns]].
  destruct r; cbn [fst snd] in *; try congruence; eapply insert_reject_noop; eauto; discriminate.
Qed.

Lemma run_simr fl evs : forall a b, simr fl a b -> simr fl (run a evs) (run b evs).
Proof.
  induction evs as [|e r IH]; intros a b S; cbn; [exact S|]. apply IH. apply step_simr. exact S.
Qed.

Lemma run_binv evs : forall st, binv st -> binv (run st evs).
Proof. induction evs as [|e r IH]; intros st OK; cbn; [exact OK|]. apply IH, step_binv, OK. Qed.

Lemma accepted_cons st o r : accepted st (o :: r) = accepted st [o] ++ accepted (nstep st o) r.
Proof.
  destruct o as [e|]; cbn [accepted nstep]; [|reflexivity].
  unfold step. destruct (insert_and_run st e) as [[] s]; reflexivity.
Qed.

(* an insertion attempt is accepted, and then logged together with the blocks it stores, or changes nothing *)
Lemma insert_cases all st e : wf all -> ninv all st -> In e all ->
  (fst (insert_and_run st e) = InsOk /\ accepted st [NInsert e] = [e] /\
   op_log st (NInsert e) = WEvent e (topo st) :: block_writes st (step st e)) \/
  (step st e = st /\ accepted st [NInsert e] = [] /\ op_log st (NInsert e) = []).
Proof.
  intros W N Hin. pose proof (reject_noop all st e W N Hin) as R. unfold step in *. cbn [accepted op_log].
  destruct (insert_and_run st e) as [[] s]; cbn [fst snd] in *;
    [left; auto|right; split; [apply R; discriminate|auto]..].
Qed.

(* a property of the state and of the events accepted so far that every operation carries on holds along
   every sequence of operations *)
Lemma nrun_accepted all (Q : hg -> list event -> Prop) : wf all ->
  (forall st o evs, (forall e, o = NInsert e -> In e all) -> ninv all st -> Q st evs ->
                    Q (nstep st o) (evs ++ accepted st [o])) ->
  forall ops st evs, incl (op_events ops) all -> ninv all st -> Q st evs -> Q (nrun st ops) (evs ++ accepted st ops).
Proof.
  intros W Hstep. induction ops as [|o r IH]; intros st evs I N H; [cbn; rewrite app_nil_r; exact H|].
  destruct (incl_op_events_cons _ _ _ I) as [I1 I2].
  rewrite accepted_cons, app_assoc. apply IH; [exact I2|apply nstep_ninv; auto|apply Hstep; auto].
Qed.

(* every event of the sequence is accepted when replayed in order *)
Fixpoint all_ok (st : hg) (evs : list event) : Prop :=
  match evs with [] => True | e :: r => fst (insert_and_run st e) = InsOk /\ all_ok (step st e) r end.

Lemma all_ok_simr fl evs : forall a b, simr fl a b -> all_ok a evs -> all_ok b evs.
Proof.
  induction evs as [|e r IH]; intros a b S H; [exact I|]. destruct H as [H1 H2].
  destruct (step_simr fl a b e S) as [E S1]. split; [congruence|eapply IH; eauto].
Qed.

Lemma all_ok_app l1 : forall st l2, all_ok st (l1 ++ l2) <-> all_ok st l1 /\ all_ok (run st l1) l2.
Proof.
  induction l1 as [|e r IH]; intros st l2; cbn [app all_ok run fold_left]; [tauto|].
  rewrite IH. unfold run. tauto.
Qed.

Lemma nstep_replay fl all st st' o : wf all -> (forall e, o = NInsert e -> In e all) -> ninv all st -> simr fl st st' ->
  all_ok st' (accepted st [o]) /\ simr fl (nstep st o) (run st' (accepted st [o])).
Proof.
  intros W I N S. destruct o as [e|]; cbn [nstep].
  - destruct (insert_cases all st e W N (I e eq_refl)) as [[Hok [-> _]]|[-> [-> _]]]; [|split; [exact Logic.I|exact S]].
    destruct (step_simr fl st st' e S) as [E S1]. split; [split; [congruence|exact Logic.I]|exact S1].
  - split; [exact Logic.I|].
    eapply simr_trans; [apply simr_sym, process_sigpool_simr; intros _; apply (n_binv _ _ N)|exact S].
Qed.

(* the node's state is, up to the components the relation ignores, the plain run over the accepted
   events, each of which the replay accepts *)
Lemma nrun_replay fl all ops st st' : wf all -> incl (op_events ops) all -> ninv all st -> simr fl st st' ->
  all_ok st' (accepted st ops) /\ simr fl (nrun st ops) (run st' (accepted st ops)).
Proof.
  intros W I N S.
  apply (nrun_accepted all (fun s evs => all_ok st' evs /\ simr fl s (run st' evs)) W) with (evs := []);
    [|exact I|exact N|split; [exact Logic.I|exact S]].
  intros s o evs Io Ns [A Ss]. destruct (nstep_replay fl all s (run st' evs) o W Io Ns Ss) as [A1 S1].
  split; [apply all_ok_app; auto|rewrite run_app; exact S1].
Qed.

Lemma boot_insert_all_ok evs : forall st, all_ok st evs -> boot_insert st evs = (run st evs, true).
Proof.
  induction evs as [|e r IH]; intros st H; [reflexivity|]. destruct H as [H1 H2].
  cbn [boot_insert run fold_left]. unfold step in *.
  destruct (insert_and_run st e) as [res s]. cbn [fst snd] in *. subst res. apply IH. exact H2.
Qed.

(* boot_process_sig is Bootstrap's ProcessSigPool: its block lookup falls back to the database *)
Lemma boot_process_sig_core g blk st u s :
  core (fst (boot_process_sig g blk (st, u) s)) = core st /\
  delivered (fst (boot_process_sig g blk (st, u) s)) = delivered st.
Proof.
  unfold boot_process_sig. destruct (g && _); [auto|].
  destruct (zget (bs_index s) (blocks st)) as [b|]; [|destruct (zget (bs_index s) blk) as [b|]; [|auto]];
    split; [apply sig_on_block_sim|apply sig_on_block_delivered|apply sig_on_block_sim|apply sig_on_block_delivered].
Qed.

Lemma boot_sigpool_core g blk st u :
  core (fst (boot_sigpool g blk (st, u))) = core st /\ delivered (fst (boot_sigpool g blk (st, u))) = delivered st.
Proof.
  unfold boot_sigpool. cbn [fst]. generalize (sigpool st) as l. intros l. revert st u.
  induction l as [|s l IH]; intros st u; cbn [fold_left]; [auto|].
  destruct (boot_process_sig_core g blk st u s) as [H1 H2].
  destruct (boot_process_sig g blk (st, u) s) as [st1 u1]. cbn [fst] in *.
  destruct (IH st1 u1) as [H3 H4]. split; congruence.
Qed.

Lemma binv_block_present st i : binv st -> 0 <= i <= last_block st -> exists b, zget i (blocks st) = Some b.
Proof.
  intros OK Hi. pose proof (b_len st OK) as Hl.
  destruct (nth_error (delivered st) (Z.to_nat i)) as [d|] eqn:Hn.
  - destruct (b_del st OK _ _ Hn) as [_ [b [Hb _]]]. rewrite Z2Nat.id in Hb by lia. eauto.
  - apply nth_error_None in Hn. lia.
Qed.

(* the flag only goes up; while it is down the pass is the ordinary ProcessSigPool; with the guard
   and the block-store invariant it stays down *)
Lemma boot_process_sig_flag g blk st u s :
  (u = true -> snd (boot_process_sig g blk (st, u) s) = true) /\
  (snd (boot_process_sig g blk (st, u) s) = false -> u = false) /\
  (binv st -> (g = true \/ snd (boot_process_sig g blk (st, u) s) = false) ->
   snd (boot_process_sig g blk (st, u) s) = u /\ fst (boot_process_sig g blk (st, u) s) = process_sig st s).
Proof.
  unfold boot_process_sig. rewrite process_sig_as_on_block.
  destruct (g && (last_block st <? bs_index s)) eqn:Eg; cbn [fst snd].
  - split; [auto|]. split; [auto|]. intros OK _. split; [reflexivity|].
    destruct (zget (bs_index s) (blocks st)) as [b|] eqn:Hb; [|reflexivity].
    destruct (b_idx st OK _ _ Hb). lia.
  - destruct (zget (bs_index s) (blocks st)) as [b|] eqn:Hb; cbn [fst snd]; [auto|].
    destruct (zget (bs_index s) blk) as [b|] eqn:Hd; cbn [fst snd]; [|auto].
    split; [auto|]. split; [discriminate|]. intros OK [->|E]; [|discriminate].
    cbn [andb] in Eg. exfalso.
    assert (Hpos : 0 <= bs_index s) by (eapply zget_some_nonneg; eauto).
    destruct (binv_block_present st (bs_index s) OK) as [b' Hb']; [lia|congruence].
Qed.

Lemma boot_sigpool_flag g blk st u :
  (u = true -> snd (boot_sigpool g blk (st, u)) = true) /\
  (snd (boot_sigpool g blk (st, u)) = false -> u = false) /\
  (binv st -> (g = true \/ snd (boot_sigpool g blk (st, u)) = false) ->
   snd (boot_sigpool g blk (st, u)) = u /\ fst (boot_sigpool g blk (st, u)) = process_sigpool st).
Proof.
  unfold boot_sigpool, process_sigpool. cbn [fst]. generalize (sigpool st) as l. intros l. revert st u.
  induction l as [|s l IH]; intros st u; cbn [fold_left]; [cbn [fst snd]; auto|].
  destruct (boot_process_sig_flag g blk st u s) as [H1 [H2 H3]].
  destruct (boot_process_sig g blk (st, u) s) as [st1 u1] eqn:E1. cbn [fst snd] in *.
  destruct (IH st1 u1) as [H4 [H5 H6]]. split; [|split].
  - intros E. apply H4, H1, E.
  - intros E. apply H2, H5, E.
  - intros OK Hg.
    assert (Hg1 : g = true \/ u1 = false) by (destruct Hg as [Hg|Hg]; [left; exact Hg|right; apply H5; exact Hg]).
    destruct (H3 OK Hg1) as [Eu Es]. subst u1 st1.
    apply H6; [apply process_sig_binv; exact OK|exact Hg].
Qed.

Lemma firstn_skipn_len {A} n (l : list A) : (length (firstn n l) < n)%nat -> skipn n l = [].
Proof.
  intros H. rewrite firstn_length in H. apply skipn_all2. lia.
Qed.

Lemma skipn_shorter {A} n (l : list A) f :
  (0 < n)%nat -> (length l < S f)%nat -> (n <= length (firstn n l))%nat -> (length (skipn n l) < f)%nat.
Proof. rewrite skipn_length, firstn_length. lia. Qed.

Lemma BATCH_pos : (0 < BATCH)%nat.
Proof. apply Nat.lt_0_succ. Qed.

Lemma boot_loop_sim fuel g blk : forall evs st u st',
  (length evs < fuel)%nat -> all_ok st' evs -> simr false st st' ->
  let r := boot_loop fuel g blk st u evs in
  br_ok r = true /\ simr false (br_st r) (run st' evs) /\
  (u = true -> br_db_block r = true) /\
  (binv st -> binv st' -> simr true st st' -> (g = true /\ u = false) \/ br_db_block r = false ->
   br_db_block r = false /\ simr true (br_st r) (run st' evs) /\ binv (br_st r)).
Proof.
  induction fuel as [|f IH]; intros evs st u st' Hlen Hok S; [destruct (Nat.nlt_0_r _ Hlen)|].
  cbn [boot_loop].
  rewrite <- (firstn_skipn BATCH evs) in Hok. apply all_ok_app in Hok. destruct Hok as [Hok1 Hok2].
  set (batch := firstn BATCH evs) in *. set (rest := skipn BATCH evs) in *.
  assert (Hrun : run st' evs = run (run st' batch) rest) by (rewrite <- run_app; subst batch rest; rewrite firstn_skipn; reflexivity).
  rewrite (boot_insert_all_ok batch st) by (eapply all_ok_simr; [apply simr_sym; exact S|exact Hok1]).
  pose proof (run_simr false batch st st' S) as S1.
  destruct (boot_sigpool_core g blk (run st batch) u) as [C1 _].
  destruct (boot_sigpool_flag g blk (run st batch) u) as [Fl1 [Fl2 Fl3]].
  destruct (boot_sigpool g blk (run st batch, u)) as [s1 u1] eqn:Eb. cbn [fst snd] in *.
  assert (S2 : simr false s1 (run st' batch)).
  { eapply simr_trans; [|exact S1]. split; [exact C1|discriminate]. }
  assert (Fine : binv st -> binv st' -> simr true st st' -> (g = true /\ u = false) \/ u1 = false ->
                 u1 = false /\ simr true s1 (run st' batch) /\ binv s1).
  { intros B B' St Hg. pose proof (run_binv batch st B) as Bb.
    assert (Hg' : g = true \/ u1 = false) by (destruct Hg as [[Hg _]|Hg]; auto).
    destruct (Fl3 Bb Hg') as [Eu ->].
    split; [destruct Hg as [[_ Hu]|Hu]; congruence|].
    split; [|apply process_sigpool_binv; exact Bb].
    eapply simr_trans; [apply simr_sym, process_sigpool_simr; intros _; exact Bb|apply run_simr; exact St]. }
  destruct (length batch <? BATCH)%nat eqn:El.
  - apply Nat.ltb_lt in El. pose proof (firstn_skipn_len BATCH evs El) as Er. fold rest in Er.
    rewrite Hrun, Er. cbn [run fold_left br_ok br_st br_db_block].
    split; [reflexivity|]. split; [exact S2|]. split; [exact Fl1|]. exact Fine.
  - apply Nat.ltb_ge in El.
    pose proof (skipn_shorter BATCH evs f BATCH_pos Hlen El) as Hl.
    destruct (IH rest s1 u1 (run st' batch) Hl Hok2 S2) as [R1 [R2 [R3 R4]]].
    rewrite Hrun. split; [exact R1|]. split; [exact R2|]. split; [intros E; apply R3, Fl1, E|].
    intros B B' St Hg.
    assert (Hg1 : (g = true /\ u = false) \/ u1 = false).
    { destruct Hg as [Hg|Hg]; [left; exact Hg|right].
      destruct u1; [|reflexivity]. rewrite (R3 eq_refl) in Hg. discriminate. }
    destruct (Fine B B' St Hg1) as [F0 [F1 F2]].
    apply R4; auto; [apply run_binv; exact B'|].
    destruct Hg as [[Hg _]|Hg]; [left; auto|right; exact Hg].
Qed.

(* the database that a prefix of the write log denotes holds the events evs, in the order written *)
Record dbev_ok (d : db) (evs : list event) : Prop := {
  de_nth : forall i e, nth_error evs i = Some e ->
           zget (Z.of_nat i) (db_topo d) = Some (e_id e) /\ zget (e_id e) (db_ev d) = Some e;
  de_end : forall t, Z.of_nat (length evs) <= t -> zget t (db_topo d) = None;
  de_keys : forall x e', zget x (db_ev d) = Some e' -> exists e, In e evs /\ e_id e = x;
  de_pe : length (db_pe d) = length evs
}.

Lemma dbev_empty : dbev_ok db_empty [].
Proof.
  constructor; cbn.
  - intros i e H. destruct i; discriminate.
  - intros t _. apply zget_empty.
  - intros x e' H. rewrite zget_empty in H. discriminate.
  - reflexivity.
Qed.

Lemma dbev_in d evs e : dbev_ok d evs -> In e evs -> zget (e_id e) (db_ev d) = Some e.
Proof. intros OK H. destruct (In_nth_error _ _ H) as [i Hi]. apply (de_nth d evs OK i e Hi). Qed.

Lemma db_scan_ok d evs : dbev_ok d evs -> forall rest pre fuel, evs = pre ++ rest -> (length rest < fuel)%nat ->
  db_scan fuel d (Z.of_nat (length pre)) = (rest, true).
Proof.
  intros OK. induction rest as [|e r IH]; intros pre fuel E Hf; (destruct fuel as [|f]; [lia|]); cbn [db_scan].
  - rewrite (de_end d evs OK); [reflexivity|]. rewrite E, app_nil_r. lia.
  - assert (Hn : nth_error evs (length pre) = Some e).
    { rewrite E, nth_error_app2 by lia. rewrite Nat.sub_diag. reflexivity. }
    destruct (de_nth d evs OK _ _ Hn) as [H1 H2]. rewrite H1, H2.
    replace (Z.of_nat (length pre) + 1) with (Z.of_nat (length (pre ++ [e]))) by (rewrite app_length; cbn; lia).
    rewrite (IH (pre ++ [e]) f); [reflexivity| |cbn in Hf; lia].
    rewrite <- app_assoc. exact E.
Qed.

Lemma db_topo_events_ok d evs : dbev_ok d evs -> db_topo_events d = (evs, true).
Proof.
  intros OK. unfold db_topo_events. rewrite (de_pe d evs OK).
  apply (db_scan_ok d evs OK evs [] (S (length evs))); [reflexivity|lia].
Qed.

Definition not_event_write (w : wr) : Prop := match w with WEvent _ _ => False | _ => True end.

Lemma dbev_apply_other d evs w : not_event_write w -> dbev_ok d evs -> dbev_ok (db_apply d w) evs.
Proof.
  intros Hw [H1 H2 H3 H4]. destruct w; cbn in Hw; try contradiction; destruct d; constructor; cbn in *; auto.
Qed.

Lemma dbev_apply_event d evs e : dbev_ok d evs -> 0 <= e_id e -> (forall e', In e' evs -> e_id e' <> e_id e) ->
  dbev_ok (db_apply d (WEvent e (Z.of_nat (length evs)))) (evs ++ [e]).
Proof.
  intros [H1 H2 H3 H4] Hid Hfresh.
  assert (Hn : zget (e_id e) (db_ev d) = None).
  { destruct (zget (e_id e) (db_ev d)) as [e'|] eqn:E; [|reflexivity].
    destruct (H3 _ _ E) as [e0 [Hin Heq]]. exfalso. eapply Hfresh; eauto. }
  unfold db_apply. rewrite Hn. destruct d as [ps ev tp pe blk]; cbn in *.
  constructor; cbn.
  - intros i e0 Hi. destruct (Nat.lt_ge_cases i (length evs)) as [Hlt|Hge].
    + rewrite nth_error_app1 in Hi by exact Hlt. destruct (H1 _ _ Hi) as [A B].
      rewrite zget_zset_other by lia. rewrite zget_zset_other; [auto|].
      intros C. apply (Hfresh e0); [eapply nth_error_In; eauto|auto].
    + rewrite nth_error_app2 in Hi by exact Hge.
      destruct (i - length evs)%nat as [|m] eqn:Em; [|destruct m; discriminate].
      injection Hi as <-. assert (i = length evs) by lia. subst i.
      rewrite zget_zset_same by apply Nat2Z.is_nonneg. rewrite zget_zset_same by exact Hid. auto.
  - intros t Ht. rewrite app_length in Ht. cbn in Ht. rewrite zget_zset_other by lia.
    apply H2. lia.
  - intros x e' Hx. rewrite zget_zset in Hx.
    destruct ((e_id e =? x) && (0 <=? e_id e)) eqn:Ex.
    + exists e. split; [apply in_or_app; right; left; reflexivity|]. apply andb_prop in Ex. apply Z.eqb_eq, Ex.
    + destruct (H3 _ _ Hx) as [e0 [Hin Heq]]. exists e0. split; [apply in_or_app; left; exact Hin|exact Heq].
  - rewrite !app_length, H4. reflexivity.
Qed.

Lemma dbev_fold_other l : forall d evs, Forall not_event_write l -> dbev_ok d evs -> dbev_ok (fold_left db_apply l d) evs.
Proof.
  induction l as [|w l IH]; intros d evs F OK; cbn [fold_left]; [exact OK|].
  inversion F; subst. apply IH; [assumption|]. apply dbev_apply_other; assumption.
Qed.

Lemma block_writes_not_event st st' : Forall not_event_write (block_writes st st').
Proof.
  unfold block_writes. apply Forall_flat_map. apply Forall_forall. intros i _.
  destruct (zget i (blocks st)), (zget i (blocks st')); try (destruct (block_eqb_sigs _ _)); repeat constructor.
Qed.

Lemma Forall_firstn {A} (P : A -> Prop) n l : Forall P l -> Forall P (firstn n l).
Proof. intros H. revert n. induction H; intros [|n]; cbn; constructor; auto. Qed.

(* the events a state holds, in insertion order *)
Definition link (st : hg) (evs : list event) : Prop :=
  topo st = Z.of_nat (length evs) /\ (forall e, In e evs -> exists es, get_event st (e_id e) = Some es) /\
  (forall x es, get_event st x = Some es -> In (ev_e es) evs).

Lemma link_frame st st' evs : dag_frame st st' -> link st evs -> link st' evs.
Proof.
  intros F [Lt [Lk Lb]]. split; [|split].
  - rewrite (proj2 (proj2 F)). exact Lt.
  - intros e He. destruct (Lk e He) as [es H].
    destruct (proj2 (frame_get_event st st' _ F) _ H) as [es' [H' _]]. eauto.
  - intros x es' Hx. destruct (proj1 (frame_get_event st st' x F) _ Hx) as [es [H E]]. rewrite <- E. eauto.
Qed.

Lemma step_ok_link all st e evs : wf all -> ninv all st -> In e all -> fst (insert_and_run st e) = InsOk ->
  link st evs -> link (step st e) (evs ++ [e]) /\ (forall e', In e' evs -> e_id e' <> e_id e).
Proof.
  intros [ID Pos] [OK FA _] Hin Hok [Lt [Lk Lb]]. unfold step, insert_and_run in *.
  destruct (insert_event st e) as [r s] eqn:E. destruct r; cbn [fst snd] in *; try discriminate.
  destruct (insert_event_cases st e _ _ E) as [[_ [N _]]|[Hsig [Hsp [Hop A]]]]; [congruence|].
  destruct (admitted_stored st e all _ s OK FA ID Hin (Pos e Hin) Hsig Hsp Hop A) as [_ [Fr [st2 [Hst [_ F]]]]].
  pose proof (store_set_event_get _ _ _ Hst (Pos e Hin)) as G. cbn [ev_e] in G.
  split.
  - apply (link_frame st2); [rewrite F; eapply dag_frame_trans; [apply dag_frame_after_store|apply run_consensus_frame]|].
    split; [|split].
    + destruct (store_set_event_footprint _ _ _ Hst) as [P E2].
      rewrite E2, app_length, Nat2Z.inj_add, <- Lt. reflexivity.
    + intros e' He'. rewrite G. destruct (e_id e' =? e_id e) eqn:Ee; [eauto|].
      apply in_app_or in He'. destruct He' as [He'|[<-|[]]]; [apply Lk, He'|].
      rewrite Z.eqb_refl in Ee. discriminate.
    + intros x es Hx. rewrite G in Hx. apply in_or_app.
      destruct (x =? e_id e); [right; injection Hx as <-; left; reflexivity|left; eapply Lb; eauto].
  - intros e' He' C. destruct (Lk e' He') as [es Hes]. rewrite C in Hes. congruence.
Qed.

Lemma sigpool_link st evs : link st evs -> link (process_sigpool st) evs.
Proof. apply link_frame, process_sigpool_frame. Qed.

Lemma nstep_link all st o evs : wf all -> (forall e, o = NInsert e -> In e all) -> ninv all st -> link st evs ->
  link (nstep st o) (evs ++ accepted st [o]).
Proof.
  intros W I N L. destruct o as [e|]; cbn [nstep].
  - destruct (insert_cases all st e W N (I e eq_refl)) as [[Hok [-> _]]|[-> [-> _]]].
    + apply (step_ok_link all st e evs W N (I e eq_refl) Hok L).
    + rewrite app_nil_r. exact L.
  - cbn [accepted]. rewrite app_nil_r. apply sigpool_link, L.
Qed.

(* the database once the first entries of an operation's log are written: its event, if it has one, is in *)
Lemma op_log_prefix all st o d evs j : wf all -> (forall e, o = NInsert e -> In e all) -> ninv all st ->
  link st evs -> dbev_ok d evs ->
  dbev_ok (fold_left db_apply (firstn (S j) (op_log st o)) d) (evs ++ accepted st [o]).
Proof.
  intros W I N L OK.
  assert (B : forall s' n d' l, dbev_ok d' l -> dbev_ok (fold_left db_apply (firstn n (block_writes st s')) d') l)
    by (intros; apply dbev_fold_other; [apply Forall_firstn, block_writes_not_event|assumption]).
  destruct o as [e|].
  - destruct (insert_cases all st e W N (I e eq_refl)) as [[Hok [-> ->]]|[_ [-> ->]]]; [|rewrite app_nil_r; exact OK].
    destruct (step_ok_link all st e evs W N (I e eq_refl) Hok L) as [_ Fr].
    cbn [firstn fold_left]. apply B. rewrite (proj1 L).
    apply dbev_apply_event; [exact OK|apply (proj2 W), I; reflexivity|exact Fr].
  - cbn [accepted op_log]. rewrite app_nil_r. apply B, OK.
Qed.

(* the database after any number of entries holds exactly the events of the operations that had started *)
Lemma db_prefix all ops : forall st d evs k, wf all -> incl (op_events ops) all -> ninv all st -> link st evs ->
  dbev_ok d evs ->
  dbev_ok (fold_left db_apply (firstn k (concat (op_logs st ops))) d)
          (evs ++ accepted st (firstn (started (op_logs st ops) k) ops)).
Proof.
  induction ops as [|o r IH]; intros st d evs k W I N L OK.
  - cbn. destruct k; cbn; rewrite app_nil_r; exact OK.
  - destruct k as [|k']; [cbn; rewrite app_nil_r; exact OK|].
    destruct (incl_op_events_cons _ _ _ I) as [I1 I2].
    cbn [op_logs concat started]. rewrite firstn_app, fold_left_app. cbn [firstn]. rewrite accepted_cons, app_assoc.
    apply IH; [exact W|exact I2|apply nstep_ninv; auto|apply (nstep_link all); auto|apply (op_log_prefix all); auto].
Qed.

Lemma nrun_link all ops st evs : wf all -> incl (op_events ops) all -> ninv all st -> link st evs ->
  link (nrun st ops) (evs ++ accepted st ops).
Proof. intros W. apply (nrun_accepted all link W). intros s o l Io Ns. apply (nstep_link all); assumption. Qed.

Lemma set_peerset_table st r ps st' : set_peerset st r ps = Some st' -> peersets st' = ps_table_insert r ps (peersets st).
Proof.
  unfold set_peerset. destruct (existsb _ _); [discriminate|]. intros [= <-].
  etransitivity; [apply (fold_left_view peersets)|reflexivity].
  intros s p. cbv zeta. destruct (zmem _ _); reflexivity.
Qed.

Lemma init_peersets self_ genesis oracle_ : peersets (init_hg self_ genesis oracle_) = [(0, genesis)].
Proof.
  unfold init_hg. destruct (set_peerset (empty_hg self_) 0 genesis) as [st|] eqn:S; [|discriminate].
  exact (set_peerset_table _ _ _ _ S).
Qed.

Lemma init_set_peerset_refused self_ genesis oracle_ ps : set_peerset (init_hg self_ genesis oracle_) 0 ps = None.
Proof. unfold set_peerset. rewrite init_peersets. reflexivity. Qed.

Lemma init_topo self_ genesis oracle_ : topo (init_hg self_ genesis oracle_) = 0.
Proof. exact (proj2 (proj2 (init_frame self_ genesis oracle_))). Qed.

Lemma init_link self_ genesis oracle_ : link (init_hg self_ genesis oracle_) [].
Proof.
  split; [apply init_topo|]. split; [intros e []|].
  exact (init_no_event self_ genesis oracle_ []).
Qed.

Lemma incl_op_events_firstn n ops : incl (op_events (firstn n ops)) (op_events ops).
Proof.
  revert n. induction ops as [|o r IH]; intros [|n]; cbn [firstn]; try (intros e []).
  unfold op_events. cbn [flat_map]. intros e He. apply in_app_or in He. apply in_or_app.
  destruct He as [He|He]; [left; exact He|right; apply (IH n); exact He].
Qed.

Lemma crash_db_ok self_ genesis oracle_ ops k : wf (op_events ops) ->
  dbev_ok (crash_db self_ genesis oracle_ ops k) (pre_events self_ genesis oracle_ ops k).
Proof.
  intros W. unfold crash_db, pre_events, ops_started, node_log, db_of_log.
  destruct k as [|k'].
  { change (0 - 1)%nat with O.
    assert (Hs : started (op_logs (init_hg self_ genesis oracle_) ops) 0 = O)
      by (destruct (op_logs (init_hg self_ genesis oracle_) ops); reflexivity).
    rewrite Hs. cbn [firstn fold_left accepted]. apply dbev_empty. }
  cbn [firstn fold_left]. replace (S k' - 1)%nat with k' by lia.
  apply (db_prefix (op_events ops) ops (init_hg self_ genesis oracle_) _ [] k' W (incl_refl _)
           (ninv_init _ _ _ _) (init_link _ _ _)).
  apply dbev_apply_other; [exact I|apply dbev_empty].
Qed.

Lemma restart_ps d genesis : aget 0 (db_ps (restart_db d genesis)) = Some genesis.
Proof. unfold restart_db, db_apply. destruct d; cbn. apply aget_aset_same. Qed.

(* Bootstrap after the crash is the batch loop over the accepted events, from the initial state *)
Lemma recovered_loop g self_ genesis oracle_ ops k : wf (op_events ops) ->
  exists blk, recovered_g g self_ genesis oracle_ ops k =
    boot_loop (S (length (pre_events self_ genesis oracle_ ops k))) g blk (init_hg self_ genesis oracle_) false
              (pre_events self_ genesis oracle_ ops k).
Proof.
  intros W. unfold recovered_g, bootstrap.
  assert (OK : dbev_ok (restart_db (crash_db self_ genesis oracle_ ops k) genesis) (pre_events self_ genesis oracle_ ops k))
    by (apply dbev_apply_other; [exact I|apply crash_db_ok, W]).
  rewrite restart_ps, init_set_peerset_refused, (db_topo_events_ok _ _ OK). eexists. reflexivity.
Qed.

Lemma pre_replay fl self_ genesis oracle_ ops k : wf (op_events ops) ->
  all_ok (init_hg self_ genesis oracle_) (pre_events self_ genesis oracle_ ops k) /\
  simr fl (pre_state self_ genesis oracle_ ops k) (run (init_hg self_ genesis oracle_) (pre_events self_ genesis oracle_ ops k)).
Proof.
  intros W. apply (nrun_replay fl (op_events ops)); [exact W|apply incl_op_events_firstn|apply ninv_init|apply simr_refl].
Qed.

Lemma recovered_sim g self_ genesis oracle_ ops k : wf (op_events ops) ->
  let r := recovered_g g self_ genesis oracle_ ops k in
  let pre := pre_state self_ genesis oracle_ ops k in
  br_ok r = true /\ simr false (br_st r) pre /\
  (g = true \/ br_db_block r = false -> br_db_block r = false /\ simr true (br_st r) pre /\ binv (br_st r)).
Proof.
  intros W. cbv zeta. destruct (recovered_loop g self_ genesis oracle_ ops k W) as [blk ->].
  destruct (pre_replay true self_ genesis oracle_ ops k W) as [Hall P].
  set (init := init_hg self_ genesis oracle_) in *. set (evs := pre_events self_ genesis oracle_ ops k) in *.
  destruct (boot_loop_sim (S (length evs)) g blk evs init false init
              (Nat.lt_succ_diag_r _) Hall (simr_refl false init)) as [R1 [R2 [_ R4]]].
  split; [exact R1|]. split.
  - eapply simr_trans; [exact R2|apply simr_sym, simr_weaken; exact P].
  - intros E. pose proof (binv_init self_ genesis oracle_) as B0.
    assert (E' : (g = true /\ false = false) \/ br_db_block (boot_loop (S (length evs)) g blk init false evs) = false)
      by (destruct E as [E|E]; [left; auto|right; exact E]).
    destruct (R4 B0 B0 (simr_refl true init) E') as [R0 [R5 R6]].
    split; [exact R0|]. split; [|exact R6]. eapply simr_trans; [exact R5|apply simr_sym; exact P].
Qed.

Lemma simr_components fl a b : simr fl a b ->
  events a = events b /\ pevents a = pevents b /\ repertoire a = repertoire b /\ self a = self b.
Proof.
  intros [C _]. exact (conj (f_equal events C) (conj (f_equal pevents C) (conj (f_equal repertoire C) (f_equal self C)))).
Qed.

Lemma simr_true_delivered a b : simr true a b -> delivered a = delivered b /\ last_block a = last_block b.
Proof. intros [_ H]. specialize (H eq_refl). unfold fine3 in H. inversion H. auto. Qed.

Lemma dag_ok_core a b : core a = core b -> dag_ok a -> dag_ok b.
Proof.
  intros C. pose proof (core_eq_wb a b C) as E. rewrite E. intros [H1 H2 H3 H4 H5 H6].
  constructor; intros *; rewrite ?get_event_wb, ?pevents_wb; eauto.
Qed.

Lemma wf_incl all all' : wf all -> incl all' all -> wf all'.
Proof. intros [ID Pos] I. split; [intros e e' H H'; apply ID; auto|intros e H; apply Pos; auto]. Qed.

Lemma pre_ninv self_ genesis oracle_ ops k : wf (op_events ops) ->
  ninv (op_events ops) (pre_state self_ genesis oracle_ ops k) /\
  link (pre_state self_ genesis oracle_ ops k) (pre_events self_ genesis oracle_ ops k).
Proof.
  intros W. unfold pre_state, pre_events. split.
  - apply nrun_ninv; [exact W|apply incl_op_events_firstn|apply ninv_init].
  - apply (nrun_link (op_events ops) _ _ [] W (incl_op_events_firstn _ _) (ninv_init _ _ _ _) (init_link _ _ _)).
Qed.

(* an event accepted before the crash is stored under its identifier, body unchanged: the database holds
   one body for each identifier *)
Lemma pre_stored self_ genesis oracle_ ops k e : wf (op_events ops) -> In e (pre_events self_ genesis oracle_ ops k) ->
  exists es, get_event (pre_state self_ genesis oracle_ ops k) (e_id e) = Some es /\ ev_e es = e.
Proof.
  intros W He. destruct (pre_ninv self_ genesis oracle_ ops k W) as [N [_ [Lk Lb]]].
  destruct (Lk e He) as [es Hes]. exists es. split; [exact Hes|].
  pose proof (crash_db_ok self_ genesis oracle_ ops k W) as OK.
  pose proof (dbev_in _ _ _ OK (Lb _ _ Hes)) as H. rewrite (d_id _ (n_dag _ _ N) _ _ Hes), (dbev_in _ _ _ OK He) in H.
  congruence.
Qed.

(* and sits in its creator's list at its index *)
Lemma pre_own self_ genesis oracle_ ops k e : wf (op_events ops) -> In e (pre_events self_ genesis oracle_ ops k) ->
  exists p, zget (e_creator e) (pevents (pre_state self_ genesis oracle_ ops k)) = Some p /\ 0 <= e_index e /\
            nth_error (pi_items p) (Z.to_nat (e_index e)) = Some (e_id e).
Proof.
  intros W He. destruct (pre_stored self_ genesis oracle_ ops k e W He) as [es [Hes <-]].
  exact (d_listed _ (n_dag _ _ (proj1 (pre_ninv self_ genesis oracle_ ops k W))) _ _ Hes).
Qed.

Theorem recover_ok g self_ genesis oracle_ ops k : wf (op_events ops) ->
  br_ok (recovered_g g self_ genesis oracle_ ops k) = true.
Proof. intros W. apply (recovered_sim g self_ genesis oracle_ ops k W). Qed.

Theorem recover_known_exact g self_ genesis oracle_ ops k : wf (op_events ops) ->
  let r := recovered_g g self_ genesis oracle_ ops k in
  let pre := pre_state self_ genesis oracle_ ops k in
  let d := crash_db self_ genesis oracle_ ops k in
  events (br_st r) = events pre /\ pevents (br_st r) = pevents pre /\ known_events (br_st r) = known_events pre /\
  (forall x es, get_event (br_st r) x = Some es -> zget x (db_ev d) = Some (ev_e es)) /\
  (forall x e, zget x (db_ev d) = Some e -> exists es, get_event (br_st r) x = Some es /\ ev_e es = e).
Proof.
  intros W. cbv zeta.
  destruct (recovered_sim g self_ genesis oracle_ ops k W) as [_ [S _]].
  destruct (simr_components _ _ _ S) as [Ee [Ep _]].
  destruct (pre_ninv self_ genesis oracle_ ops k W) as [N [_ [Lk Lb]]].
  pose proof (crash_db_ok self_ genesis oracle_ ops k W) as OK.
  split; [exact Ee|]. split; [exact Ep|]. split; [unfold known_events; rewrite Ep; reflexivity|].
  assert (G : forall x, get_event (br_st (recovered_g g self_ genesis oracle_ ops k)) x =
                        get_event (pre_state self_ genesis oracle_ ops k) x)
    by (intros x; unfold get_event; rewrite Ee; reflexivity).
  split.
  - intros x es H. rewrite G in H. rewrite <- (d_id _ (n_dag _ _ N) _ _ H) at 1. apply (dbev_in _ _ _ OK), (Lb _ _ H).
  - intros x e H. destruct (de_keys _ _ OK _ _ H) as [e0 [Hin <-]].
    destruct (pre_stored self_ genesis oracle_ ops k e0 W Hin) as [es [Hes Ee0]].
    exists es. split; [rewrite G; exact Hes|]. rewrite (dbev_in _ _ _ OK Hin) in H. congruence.
Qed.

Theorem recover_redelivers g self_ genesis oracle_ ops k : wf (op_events ops) ->
  g = true \/ br_db_block (recovered_g g self_ genesis oracle_ ops k) = false ->
  br_db_block (recovered_g g self_ genesis oracle_ ops k) = false /\
  delivered (br_st (recovered_g g self_ genesis oracle_ ops k)) = delivered (pre_state self_ genesis oracle_ ops k) /\
  last_block (br_st (recovered_g g self_ genesis oracle_ ops k)) = last_block (pre_state self_ genesis oracle_ ops k).
Proof.
  intros W E. destruct (recovered_sim g self_ genesis oracle_ ops k W) as [_ [_ F]].
  destruct (F E) as [E0 [S _]]. split; [exact E0|]. apply simr_true_delivered. exact S.
Qed.

(* blocks delivered at any earlier moment of the node's life are an initial segment *)
Lemma nrun_del_ext ops : forall st, binv st -> del_ext st (nrun st ops).
Proof. intros st B. rewrite nrun_hrun. apply hrun_del. exact B. Qed.

Theorem delivered_before_is_prefix self_ genesis oracle_ ops i j : (i <= j)%nat ->
  exists l, delivered (nrun (init_hg self_ genesis oracle_) (firstn j ops)) =
            delivered (nrun (init_hg self_ genesis oracle_) (firstn i ops)) ++ l.
Proof.
  intros Hij.
  assert (E : firstn j ops = firstn i ops ++ skipn i (firstn j ops)).
  { rewrite <- (firstn_skipn i (firstn j ops)) at 1. rewrite firstn_firstn. replace (Nat.min i j) with i by lia. reflexivity. }
  rewrite E, nrun_app. apply nrun_del_ext.
  rewrite nrun_hrun. apply hrun_binv.
Qed.

Theorem run_prefix_delivered st l1 l2 : binv st -> exists l, delivered (run st (l1 ++ l2)) = delivered (run st l1) ++ l.
Proof.
  intros B. rewrite run_app.
  assert (E : forall evs s, run s evs = nrun s (map NInsert evs)).
  { induction evs as [|e r IH]; intros s; cbn; [reflexivity|]. apply IH. }
  rewrite (E l2). apply nrun_del_ext. apply run_binv. exact B.
Qed.

(* a single batch: the database blocks cannot disturb the deliveries *)
Lemma boot_loop_one_batch f g blk st u evs : (length evs < BATCH)%nat -> all_ok st evs ->
  delivered (br_st (boot_loop (S f) g blk st u evs)) = delivered (run st evs).
Proof.
  intros Hl Hok. cbn [boot_loop]. rewrite firstn_all2 by lia.
  rewrite (boot_insert_all_ok evs st Hok).
  destruct (boot_sigpool_core g blk (run st evs) u) as [_ D].
  destruct (boot_sigpool g blk (run st evs, u)) as [s1 u1]. cbn [fst] in D.
  apply Nat.ltb_lt in Hl. rewrite Hl. cbn [br_st]. exact D.
Qed.

Theorem recover_redelivers_one_batch g self_ genesis oracle_ ops k : wf (op_events ops) ->
  (length (pre_events self_ genesis oracle_ ops k) < BATCH)%nat ->
  delivered (br_st (recovered_g g self_ genesis oracle_ ops k)) = delivered (pre_state self_ genesis oracle_ ops k).
Proof.
  intros W Hl. destruct (recovered_loop g self_ genesis oracle_ ops k W) as [blk ->].
  destruct (pre_replay true self_ genesis oracle_ ops k W) as [Hall P].
  rewrite (boot_loop_one_batch _ _ _ _ _ _ Hl Hall). symmetry. apply simr_true_delivered. exact P.
Qed.

Lemma nrun_rep_inv ops : forall st, rep_inv st -> rep_inv (nrun st ops).
Proof.
  induction ops as [|o r IH]; intros st OK; [exact OK|]. cbn [nrun fold_left]. apply IH.
  destruct o; cbn [nstep]; [apply step_rep; exact OK|eapply rep_inv_rview; [apply rview_process_sigpool|exact OK]].
Qed.

Theorem recover_head_seq g self_ genesis oracle_ ops k : wf (op_events ops) ->
  let rec := br_st (recovered_g g self_ genesis oracle_ ops k) in
  let evs := pre_events self_ genesis oracle_ ops k in
  (forall e, In e evs -> e_creator e = self rec -> e_index e <= snd (head_seq rec)) /\
  ((head_seq rec = (-1, -1) /\ forall e, In e evs -> e_creator e <> self rec) \/
   exists e, In e evs /\ e_creator e = self rec /\ head_seq rec = (e_id e, e_index e)).
Proof.
  intros W. cbv zeta.
  destruct (recovered_sim g self_ genesis oracle_ ops k W) as [_ [S _]].
  destruct (simr_components _ _ _ S) as [Ee [Ep [Er _]]].
  destruct (pre_ninv self_ genesis oracle_ ops k W) as [N [_ [_ Lb]]].
  pose proof (fun e => pre_own self_ genesis oracle_ ops k e W) as Own.
  set (rec := br_st (recovered_g g self_ genesis oracle_ ops k)) in *.
  set (pre := pre_state self_ genesis oracle_ ops k) in *.
  set (evs := pre_events self_ genesis oracle_ ops k) in *.
  pose proof (n_dag _ _ N) as OK.
  unfold head_seq. rewrite Er, Ep.
  destruct (zget (self rec) (pevents pre)) as [p|] eqn:Hp.
  2:{ assert (No : forall e, In e evs -> e_creator e <> self rec).
      { intros e He Hc. destruct (Own e He) as [q [Hq _]]. rewrite Hc, Hp in Hq. discriminate. }
      destruct (rep_mem _ _); (split; [intros e He Hc; destruct (No e He Hc)|left; split; [reflexivity|exact No]]). }
  assert (RI : rep_inv pre) by (apply nrun_rep_inv, rep_inv_init). rewrite (RI _ _ Hp).
  (* the own events are the items of the list p *)
  assert (Own' : forall e, In e evs -> e_creator e = self rec ->
            nth_error (pi_items p) (Z.to_nat (e_index e)) = Some (e_id e)).
  { intros e He Hc. destruct (Own e He) as [q [Hq [_ Hn]]]. rewrite Hc, Hp in Hq. injection Hq as <-. exact Hn. }
  destruct (d_chain _ OK _ _ Hp) as [_ Hch].
  destruct (pidx_last_spec p) as [[Hl Hi]|[l [front [Hl Hi]]]]; rewrite Hl.
  - assert (No : forall e, In e evs -> e_creator e <> self rec).
    { intros e He Hc. pose proof (Own' e He Hc) as Hn. rewrite Hi in Hn. destruct (Z.to_nat (e_index e)); discriminate. }
    split; [intros e He Hc; destruct (No e He Hc)|left; split; [reflexivity|exact No]].
  - assert (Hpos : nth_error (pi_items p) (length front) = Some l).
    { rewrite Hi, nth_error_app2 by lia. rewrite Nat.sub_diag. reflexivity. }
    destruct (Hch _ _ Hpos) as [es [Hes [Hcr Hix]]].
    replace (get_event rec l) with (Some es) by (unfold get_event in *; rewrite Ee; symmetry; exact Hes). cbn [snd].
    split.
    + intros e He Hc. pose proof (Own' e He Hc) as Hn. destruct (Own e He) as [_ [_ [Hge _]]].
      assert (Hlt : (Z.to_nat (e_index e) < length (pi_items p))%nat) by (apply nth_error_Some; congruence).
      rewrite Hi, app_length in Hlt. cbn in Hlt. lia.
    + right. exists (ev_e es). split; [eapply Lb; eauto|]. split; [exact Hcr|].
      rewrite (d_id _ OK _ _ Hes). reflexivity.
Qed.

Lemma nstep_simr fl a b o : simr fl a b -> (fl = true -> binv a /\ binv b) -> simr fl (nstep a o) (nstep b o).
Proof.
  intros S B. destruct o as [e|]; cbn [nstep]; [apply step_simr; exact S|].
  eapply simr_trans; [apply simr_sym, process_sigpool_simr; intros E; apply (B E)|].
  eapply simr_trans; [exact S|apply process_sigpool_simr; intros E; apply (B E)].
Qed.

Lemma nstep_binv st o : binv st -> binv (nstep st o).
Proof. intros B. destruct o; cbn [nstep]; [apply step_binv|apply process_sigpool_binv]; exact B. Qed.

Lemma nrun_binv ops : forall st, binv st -> binv (nrun st ops).
Proof. induction ops as [|o r IH]; intros st B; [exact B|]. cbn [nrun fold_left]. apply IH, nstep_binv, B. Qed.

Lemma nrun_simr fl ops : forall a b, simr fl a b -> (fl = true -> binv a /\ binv b) -> simr fl (nrun a ops) (nrun b ops).
Proof.
  induction ops as [|o r IH]; intros a b S B; [exact S|]. cbn [nrun fold_left]. apply IH.
  - apply nstep_simr; assumption.
  - intros E. destruct (B E). split; apply nstep_binv; assumption.
Qed.

(* the recovered node continues as the node that never crashed would have: the two agree in every
   component but blocks, anchor, sigpool, last_block, delivered and self_sigs ([simr false]); with
   the guard, or when no database block was consulted, they agree in the last three as well
   ([simr true]) and the block-store invariant holds.  The admission invariant holds along the way *)
Theorem recover_continues g all self_ genesis oracle_ ops k ops' :
  wf all -> incl (op_events ops) all -> incl (op_events ops') all ->
  let rec := br_st (recovered_g g self_ genesis oracle_ ops k) in
  let pre := pre_state self_ genesis oracle_ ops k in
  dag_ok (nrun rec ops') /\ simr false (nrun rec ops') (nrun pre ops') /\
  (g = true \/ br_db_block (recovered_g g self_ genesis oracle_ ops k) = false ->
   binv (nrun rec ops') /\ simr true (nrun rec ops') (nrun pre ops')).
Proof.
  intros W I I'. cbv zeta.
  destruct (recovered_sim g self_ genesis oracle_ ops k (wf_incl _ _ W I)) as [_ [S F]].
  assert (Npre : ninv all (pre_state self_ genesis oracle_ ops k)).
  { unfold pre_state. apply nrun_ninv; [exact W| |apply ninv_init].
    eapply incl_tran; [apply incl_op_events_firstn|exact I]. }
  pose proof (nrun_simr false ops' _ _ S (fun E => ltac:(discriminate))) as S'.
  split; [|split; [exact S'|]].
  - eapply dag_ok_core; [symmetry; apply S'|apply (n_dag _ _ (nrun_ninv all ops' _ W I' Npre))].
  - intros E. destruct (F E) as [_ [St B]]. split; [apply nrun_binv, B|].
    apply nrun_simr; [exact St|]. intros _. split; [exact B|apply (n_binv _ _ Npre)].
Qed.

(* the writes that Bootstrap never reads back *)
Definition invisible (d : db) (w : wr) : Prop :=
  match w with
  | WRound _ | WFrame _ => True
  | WEvent e _ => zget (e_id e) (db_ev d) = Some e      (* the record of a written event is rewritten *)
  | WPeerSet r _ => r <> 0
  | WBlock _ => False
  end.

Lemma dbev_apply_rewrite d evs e t : zget (e_id e) (db_ev d) = Some e -> dbev_ok d evs -> dbev_ok (db_apply d (WEvent e t)) evs.
Proof.
  intros Hz [H1 H2 H3 H4]. unfold db_apply. rewrite Hz. destruct d as [ps ev tp pe blk]; cbn in *.
  assert (G : forall x, zget x (zset (e_id e) e ev) = zget x ev).
  { intros x. rewrite zget_zset. destruct (Z.eqb_spec (e_id e) x) as [<-|]; cbn [andb]; [|reflexivity].
    destruct (0 <=? e_id e); [symmetry; exact Hz|reflexivity]. }
  constructor; cbn; auto.
  - intros i e0 Hi. rewrite G. apply H1. exact Hi.
  - intros x e' Hx. rewrite G in Hx. eapply H3; eauto.
Qed.

Theorem bootstrap_ignores g self_ genesis oracle_ d evs w : dbev_ok d evs -> invisible d w ->
  bootstrap g self_ genesis oracle_ (db_apply d w) = bootstrap g self_ genesis oracle_ d.
Proof.
  intros OK Hw.
  assert (OK1 : dbev_ok (restart_db d genesis) evs) by (apply dbev_apply_other; [exact I|exact OK]).
  unfold bootstrap. rewrite !restart_ps, (db_topo_events_ok _ _ OK1).
  assert (OK2 : dbev_ok (restart_db (db_apply d w) genesis) evs).
  { apply dbev_apply_other; [exact I|]. destruct w; cbn in Hw; try contradiction.
    - apply dbev_apply_other; [exact I|exact OK].
    - apply dbev_apply_rewrite; assumption.
    - exact OK.
    - exact OK. }
  rewrite (db_topo_events_ok _ _ OK2).
  assert (Eb : db_blk (restart_db (db_apply d w) genesis) = db_blk (restart_db d genesis)).
  { destruct w; cbn in Hw; try contradiction; unfold restart_db, db_apply; try (destruct d; reflexivity).
    rewrite Hw. destruct d; reflexivity. }
  rewrite Eb. reflexivity.
Qed.

(* HgImpl.process_sig has no "index above LastBlockIndex" test (the guard of fix d90db55): under the
   block-store invariant the test is redundant there (no block is stored above the last block
   index), so the model of the running node is the same with and without the guard; only the
   database lookup of Bootstrap is affected *)
Lemma process_sig_guard_redundant st s : binv st ->
  process_sig st s = if last_block st <? bs_index s then st else process_sig st s.
Proof.
  intros OK. destruct (last_block st <? bs_index s) eqn:E; [|reflexivity].
  unfold process_sig. destruct (zget (bs_index s) (blocks st)) as [b|] eqn:Hb; [|reflexivity].
  destruct (b_idx st OK _ _ Hb). lia.
Qed.

(* the code as it stands (guard on, [recovered] = [recovered_g true]): unconditional corollaries *)
Theorem recover_redelivers_cur self_ genesis oracle_ ops k : wf (op_events ops) ->
  br_db_block (recovered self_ genesis oracle_ ops k) = false /\
  delivered (br_st (recovered self_ genesis oracle_ ops k)) = delivered (pre_state self_ genesis oracle_ ops k) /\
  last_block (br_st (recovered self_ genesis oracle_ ops k)) = last_block (pre_state self_ genesis oracle_ ops k).
Proof. intros W. exact (recover_redelivers true self_ genesis oracle_ ops k W (or_introl eq_refl)). Qed.

Theorem recover_continues_cur all self_ genesis oracle_ ops k ops' :
  wf all -> incl (op_events ops) all -> incl (op_events ops') all ->
  let rec := br_st (recovered self_ genesis oracle_ ops k) in
  let pre := pre_state self_ genesis oracle_ ops k in
  dag_ok (nrun rec ops') /\ binv (nrun rec ops') /\ simr true (nrun rec ops') (nrun pre ops') /\
  delivered (nrun rec ops') = delivered (nrun pre ops').
Proof.
  intros W I I'. cbv zeta.
  destruct (recover_continues true all self_ genesis oracle_ ops k ops' W I I') as [D [_ F]].
  destruct (F (or_introl eq_refl)) as [B St].
  split; [exact D|]. split; [exact B|]. split; [exact St|apply simr_true_delivered, St].
Qed.
