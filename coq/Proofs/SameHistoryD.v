(* Two states satisfying the division invariant for ONE per-round assignment P, whose tables answer P on the
   rounds they have, sharing event bodies and free of forks across each other, are two views of the same history
   ([same_historyD]) with G j = the round-j witnesses known to either.  Last, the instances for static membership:
   [see_agree] and [same_history_reach]. *)
From Coq Require Import ZArith List Bool Lia ZifyBool Permutation.
From RecordUpdate Require Import RecordSet.
From V Require Import Model.ZMap Model.Quorum Model.Voting Model.VotingRef Model.VotingRefD Model.HgImpl
  Proofs.ZMapFacts Proofs.QuorumProofs Proofs.AdmissionProofs Proofs.Ancestry Proofs.BlockInv Proofs.RoundOrder
  Proofs.VotingProofs Proofs.VotingProofsD Proofs.FameBridge Proofs.Static Proofs.FirstDesc Proofs.DivInv
  Proofs.Height Proofs.StronglySee Proofs.ViewOk Proofs.SameHistory Proofs.FirstDescD Proofs.StronglySeeD
  Proofs.RoundFunD Proofs.ViewOkD.
Import ListNotations RecordSetNotations.
Open Scope Z_scope.

(* a creator's lower event is known wherever a higher one is *)
Lemma shared_downD P sa sb wa wb ea eb :
  goodD P sa -> goodD P sb -> no_cross_fork sa sb ->
  get_event sa wa = Some ea -> get_event sb wb = Some eb ->
  e_creator (ev_e ea) = e_creator (ev_e eb) -> e_index (ev_e ea) <= e_index (ev_e eb) ->
  exists ea', get_event sb wa = Some ea'.
Proof.
  intros Ga Gb NF Ha Hb Hc Hi.
  pose proof (stored_index_nonnegD P sa Ga wa ea Ha) as H0.
  destruct (dag_ok_gap_free sb wb eb (e_index (ev_e ea)) (gD_dag _ _ Gb) Hb ltac:(lia)) as [u [eu [Hu [Hcu Hiu]]]].
  assert (wa = u) by (apply (NF wa u ea eu Ha Hu); congruence). subst u. eauto.
Qed.

Section Two.
  Variables (P : Z -> peerset) (st1 st2 : hg).
  Hypothesis G1 : goodD P st1.
  Hypothesis G2 : goodD P st2.
  Hypothesis SAME : same_bodies st1 st2.
  Hypothesis NF : no_cross_fork st1 st2.
  Hypothesis R1 : contig st1.
  Hypothesis R2 : contig st2.
  Hypothesis T1 : forall q, 0 <= q <= last_round st1 -> get_peerset st1 q = Some (P q).
  Hypothesis T2 : forall q, 0 <= q <= last_round st2 -> get_peerset st2 q = Some (P q).
  Let SAME' := same_bodies_sym _ _ SAME.
  Let NF' := no_cross_fork_sym _ _ NF.

  Definition GWD (j : Z) : list Z :=
    wits st1 j ++ filter (fun w => negb (mem_key w (wits st1 j))) (wits st2 j).

  Lemma GW_specD j w : In w (GWD j) <-> In w (wits st1 j) \/ In w (wits st2 j).
  Proof.
    unfold GWD. rewrite in_app_iff, filter_In. split.
    - intros [H|[H _]]; auto.
    - intros [H|H]; [left; exact H|].
      destruct (mem_key w (wits st1 j)) eqn:E; [left; apply mem_key_In; exact E|right; auto].
  Qed.

  Lemma GW_nodupD j : NoDup (GWD j).
  Proof.
    unfold GWD. apply NoDup_app_intro'; [apply (wits_nodupD P st1 G1)|apply NoDup_filter, (wits_nodupD P st2 G2)|].
    intros w H1 H2. apply filter_In in H2. destruct H2 as [_ H2].
    apply mem_key_In in H1. rewrite H1 in H2. discriminate.
  Qed.

  Definition cruD (w : Z) : Z :=
    match get_event st1 w with
    | Some e => e_creator (ev_e e)
    | None => match get_event st2 w with Some e => e_creator (ev_e e) | None => -1 end
    end.

  Lemma cru_1D w e : get_event st1 w = Some e -> cruD w = e_creator (ev_e e).
  Proof. unfold cruD. intros ->. reflexivity. Qed.
  Lemma cru_2D w e : get_event st2 w = Some e -> cruD w = e_creator (ev_e e).
  Proof.
    unfold cruD. intros H. destruct (get_event st1 w) as [e1|] eqn:E1; [|rewrite H; reflexivity].
    rewrite (SAME w e1 e E1 H). reflexivity.
  Qed.

  Lemma wits_crossD j a b : In a (wits st1 j) -> In b (wits st2 j) -> cruD a = cruD b -> a = b.
  Proof.
    intros Ha Hb Hc.
    pose proof (proj1 (wits_specD P st1 G1 j a) Ha) as [Hra Hwa].
    pose proof (proj1 (wits_specD P st2 G2 j b) Hb) as [Hrb Hwb].
    destruct (wits_storedD P st1 G1 j a Ha) as [ea Hea]. destruct (wits_storedD P st2 G2 j b Hb) as [eb Heb].
    rewrite (cru_1D a ea Hea), (cru_2D b eb Heb) in Hc.
    destruct (Z.le_ge_cases (e_index (ev_e ea)) (e_index (ev_e eb))) as [Hle|Hle].
    - destruct (shared_downD P st1 st2 a b ea eb G1 G2 NF Hea Heb Hc Hle) as [ea2 Hea2].
      destruct (memo_agreeD P P st1 st2 G1 G2 SAME (fun q _ _ => eq_refl) a ea ea2 Hea Hea2) as [Er Ew].
      apply (wit_uniqueD P st2 G2 a b ea2 eb j Hea2 Heb); try congruence.
      rewrite <- (SAME a ea ea2 Hea Hea2). exact Hc.
    - destruct (shared_downD P st2 st1 b a eb ea G2 G1 NF' Heb Hea (eq_sym Hc) ltac:(lia)) as [eb1 Heb1].
      destruct (memo_agreeD P P st1 st2 G1 G2 SAME (fun q _ _ => eq_refl) b eb1 eb Heb1 Heb) as [Er Ew].
      apply (wit_uniqueD P st1 G1 a b ea eb1 j Hea Heb1); try congruence.
      rewrite (SAME b eb1 eb Heb1 Heb). exact Hc.
  Qed.

  Lemma GW_lengthD j : Z.of_nat (length (GWD j)) <= ps_len (P j).
  Proof.
    unfold ps_len. apply inj_le. rewrite <- (map_length cruD).
    apply NoDup_incl_length.
    - apply NoDup_map_inj_in; [apply GW_nodupD|].
      intros a b Ha Hb Hc. apply GW_specD in Ha. apply GW_specD in Hb.
      destruct Ha as [Ha|Ha], Hb as [Hb|Hb].
      + destruct (wits_storedD P st1 G1 j a Ha) as [ea Hea]. destruct (wits_storedD P st1 G1 j b Hb) as [eb Heb].
        rewrite (cru_1D a ea Hea), (cru_1D b eb Heb) in Hc.
        exact (wits_injD P st1 G1 j a b ea eb Ha Hb Hea Heb Hc).
      + apply (wits_crossD j a b Ha Hb Hc).
      + symmetry. apply (wits_crossD j b a Hb Ha (eq_sym Hc)).
      + destruct (wits_storedD P st2 G2 j a Ha) as [ea Hea]. destruct (wits_storedD P st2 G2 j b Hb) as [eb Heb].
        rewrite (cru_2D a ea Hea), (cru_2D b eb Heb) in Hc.
        exact (wits_injD P st2 G2 j a b ea eb Ha Hb Hea Heb Hc).
    - intros c Hc. apply in_map_iff in Hc. destruct Hc as [w [E Hw]]. apply GW_specD in Hw.
      apply dedup_In. apply mem_key_In. destruct Hw as [Hw|Hw].
      + destruct (wits_memberD P st1 G1 j w Hw) as [ew [Hew Hm]]. rewrite (cru_1D w ew Hew) in E. subst c. exact Hm.
      + destruct (wits_memberD P st2 G2 j w Hw) as [ew [Hew Hm]]. rewrite (cru_2D w ew Hew) in E. subst c. exact Hm.
  Qed.

  (* _ancestor has the same value in both states *)
  Lemma see_agreeD y x e1y e2y e1x e2x :
    get_event st1 y = Some e1y -> get_event st2 y = Some e2y ->
    get_event st1 x = Some e1x -> get_event st2 x = Some e2x ->
    see st1 y x = see st2 y x.
  Proof.
    intros H1y H2y H1x H2x. unfold see, ancestor. destruct (y =? x); [reflexivity|].
    rewrite H1y, H2y, H1x, H2x. rewrite (SAME x e1x e2x H1x H2x). f_equal.
    destruct (aget (e_creator (ev_e e2x)) (ev_la e1y)) as [[i u]|] eqn:E1.
    - rewrite (la_commonD P P st1 st2 G1 G2 SAME y e1y e2y _ i u H1y H2y E1). reflexivity.
    - destruct (aget (e_creator (ev_e e2x)) (ev_la e2y)) as [[i u]|] eqn:E2; [|reflexivity].
      rewrite (la_commonD P P st2 st1 G2 G1 SAME' y e2y e1y _ i u H2y H1y E2) in E1. discriminate.
  Qed.

  (* strongly seen witnesses of the previous round: from one state to the other *)
  Lemma ssset_transferD g sa sb (Ga : goodD P sa) (Gb : goodD P sb) (S : same_bodies sa sb) j y w eay eby :
    get_event sa y = Some eay -> get_event sb y = Some eby ->
    In w (wits sa (j - 1)) -> ss_true g sa y w = true ->
    In w (wits sb (j - 1)) /\ ss_true g sb y w = true.
  Proof.
    intros Hay Hby Hw Hss.
    pose proof (ss_ancD P g sa Ga y w Hss) as Hanc.
    destruct (wits_storedD P sa Ga _ w Hw) as [eaw Haw].
    destruct (anc_commonD P P sa sb Ga Gb S y eay eby w Hay Hby Hanc) as [_ [ebw Hbw]].
    destruct (memo_agreeD P P sa sb Ga Gb S (fun q _ _ => eq_refl) w eaw ebw Haw Hbw) as [Er Ew].
    apply (wits_specD P sa Ga) in Hw. destruct Hw as [Hr Hwt]. split.
    - apply (wits_specD P sb Gb). rewrite <- Er, <- Ew. auto.
    - rewrite <- (ss_agreeD P P sa sb Ga Gb S (fun q _ _ => eq_refl) g y w eay eby eaw ebw Hay Hby Haw Hbw). exact Hss.
  Qed.

  Theorem same_history_genD sees1 sees2 r : -1 <= r ->
    (forall y, In y (wits st1 (r + 1)) -> In y (wits st2 (r + 1)) -> sees1 y = sees2 y) ->
    same_historyD (nD P) r (vparams_with st1 sees1) (view_witnesses st1) (last_round st1)
                  (vparams_with st2 sees2) (view_witnesses st2) (last_round st2) GWD.
  Proof.
    intros Hr Hsees.
    pose proof (view_witnesses_eqD P st1 R1 T1) as VW1. pose proof (view_witnesses_eqD P st2 R2 T2) as VW2.
    constructor.
    - intros y. rewrite VW1, VW2. intros Hy1 Hy2. cbn [vparams_with vp_sees]. apply Hsees; assumption.
    - intros j y _. rewrite VW1, VW2. intros Hy1 Hy2.
      destruct (wits_storedD P st1 G1 _ y Hy1) as [e1y H1y]. destruct (wits_storedD P st2 G2 _ y Hy2) as [e2y H2y].
      unfold vparams_with. cbn [vp_coin]. unfold coin_of. rewrite H1y, H2y, (SAME y e1y e2y H1y H2y). reflexivity.
    - intros j _. apply GW_nodupD.
    - intros j _. apply GW_lengthD.
    - intros j _ w. rewrite VW1. intros Hw. apply GW_specD. left. exact Hw.
    - intros j _ w. rewrite VW2. intros Hw. apply GW_specD. right. exact Hw.
    - intros j y w Hj. rewrite VW1, VW2. intros Hy1 Hy2.
      destruct (wits_storedD P st1 G1 _ y Hy1) as [e1y H1y]. destruct (wits_storedD P st2 G2 _ y Hy2) as [e2y H2y].
      unfold ssset. rewrite !filter_In, VW1, VW2.
      rewrite (ssb_ss_true_withD P st1 T1) by lia. rewrite (ssb_ss_true_withD P st2 T2) by lia.
      split; intros [A B].
      + apply (ssset_transferD (P (j - 1)) st1 st2 G1 G2 SAME j y w e1y e2y H1y H2y A B).
      + apply (ssset_transferD (P (j - 1)) st2 st1 G2 G1 SAME' j y w e2y e1y H2y H1y A B).
  Qed.

  Theorem same_history_reachD x r e1x e2x : -1 <= r ->
    get_event st1 x = Some e1x -> get_event st2 x = Some e2x ->
    same_historyD (nD P) r (vparams_of st1 x) (view_witnesses st1) (last_round st1)
                  (vparams_of st2 x) (view_witnesses st2) (last_round st2) GWD.
  Proof.
    intros Hr H1x H2x. rewrite !vparams_of_with. apply same_history_genD; [exact Hr|].
    intros y Hy1 Hy2.
    destruct (wits_storedD P st1 G1 _ y Hy1) as [e1y H1y]. destruct (wits_storedD P st2 G2 _ y Hy2) as [e2y H2y].
    apply (see_agreeD y x e1y e2y e1x e2x); assumption.
  Qed.
End Two.

Section Static.
  Variables (g : peerset) (st1 st2 : hg).
  Hypothesis G1 : good g st1.
  Hypothesis G2 : good g st2.

  Definition see_agree := see_agreeD _ st1 st2 (good_goodD g st1 G1) (good_goodD g st2 G2).

  Theorem same_history_reach x r e1x e2x :
    same_bodies st1 st2 -> no_cross_fork st1 st2 -> contig st1 -> contig st2 -> -1 <= r ->
    get_event st1 x = Some e1x -> get_event st2 x = Some e2x ->
    same_history (ps_len g) r (vparams_of st1 x) (view_witnesses st1) (last_round st1)
                 (vparams_of st2 x) (view_witnesses st2) (last_round st2) (GWD st1 st2).
  Proof.
    intros SAME NF R1 R2 Hr H1x H2x. apply same_history_D.
    exact (same_history_reachD _ st1 st2 (good_goodD g st1 G1) (good_goodD g st2 G2) SAME NF R1 R2
             (fun q _ => good_peerset g st1 G1 q) (fun q _ => good_peerset g st2 G2 q) x r e1x e2x Hr H1x H2x).
  Qed.
End Static.
