(* Round-received, for validator sets that may change per round (model after fix 05eda0b).  An event x of round r
   that carries round-received i satisfies, in every later state of the run: the rounds r+1..i are flagged decided,
   round i is the first of them whose famous witnesses all see x and number at least a super-majority of the set the
   table gives for that round.  Hence round-received agrees between two nodes whose tables agree, and two events of
   one state that satisfy the specification have round-received monotone along ancestry (rr_monotone_stateD).  The
   run-level arguments are made for the runs of Proofs/FameInvD.v [along]; the end of the file instantiates them for
   runs that respect the distance bound and for runs with static membership (the constant assignment, [no_accept]),
   where monotonicity along ancestry is stated at run level (rr_monotone_hrun). *)
From Coq Require Import ZArith List Bool Lia ZifyBool Permutation.
From RecordUpdate Require Import RecordSet.
From V Require Import Model.ZMap Model.Quorum Model.Voting Model.VotingRef Model.HgImpl Model.PeerSetSpec
  Model.Window Proofs.ZMapFacts Proofs.QuorumProofs Proofs.HgFrames Proofs.HgDagFrames Proofs.AdmissionProofs
  Proofs.Ancestry Proofs.HgBlockFrames Proofs.BlockInv Proofs.RoundOrder Proofs.OrderFrames Proofs.OrderProofs
  Proofs.VotingProofs Proofs.FameBridge Proofs.Static Proofs.FirstDesc Proofs.FdWalk Proofs.DivInv
  Proofs.CInvRun Proofs.Height Proofs.StronglySee Proofs.ViewOk Proofs.SameHistory Proofs.Agreement
  Proofs.NoFail Proofs.FameInv Proofs.FamousSet Proofs.DecidedFlag Proofs.RoundReceived Proofs.PeerSetProofs
  Proofs.LrMono Proofs.WindowStable Proofs.GapWindow Proofs.FirstDescD Proofs.InsertInvD Proofs.DivInvD
  Proofs.CInvRunD Proofs.StronglySeeD Proofs.RoundFunD Proofs.RoundAgreeD Proofs.ViewOkD Proofs.SameHistoryD
  Proofs.AgreementD Proofs.FameInvD Proofs.LateWitnessD Proofs.FamousSetD Proofs.DecidedFlagD.
Import ListNotations RecordSetNotations.
Open Scope Z_scope.

(* x, of round r, is received in round i; [rcond g st j x] of RoundReceived.v is read with g = P j *)
Definition rrspecD (P : Z -> peerset) (st : hg) (x r i : Z) : Prop :=
  r < i /\ (forall j, r < j <= i -> flag st j) /\ (forall j, r < j < i -> ~ rcond (P j) st j x) /\ rcond (P i) st i x.

Lemma rrspec_keepD P s s' x r i : tmono s s' -> (forall j, crt s' j = crt s j) -> (forall w, see s' w x = see s w x) ->
  rrspecD P s x r i -> rrspecD P s' x r i.
Proof.
  intros T C S [H1 [H2 [H3 H4]]]. split; [exact H1|]. split; [intros j Hj; apply (tmono_flag s s' j T), H2, Hj|].
  split; [|apply (rcond_keep (P i) s s' i x (C i) S H4)].
  intros j Hj Hc. apply (H3 j Hj). apply (rcond_keep (P j) s' s j x); [symmetry; apply C|intros w; symmetry; apply S|exact Hc].
Qed.

Lemma rrspec_cwD P s s' x r i : cw s' = cw s -> rrspecD P s x r i -> rrspecD P s' x r i.
Proof.
  intros C. destruct (cw_fields _ _ C) as [Ev [Ro _]].
  apply rrspec_keepD; [apply tmono_rounds, Ro|apply crt_events_only, Ro|intros w; apply see_events_only, Ev].
Qed.

(* the rounds the loop has passed without receiving x *)
Lemma passed_keepD P s s' x r i : tmono s s' -> (forall j, crt s' j = crt s j) -> (forall w, see s' w x = see s w x) ->
  (forall j, r < j < i -> flag s j /\ ~ rcond (P j) s j x) -> forall j, r < j < i -> flag s' j /\ ~ rcond (P j) s' j x.
Proof.
  intros T C S Pre j Hj. destruct (Pre j Hj) as [A B]. split; [apply (tmono_flag s s' j T A)|].
  intros Hc. apply B. apply (rcond_keep (P j) s' s j x); [symmetry; apply C|intros w; symmetry; apply S|exact Hc].
Qed.

(* the test the loop of DecideRoundReceived makes in round i is the receiving condition *)
Lemma rr_test_rcond g st x i ri sees : get_round st i = Some ri ->
  fold_left (fun (acc : option Z) w =>
               match acc, see st w x with
               | Some n, Some b => Some (if b then n + 1 else n)
               | _, _ => None
               end) (famous_witnesses ri) (Some 0) = Some sees ->
  ((sees =? Z.of_nat (length (famous_witnesses ri))) && (super_majority g <=? sees) = true <-> rcond g st i x).
Proof.
  intros Hg Hf. destruct (sees_fold_count st x (famous_witnesses ri) 0 sees Hf) as [_ Hall].
  unfold rcond. rewrite (fam_get_round st i ri Hg), andb_true_iff, Z.eqb_eq, Z.leb_le. split.
  - intros [H1 H2]. split; [apply Hall; lia|lia].
  - intros [A B]. apply Hall in A. lia.
Qed.

(* what the loop of DecideRoundReceived establishes when it assigns a round-received *)
Lemma rr_loop_rrspecD P x r : forall n lo st,
  passD P st -> lower_bound st = None -> r < lo ->
  (forall j, r < j < lo -> flag st j /\ ~ rcond (P j) st j x) ->
  snd (rr_loop st x (zseq lo n)) = true ->
  exists i ex', rrspecD P (fst (rr_loop st x (zseq lo n))) x r i /\
                get_event (fst (rr_loop st x (zseq lo n))) x = Some ex' /\ ev_rr ex' = Some i.
Proof.
  induction n as [|n IH]; intros lo st Hst Hlb Hlo Pre; cbn [zseq rr_loop]; [discriminate|].
  rename lo into i.
  destruct (get_round st i) as [tr|] eqn:Hg; [|rewrite Hlb; discriminate].
  rewrite (pd_t _ _ Hst i ltac:(rewrite Hg; discriminate)).
  destruct (witnesses_decided tr (P i)) as [d tr'] eqn:Ewd.
  pose proof (witnesses_decided_state st i tr (P i) d tr' Hg Ewd) as W.
  set (st1 := st <| rounds := zset i tr' (rounds st) |>) in *. destruct W as [T1 K1 C1 S1 Eg1 Fl1].
  assert (Hi : 0 <= i) by (eapply get_round_some_nonneg; eauto).
  assert (Hlb1 : lower_bound st1 = None) by exact Hlb.
  assert (Hst1 : passD P st1) by (apply (passD_step P st st1 Hst (ckeep_ckeepD _ _ K1)), bview_set_rounds).
  assert (Hg1 : get_round st1 i = Some tr') by (rewrite Eg1, Z.eqb_refl; reflexivity).
  pose proof (passed_keepD P st st1 x r i T1 C1 (fun w => S1 w x) Pre) as Pre1.
  destruct d; cbn [negb]; [|rewrite Hlb1; discriminate].
  specialize (Fl1 eq_refl).
  match goal with |- context [fold_left ?f ?l ?a] => destruct (fold_left f l a) as [sees|] eqn:Hfold end; [|discriminate].
  pose proof (rr_test_rcond (P i) st1 x i tr' sees Hg1 Hfold) as Htest.
  destruct ((sees =? Z.of_nat (length (famous_witnesses tr'))) && (super_majority (P i) <=? sees)) eqn:Hcond.
  - (* received in round i *)
    destruct (get_event st1 x) as [ex|] eqn:Hx; [|discriminate]. cbn [fst snd]. intros _.
    set (st2 := set_evst st1 x (ex <| ev_rr := Some i |>)).
    set (tr2 := tr' <| ri_received := ri_received tr' ++ [x] |>).
    set (F := set_round st2 i tr2).
    assert (Hg2 : get_round st2 i = Some tr') by (unfold st2, get_round, set_evst; unfold get_round in Hg1; exact Hg1).
    assert (T2a : tmono st1 st2) by (apply tmono_rounds; unfold st2; reflexivity).
    assert (T2 : tmono st1 F).
    { eapply tmono_trans; [exact T2a|].
      apply (tmono_zset st2 F i tr' tr2 Hg2); [reflexivity|auto|apply ent_mono_refl]. }
    assert (C2 : forall j, crt F j = crt st1 j).
    { intros j. unfold crt, F.
      rewrite (get_round_zset st2 (set_round st2 i tr2) i tr2 j Hi) by (reflexivity).
      destruct (Z.eqb_spec i j) as [<-|].
      - rewrite Hg1. cbn. unfold tr2. reflexivity.
      - unfold st2, get_round, set_evst. reflexivity. }
    assert (S2 : forall w y, see F w y = see st1 w y).
    { intros w y. transitivity (see st2 w y); [apply see_events_only; unfold F; reflexivity|].
      apply see_set_rr. exact Hx. }
    exists i, (ex <| ev_rr := Some i |>). split; [|split; [|reflexivity]].
    + split; [lia|]. split; [|split].
      * intros j Hj. destruct (Z.eq_dec j i) as [->|Hne]; [apply (tmono_flag st1 F i T2 Fl1)|].
        apply (passed_keepD P st1 F x r i T2 C2 (fun w => S2 w x) Pre1). lia.
      * intros j Hj. apply (passed_keepD P st1 F x r i T2 C2 (fun w => S2 w x) Pre1 j Hj).
      * apply (rcond_keep (P i) st1 F i x); [apply C2|intros w; apply S2|].
        apply Htest. reflexivity.
    + unfold F. replace (get_event (set_round st2 i tr2) x) with (get_event st2 x) by (reflexivity).
      unfold st2. rewrite get_event_set_evst, Z.eqb_refl.
      assert (0 <= x) by (eapply zget_some_nonneg; exact Hx). replace (0 <=? x) with true by lia. reflexivity.
  - (* not received in round i: continue *)
    apply (IH (i + 1) st1 Hst1 Hlb1 ltac:(lia)).
    intros j Hj. destruct (Z.eq_dec j i) as [->|Hne]; [|apply Pre1; lia].
    split; [exact Fl1|]. intros Hr. apply Htest in Hr. discriminate.
Qed.

Lemma decide_rr_one_rrD P s und y : passD P s -> rinv s ->
  (forall x, x <> y -> rr_of (fst (decide_rr_one (s, und) y)) x = rr_of s x) /\
  (forall i, rr_of (fst (decide_rr_one (s, und) y)) y = Some i ->
     rr_of s y = Some i \/ exists r, rmemo s y = Some r /\ rrspecD P (fst (decide_rr_one (s, und) y)) y r i).
Proof.
  intros G R. destruct (failed s) eqn:Hf; [rewrite (decide_rr_one_failed_stuck s und y Hf); auto|].
  rewrite (decide_rr_one_eq P s und y (pd_i _ _ G) Hf). destruct (rmemo s y) as [r|] eqn:Hr.
  2:{ cbn [fst]. split; [intros x _|intros i H; left; revert H]; unfold rr_of; replace (get_event (fail s)) with (get_event s) by (reflexivity); auto. }
  destruct (rr_loop_spec y (zrange (r + 1) (last_round s)) s) as [Sf St].
  pose proof (rr_loop_rrspecD P y r (Z.to_nat (last_round s - (r + 1) + 1)) (r + 1) s
                G (r_lb _ (proj1 R)) ltac:(lia) ltac:(intros j Hj; lia)) as Spec.
  rewrite <- zrange_zseq in Spec.
  destruct (rr_loop s y (zrange (r + 1) (last_round s))) as [s' received]. cbn [fst snd] in *.
  destruct received.
  - destruct (St eq_refl) as [i0 [ey [Hy [Gy _]]]]. split.
    + intros x Hne. unfold rr_of. rewrite Gy. destruct (Z.eqb_spec x y); [contradiction|reflexivity].
    + intros i Hi. right. exists r. split; [reflexivity|].
      destruct (Spec eq_refl) as [i' [ex' [Hsp [Hx' Hrr]]]]. unfold rr_of in Hi. rewrite Hx', Hrr in Hi. inversion Hi; subst i'. exact Hsp.
  - pose proof (Sf eq_refl) as K. split.
    + intros x _. unfold rr_of. rewrite (ekeep_get_event _ _ x K). reflexivity.
    + intros i Hi. left. unfold rr_of in *. rewrite (ekeep_get_event _ _ y K) in Hi. exact Hi.
Qed.

(* after the pass: every round-received that is new satisfies its specification *)
Lemma decide_round_received_rrD P st : gT P st -> rinv st ->
  forall x i, rr_of (decide_round_received st) x = Some i ->
    rr_of st x = Some i \/ exists r, rmemo st x = Some r /\ rrspecD P (decide_round_received st) x r i.
Proof.
  intros G R.
  destruct (decide_round_received_fold P st (fun _ s _ => forall x i, rr_of s x = Some i ->
              rr_of st x = Some i \/ exists r, rmemo st x = Some r /\ rrspecD P s x r i)) as [s [und [H [C _]]]];
    [|exact G|exact R|exact (fun x i Hx => or_introl Hx)|].
  { intros y l s und Gs Rs Ks Q.
    destruct (decide_rr_one_rrD P s und y (gT_passD _ _ Gs) Rs) as [A B].
    pose proof (decide_rr_one_ckeepD P s und y (gt_i _ _ Gs)) as K1. pose proof (decide_rr_one_tmono s und y) as T1.
    pose proof (fun j => decide_rr_one_crt s und y j) as C1.
    destruct (decide_rr_one (s, und) y) as [s' und']. cbn [fst] in *.
    assert (Keep : forall x r i, rrspecD P s x r i -> rrspecD P s' x r i).
    { intros x r i. apply (rrspec_keepD P s s' x r i T1 C1). intros w. apply ckeepD_see. exact K1. }
    intros x i Hx. destruct (Z.eq_dec x y) as [->|Hne].
    - destruct (B i Hx) as [H0|[r [Hr Hsp]]]; [|right; exists r; split; [rewrite <- (ckeepD_rmemo st s y Ks); exact Hr|exact Hsp]].
      destruct (Q y i H0) as [H1|[r [Hr Hsp]]]; [left; exact H1|right; exists r; split; [exact Hr|apply Keep, Hsp]].
    - rewrite (A x Hne) in Hx.
      destruct (Q x i Hx) as [H1|[r [Hr Hsp]]]; [left; exact H1|right; exists r; split; [exact Hr|apply Keep, Hsp]]. }
  intros x i Hx. unfold rr_of, get_event in Hx. rewrite (proj1 (cw_fields _ _ C)) in Hx.
  destruct (H x i Hx) as [H1|[r [Hr Hsp]]]; [left; exact H1|right; exists r; split; [exact Hr|exact (rrspec_cwD P s _ x r i C Hsp)]].
Qed.

Lemma rr_of_okeep s s' y : okeep s s' -> rr_of s' y = rr_of s y.
Proof. intros O. apply rr_of_qkeep, okeep_qkeep, O. Qed.

Lemma nomemo_eq_und st st' : nomemo st' = nomemo st -> undetermined st' = undetermined st.
Proof. intros H; apply (f_equal undetermined) in H; destruct st, st'; exact H. Qed.

(* DivideRounds writes rounds and timestamps only: round-received, the received lists and the undetermined list stay *)
Lemma divide_lt_qkeep st x : qkeep st (divide_lt st x).
Proof.
  unfold divide_lt. pose proof (lamport_f_nomemo (fuel_of st) st x) as N.
  assert (K : qkeep st (snd (lamport_f (fuel_of st) st x))).
  { constructor; [intros y; unfold get_event; rewrite (nomemo_eq_events _ _ N); reflexivity
                 |intros r; unfold rcv, get_round; rewrite (nomemo_eq_rounds _ _ N); reflexivity|apply nomemo_eq_und, N]. }
  destruct (lamport_f (fuel_of st) st x) as [[t|] s]; cbn [snd] in K; apply (qkeep_trans _ _ _ K); [|apply okeep_qkeep, okeep_fail].
  unfold set_event_lt. destruct (get_event s x) as [ev|] eqn:Hx; [|apply qkeep_refl].
  constructor; try reflexivity. intros y. rewrite get_event_set_evst.
  destruct (Z.eqb_spec x y) as [->|]; cbn [andb]; [|reflexivity]. destruct (0 <=? y); [|reflexivity]. rewrite Hx. reflexivity.
Qed.

Lemma divide_one_qkeep st x : qkeep st (divide_one st x).
Proof.
  unfold divide_one. destruct (failed st); [apply qkeep_refl|].
  destruct (get_event st x) as [ev|]; [|apply okeep_qkeep, okeep_fail]. cbv zeta.
  set (st1 := match ev_round ev with Some _ => st | None => divide_round st x end).
  assert (K1 : qkeep st st1) by (subst st1; destruct (ev_round ev); [apply qkeep_refl|apply okeep_qkeep, divide_round_okeep]).
  clearbody st1. destruct (failed st1); [exact K1|].
  destruct (get_event st1 x) as [ev1|]; [|exact (qkeep_trans _ _ _ K1 (okeep_qkeep _ _ (okeep_fail st1)))].
  destruct (ev_lt ev1); [exact K1|exact (qkeep_trans _ _ _ K1 (divide_lt_qkeep st1 x))].
Qed.

Lemma divide_rounds_qkeep st : qkeep st (divide_rounds st).
Proof.
  unfold divide_rounds. generalize (undetermined st). intros l. revert st.
  induction l as [|x l IH]; intros st; cbn [fold_left]; [apply qkeep_refl|].
  exact (qkeep_trans _ _ _ (divide_one_qkeep st x) (IH _)).
Qed.

Lemma rr_of_divide_rounds st y : rr_of (divide_rounds st) y = rr_of st y.
Proof. apply rr_of_qkeep, divide_rounds_qkeep. Qed.

(* an accepted insertion stores the new event without round-received and keeps that of the others *)
Lemma rr_of_insert st e s x : get_event st (e_id e) = None -> 0 <= e_id e -> insert_event st e = (InsOk, s) ->
  rr_of s x = if x =? e_id e then None else rr_of st x.
Proof.
  intros Fresh Hid E. destruct (insert_ok_shape st e s Fresh Hid E) as [_ [Gs _]]. specialize (Gs x). unfold rr_of.
  destruct (x =? e_id e), (get_event s x) as [ex|], (get_event st x) as [ex0|]; cbn in Gs; try discriminate; try reflexivity;
    unfold ev_b in Gs; inversion Gs; congruence.
Qed.

Lemma stored_insert st e s x : get_event st (e_id e) = None -> 0 <= e_id e -> insert_event st e = (InsOk, s) ->
  (get_event s x <> None <-> x = e_id e \/ get_event st x <> None).
Proof.
  intros Fresh Hid E. destruct (insert_ok_shape st e s Fresh Hid E) as [_ [Gs _]]. specialize (Gs x).
  destruct (Z.eqb_spec x (e_id e)) as [Heq|Hne].
  - split; [auto|]. intros _ C. rewrite C in Gs. discriminate.
  - split.
    + intros Hs. right. intros C. rewrite C in Gs. destruct (get_event s x); [discriminate|contradiction].
    + intros [C|Hst] C'; [contradiction|]. rewrite C' in Gs. destruct (get_event st x); [discriminate|contradiction].
Qed.

Lemma hstep_rrD P all st o x i : stepD P all st o -> rr_of (hstep st o) x = Some i ->
  rr_of st x = Some i \/ exists r, rmemo (hstep st o) x = Some r /\ rrspecD P (hstep st o) x r i.
Proof.
  intros Sd. destruct (hstep_stagesD P all st o Sd) as [[C _]|[e [s [s1 [s2 [s3 [-> Sg]]]]]]].
  { intros H. left. revert H. unfold rr_of, get_event. destruct (cw_fields _ _ C) as [-> _]. auto. }
  destruct Sg as [E Fresh Hid _ E1 E2 E3 E4 _ _ _ G2 R2 _]. rewrite E4.
  destruct (cw_fields _ _ (cw_process_decided_rounds s3)) as [Ev4 [_ [Rm4 _]]].
  intros H4.
  assert (H3 : rr_of s3 x = Some i) by (revert H4; unfold rr_of, get_event; rewrite Ev4; auto).
  rewrite E3 in H3. destruct (decide_round_received_rrD P s2 G2 R2 x i H3) as [H2|[r [Hr Hsp]]]; rewrite <- E3 in *.
  - left. rewrite E2, (rr_of_okeep _ _ x (decide_fame_okeep s1)), E1, rr_of_divide_rounds, (rr_of_insert st e s x Fresh Hid E) in H2.
    destruct (x =? e_id e); [discriminate|exact H2].
  - right. exists r. split.
    + unfold rmemo. rewrite Rm4. fold (rmemo s3 x).
      rewrite E3, (ckeepD_rmemo s2 _ x (decide_round_received_ckeepD P s2 (gt_i _ _ G2))). exact Hr.
    + exact (rrspec_cwD P s3 _ x r i (cw_process_decided_rounds s3) Hsp).
Qed.

Lemma fam_frecD P st j w : goodD P st -> (In w (fam st j) <-> frec st j w true).
Proof.
  intros G. unfold fam, crt. destruct (get_round st j) as [rj|] eqn:Hg.
  - cbn [option_map]. change (fam_of (ri_created rj)) with (famous_witnesses rj).
    apply (famous_witnesses_frecD P st j rj w G Hg).
  - cbn. split; [intros []|intros [ri [C _]]; congruence].
Qed.

Lemma fam_nodupD P st j : goodD P st -> NoDup (fam st j).
Proof.
  intros G. unfold fam, crt. destruct (get_round st j) as [rj|] eqn:Hg; [|constructor].
  cbn [option_map]. unfold fam_of. apply NoDup_map_fst_filter, (wl_created_nodup st j rj (cd_tabu _ _ _ (gD_c _ _ G) j) Hg).
Qed.

(* the receiving condition of round j is the same in two states with the same famous witnesses of round j, when every
   event of the first is an event of the second with the same body *)
Lemma rcond_transferD P st st' j x ex ex' : goodD P st -> goodD P st' -> same_bodies st st' ->
  (forall y, get_event st y <> None -> get_event st' y <> None) ->
  (forall w, In w (fam st' j) <-> In w (fam st j)) ->
  get_event st x = Some ex -> get_event st' x = Some ex' ->
  (rcond (P j) st j x <-> rcond (P j) st' j x).
Proof.
  intros G G' SB Sub FS Hex Hex'.
  apply rcond_same; [apply (fam_nodupD P st j G)|apply (fam_nodupD P st' j G')|exact FS|].
  intros w Hw. apply (fam_frecD P st j w G) in Hw.
  destruct (wits_storedD P st G j w (frec_in_wits st j w true Hw)) as [ew Hew].
  assert (Hw' : get_event st' w <> None) by (apply Sub; rewrite Hew; discriminate).
  destruct (get_event st' w) as [ew'|] eqn:Hew'; [|contradiction].
  symmetry. apply (see_agreeD P st st' G G' SB w x ew ew' ex ex' Hew Hew' Hex Hex').
Qed.

Section AlongRR.
  Variables (P : Z -> peerset) (all : list event) (self_ : Z) (genesis : peerset) (oracle_ : list Z) (ops : list hop).
  Hypothesis A : along P all self_ genesis oracle_ ops.

  (* after the flag of round j is set, its famous witnesses are the same in every later state *)
  Lemma fam_stable_along k j w : failed (prefix self_ genesis oracle_ ops (S k)) = false -> flag (prefix self_ genesis oracle_ ops k) j ->
    (In w (fam (prefix self_ genesis oracle_ ops (S k)) j) <-> In w (fam (prefix self_ genesis oracle_ ops k) j)).
  Proof.
    intros Hf Hfl. rewrite <- Nat.add_1_r in *.
    pose proof (along_failed_mono P all self_ genesis oracle_ ops A k 1 Hf) as Hfk.
    destruct (flag_historyD P all self_ genesis oracle_ ops A k j Hfk Hfl) as [k0 [Hle D]].
    destruct (along_facts P all self_ genesis oracle_ ops A k Hfk) as [_ [_ [_ [_ [_ G]]]]].
    destruct (along_facts P all self_ genesis oracle_ ops A (k + 1) Hf) as [_ [_ [_ [_ [_ G']]]]].
    rewrite (fam_frecD P _ j w G'), (fam_frecD P _ j w G).
    replace (k + 1)%nat with (k0 + (k + 1 - k0))%nat in * by lia. replace k with (k0 + (k - k0))%nat in Hfk |- * at 2 by lia.
    rewrite (famous_stableD P all self_ genesis oracle_ ops A k0 _ j w Hf D), (famous_stableD P all self_ genesis oracle_ ops A k0 _ j w Hfk D).
    reflexivity.
  Qed.

  Theorem rr_spec_along k : failed (prefix self_ genesis oracle_ ops k) = false -> forall x i,
    rr_of (prefix self_ genesis oracle_ ops k) x = Some i ->
    exists r, rmemo (prefix self_ genesis oracle_ ops k) x = Some r /\ rrspecD P (prefix self_ genesis oracle_ ops k) x r i.
  Proof.
    apply (along_ind P all self_ genesis oracle_ ops A
             (fun st => forall x i, rr_of st x = Some i -> exists r, rmemo st x = Some r /\ rrspecD P st x r i)).
    { intros x i Hx. unfold rr_of in Hx. rewrite init_no_events in Hx. discriminate. }
    clear k. intros k o ES Sd IH x i Hx.
    destruct (hstep_rrD P all _ o x i Sd Hx) as [Hold|Hnew]; [|exact Hnew].
    destruct (IH x i Hold) as [r [Hr Hsp]].
    pose proof (sd_f _ _ _ _ Sd) as Hf. pose proof (hstep_tmonoD P all _ o Sd) as T.
    pose proof (fun y => hstep_stored all _ o y (sd_id _ _ _ _ Sd) (sd_o _ _ _ _ Sd) (sd_g _ _ _ _ Sd)) as Sub.
    rewrite <- ES in Hf, T, Sub, Hx |- *.
    destruct (along_facts P all self_ genesis oracle_ ops A k (stepD_nf _ _ _ _ Sd)) as [Gi [_ [_ [_ [_ G]]]]].
    destruct (along_facts P all self_ genesis oracle_ ops A (S k) Hf) as [Gi' [_ [_ [_ [_ G']]]]].
    pose proof (fun j w => fam_stable_along k j w Hf) as FS.
    set (st := prefix self_ genesis oracle_ ops k) in *. set (st' := prefix self_ genesis oracle_ ops (S k)) in *.
    pose proof (same_bodies_ginv all P st st' (al_id _ _ _ _ _ _ A) Gi Gi' G G') as SB.
    assert (Hxs : exists ex, get_event st x = Some ex).
    { unfold rr_of in Hold. destruct (get_event st x) as [ex|]; [eauto|discriminate]. }
    destruct Hxs as [ex Hex].
    assert (Hxs' : get_event st' x <> None) by (apply Sub; rewrite Hex; discriminate).
    destruct (get_event st' x) as [ex'|] eqn:Hex'; [|contradiction].
    exists r. split.
    { destruct (memo_agreeD P P st st' G G' SB (fun q _ _ => eq_refl) x ex ex' Hex Hex') as [Er _]. congruence. }
    pose proof (fun j Hfl => rcond_transferD P st st' j x ex ex' G G' SB Sub (fun w => FS j w Hfl) Hex Hex') as RC.
    destruct Hsp as [H1 [H2 [H3 H4]]]. split; [exact H1|]. split; [intros j Hj; apply (tmono_flag st st' j T), H2, Hj|].
    split.
    + intros j Hj Hc. apply (H3 j Hj). apply (RC j); [apply H2; lia|exact Hc].
    + apply (RC i); [apply H2; lia|exact H4].
  Qed.
End AlongRR.

(* the final state, and the round as the event records it *)
Lemma rr_spec_final P all self_ genesis oracle_ ops : along P all self_ genesis oracle_ ops ->
  let st := hrun (init_hg self_ genesis oracle_) ops in failed st = false ->
  forall x i, rr_of st x = Some i -> exists r, rmemo st x = Some r /\ rrspecD P st x r i.
Proof.
  intros A st. pose proof (rr_spec_along P all self_ genesis oracle_ ops A (length ops)) as Q.
  rewrite prefix_length in Q. exact Q.
Qed.

Lemma rr_spec_event P all self_ genesis oracle_ ops : along P all self_ genesis oracle_ ops ->
  let st := hrun (init_hg self_ genesis oracle_) ops in failed st = false ->
  forall x ex i, get_event st x = Some ex -> ev_rr ex = Some i -> exists r, ev_round ex = Some r /\ rrspecD P st x r i.
Proof.
  intros A st F x ex i Hx Hr.
  assert (R : rr_of st x = Some i) by (unfold rr_of; rewrite Hx; exact Hr).
  destruct (rr_spec_final P all self_ genesis oracle_ ops A F x i R) as [r [Hm Hsp]]. exists r. split; [|exact Hsp].
  destruct (along_final P all self_ genesis oracle_ ops A F) as [_ [_ [_ [_ [_ G]]]]].
  destruct (memo_ofD _ st G x ex Hx) as [r' [w [Hr' [_ He]]]]. fold st in Hm. congruence.
Qed.

(* round-received is monotone along ancestry, in one state *)
Lemma see_true_ancD P st w x ew ex : goodD P st -> get_event st w = Some ew -> get_event st x = Some ex ->
  (see st w x = Some true <-> Ancestry.anc st w x).
Proof. intros G Hw Hx. apply (ancestor_correct st w x ew ex (gD_dag _ _ G) (gD_la _ _ G) Hw Hx). Qed.

Lemma rr_monotone_stateD P st a b ra rb r_a r_b ea eb :
  goodD P st -> get_event st a = Some ea -> get_event st b = Some eb -> Ancestry.anc st b a ->
  rmemo st a = Some r_a -> rmemo st b = Some r_b ->
  rrspecD P st a r_a ra -> rrspecD P st b r_b rb -> ra <= rb.
Proof.
  intros G Ha Hb Hanc Hra Hrb [A1 [A2 [A3 A4]]] [B1 [B2 [B3 [B4 B5]]]].
  pose proof (round_anc_leD P st G b a Hanc eb r_b r_a Hb Hrb Hra) as Hle.
  destruct (Z.le_gt_cases ra rb) as [|Hgt]; [assumption|exfalso].
  apply (A3 rb ltac:(lia)). split; [|exact B5].
  intros w Hw. pose proof (B4 w Hw) as Hs.
  apply (fam_frecD P st rb w G) in Hw.
  destruct (wits_storedD P st G rb w (frec_in_wits st rb w true Hw)) as [ew Hew].
  apply (see_true_ancD P st w a ew ea G Hew Ha). eapply anc_trans; [|exact Hanc].
  apply (see_true_ancD P st w b ew eb G Hew Hb). exact Hs.
Qed.

Section Two.
  Variables (P : Z -> peerset) (all : list event) (s1 s2 : Z) (g1 g2 : peerset) (o1 o2 : list Z) (ops1 ops2 : list hop).
  Hypothesis A1 : along P all s1 g1 o1 ops1.
  Hypothesis A2 : along P all s2 g2 o2 ops2.
  Let st1 := hrun (init_hg s1 g1 o1) ops1.
  Let st2 := hrun (init_hg s2 g2 o2) ops2.
  Hypothesis F1 : failed st1 = false.
  Hypothesis F2 : failed st2 = false.
  Hypothesis NF : no_cross_fork st1 st2.

  Lemma two_good : goodD P st1 /\ goodD P st2 /\ same_bodies st1 st2.
  Proof.
    destruct (along_final P all s1 g1 o1 ops1 A1 F1) as [Gi1 [_ [_ [_ [_ G1]]]]].
    destruct (along_final P all s2 g2 o2 ops2 A2 F2) as [Gi2 [_ [_ [_ [_ G2]]]]].
    split; [exact G1|]. split; [exact G2|].
    apply (same_bodies_of_universeD all P P _ _ (al_id _ _ _ _ _ _ A1) G1 G2); [apply (g_from _ _ (gi_core _ _ Gi1))|apply (g_from _ _ (gi_core _ _ Gi2))].
  Qed.

  (* the condition of a round flagged in both states is the same in both *)
  Lemma rcond_cross_along j x e1x e2x : flag st1 j -> flag st2 j ->
    get_event st1 x = Some e1x -> get_event st2 x = Some e2x -> (rcond (P j) st1 j x <-> rcond (P j) st2 j x).
  Proof.
    intros Fl1 Fl2 H1x H2x. destruct two_good as [G1 [G2 SB]].
    assert (E : forall w, In w (fam st2 j) <-> In w (fam st1 j)).
    { intros w. rewrite (fam_frecD P st2 j w G2), (fam_frecD P st1 j w G1). symmetry.
      apply (famous_agree_flags_along P all s1 s2 g1 g2 o1 o2 ops1 ops2 j w A1 A2 F1 F2 NF Fl1 Fl2). }
    apply rcond_same; [apply (fam_nodupD P st1 j G1)|apply (fam_nodupD P st2 j G2)|exact E|].
    intros w Hw1. pose proof (proj2 (E w) Hw1) as Hw2.
    apply (fam_frecD P st1 j w G1) in Hw1. apply (fam_frecD P st2 j w G2) in Hw2.
    destruct (wits_storedD P st1 G1 j w (frec_in_wits st1 j w true Hw1)) as [e1w H1w].
    destruct (wits_storedD P st2 G2 j w (frec_in_wits st2 j w true Hw2)) as [e2w H2w].
    symmetry. apply (see_agreeD P st1 st2 G1 G2 SB w x e1w e2w e1x e2x H1w H2w H1x H2x).
  Qed.

  (* ROUND-RECEIVED AGREEMENT *)
  Theorem rr_agreement_along x e1 e2 i1 i2 :
    get_event st1 x = Some e1 -> get_event st2 x = Some e2 -> ev_rr e1 = Some i1 -> ev_rr e2 = Some i2 -> i1 = i2.
  Proof.
    intros H1x H2x Hr1 Hr2. destruct two_good as [G1 [G2 SB]].
    assert (Q1 : rr_of st1 x = Some i1) by (unfold rr_of; rewrite H1x; exact Hr1).
    assert (Q2 : rr_of st2 x = Some i2) by (unfold rr_of; rewrite H2x; exact Hr2).
    destruct (rr_spec_final P all s1 g1 o1 ops1 A1 F1 x i1 Q1) as [r1 [M1 [B1 [B2 [B3 B4]]]]].
    destruct (rr_spec_final P all s2 g2 o2 ops2 A2 F2 x i2 Q2) as [r2 [M2 [C1 [C2 [C3 C4]]]]].
    fold st1 in M1, B2, B3, B4. fold st2 in M2, C2, C3, C4.
    destruct (memo_agreeD P P st1 st2 G1 G2 SB (fun q _ _ => eq_refl) x e1 e2 H1x H2x) as [Er _].
    assert (r1 = r2) by congruence. subst r2.
    pose proof (fun j Fl1 Fl2 => rcond_cross_along j x e1 e2 Fl1 Fl2 H1x H2x) as RC.
    destruct (Z.lt_trichotomy i1 i2) as [Hlt|[Heq|Hgt]]; [exfalso|exact Heq|exfalso].
    - apply (C3 i1 ltac:(lia)). apply (RC i1); [apply B2; lia|apply C2; lia|exact B4].
    - apply (B3 i2 ltac:(lia)). apply (RC i2); [apply B2; lia|apply C2; lia|exact C4].
  Qed.
End Two.

Theorem rr_spec_preD self_ genesis oracle_ all ops : self_ <> -1 -> ids_determine all -> Forall (hop_ok all) ops ->
  gap_runb (init_hg self_ genesis oracle_) ops = true ->
  forall P, (forall q, 0 <= q <= last_round (hrun (init_hg self_ genesis oracle_) ops) ->
               P q = psat (hrun (init_hg self_ genesis oracle_) ops) q) ->
  forall k, failed (hrun (init_hg self_ genesis oracle_) (firstn k ops)) = false -> forall x i,
  rr_of (hrun (init_hg self_ genesis oracle_) (firstn k ops)) x = Some i ->
  exists r, rmemo (hrun (init_hg self_ genesis oracle_) (firstn k ops)) x = Some r /\
            rrspecD P (hrun (init_hg self_ genesis oracle_) (firstn k ops)) x r i.
Proof.
  intros Hs ID H Hg P HP. exact (rr_spec_along P all self_ genesis oracle_ ops (gap_along self_ genesis oracle_ all ops P Hs ID H Hg HP)).
Qed.

(* the specification in the final state *)
Theorem rr_spec_gap : forall genesis all self_ oracle_ ops x ex i,
  self_ <> -1 -> ids_determine all -> Forall (hop_ok all) ops ->
  gap_runb (init_hg self_ genesis oracle_) ops = true ->
  let st := hrun (init_hg self_ genesis oracle_) ops in
  failed st = false -> get_event st x = Some ex -> ev_rr ex = Some i ->
  exists r, ev_round ex = Some r /\ rrspecD (psat st) st x r i.
Proof.
  intros g all s o ops x ex i Hs ID H B st F Hx Hr.
  apply (rr_spec_event _ all s g o ops (gap_along s g o all ops _ Hs ID H B (fun q _ => eq_refl)) F x ex i Hx Hr).
Qed.

(* ROUND-RECEIVED AGREEMENT for two nodes that respect the distance bound and whose tables agree *)
Theorem rr_agreement_gap : forall all s1 s2 g1 g2 o1 o2 ops1 ops2 x e1 e2 i1 i2,
  ids_determine all -> s1 <> -1 -> s2 <> -1 ->
  Forall (hop_ok all) ops1 -> Forall (hop_ok all) ops2 ->
  gap_runb (init_hg s1 g1 o1) ops1 = true -> gap_runb (init_hg s2 g2 o2) ops2 = true ->
  let st1 := hrun (init_hg s1 g1 o1) ops1 in
  let st2 := hrun (init_hg s2 g2 o2) ops2 in
  failed st1 = false -> failed st2 = false -> tables_agree st1 st2 -> no_cross_fork st1 st2 ->
  get_event st1 x = Some e1 -> get_event st2 x = Some e2 ->
  ev_rr e1 = Some i1 -> ev_rr e2 = Some i2 -> i1 = i2.
Proof.
  intros all s1 s2 g1 g2 o1 o2 ops1 ops2 x e1 e2 i1 i2 ID S1 S2 H1 H2 B1 B2 st1 st2 F1 F2 T NF.
  destruct (two_runs_along all s1 s2 g1 g2 o1 o2 ops1 ops2 ID S1 S2 H1 H2 B1 B2 F1 F2 T) as [P [A1 A2]].
  apply (rr_agreement_along P all s1 s2 g1 g2 o1 o2 ops1 ops2 A1 A2 F1 F2 NF).
Qed.

(* with fork freedom stated on the universe of attempted events *)
Theorem rr_agreement_gap_universe : forall all s1 s2 g1 g2 o1 o2 ops1 ops2 x e1 e2 i1 i2,
  ids_determine all -> fork_free all -> s1 <> -1 -> s2 <> -1 ->
  Forall (hop_ok all) ops1 -> Forall (hop_ok all) ops2 ->
  gap_runb (init_hg s1 g1 o1) ops1 = true -> gap_runb (init_hg s2 g2 o2) ops2 = true ->
  let st1 := hrun (init_hg s1 g1 o1) ops1 in
  let st2 := hrun (init_hg s2 g2 o2) ops2 in
  failed st1 = false -> failed st2 = false -> tables_agree st1 st2 ->
  get_event st1 x = Some e1 -> get_event st2 x = Some e2 ->
  ev_rr e1 = Some i1 -> ev_rr e2 = Some i2 -> i1 = i2.
Proof.
  intros all s1 s2 g1 g2 o1 o2 ops1 ops2 x e1 e2 i1 i2 ID FF S1 S2 H1 H2 B1 B2 st1 st2 F1 F2 T.
  apply (rr_agreement_gap all s1 s2 g1 g2 o1 o2 ops1 ops2 x e1 e2 i1 i2 ID S1 S2 H1 H2 B1 B2 F1 F2 T).
  destruct (gap_goodD s1 g1 o1 all ops1 S1 ID H1 B1 F1) as [G1 FA1].
  destruct (gap_goodD s2 g2 o2 all ops2 S2 ID H2 B2 F2) as [G2 FA2].
  apply (no_cross_fork_of_universe all _ _ FF (gD_dag _ _ G1) (gD_dag _ _ G2) FA1 FA2).
Qed.

(* static membership: the constant assignment; [rrspec g] is [rrspecD (fun _ => g)] *)
Lemma rr_monotone_state g st a b ra rb r_a r_b ea eb :
  good g st -> get_event st a = Some ea -> get_event st b = Some eb -> Ancestry.anc st b a ->
  rmemo st a = Some r_a -> rmemo st b = Some r_b ->
  rrspec g st a r_a ra -> rrspec g st b r_b rb -> ra <= rb.
Proof. intros G. apply (rr_monotone_stateD _ st a b ra rb r_a r_b ea eb (good_goodD g st G)). Qed.

Section Run.
  Variables (g : peerset) (all : list event).
  Hypothesis ID : ids_determine all.
  Hypothesis NA : no_accept all.
  Variables (self_ : Z) (oracle_ : list Z).
  Let init := init_hg self_ g oracle_.

  Theorem rr_spec_run ops : Forall (hop_ok all) ops -> forall x i,
    rr_of (hrun init ops) x = Some i -> exists r, rmemo (hrun init ops) x = Some r /\ rrspec g (hrun init ops) x r i.
  Proof.
    intros H. apply (rr_spec_final _ all self_ g oracle_ ops (static_along g all self_ oracle_ ops ID NA H)
                       (static_not_failed g all self_ oracle_ ops ID NA H)).
  Qed.
End Run.

(* ROUND-RECEIVED AGREEMENT *)
Theorem rr_agreement_hrun : forall genesis all self1 self2 oracle1 oracle2 ops1 ops2 x e1 e2 i1 i2,
  ids_determine all -> no_accept all -> Forall (hop_ok all) ops1 -> Forall (hop_ok all) ops2 ->
  let st1 := hrun (init_hg self1 genesis oracle1) ops1 in
  let st2 := hrun (init_hg self2 genesis oracle2) ops2 in
  no_cross_fork st1 st2 ->
  get_event st1 x = Some e1 -> get_event st2 x = Some e2 ->
  ev_rr e1 = Some i1 -> ev_rr e2 = Some i2 -> i1 = i2.
Proof.
  intros g all s1 s2 o1 o2 ops1 ops2 x e1 e2 i1 i2 ID NA H1 H2 st1 st2 NF.
  apply (rr_agreement_along _ all s1 s2 g g o1 o2 ops1 ops2 (static_along g all s1 o1 ops1 ID NA H1) (static_along g all s2 o2 ops2 ID NA H2)
           (static_not_failed g all s1 o1 ops1 ID NA H1) (static_not_failed g all s2 o2 ops2 ID NA H2) NF).
Qed.

(* ROUND-RECEIVED IS MONOTONE ALONG ANCESTRY *)
Theorem rr_monotone_hrun : forall genesis all self_ oracle_ ops a b ea eb ra rb,
  ids_determine all -> no_accept all -> Forall (hop_ok all) ops ->
  let st := hrun (init_hg self_ genesis oracle_) ops in
  Ancestry.anc st b a -> get_event st a = Some ea -> get_event st b = Some eb ->
  ev_rr ea = Some ra -> ev_rr eb = Some rb -> ra <= rb.
Proof.
  intros g all s o ops a b ea eb ra rb ID NA H st Hanc Ha Hb Hra Hrb.
  assert (Ra : rr_of st a = Some ra) by (unfold rr_of; rewrite Ha; exact Hra).
  assert (Rb : rr_of st b = Some rb) by (unfold rr_of; rewrite Hb; exact Hrb).
  destruct (rr_spec_run g all ID NA s o ops H a ra Ra) as [r_a [Ma Sa]].
  destruct (rr_spec_run g all ID NA s o ops H b rb Rb) as [r_b [Mb Sb]].
  pose proof (nf_good g all st (hrun_nf g all s o ops ID NA H)) as G.
  apply (rr_monotone_state g st a b ra rb r_a r_b ea eb G Ha Hb Hanc Ma Mb Sa Sb).
Qed.

Theorem rr_monotone_oanc_hrun : forall genesis all self_ oracle_ ops a b ea eb ra rb,
  ids_determine all -> no_accept all -> Forall (hop_ok all) ops ->
  let st := hrun (init_hg self_ genesis oracle_) ops in
  OrderProofs.anc st a b -> get_event st a = Some ea -> get_event st b = Some eb ->
  ev_rr ea = Some ra -> ev_rr eb = Some rb -> ra <= rb.
Proof.
  intros g all s o ops a b ea eb ra rb ID NA H st Hanc.
  apply (rr_monotone_hrun g all s o ops a b ea eb ra rb ID NA H). apply oanc_anc. exact Hanc.
Qed.

(* the specification itself, for the Properties files *)
Theorem rr_spec_hrun : forall genesis all self_ oracle_ ops x ex i,
  ids_determine all -> no_accept all -> Forall (hop_ok all) ops ->
  let st := hrun (init_hg self_ genesis oracle_) ops in
  get_event st x = Some ex -> ev_rr ex = Some i ->
  exists r, ev_round ex = Some r /\ rrspec genesis st x r i.
Proof.
  intros g all s o ops x ex i ID NA H st.
  apply (rr_spec_event _ all s g o ops (static_along g all s o ops ID NA H) (static_not_failed g all s o ops ID NA H) x ex i).
Qed.

(* with fork freedom stated on the universe of attempted events *)
Theorem rr_agreement_universe : forall genesis all self1 self2 oracle1 oracle2 ops1 ops2 x e1 e2 i1 i2,
  ids_determine all -> fork_free all -> no_accept all -> Forall (hop_ok all) ops1 -> Forall (hop_ok all) ops2 ->
  let st1 := hrun (init_hg self1 genesis oracle1) ops1 in
  let st2 := hrun (init_hg self2 genesis oracle2) ops2 in
  get_event st1 x = Some e1 -> get_event st2 x = Some e2 ->
  ev_rr e1 = Some i1 -> ev_rr e2 = Some i2 -> i1 = i2.
Proof.
  intros g all s1 s2 o1 o2 ops1 ops2 x e1 e2 i1 i2 ID FF NA H1 H2 st1 st2.
  apply (rr_agreement_hrun g all s1 s2 o1 o2 ops1 ops2 x e1 e2 i1 i2 ID NA H1 H2).
  pose proof (hrun_nf g all s1 o1 ops1 ID NA H1) as N1. pose proof (hrun_nf g all s2 o2 ops2 ID NA H2) as N2.
  apply (no_cross_fork_of_universe all); auto;
    [apply (g_dag _ _ (gi_core _ _ (nf_g _ _ _ N1)))|apply (g_dag _ _ (gi_core _ _ (nf_g _ _ _ N2)))
    |apply (g_from _ _ (gi_core _ _ (nf_g _ _ _ N1)))|apply (g_from _ _ (gi_core _ _ (nf_g _ _ _ N2)))].
Qed.
