(* C02 (round-received strictly increases along the delivery sequence).
   Invariant of the pending-rounds queue and of the round table, for every reachable state:
   rounds are contiguous (0..last_round), the queue is strictly sorted and above the last
   consensus round, a round that left the queue is flagged decided for ever and is never queued
   again, delivered blocks carry the round they were processed for. *)
From Coq Require Import ZArith List Bool Lia ZifyBool Sorted.
From RecordUpdate Require Import RecordSet.
From V Require Import Model.ZMap Model.Quorum Model.Voting Model.HgImpl
  Proofs.ZMapFacts Proofs.HgFrames Proofs.HgBlockFrames Proofs.BlockInv.
Import ListNotations RecordSetNotations.
Open Scope Z_scope.

(* the components the invariant reads, except the delivered list *)
Definition cv (st : hg) :=
  (rounds st, last_round st, pending st, last_consensus st, lower_bound st, frames st, round_memo st).
Definition rv (st : hg) := (cv st, delivered st).
Definition nv (st : hg) :=
  (rounds st, last_round st, pending st, last_consensus st, lower_bound st, frames st, delivered st).

Definition prounds (st : hg) : list Z := map fst (pending st).
Definition lc_lt (st : hg) (r : Z) : Prop :=
  match last_consensus st with Some l => l < r | None => True end.

Definition rounds_bounded (st : hg) : Prop :=
  -1 <= last_round st /\ forall r, get_round st r <> None -> 0 <= r <= last_round st.
Definition memo_ok (st : hg) : Prop :=
  forall x r, zget x (round_memo st) = Some r -> 0 <= r <= last_round st + 1.

(* parts of the invariant that also hold in the middle of ProcessDecidedRounds *)
Record rinvA (st : hg) : Prop := {
  r_lb : lower_bound st = None;
  r_lr : -1 <= last_round st;
  r_contig : forall r, get_round st r <> None <-> 0 <= r <= last_round st;
  r_memo : memo_ok st;
  r_sorted : StronglySorted Z.lt (prounds st);
  r_pend : forall r d, In (r, d) (pending st) ->
           exists ri, get_round st r = Some ri /\ (d = true -> ri_decided ri = true);
  r_lc : forall l, last_consensus st = Some l -> l <= last_round st;
  r_frames : forall rr f, zget rr (frames st) = Some f -> f_round f = rr;
  r_del_sorted : StronglySorted Z.lt (map b_rr (delivered st));
  r_del_lc : forall d, In d (delivered st) -> exists l, last_consensus st = Some l /\ b_rr d <= l
}.
(* parts that are re-established when the processed prefix is removed from the queue *)
Record rinvB (st : hg) : Prop := {
  r_above : forall r, In r (prounds st) -> lc_lt st r;
  r_q : forall r ri, get_round st r = Some ri -> In r (prounds st) \/ ri_decided ri = true
}.
Definition rinv (st : hg) : Prop := rinvA st /\ rinvB st.

(** * Steps that keep queue, last consensus round, frames and deliveries, keep the set of rounds
      and never clear a decided flag *)
Record rstep (st st' : hg) : Prop := {
  s_lr : last_round st' = last_round st;
  s_pend : pending st' = pending st;
  s_lc : last_consensus st' = last_consensus st;
  s_lb : lower_bound st' = lower_bound st;
  s_fr : frames st' = frames st;
  s_del : delivered st' = delivered st;
  s_dom : forall r, get_round st' r = None <-> get_round st r = None;
  s_dec : forall r ri ri', get_round st r = Some ri -> get_round st' r = Some ri' ->
          ri_decided ri = true -> ri_decided ri' = true;
  s_memo : rounds_bounded st -> memo_ok st -> memo_ok st'
}.

Lemma rstep_refl st : rstep st st.
Proof. constructor; try reflexivity; [congruence|auto]. Qed.

Lemma rstep_round st st' r ri :
  rstep st st' -> get_round st r = Some ri ->
  exists ri', get_round st' r = Some ri' /\ (ri_decided ri = true -> ri_decided ri' = true).
Proof.
  intros S H. destruct (get_round st' r) as [ri'|] eqn:H'; [|apply (s_dom _ _ S) in H'; congruence].
  exists ri'. split; [reflexivity|apply (s_dec _ _ S _ _ _ H H')].
Qed.

Lemma rounds_bounded_rstep st st' : rstep st st' -> rounds_bounded st -> rounds_bounded st'.
Proof.
  intros S [B0 B]. split; [rewrite (s_lr _ _ S); exact B0|].
  intros r Hr. rewrite (s_lr _ _ S). apply B. intros C. apply Hr. apply (s_dom _ _ S). exact C.
Qed.

Lemma rstep_trans a b c : rstep a b -> rstep b c -> rstep a c.
Proof.
  intros S1 S2. pose proof (rounds_bounded_rstep _ _ S1) as B1. pose proof (fun r ri => rstep_round a b r ri S1) as R1.
  destruct S1 as [L1 P1 C1 Lb1 F1 D1 O1 _ M1], S2 as [L2 P2 C2 Lb2 F2 D2 O2 E2 M2].
  constructor; try (etransitivity; eassumption).
  - intros r. rewrite O2. apply O1.
  - intros r ri ri'' Ha Hc Hd. destruct (R1 r ri Ha) as [ri' [Hb Hd']]. apply (E2 _ _ _ Hb Hc), Hd', Hd.
  - intros B M. apply M2; [apply B1, B|apply M1; assumption].
Qed.

Lemma rstep_nv st st' : nv st' = nv st -> (rounds_bounded st -> memo_ok st -> memo_ok st') -> rstep st st'.
Proof.
  unfold nv. intros E HM. injection E as Hr Hl Hp Hc Hb Hf Hd.
  assert (G : forall r, get_round st' r = get_round st r) by (intros r; unfold get_round; rewrite Hr; reflexivity).
  constructor; try assumption.
  - intros r. rewrite G. reflexivity.
  - intros r ri ri'. rewrite G. congruence.
Qed.

Lemma rstep_rv st st' : rv st' = rv st -> rstep st st'.
Proof.
  unfold rv, cv. intros E. injection E as Hr Hl Hp Hc Hb Hf Hm Hd.
  apply rstep_nv; [unfold nv; rewrite Hr, Hl, Hp, Hc, Hb, Hf, Hd; reflexivity|]. intros _ M x r. rewrite Hm, Hl. apply M.
Qed.

(** * round_f / witness_f: only memo tables change and the memoised rounds stay within
      0..last_round+1 (a round number is 0, the parents' round, or that round + 1, and the
      parents' round has a RoundInfo) *)
Lemma nv_nomemo st st' : nomemo st' = nomemo st -> nv st' = nv st.
Proof. intros H. exact (f_equal nv H). Qed.

Lemma rstep_nomemo st st' :
  nomemo st' = nomemo st -> (rounds_bounded st -> memo_ok st -> memo_ok st') -> rstep st st'.
Proof. intros H. apply rstep_nv, nv_nomemo, H. Qed.

Lemma memo_ok_set st x r :
  memo_ok st -> 0 <= r <= last_round st + 1 -> memo_ok (st <| round_memo := zset x r (round_memo st) |>).
Proof.
  intros M Hr y r0 H. change (zget y (zset x r (round_memo st)) = Some r0) in H. rewrite zget_zset in H.
  destruct ((x =? y) && (0 <=? x)); [inversion H; subst; exact Hr|apply (M y r0 H)].
Qed.

Definition rm_ok (st : hg) : Prop := rounds_bounded st /\ memo_ok st.

Lemma round_f_memo fuel : forall st x, rm_ok st ->
  rm_ok (snd (round_f fuel st x)) /\
  forall r, fst (round_f fuel st x) = Some r -> 0 <= r <= last_round (snd (round_f fuel st x)) + 1.
Proof.
  induction fuel as [|f IH]; intros st x K; cbn [round_f];
    (destruct (zget x (round_memo st)) eqn:Hm; [split; [exact K|intros r [= <-]; exact (proj2 K _ _ Hm)]|]);
    [split; [exact K|discriminate]|].
  destruct (get_event st x) as [ex|]; [|split; [exact K|discriminate]].
  (* the round of a parent: -1 for none *)
  assert (P : forall y s, rm_ok s -> rm_ok (snd (if y =? -1 then (Some (-1), s) else round_f f s y))).
  { intros y s Ks. destruct (y =? -1); [exact Ks|apply IH, Ks]. }
  apply (P (e_sp (ev_e ex))) in K.
  destruct (if e_sp (ev_e ex) =? -1 then _ else _) as [[spr|] st1]; cbn [snd] in K; [|split; [exact K|discriminate]].
  apply (P (e_op (ev_e ex))) in K.
  destruct (if e_op (ev_e ex) =? -1 then _ else _) as [[opr|] st2]; cbn [snd] in K; [|split; [exact K|discriminate]].
  clear P IH. cbv zeta. set (pr := if spr <? opr then opr else spr).
  assert (Memo : forall r, 0 <= r <= last_round st2 + 1 ->
            rm_ok (st2 <| round_memo := zset x r (round_memo st2) |>) /\
            forall r0, Some r = Some r0 -> 0 <= r0 <= last_round st2 + 1).
  { intros r Hr. split; [exact (conj (proj1 K) (memo_ok_set st2 x r (proj2 K) Hr))|intros r0 [= <-]; exact Hr]. }
  destruct K as [[B0 B] M]. destruct (pr =? -1) eqn:Epr; [apply Memo; lia|].
  destruct (get_round st2 pr) as [pri|] eqn:Hpri; [|split; [exact (conj (conj B0 B) M)|discriminate]].
  assert (Hb : 0 <= pr <= last_round st2) by (apply B; congruence).
  destruct (get_peerset st2 pr) as [pps|]; [|split; [exact (conj (conj B0 B) M)|discriminate]].
  destruct (fold_left _ _ _) as [c|]; [|split; [exact (conj (conj B0 B) M)|discriminate]].
  apply Memo. destruct (super_majority pps <=? c); lia.
Qed.

Lemma witness_f_memo fuel st x : rm_ok st -> rm_ok (snd (witness_f fuel st x)).
Proof.
  intros K. unfold witness_f.
  destruct (zget x (witness_memo st)); [exact K|].
  destruct (get_event st x) as [ex|]; [|exact K].
  apply (round_f_memo fuel st x) in K. destruct K as [K _].
  destruct (round_f fuel st x) as [[xr|] st1]; cbn [snd] in K; [|exact K].
  destruct (get_peerset st1 xr); [|exact K].
  destruct (negb _); [exact K|].
  destruct (e_sp (ev_e ex) =? -1); [exact K|].
  apply (round_f_memo fuel st1 (e_sp (ev_e ex))) in K.
  destruct (round_f fuel st1 (e_sp (ev_e ex))) as [[spr|] st2]; exact (proj1 K).
Qed.

Lemma round_f_rstep fuel st x : rstep st (snd (round_f fuel st x)).
Proof.
  apply rstep_nomemo; [apply round_f_nomemo|]. intros B M. apply (round_f_memo fuel st x (conj B M)).
Qed.
Lemma witness_f_rstep fuel st x : rstep st (snd (witness_f fuel st x)).
Proof.
  apply rstep_nomemo; [apply witness_f_nomemo|]. intros B M. apply (witness_f_memo fuel st x (conj B M)).
Qed.

Lemma lamport_f_round_memo fuel st x : round_memo (snd (lamport_f fuel st x)) = round_memo st.
Proof. exact (f_equal round_memo (lamport_f_nolt fuel st x)). Qed.
Lemma lamport_f_rv fuel st x : rv (snd (lamport_f fuel st x)) = rv st.
Proof. exact (f_equal rv (lamport_f_nolt fuel st x)). Qed.

Lemma rv_set_evst st x e : rv (set_evst st x e) = rv st.
Proof. reflexivity. Qed.
Lemma rv_fail st : rv (fail st) = rv st.
Proof. reflexivity. Qed.

Lemma failed_fail s : failed (fail s) = true.
Proof. reflexivity. Qed.
Lemma failed_nomemo st st' : nomemo st' = nomemo st -> failed st' = failed st.
Proof. intros H. exact (f_equal failed H). Qed.

Ltac rstep_chain := repeat (eapply rstep_trans; [eassumption|]).

Definition istep (st st' : hg) : Prop := rstep st st' /\ failed st' = failed st.

Lemma istep_refl st : istep st st.
Proof. split; [apply rstep_refl|reflexivity]. Qed.
Lemma istep_trans a b c : istep a b -> istep b c -> istep a c.
Proof. intros [S1 F1] [S2 F2]. split; [eapply rstep_trans; eauto|congruence]. Qed.
Lemma istep_rv st st' : rv st' = rv st -> failed st' = failed st -> istep st st'.
Proof. intros E F. split; [apply rstep_rv, E|exact F]. Qed.

Lemma fd_walk_istep fuel : forall st c index x ah, istep st (fd_walk fuel st c index x ah).
Proof.
  induction fuel as [|f IH]; intros st c index x ah; cbn [fd_walk]; [apply istep_refl|].
  destruct (get_event st ah) as [a|]; [|apply istep_refl].
  destruct (aget c (ev_fd a)); [apply istep_refl|].
  set (st1 := set_evst st ah _).
  assert (F2 : istep st1 (snd (witness_f (fuel_of st1) st1 ah)))
    by (split; [apply witness_f_rstep|apply failed_nomemo, witness_f_nomemo]).
  apply (istep_trans _ st1); [apply istep_rv; reflexivity|].
  destruct (witness_f (fuel_of st1) st1 ah) as [[[|]|] st2]; cbn [snd] in F2; try exact F2;
    (eapply istep_trans; [exact F2|apply IH]).
Qed.

Lemma update_ancestor_fd_istep st e la : istep st (update_ancestor_fd st e la).
Proof.
  unfold update_ancestor_fd. revert st. induction la as [|ce l IH]; intros st; cbn [fold_left]; [apply istep_refl|].
  eapply istep_trans; [apply fd_walk_istep|apply IH].
Qed.

Lemma store_set_event_rv st es st' : store_set_event st es = Some st' -> rv st' = rv st /\ failed st' = failed st.
Proof.
  unfold store_set_event. destruct (get_event st _); [intros H; inversion H; split; reflexivity|].
  destruct (zget _ _); [|discriminate]. destruct (pidx_set _ _ _); [|discriminate].
  intros H; inversion H. split; reflexivity.
Qed.

Lemma insert_event_istep st e : istep st (snd (insert_event st e)).
Proof.
  unfold insert_event. destruct (negb _); [apply istep_refl|].
  destruct (check_self_parent st e); try apply istep_refl.
  destruct (check_other_parent st e); try apply istep_refl.
  unfold insert_admitted. cbv zeta.
  destruct (store_set_event _ _) as [st2|] eqn:E; cbn [snd]; [|apply istep_rv; reflexivity].
  destruct (store_set_event_rv _ _ _ E) as [E1 E2].
  eapply istep_trans; [apply istep_rv; [exact E1|exact E2]|].
  eapply istep_trans; [apply update_ancestor_fd_istep|].
  apply istep_rv; destruct (is_loaded e); reflexivity.
Qed.

Lemma insert_event_rstep st e : rstep st (snd (insert_event st e)).
Proof. apply insert_event_istep. Qed.
Lemma insert_event_failed st e : failed (snd (insert_event st e)) = failed st.
Proof. apply insert_event_istep. Qed.

Lemma existsb_eqb_In q l : existsb (Z.eqb q) l = true <-> In q l.
Proof.
  rewrite existsb_exists. split; [intros [y [Hy He]]; apply Z.eqb_eq in He; subst; exact Hy|].
  intros H. exists q. split; [exact H|apply Z.eqb_refl].
Qed.

Lemma queued_In st r : queued st r = true <-> In r (prounds st).
Proof.
  unfold queued, prounds. rewrite existsb_exists. split.
  - intros [p [Hin He]]. apply Z.eqb_eq in He. subst. apply in_map. exact Hin.
  - intros H. apply in_map_iff in H. destruct H as [p [He Hin]]. exists p. split; [auto|lia].
Qed.

Lemma pending_insert_In r l x : In x (pending_insert r l) <-> (r, false) = x \/ In x l.
Proof.
  induction l as [|[r0 d0] rest IH]; cbn [pending_insert]; [reflexivity|].
  destruct (r <? r0); [reflexivity|]. cbn [In]. rewrite IH.
  split; (intros [H|[H|H]]; [right; left|left|right; right]; exact H).
Qed.

Lemma pending_insert_fst r l r' : In r' (map fst (pending_insert r l)) <-> r' = r \/ In r' (map fst l).
Proof.
  rewrite in_map_iff. split.
  - intros [p [<- Hp]]. apply pending_insert_In in Hp. destruct Hp as [<-|Hp]; [left; reflexivity|right; apply in_map, Hp].
  - intros [->|H]; [exists (r, false); split; [reflexivity|apply pending_insert_In; left; reflexivity]|].
    apply in_map_iff in H. destruct H as [p [<- Hp]]. exists p. split; [reflexivity|apply pending_insert_In; right; exact Hp].
Qed.

Lemma pending_insert_sorted r l :
  StronglySorted Z.lt (map fst l) -> ~ In r (map fst l) -> StronglySorted Z.lt (map fst (pending_insert r l)).
Proof.
  induction l as [|[r0 d0] rest IH]; cbn [pending_insert map fst]; intros S N.
  - constructor; constructor.
  - inversion S as [|a b S' F]; subst. rewrite Forall_forall in F.
    destruct (Z.ltb_spec r r0) as [Hlt|Hge]; cbn [map fst].
    + constructor; [exact S|]. constructor; [exact Hlt|].
      apply Forall_forall. intros y Hy. specialize (F y Hy). lia.
    + cbn [In] in N. constructor; [apply IH; [exact S'|tauto]|].
      apply Forall_forall. intros y Hy. apply pending_insert_fst in Hy. destruct Hy as [->|Hy]; [lia|apply F, Hy].
Qed.

Lemma prounds_set_pending s p : prounds (s <| pending := p |>) = map fst p.
Proof. reflexivity. Qed.

Lemma get_round_set_round s r ri r' :
  0 <= r -> get_round (set_round s r ri) r' = if r' =? r then Some ri else get_round s r'.
Proof.
  intros H. change (get_round (set_round s r ri) r') with (zget r' (zset r ri (rounds s))).
  rewrite zget_zset, (Z.eqb_sym r'). replace (0 <=? r) with true by lia. rewrite andb_true_r. reflexivity.
Qed.

Lemma add_created_decided ri x w : ri_decided (add_created ri x w) = ri_decided ri.
Proof. unfold add_created. destruct (aget x (ri_created ri)); reflexivity. Qed.

Lemma set_fame_decided ri x f : ri_decided (set_fame ri x f) = ri_decided ri.
Proof. unfold set_fame. destruct (aget x (ri_created ri)) as [[w t]|]; reflexivity. Qed.

Lemma witnesses_decided_sticky ri ps : ri_decided ri = true -> ri_decided (snd (witnesses_decided ri ps)) = true.
Proof. unfold witnesses_decided. intros H. rewrite H. exact H. Qed.

Lemma witnesses_decided_true ri ps : fst (witnesses_decided ri ps) = true -> ri_decided (snd (witnesses_decided ri ps)) = true.
Proof.
  unfold witnesses_decided. destruct (ri_decided ri) eqn:Hd; [intros _; exact Hd|].
  destruct (existsb _ _); [discriminate|]. exact (fun H => H).
Qed.

Lemma set_rounds_existing_rstep s r ri ri' :
  get_round s r = Some ri -> (ri_decided ri = true -> ri_decided ri' = true) ->
  rstep s (s <| rounds := zset r ri' (rounds s) |>).
Proof.
  intros Hr Hd.
  assert (H0 : 0 <= r) by (eapply zget_some_nonneg; exact Hr).
  assert (G : forall q, get_round (s <| rounds := zset r ri' (rounds s) |>) q = if q =? r then Some ri' else get_round s q)
    by (intros q; exact (get_round_set_round s r ri' q H0)).
  constructor; try reflexivity.
  - intros q. rewrite G. destruct (Z.eqb_spec q r) as [->|]; [split; congruence|reflexivity].
  - intros q a b Ha. rewrite G. destruct (Z.eqb_spec q r) as [->|]; [|congruence].
    intros Hb'; inversion Hb'; subst. rewrite Hr in Ha. inversion Ha; subst. exact Hd.
  - intros _ M. exact M.
Qed.

Lemma set_round_existing_rstep s r ri ri' :
  rounds_bounded s -> get_round s r = Some ri -> (ri_decided ri = true -> ri_decided ri' = true) ->
  rstep s (set_round s r ri').
Proof.
  intros [_ B] Hr Hd. eapply rstep_trans; [eapply set_rounds_existing_rstep; eassumption|].
  assert (Hb : Z.max r (last_round s) = last_round s) by (assert (0 <= r <= last_round s) by (apply B; congruence); lia).
  apply rstep_rv. unfold set_round. rewrite Hb. reflexivity.
Qed.

Lemma nomemo_set_round s s' r ri :
  nomemo s' = nomemo s -> nomemo (set_round s' r ri) = nomemo (set_round s r ri).
Proof. intros H. exact (f_equal (fun s0 => set_round s0 r ri) H). Qed.

Definition all_decided (s : hg) (dec : list Z) : Prop :=
  forall q, In q dec -> exists ri, get_round s q = Some ri /\ ri_decided ri = true.

Lemma all_decided_rstep s s' dec : rstep s s' -> all_decided s dec -> all_decided s' dec.
Proof.
  intros S H q Hq. destruct (H q Hq) as [ri [Hr Hd]].
  destruct (rstep_round _ _ _ _ S Hr) as [ri' [H' D]]. exists ri'. auto.
Qed.

Lemma decide_fame_round_rstep s dec pr s' dec' :
  rounds_bounded s -> all_decided s dec -> decide_fame_round (s, dec) pr = (s', dec') ->
  rstep s s' /\ all_decided s' dec'.
Proof.
  intros B AD E. unfold decide_fame_round in E.
  destruct (failed s); [injection E as <- <-; split; [apply rstep_refl|exact AD]|].
  match goal with |- ?G => assert (Ff : (fail s, dec) = (s', dec') -> G) end.
  { intros E'. injection E' as <- <-. split; [apply rstep_rv, rv_fail|exact AD]. }
  destruct (get_round s (fst pr)) as [ri|] eqn:Hri; [|exact (Ff E)].
  destruct (get_peerset s (fst pr)) as [rps|]; [|exact (Ff E)].
  match type of E with context [fold_left ?f ?l ?a] => destruct (fold_left f l a) as [ri'|] eqn:Ef end; [|exact (Ff E)].
  apply (fame_fold_steps (fun a b => ri_decided b = ri_decided a) (fun _ => eq_refl) (fun a b c H1 H2 => eq_trans H2 H1)
           set_fame_decided) in Ef. clear Ff.
  pose proof (witnesses_decided_sticky ri' rps) as St. pose proof (witnesses_decided_true ri' rps) as Tr.
  destruct (witnesses_decided ri' rps) as [d ri'']. cbn [fst snd] in *. injection E as <- <-.
  assert (S : rstep s (set_round s (fst pr) ri'')).
  { eapply set_round_existing_rstep; eauto; intros H; apply St; congruence. }
  split; [exact S|].
  destruct d; [|eapply all_decided_rstep; eauto].
  intros q Hq. apply in_app_or in Hq. destruct Hq as [Hq|[<-|[]]]; [eapply all_decided_rstep; eauto|].
  exists ri''. split; [|apply Tr; reflexivity].
  assert (0 <= fst pr) by (eapply zget_some_nonneg; exact Hri).
  rewrite get_round_set_round by lia. rewrite Z.eqb_refl. reflexivity.
Qed.

Lemma rr_loop_rstep x : forall is_ st, rounds_bounded st -> rstep st (fst (rr_loop st x is_)).
Proof.
  induction is_ as [|i rest IH]; intros st B; cbn [rr_loop]; [apply rstep_refl|].
  destruct (get_round st i) as [tr|] eqn:Htr;
    [|destruct (lower_bound st) as [lb0|]; [destruct (i <=? lb0); [apply IH; exact B|apply rstep_refl]|apply rstep_refl]].
  destruct (get_peerset st i) as [tps|]; [|apply rstep_rv, rv_fail].
  pose proof (witnesses_decided_sticky tr tps) as St.
  destruct (witnesses_decided tr tps) as [d tr']. cbn [snd] in St.
  set (st1 := st <| rounds := zset i tr' (rounds st) |>).
  assert (F1 : rstep st st1) by (eapply set_rounds_existing_rstep; eauto).
  assert (B1 : rounds_bounded st1) by (eapply rounds_bounded_rstep; eauto).
  assert (G1 : get_round st1 i = Some tr') by (apply zget_zset_same; eapply zget_some_nonneg; exact Htr).
  destruct d; cbn [negb].
  - match goal with |- context [fold_left ?f ?l ?a] => destruct (fold_left f l a) as [sees|] end;
      [|cbn [fst]; rstep_chain; apply rstep_rv, rv_fail].
    destruct (_ && _); [|rstep_chain; apply IH; exact B1].
    destruct (get_event st1 x) as [ex|]; cbn [fst]; rstep_chain; [|apply rstep_rv, rv_fail].
    eapply rstep_trans; [apply rstep_rv, rv_set_evst|].
    eapply set_round_existing_rstep; [exact B1|exact G1|exact (fun H => H)].
  - destruct (lower_bound st1) as [lb|]; [|exact F1].
    destruct (lb <? i); [exact F1|]. rstep_chain. apply IH. exact B1.
Qed.

Lemma decide_rr_one_rstep s und x : rounds_bounded s -> rstep s (fst (decide_rr_one (s, und) x)).
Proof.
  intros B. unfold decide_rr_one.
  destruct (failed s); [apply rstep_refl|].
  pose proof (round_f_rstep (fuel_of s) s x) as Fr.
  destruct (round_f (fuel_of s) s x) as [[r|] s1]; cbn [snd] in Fr; [|cbn [fst]; rstep_chain; apply rstep_rv, rv_fail].
  assert (B1 : rounds_bounded s1) by (eapply rounds_bounded_rstep; eauto).
  pose proof (rr_loop_rstep x (zrange (r + 1) (last_round s1)) s1 B1) as Fl.
  destruct (rr_loop s1 x (zrange (r + 1) (last_round s1))) as [s' received]. cbn [fst] in *.
  rstep_chain. apply rstep_refl.
Qed.

Lemma decide_round_received_rstep st : rounds_bounded st -> rstep st (decide_round_received st).
Proof.
  intros B. unfold decide_round_received.
  assert (G : forall l s und, rounds_bounded s -> rstep s (fst (fold_left decide_rr_one l (s, und)))).
  { induction l as [|x l IH]; intros s und Bs; cbn [fold_left]; [apply rstep_refl|].
    pose proof (decide_rr_one_rstep s und x Bs) as S.
    destruct (decide_rr_one (s, und) x) as [s' und']. cbn [fst] in S.
    eapply rstep_trans; [exact S|apply IH]. eapply rounds_bounded_rstep; eauto. }
  specialize (G (undetermined st) st [] B).
  destruct (fold_left decide_rr_one (undetermined st) (st, [])) as [s und]. cbn [fst] in G.
  destruct (failed s); [exact G|]. eapply rstep_trans; [exact G|apply rstep_rv; reflexivity].
Qed.

(** * ProcessDecidedRounds: commit leaves the round table and the queue alone and delivers one block *)
Lemma cv_commit_rest st st' : commit_rest st' = commit_rest st -> cv st' = cv st.
Proof.
  intros H.
  exact (f_equal (fun '(_, ro, lr, _, rm, _, _, lb, _, _, (fr, lc, pe, _)) => (ro, lr, pe, lc, lb, fr, rm)) H).
Qed.

Lemma delivered_bl st st' : bl st' = bl st -> delivered st' = delivered st.
Proof. intros H. exact (f_equal snd H). Qed.

Lemma rv_commit_rest st st' :
  commit_rest st' = commit_rest st -> delivered st' = delivered st -> rv st' = rv st.
Proof. intros C D. unfold rv. rewrite (cv_commit_rest _ _ C), D. reflexivity. Qed.

Lemma rv_set_peerset st r ps st' : set_peerset st r ps = Some st' -> rv st' = rv st.
Proof.
  intros H. exact (rv_commit_rest _ _ (set_peerset_commit_rest _ _ _ _ H) (delivered_bl _ _ (set_peerset_bl _ _ _ _ H))).
Qed.
Lemma cv_set_peerset st r ps st' : set_peerset st r ps = Some st' -> cv st' = cv st.
Proof. intros H. exact (cv_commit_rest _ _ (set_peerset_commit_rest _ _ _ _ H)). Qed.
Lemma rv_process_receipts st rr itxs : rv (process_receipts st rr itxs) = rv st.
Proof.
  apply rv_commit_rest; [|apply delivered_bl, process_receipts_bl].
  exact (process_receipts_steps _ commit_rest_trans set_peerset_commit_rest (fun _ _ H => commit_rest_sig_rest _ _ (f_equal fst H)) st rr itxs).
Qed.

Lemma process_frame_cv s f : cv (process_frame s f) = cv s.
Proof. exact (cv_commit_rest _ _ (process_frame_commit_rest s f)). Qed.
Lemma process_frame_delivered s f :
  delivered (process_frame s f) = delivered s \/
  exists bf, delivered (process_frame s f) = delivered s ++ [bf] /\ b_rr bf = f_round f.
Proof.
  destruct (process_frame_delivers s f) as [E|[bf [E M]]]; [left; exact E|right; exists bf; split; [exact E|]].
  exact (f_equal (fun '(_, rr, _, _, _, _, _) => rr) M).
Qed.

Lemma get_frame_shape st rr :
  (exists f, zget rr (frames st) = Some f /\ get_frame st rr = (Some f, st)) \/
  (exists f, f_round f = rr /\ get_frame st rr = (Some f, st <| frames := zset rr f (frames st) |>)) \/
  get_frame st rr = (None, st).
Proof.
  unfold get_frame. destruct (zget rr (frames st)) as [g|]; [left; exists g; auto|right].
  destruct (get_round st rr); [|right; reflexivity].
  destruct (get_peerset st rr); [|right; reflexivity].
  match goal with |- context [fold_left ?f ?l ?a] => destruct (fold_left f l a) end; [|right; reflexivity].
  match goal with |- context [fold_left ?f (repertoire st) ?a] => destruct (fold_left f (repertoire st) a) end;
    [left; eexists; split; [|reflexivity]; reflexivity|right; reflexivity].
Qed.

Lemma get_frame_spec st rr f s :
  (forall q g, zget q (frames st) = Some g -> f_round g = q) ->
  get_frame st rr = (Some f, s) ->
  f_round f = rr /\ delivered s = delivered st /\
  rounds s = rounds st /\ last_round s = last_round st /\ pending s = pending st /\
  last_consensus s = last_consensus st /\ lower_bound s = lower_bound st /\ round_memo s = round_memo st /\
  (forall q g, zget q (frames s) = Some g -> f_round g = q).
Proof.
  intros HF H. destruct (get_frame_shape st rr) as [[g [Hg E]]|[[g [Hr E]]|E]]; rewrite E in H; inversion H; subst.
  - split; [apply (HF _ _ Hg)|]. auto 10.
  - repeat (split; [reflexivity|]). intros q g. change (frames (st <| frames := ?m |>)) with m.
    rewrite zget_zset. destruct (Z.eqb_spec (f_round f) q) as [<-|]; cbn [andb]; [|apply HF].
    destruct (0 <=? f_round f); [|apply HF]. intros Hq; inversion Hq; reflexivity.
Qed.

Lemma get_frame_none st rr s : get_frame st rr = (None, s) -> s = st.
Proof.
  intros H. destruct (get_frame_shape st rr) as [[g [_ E]]|[[g [_ E]]|E]]; rewrite E in H; inversion H; reflexivity.
Qed.

Definition pkeep (s s' : hg) : Prop :=
  rounds s' = rounds s /\ last_round s' = last_round s /\ pending s' = pending s /\
  lower_bound s' = lower_bound s /\ round_memo s' = round_memo s.

Lemma pkeep_refl s : pkeep s s.
Proof. unfold pkeep; auto. Qed.
Lemma pkeep_trans a b c : pkeep a b -> pkeep b c -> pkeep a c.
Proof. unfold pkeep. intros [A1 [A2 [A3 [A4 A5]]]] [B1 [B2 [B3 [B4 B5]]]]. repeat split; congruence. Qed.
Lemma cv_eq s s' :
  cv s' = cv s -> pkeep s s' /\ last_consensus s' = last_consensus s /\ frames s' = frames s.
Proof. unfold cv, pkeep. intros H. injection H as H1 H2 H3 H4 H5 H6 H7. auto 10. Qed.

Lemma StronglySorted_app_one l x :
  StronglySorted Z.lt l -> (forall y, In y l -> y < x) -> StronglySorted Z.lt (l ++ [x]).
Proof.
  induction l as [|a l IH]; intros S H; cbn [app]; [constructor; constructor|].
  inversion S as [|a' l' S' F]; subst. constructor.
  - apply IH; [exact S'|]. intros y Hy. apply H. right; exact Hy.
  - apply Forall_forall. intros y Hy. apply in_app_or in Hy. destruct Hy as [Hy|[<-|[]]].
    + rewrite Forall_forall in F. apply F. exact Hy.
    + apply H. left; reflexivity.
Qed.

Lemma bump_lc s r : lc_lt s r -> last_consensus (bump_last_consensus s r) = Some r.
Proof.
  unfold bump_last_consensus, lc_lt. destruct (last_consensus s) as [l|]; [|reflexivity].
  intros H. replace (l <? r) with true by lia. reflexivity.
Qed.
Lemma bump_keep s r :
  pkeep s (bump_last_consensus s r) /\ frames (bump_last_consensus s r) = frames s /\
  delivered (bump_last_consensus s r) = delivered s.
Proof.
  unfold bump_last_consensus, pkeep. destruct (last_consensus s) as [l|]; [destruct (l <? r)|]; auto 10.
Qed.

(* ProcessDecidedRounds at one entry of the queue: skipped or stopped, a store error, or the round is processed *)
Lemma process_round_cases s p stop pr :
  (exists b, process_round (s, p, stop) pr = (s, p, b)) \/
  process_round (s, p, stop) pr = (fail s, p, true) \/
  exists ri f s1, get_round s (fst pr) = Some ri /\ get_frame s (fst pr) = (Some f, s1) /\
    process_round (s, p, stop) pr = (bump_last_consensus (process_frame s1 f) (fst pr), p ++ [fst pr], false).
Proof.
  remember (process_round (s, p, stop) pr) as r eqn:E. unfold process_round in E.
  destruct (stop || failed s); [left; exists stop; exact E|].
  destruct (negb (snd pr)); [left; exists true; exact E|].
  destruct (get_round s (fst pr)) as [ri|]; [|right; left; exact E].
  destruct (get_frame s (fst pr)) as [[f|] s1] eqn:Hgf.
  - right; right. exists ri, f, s1. split; [reflexivity|]. split; [reflexivity|exact E].
  - right; left. rewrite (get_frame_none _ _ _ Hgf) in E. exact E.
Qed.

Lemma process_fold_stopped l : forall s p stop,
  stop = true \/ failed s = true -> fold_left process_round l (s, p, stop) = (s, p, stop).
Proof.
  induction l as [|pr l IH]; intros s p stop H; cbn [fold_left]; [reflexivity|].
  assert (E : process_round (s, p, stop) pr = (s, p, stop)).
  { unfold process_round. destruct H as [->| ->]; [reflexivity|rewrite orb_true_r; reflexivity]. }
  rewrite E. apply IH. exact H.
Qed.

Lemma sorted_filter_fst (f : Z * bool -> bool) l :
  StronglySorted Z.lt (map fst l) -> StronglySorted Z.lt (map fst (filter f l)).
Proof.
  induction l as [|a l IH]; intros S; cbn [filter map]; [constructor|].
  inversion S as [|a' l' S' F]; subst. destruct (f a); [|apply IH; exact S'].
  cbn [map]. constructor; [apply IH; exact S'|].
  apply Forall_forall. intros y Hy. rewrite Forall_forall in F. apply F.
  apply in_map_iff in Hy. destruct Hy as [q [<- Hq]]. apply filter_In in Hq. apply in_map. apply Hq.
Qed.

Lemma divide_lt_rv st x : rv (divide_lt st x) = rv st.
Proof.
  unfold divide_lt. pose proof (lamport_f_rv (fuel_of st) st x) as E.
  destruct (lamport_f (fuel_of st) st x) as [[t|] s]; [|exact E].
  unfold set_event_lt. destruct (get_event s x); exact E.
Qed.

Lemma divide_rounds_failed st : failed st = true -> divide_rounds st = st.
Proof.
  unfold divide_rounds. generalize (undetermined st). intros l Hf.
  induction l as [|x l IH]; cbn [fold_left]; [reflexivity|].
  replace (divide_one st x) with st; [exact IH|]. unfold divide_one. rewrite Hf. reflexivity.
Qed.

Lemma delivered_bview st st' : bview st' = bview st -> delivered st' = delivered st.
Proof. intros H. apply bview_bl in H. apply delivered_bl. exact H. Qed.

Lemma process_sig_rv st s : rv (process_sig st s) = rv st /\ failed (process_sig st s) = failed st.
Proof.
  pose proof (commit_rest_sig_rest _ _ (process_sig_sig_rest st s)) as C.
  split; [apply (rv_commit_rest _ _ C)|exact (f_equal (fun v => snd (snd v)) C)].
  unfold process_sig.
  destruct (zget (bs_index s) (blocks st)) as [b|]; [|reflexivity].
  destruct (get_peerset st (b_rr b)); [|reflexivity].
  destruct (negb (mem_key _ _)); [reflexivity|].
  destruct (negb (_ =? _)); [reflexivity|]. cbv zeta.
  exact (delivered_bl _ _ (set_anchor_block_bl _ _)).
Qed.

(** * A step is InsertEvent followed, if the event was accepted, by the four passes, or it is
      ProcessSigPool; a pass is not run, and DivideRounds does nothing, in a failed state.  So a
      predicate that every pass keeps from a state that has not failed holds along the run. *)
Lemma fold_left_keeps {S A} (T : S -> Prop) (f : S -> A -> S) :
  (forall s a, T s -> T (f s a)) -> forall l s, T s -> T (fold_left f l s).
Proof. intros Hf. apply (fold_left_preorder (fun s s' => T s -> T s')); auto. Qed.

Section UnlessFailed.
  Variable T : hg -> Prop.

  Hypothesis T_divide : forall st x, failed st = false -> T st -> T (divide_one st x).

  Lemma divide_rounds_unless_failed st : T st -> T (divide_rounds st).
  Proof.
    apply fold_left_keeps. intros s x H.
    destruct (failed s) eqn:Hf; [|exact (T_divide s x Hf H)]. unfold divide_one. rewrite Hf. exact H.
  Qed.

  Hypothesis T_fame : forall st, failed st = false -> T st -> T (decide_fame st).
  Hypothesis T_received : forall st, failed st = false -> T st -> T (decide_round_received st).
  Hypothesis T_blocks : forall st, failed st = false -> T st -> T (process_decided_rounds st).

  Lemma run_consensus_unless_failed st : T st -> T (run_consensus st).
  Proof.
    intros H. unfold run_consensus.
    pose proof (divide_rounds_unless_failed st H) as H1.
    destruct (failed (divide_rounds st)) eqn:F1; [exact H1|].
    pose proof (T_fame _ F1 H1) as H2. destruct (failed (decide_fame _)) eqn:F2; [exact H2|].
    pose proof (T_received _ F2 H2) as H3. destruct (failed (decide_round_received _)) eqn:F3; [exact H3|].
    exact (T_blocks _ F3 H3).
  Qed.

  Hypothesis T_insert : forall st e, T st -> T (snd (insert_event st e)).
  Hypothesis T_sig : forall st s, T st -> T (process_sig st s).

  Lemma hstep_unless_failed st o : T st -> T (hstep st o).
  Proof.
    destruct o as [e|]; cbn [hstep]; [|apply fold_left_keeps, T_sig].
    intros H. apply (T_insert st e) in H. unfold step, insert_and_run.
    destruct (insert_event st e) as [[] s]; cbn [snd] in *; try exact H. apply run_consensus_unless_failed, H.
  Qed.
End UnlessFailed.

(** * The invariant for a state whose roundLowerBound is [lbo]: [rinv] is the case of a state
      reached from [init_hg], Proofs/ResetOrder.v has the case of a state reached from a reset.
      [m]: the rounds above [m] are contiguous; [old]: the commit callbacks made before the reset *)
Section Q.
  Variables (lbo : option Z) (m : Z) (old : list block).

  Definition above_lb (r : Z) : Prop := match lbo with Some lb => lb < r | None => True end.

  Hypothesis Hm : forall r, 0 <= r -> above_lb r -> m < r.

  Record qinvA (st : hg) : Prop := {
    q_lb : lower_bound st = lbo;
    q_bounded : rounds_bounded st;
    q_contig : forall r, m < r <= last_round st -> get_round st r <> None;
    q_memo : memo_ok st;
    q_sorted : StronglySorted Z.lt (prounds st);
    q_pend : forall r d, In (r, d) (pending st) ->
             exists ri, get_round st r = Some ri /\ (d = true -> ri_decided ri = true);
    q_lc : forall l, last_consensus st = Some l -> lbo = Some l \/ l <= last_round st;
    q_lc_lb : forall r, lc_lt st r -> above_lb r;
    q_frames : forall rr f, zget rr (frames st) = Some f -> f_round f = rr;
    q_news : exists news, delivered st = old ++ news /\ StronglySorted Z.lt (map b_rr news) /\
             forall d, In d news -> above_lb (b_rr d) /\ exists l, last_consensus st = Some l /\ b_rr d <= l
  }.
  Record qinvB (st : hg) : Prop := {
    q_above : forall r, In r (prounds st) -> lc_lt st r;
    q_q : forall r ri, get_round st r = Some ri -> above_lb r -> In r (prounds st) \/ ri_decided ri = true
  }.
  Definition qinv (st : hg) : Prop := qinvA st /\ qinvB st.

  Lemma above_lb_le r r' : above_lb r -> r <= r' -> above_lb r'.
  Proof. unfold above_lb. destruct lbo; [lia|auto]. Qed.

  Lemma above_lb_b r : (match lbo with None => true | Some lb => lb <? r end) = true <-> above_lb r.
  Proof. unfold above_lb. destruct lbo; [lia|tauto]. Qed.

  Lemma qinv_bounded st : qinv st -> rm_ok st.
  Proof. intros [A _]. exact (conj (q_bounded st A) (q_memo st A)). Qed.

  Lemma qinvA_rstep st st' : qinvA st -> rstep st st' -> qinvA st'.
  Proof.
    intros A S. constructor.
    - rewrite (s_lb _ _ S). apply (q_lb st A).
    - apply (rounds_bounded_rstep _ _ S), (q_bounded st A).
    - intros r. rewrite (s_lr _ _ S). intros Hr C. apply (s_dom _ _ S) in C. revert C. apply (q_contig st A), Hr.
    - apply (s_memo _ _ S); [apply (q_bounded st A)|apply (q_memo st A)].
    - unfold prounds. rewrite (s_pend _ _ S). apply (q_sorted st A).
    - intros r d. rewrite (s_pend _ _ S). intros Hin.
      destruct (q_pend st A r d Hin) as [ri [Hri Hd]].
      destruct (rstep_round _ _ _ _ S Hri) as [ri' [H' D]]. exists ri'. auto.
    - intros l. rewrite (s_lc _ _ S), (s_lr _ _ S). apply (q_lc st A).
    - unfold lc_lt. rewrite (s_lc _ _ S). apply (q_lc_lb st A).
    - rewrite (s_fr _ _ S). apply (q_frames st A).
    - rewrite (s_del _ _ S), (s_lc _ _ S). apply (q_news st A).
  Qed.

  Lemma qinvB_rstep st st' : qinvB st -> rstep st st' -> qinvB st'.
  Proof.
    intros [Ha Hq] S. constructor.
    - unfold prounds, lc_lt. rewrite (s_pend _ _ S), (s_lc _ _ S). exact Ha.
    - intros r ri' H' Hr. unfold prounds. rewrite (s_pend _ _ S).
      destruct (get_round st r) as [ri|] eqn:H; [|apply (s_dom _ _ S) in H; congruence].
      destruct (Hq r ri H Hr) as [Hin|Hd]; [left; exact Hin|right; exact (s_dec _ _ S _ _ _ H H' Hd)].
  Qed.

  Lemma qinv_rstep st st' : qinv st -> rstep st st' -> qinv st'.
  Proof. intros [A B] S. split; [eapply qinvA_rstep|eapply qinvB_rstep]; eauto. Qed.

  Lemma qinvA_set_pending s p :
    qinvA s -> StronglySorted Z.lt (map fst p) ->
    (forall r d, In (r, d) p -> exists ri, get_round s r = Some ri /\ (d = true -> ri_decided ri = true)) ->
    qinvA (s <| pending := p |>).
  Proof. intros [] HS HP. constructor; assumption. Qed.

  Lemma qinvA_set_round s r ri' :
    qinvA s -> 0 <= r <= last_round s + 1 ->
    (forall ri, get_round s r = Some ri -> ri_decided ri = true -> ri_decided ri' = true) ->
    qinvA (set_round s r ri').
  Proof.
    intros A Hr Hd. destruct (q_bounded s A) as [B0 B].
    assert (G : forall q, get_round (set_round s r ri') q = if q =? r then Some ri' else get_round s q)
      by (intros q; apply get_round_set_round; lia).
    constructor; try change (last_round (set_round s r ri')) with (Z.max r (last_round s)).
    - exact (q_lb s A).
    - split; [change (-1 <= Z.max r (last_round s)); lia|]. intros q. rewrite G.
      change (last_round (set_round s r ri')) with (Z.max r (last_round s)).
      destruct (Z.eqb_spec q r) as [->|]; [lia|]. intros H. apply B in H. lia.
    - intros q. rewrite G. destruct (Z.eqb_spec q r) as [->|]; [discriminate|]. intros H. apply (q_contig s A). lia.
    - intros y q H. apply (q_memo s A) in H. change (last_round (set_round s r ri')) with (Z.max r (last_round s)). lia.
    - exact (q_sorted s A).
    - intros q d Hin. rewrite G. destruct (q_pend s A q d Hin) as [a [Ha Da]].
      destruct (Z.eqb_spec q r) as [->|]; [|exists a; auto].
      exists ri'. split; [reflexivity|]. intros Hd'. apply (Hd a Ha), Da, Hd'.
    - intros l Hl. destruct (q_lc s A l Hl) as [E|H]; [left; exact E|right; lia].
    - exact (q_lc_lb s A).
    - exact (q_frames s A).
    - exact (q_news s A).
  Qed.

  Lemma qinvA_queue s r :
    qinvA s -> get_round s r <> None -> ~ In r (prounds s) ->
    qinvA (s <| pending := pending_insert r (pending s) |>).
  Proof.
    intros A Hr Hn. apply qinvA_set_pending; [exact A|apply pending_insert_sorted; [apply (q_sorted s A)|exact Hn]|].
    intros q d Hin. apply pending_insert_In in Hin. destruct Hin as [E|Hin]; [|apply (q_pend s A), Hin].
    inversion E; subst. destruct (get_round s q) as [ri|]; [|contradiction]. exists ri. split; [reflexivity|discriminate].
  Qed.

  (* a round that is not in the table yet and is above the lower bound is last_round + 1, hence
     above the last consensus round *)
  Lemma qinvA_new_round s r :
    qinvA s -> 0 <= r <= last_round s + 1 -> above_lb r -> get_round s r = None -> lc_lt s r.
  Proof.
    intros A Hr Hab Hn.
    assert (E : r = last_round s + 1).
    { destruct (Z.eq_dec r (last_round s + 1)) as [E|Hne]; [exact E|].
      exfalso. apply (q_contig s A r); [|exact Hn]. pose proof (Hm r (proj1 Hr) Hab). lia. }
    unfold lc_lt. destruct (last_consensus s) as [l|] eqn:Hl; [|exact I].
    destruct (q_lc s A l Hl) as [El|H]; [|lia]. unfold above_lb in Hab. rewrite El in Hab. exact Hab.
  Qed.

  (* the round r of an event: queued unless it is queued already, decided or not above the lower
     bound; then the event is recorded in its RoundInfo (created, with last_round, if r is new) *)
  Lemma divide_queue_qinv s r ri' :
    qinv s -> 0 <= r <= last_round s + 1 -> ri_decided ri' = ri_decided (round_or_new s r) ->
    qinv (set_round (maybe_queue s r (round_or_new s r)) r ri').
  Proof.
    intros [A B] Hr Hd.
    assert (A0 : qinvA (set_round s r ri')).
    { apply qinvA_set_round; [exact A|exact Hr|]. intros a Ha. rewrite Hd. unfold round_or_new. rewrite Ha. auto. }
    assert (G : forall s0 q, get_round (set_round s0 r ri') q = if q =? r then Some ri' else get_round s0 q)
      by (intros s0 q; apply get_round_set_round; lia).
    unfold maybe_queue. rewrite (q_lb s A).
    destruct (negb (queued s r) && negb (ri_decided (round_or_new s r)) && _) eqn:C.
    - apply andb_prop in C. destruct C as [C Hab]. apply above_lb_b in Hab. apply andb_prop in C. destruct C as [Cq Cd].
      assert (Hq : ~ In r (prounds s)) by (rewrite <- queued_In; destruct (queued s r); [discriminate|congruence]).
      split.
      + refine (qinvA_queue (set_round s r ri') r A0 _ Hq). rewrite G, Z.eqb_refl. discriminate.
      + constructor.
        * intros q Hq'. change (lc_lt s q). change (In q (map fst (pending_insert r (pending s)))) in Hq'.
          apply pending_insert_fst in Hq'. destruct Hq' as [->|Hq']; [|exact (q_above s B q Hq')].
          unfold round_or_new in Cd. destruct (get_round s r) as [a|] eqn:Ha.
          -- destruct (q_q s B r a Ha Hab) as [Hin|Da]; [contradiction|]. rewrite Da in Cd. discriminate.
          -- exact (qinvA_new_round s r A Hr Hab Ha).
        * intros q b Hb Hab'. rewrite G in Hb. change (In q (map fst (pending_insert r (pending s))) \/ ri_decided b = true).
          rewrite pending_insert_fst. destruct (Z.eqb_spec q r) as [->|Hne]; [left; left; reflexivity|].
          destruct (q_q s B q b Hb Hab') as [Hin|Db]; [left; right; exact Hin|right; exact Db].
    - split; [exact A0|]. constructor; [exact (q_above s B)|].
      intros q b Hb Hab. rewrite G in Hb. destruct (Z.eqb_spec q r) as [->|Hne]; [|exact (q_q s B q b Hb Hab)].
      inversion Hb; subst b. rewrite Hd. apply above_lb_b in Hab. rewrite Hab, andb_true_r in C.
      destruct (queued s r) eqn:Q; [left; apply queued_In, Q|right].
      destruct (ri_decided (round_or_new s r)); [reflexivity|discriminate].
  Qed.

  (* a consensus pass either keeps the invariant or ends in the failed state (a store error), in
     which no later pass does anything *)
  Definition qinv_f (st : hg) : Prop := failed st = true \/ qinv st.

  Lemma divide_round_qinv st x : qinv st -> qinv_f (divide_round st x).
  Proof.
    intros I. unfold divide_round.
    pose proof (round_f_rstep (fuel_of st) st x) as Sr.
    destruct (round_f_memo (fuel_of st) st x (qinv_bounded st I)) as [_ Hb].
    destruct (round_f (fuel_of st) st x) as [[r|] s]; cbn [fst snd] in Sr, Hb; [|left; apply failed_fail].
    cbv zeta. specialize (Hb r eq_refl).
    set (s1 := set_event_round s x r).
    assert (S1 : rstep s s1).
    { subst s1. unfold set_event_round. destruct (get_event s x); [apply rstep_rv, rv_set_evst|apply rstep_refl]. }
    assert (I1 : qinv s1) by (eapply qinv_rstep; [eapply qinv_rstep; eauto|exact S1]).
    rewrite <- (s_lr _ _ S1) in Hb.
    set (ri := round_or_new s1 r). set (s2 := maybe_queue s1 r ri).
    assert (K2 : rm_ok s2) by (subst s2; unfold maybe_queue; destruct (_ && _ && _); exact (qinv_bounded s1 I1)).
    pose proof (witness_f_nomemo (fuel_of s2) s2 x) as N.
    apply (witness_f_memo (fuel_of s2) s2 x) in K2.
    destruct (witness_f (fuel_of s2) s2 x) as [[w|] s']; cbn [snd] in N, K2; [|left; apply failed_fail].
    right. eapply qinv_rstep; [apply (divide_queue_qinv s1 r (add_created ri x w) I1 Hb), add_created_decided|].
    apply rstep_nomemo; [apply nomemo_set_round, N|].
    intros _ _ y q H. apply (proj2 K2) in H. change (0 <= q <= Z.max r (last_round s') + 1). lia.
  Qed.

  Lemma divide_one_qinv st x : qinv_f st -> qinv_f (divide_one st x).
  Proof.
    intros I. unfold divide_one.
    destruct (failed st) eqn:Hf; [left; exact Hf|].
    destruct I as [I|I]; [congruence|].
    destruct (get_event st x) as [ev|]; [|left; apply failed_fail].
    cbv zeta.
    set (st1 := match ev_round ev with Some _ => st | None => divide_round st x end).
    assert (I1 : qinv_f st1).
    { subst st1; destruct (ev_round ev); [right; exact I|apply divide_round_qinv; exact I]. }
    destruct (failed st1) eqn:Hf1; [left; exact Hf1|].
    destruct I1 as [I1|I1]; [congruence|].
    destruct (get_event st1 x) as [ev1|]; [|left; apply failed_fail].
    destruct (ev_lt ev1); right; [exact I1|]. eapply qinv_rstep; [exact I1|apply rstep_rv, divide_lt_rv].
  Qed.

  Lemma divide_rounds_qinv st : qinv_f st -> qinv_f (divide_rounds st).
  Proof. apply divide_rounds_unless_failed. intros s x _. apply divide_one_qinv. Qed.

  Lemma qinv_mark s dec :
    qinv s -> all_decided s dec ->
    qinv (s <| pending := map (fun p => if existsb (Z.eqb (fst p)) dec then (fst p, true) else p) (pending s) |>).
  Proof.
    intros [A B] AD.
    set (mk := fun p : Z * bool => if existsb (Z.eqb (fst p)) dec then (fst p, true) else p).
    assert (Hfst : map fst (map mk (pending s)) = prounds s).
    { unfold prounds. rewrite map_map. apply map_ext. intros p. unfold mk. destruct (existsb _ _); reflexivity. }
    split.
    - apply qinvA_set_pending; [exact A|rewrite Hfst; apply (q_sorted s A)|].
      intros q d Hin. apply in_map_iff in Hin. destruct Hin as [[q0 d0] [Hmk Hin]].
      unfold mk in Hmk. cbn [fst] in Hmk. destruct (existsb (Z.eqb q0) dec) eqn:Ex; inversion Hmk; subst;
        [|apply (q_pend s A _ _ Hin)].
      apply existsb_eqb_In in Ex. destruct (AD _ Ex) as [ri [Hr Hd]]. exists ri. auto.
    - destruct B as [Ha Hq]. constructor; rewrite prounds_set_pending, Hfst; assumption.
  Qed.

  Lemma decide_fame_qinv st : qinv st -> qinv (decide_fame st).
  Proof.
    intros I. unfold decide_fame.
    assert (G : forall l s dec s' dec', qinv s -> all_decided s dec ->
                fold_left decide_fame_round l (s, dec) = (s', dec') -> qinv s' /\ all_decided s' dec').
    { induction l as [|pr l IH]; intros s dec s' dec' Is AD E; cbn [fold_left] in E; [injection E as <- <-; auto|].
      destruct (decide_fame_round (s, dec) pr) as [s1 dec1] eqn:E1.
      destruct (decide_fame_round_rstep s dec pr s1 dec1 (proj1 (qinv_bounded s Is)) AD E1) as [S AD1].
      apply (IH s1 dec1 s' dec'); [eapply qinv_rstep; eauto|exact AD1|exact E]. }
    destruct (fold_left decide_fame_round (pending st) (st, [])) as [s decided] eqn:E.
    destruct (G _ _ _ _ _ I (fun q (H : In q []) => False_ind _ H) E) as [Is AD]. destruct (failed s); [exact Is|]. apply qinv_mark; assumption.
  Qed.

  Lemma qinvA_update s s' :
    qinvA s -> pkeep s s' ->
    (forall q g, zget q (frames s') = Some g -> f_round g = q) ->
    (forall l, last_consensus s' = Some l -> lbo = Some l \/ l <= last_round s) ->
    (forall r, lc_lt s' r -> above_lb r) ->
    (exists news, delivered s' = old ++ news /\ StronglySorted Z.lt (map b_rr news) /\
       forall d, In d news -> above_lb (b_rr d) /\ exists l, last_consensus s' = Some l /\ b_rr d <= l) ->
    qinvA s'.
  Proof.
    intros A [K1 [K2 [K3 [K4 K5]]]] HF HL HB HN.
    assert (G : forall q, get_round s' q = get_round s q) by (intros q; unfold get_round; rewrite K1; reflexivity).
    constructor; try assumption.
    - rewrite K4. apply (q_lb s A).
    - destruct (q_bounded s A) as [B0 B]. split; [rewrite K2; exact B0|]. intros q. rewrite G, K2. apply B.
    - intros q. rewrite G, K2. apply (q_contig s A).
    - intros x q. rewrite K5, K2. apply (q_memo s A).
    - unfold prounds. rewrite K3. apply (q_sorted s A).
    - intros q d. rewrite K3, G. apply (q_pend s A).
    - intros l. rewrite K2. apply HL.
  Qed.

  Lemma process_round_qspec s p stop pr s' p' stop' :
    qinvA s -> lc_lt s (fst pr) -> process_round (s, p, stop) pr = (s', p', stop') ->
    qinvA s' /\ pkeep s s' /\
    ((p' = p /\ last_consensus s' = last_consensus s /\ (stop' = true \/ failed s' = true)) \/
     (p' = p ++ [fst pr] /\ snd pr = true /\ last_consensus s' = Some (fst pr))).
  Proof.
    intros A Hlt E. unfold process_round in E.
    destruct (stop || failed s) eqn:Hstop.
    { injection E as <- <- <-. split; [exact A|]. split; [apply pkeep_refl|]. left. split; [reflexivity|]. split; [reflexivity|].
      destruct stop; [left; reflexivity|right; exact Hstop]. }
    destruct (snd pr) eqn:Hd; cbn [negb] in E.
    2:{ injection E as <- <- <-. split; [exact A|]. split; [apply pkeep_refl|]. left. auto. }
    match goal with |- ?G => assert (Ffail : (fail s, p, true) = (s', p', stop') -> G) end.
    { intros E'. injection E' as <- <- <-. split; [eapply qinvA_rstep; [exact A|apply rstep_rv, rv_fail]|].
      split; [exact (pkeep_refl s)|]. left. auto. }
    destruct (get_round s (fst pr)) as [ri|] eqn:Hri; [|exact (Ffail E)].
    destruct (get_frame s (fst pr)) as [[f|] s1] eqn:Hgf.
    2:{ apply get_frame_none in Hgf. subst s1. exact (Ffail E). }
    destruct (get_frame_spec s (fst pr) f s1 (q_frames s A) Hgf) as [Hfr [Hd1 [K1 [K2 [K3 [Hc1 [K4 [K5 HF1]]]]]]]].
    injection E as <- <- <-. clear Ffail Hgf.
    set (r := fst pr) in *. set (s2 := process_frame s1 f).
    destruct (cv_eq _ _ (process_frame_cv s1 f)) as [K12 [Lc2 Fr2]]. fold s2 in K12, Lc2, Fr2.
    apply (pkeep_trans s s1 s2 (conj K1 (conj K2 (conj K3 (conj K4 K5))))) in K12. rewrite Hc1 in Lc2.
    set (s3 := bump_last_consensus s2 r).
    assert (Lc3 : last_consensus s3 = Some r).
    { subst s3. apply bump_lc. unfold lc_lt in *. rewrite Lc2. exact Hlt. }
    destruct (bump_keep s2 r) as [K23 [Fr3 Dl3]]. fold s3 in K23, Fr3, Dl3.
    assert (Hrb : 0 <= r <= last_round s) by (apply (q_bounded s A); congruence).
    pose proof (q_lc_lb s A r Hlt) as Hab.
    destruct (q_news s A) as [news [Dn [Sn Hn]]].
    assert (Hprev : forall d, In d news -> b_rr d < r).
    { intros d Hin. destruct (Hn d Hin) as [_ [l [Hl Hle]]]. unfold lc_lt in Hlt. rewrite Hl in Hlt.
      exact (Z.le_lt_trans _ _ _ Hle Hlt). }
    split; [|split; [eapply pkeep_trans; eauto|right; auto]].
    eapply qinvA_update; [exact A|eapply pkeep_trans; eauto| | | |].
    - rewrite Fr3, Fr2. exact HF1.
    - intros l. rewrite Lc3. intros H; inversion H; subst. right. apply Hrb.
    - unfold lc_lt. rewrite Lc3. intros r' Hr'. apply (above_lb_le r); [exact Hab|apply Z.lt_le_incl, Hr'].
    - rewrite Dl3, Lc3.
      assert (Hold : forall d, In d news -> above_lb (b_rr d) /\ exists l, Some r = Some l /\ b_rr d <= l).
      { intros d Hin. split; [apply (Hn d Hin)|]. exists r. split; [reflexivity|apply Z.lt_le_incl, Hprev, Hin]. }
      destruct (process_frame_delivered s1 f) as [E|[bf [E Hb]]]; fold s2 in E; rewrite E, Hd1, Dn.
      + exists news. auto.
      + exists (news ++ [bf]). split; [symmetry; apply app_assoc|]. split.
        * rewrite map_app. cbn [map]. apply StronglySorted_app_one; [exact Sn|].
          intros y Hy. apply in_map_iff in Hy. destruct Hy as [d [<- Hin]]. rewrite Hb, Hfr. apply Hprev, Hin.
        * intros d Hin. apply in_app_or in Hin. destruct Hin as [Hin|[<-|[]]]; [apply Hold, Hin|].
          rewrite Hb, Hfr. split; [exact Hab|]. exists r. split; [reflexivity|apply Z.le_refl].
  Qed.

  Lemma process_fold_qspec l : forall s p stop s' p' stop',
    qinvA s -> StronglySorted Z.lt (map fst l) -> (forall r, In r (map fst l) -> lc_lt s r) ->
    fold_left process_round l (s, p, stop) = (s', p', stop') ->
    qinvA s' /\ pkeep s s' /\
    (forall r, In r (map fst l) -> In r p' \/ lc_lt s' r) /\
    (forall r, In r p' -> In r p \/ In (r, true) l) /\
    (forall r, In r p -> In r p').
  Proof.
    induction l as [|pr l IH]; intros s p stop s' p' stop' A S Hab E; cbn [fold_left] in E.
    - injection E as <- <- <-. split; [exact A|]. split; [apply pkeep_refl|]. split; [intros r []|]. split; auto.
    - inversion S as [|a b S' Fa]; subst.
      assert (Hpr : lc_lt s (fst pr)) by (apply Hab; left; reflexivity).
      destruct (process_round (s, p, stop) pr) as [[s1 p1] stop1] eqn:E1.
      destruct (process_round_qspec s p stop pr s1 p1 stop1 A Hpr E1) as [A1 [K1 C]]. clear E1.
      destruct C as [[-> [Hlc Hs]]|[-> [Hd Hlc]]].
      + rewrite (process_fold_stopped l s1 p stop1 Hs) in E. injection E as <- <- <-.
        split; [exact A1|]. split; [exact K1|]. split; [|split; auto].
        intros r Hr. right. unfold lc_lt. rewrite Hlc. apply Hab. exact Hr.
      + assert (Hab1 : forall r, In r (map fst l) -> lc_lt s1 r).
        { intros r Hr. unfold lc_lt. rewrite Hlc. rewrite Forall_forall in Fa. apply Fa. exact Hr. }
        destruct (IH s1 (p ++ [fst pr]) stop1 s' p' stop' A1 S' Hab1 E) as [A2 [K2 [H1 [H2 H3]]]].
        split; [exact A2|]. split; [eapply pkeep_trans; eauto|]. split; [|split].
        * intros r [<-|Hr]; [left; apply H3; apply in_or_app; right; left; reflexivity|apply H1; exact Hr].
        * intros r Hr. destruct (H2 r Hr) as [Hin|Hin]; [|right; right; exact Hin].
          apply in_app_or in Hin. destruct Hin as [Hin|[<-|[]]]; [left; exact Hin|right; left].
          destruct pr; cbn in *; congruence.
        * intros r Hr. apply H3. apply in_or_app. left; exact Hr.
  Qed.

  Lemma process_decided_rounds_qinv st : qinv st -> qinv (process_decided_rounds st).
  Proof.
    intros [A B]. unfold process_decided_rounds.
    destruct (fold_left process_round (pending st) (st, [], false)) as [[s processed] stop] eqn:E.
    destruct (process_fold_qspec _ _ _ _ _ _ _ A (q_sorted st A) (q_above st B) E) as [As [[K1 [_ [K3 _]]] [H1 [H2 _]]]].
    clear E.
    set (flt := fun p : Z * bool => negb (existsb (Z.eqb (fst p)) processed)).
    assert (Gs : forall q, get_round s q = get_round st q) by (intros q; unfold get_round; rewrite K1; reflexivity).
    split.
    - apply qinvA_set_pending; [exact As|apply sorted_filter_fst, (q_sorted s As)|].
      intros q d Hin. apply filter_In in Hin. apply (q_pend s As), Hin.
    - constructor; rewrite prounds_set_pending, K3.
      + intros q Hq. apply in_map_iff in Hq. destruct Hq as [pq [<- Hq]].
        apply filter_In in Hq. destruct Hq as [Hin Hf].
        destruct (H1 (fst pq) (in_map fst _ _ Hin)) as [Hp|Hl]; [|exact Hl].
        apply existsb_eqb_In in Hp. unfold flt in Hf. rewrite Hp in Hf. discriminate.
      + intros q ri Hq Hlb. change (get_round s q = Some ri) in Hq. rewrite Gs in Hq.
        destruct (q_q st B q ri Hq Hlb) as [Hin|Hd]; [|right; exact Hd].
        destruct (existsb (Z.eqb q) processed) eqn:Ex.
        * right. apply existsb_eqb_In in Ex. destruct (H2 q Ex) as [[]|Hin2].
          destruct (q_pend st A _ _ Hin2) as [ri2 [Hri2 Hd2]]. rewrite Hq in Hri2. inversion Hri2; subst. auto.
        * left. unfold prounds in Hin. apply in_map_iff in Hin. destruct Hin as [pq [<- Hin]].
          apply in_map. apply filter_In. split; [exact Hin|]. unfold flt. rewrite Ex. reflexivity.
  Qed.

  (** * A whole step: the deliveries are sorted in every state; the queue invariant holds unless a
        pass hit a store error (after which no pass runs any more) *)
  Definition news_sorted (st : hg) : Prop :=
    exists news, delivered st = old ++ news /\ StronglySorted Z.lt (map b_rr news) /\
      forall d, In d news -> above_lb (b_rr d).

  Definition qtop (st : hg) : Prop := news_sorted st /\ (failed st = false -> qinv st).

  Lemma qinv_qtop st : qinv st -> qtop st.
  Proof.
    intros I. split; [|auto]. destruct (q_news st (proj1 I)) as [news [D [S H]]].
    exists news. split; [exact D|split; [exact S|]]. intros d Hd. apply (H d Hd).
  Qed.

  Lemma qtop_rstep st st' : qtop st -> rstep st st' -> failed st' = failed st -> qtop st'.
  Proof.
    intros [Hs Hi] S Hf. split; [unfold news_sorted; rewrite (s_del _ _ S); exact Hs|].
    rewrite Hf. intros H. eapply qinv_rstep; eauto.
  Qed.

  Lemma hstep_qtop st o : qtop st -> qtop (hstep st o).
  Proof.
    apply hstep_unless_failed.
    - intros s x Hf [Hs Hi]. split.
      + unfold news_sorted. rewrite (delivered_bview _ _ (divide_one_bview s x)). exact Hs.
      + destruct (divide_one_qinv s x (or_intror (Hi Hf))) as [F|I]; [congruence|intros _; exact I].
    - intros s Hf [_ Hi]. apply qinv_qtop, decide_fame_qinv, Hi, Hf.
    - intros s Hf [_ Hi]. pose proof (Hi Hf) as I. apply qinv_qtop. eapply qinv_rstep; [exact I|].
      apply decide_round_received_rstep, (qinv_bounded _ I).
    - intros s Hf [_ Hi]. apply qinv_qtop, process_decided_rounds_qinv, Hi, Hf.
    - intros s e H. destruct (insert_event_istep s e) as [S F]. exact (qtop_rstep _ _ H S F).
    - intros s g H. destruct (process_sig_rv s g) as [E F]. exact (qtop_rstep _ _ H (rstep_rv _ _ E) F).
  Qed.

  Lemma hrun_qtop ops st : qtop st -> qtop (hrun st ops).
  Proof. apply fold_left_keeps, hstep_qtop. Qed.
End Q.

(** * States reached from [init_hg]: no lower bound, all rounds from 0 contiguous, no earlier deliveries *)
Lemma rinvA_qinvA st : rinvA st <-> qinvA None (-1) [] st.
Proof.
  split.
  - intros [Lb Lr Ct Me So Pe Lc Fr Ds Dl]. constructor; try assumption.
    + split; [exact Lr|apply Ct].
    + intros r Hr. apply Ct. lia.
    + intros l Hl. right. apply (Lc l Hl).
    + intros r _. exact I.
    + exists (delivered st). split; [reflexivity|]. split; [exact Ds|]. intros d Hd. split; [exact I|apply (Dl d Hd)].
  - intros [Lb [B0 B] Ct Me So Pe Lc _ Fr [news [D [S H]]]]. change (delivered st = news) in D.
    constructor; try assumption.
    + intros r. split; [apply B|intros Hr; apply Ct; lia].
    + intros l Hl. destruct (Lc l Hl) as [E|H']; [discriminate|exact H'].
    + rewrite D. exact S.
    + rewrite D. intros d Hd. apply (H d Hd).
Qed.

Lemma rinvB_qinvB st : rinvB st <-> qinvB None st.
Proof.
  split; intros [Ha Hq]; constructor; try exact Ha; intros r ri Hr; [intros _|]; apply (Hq r ri Hr). exact I.
Qed.

Lemma rinv_qinv st : rinv st <-> qinv None (-1) [] st.
Proof. unfold rinv, qinv. rewrite rinvA_qinvA, rinvB_qinvB. reflexivity. Qed.

Lemma above_none r : 0 <= r -> above_lb None r -> -1 < r.
Proof. lia. Qed.

Lemma rinv_rstep st st' : rinv st -> rstep st st' -> rinv st'.
Proof. rewrite !rinv_qinv. apply qinv_rstep. Qed.

Lemma rinv_bounded st : rinv st -> rounds_bounded st /\ memo_ok st.
Proof. rewrite rinv_qinv. apply qinv_bounded. Qed.

Definition rinv_f (st : hg) : Prop := failed st = true \/ rinv st.

Lemma rinv_f_qinv_f st : rinv_f st <-> qinv_f None (-1) [] st.
Proof. unfold rinv_f, qinv_f. rewrite rinv_qinv. reflexivity. Qed.

Lemma divide_round_rinv st x : rinv st -> rinv_f (divide_round st x).
Proof. rewrite rinv_qinv, rinv_f_qinv_f. apply divide_round_qinv, above_none. Qed.

Lemma divide_one_rinv st x : rinv_f st -> rinv_f (divide_one st x).
Proof. rewrite !rinv_f_qinv_f. apply divide_one_qinv, above_none. Qed.

Lemma divide_rounds_rinv st : rinv_f st -> rinv_f (divide_rounds st).
Proof. rewrite !rinv_f_qinv_f. apply divide_rounds_qinv, above_none. Qed.

Lemma decide_fame_rinv st : rinv st -> rinv (decide_fame st).
Proof. rewrite !rinv_qinv. apply decide_fame_qinv. Qed.

Lemma process_round_spec s p stop pr :
  rinvA s -> lc_lt s (fst pr) ->
  rinvA (fst (fst (process_round (s, p, stop) pr))) /\
  pkeep s (fst (fst (process_round (s, p, stop) pr))) /\
  ((snd (fst (process_round (s, p, stop) pr)) = p /\
    last_consensus (fst (fst (process_round (s, p, stop) pr))) = last_consensus s /\
    (snd (process_round (s, p, stop) pr) = true \/ failed (fst (fst (process_round (s, p, stop) pr))) = true)) \/
   (snd (fst (process_round (s, p, stop) pr)) = p ++ [fst pr] /\ snd pr = true /\
    last_consensus (fst (fst (process_round (s, p, stop) pr))) = Some (fst pr))).
Proof.
  intros A Hlt. apply rinvA_qinvA in A. destruct (process_round (s, p, stop) pr) as [[s' p'] stop'] eqn:E.
  destruct (process_round_qspec _ _ _ s p stop pr s' p' stop' A Hlt E) as [A' R].
  split; [apply rinvA_qinvA, A'|exact R].
Qed.

(* the invariant of every reachable state: deliveries are sorted by round-received; the queue
   invariant holds unless a pass hit a store error (after which no pass runs any more) *)
Definition rtop (st : hg) : Prop :=
  StronglySorted Z.lt (map b_rr (delivered st)) /\ (failed st = false -> rinv st).

Lemma rtop_qtop st : rtop st <-> qtop None (-1) [] st.
Proof.
  unfold rtop, qtop. rewrite rinv_qinv. apply and_iff_compat_r. split.
  - intros S. exists (delivered st). split; [reflexivity|]. split; [exact S|]. intros d _. exact I.
  - intros [news [D [S _]]]. rewrite D. exact S.
Qed.

Lemma rinv_rtop st : rinv st -> rtop st.
Proof. rewrite rinv_qinv, rtop_qtop. apply qinv_qtop. Qed.

Lemma rtop_rstep st st' : rtop st -> rstep st st' -> failed st' = failed st -> rtop st'.
Proof. rewrite !rtop_qtop. apply qtop_rstep. Qed.

Lemma hstep_rtop st o : rtop st -> rtop (hstep st o).
Proof. rewrite !rtop_qtop. apply hstep_qtop, above_none. Qed.

Lemma rinv_init self_ genesis oracle_ : rinv (init_hg self_ genesis oracle_).
Proof.
  assert (E : rv (init_hg self_ genesis oracle_) = rv (empty_hg self_)).
  { unfold init_hg. destruct (set_peerset (empty_hg self_) 0 genesis) as [st|] eqn:S; [|reflexivity].
    exact (rv_set_peerset _ _ _ _ S). }
  eapply rinv_rstep; [|apply rstep_rv; exact E].
  split; constructor.
  - reflexivity.
  - cbn. lia.
  - intros q. unfold get_round, empty_hg. cbn. rewrite zget_empty. split; [congruence|lia].
  - intros x q. cbn. rewrite zget_empty. discriminate.
  - constructor.
  - intros q d [].
  - discriminate.
  - intros rr f. cbn. rewrite zget_empty. discriminate.
  - constructor.
  - intros d [].
  - intros q [].
  - intros q ri. unfold get_round, empty_hg. cbn. rewrite zget_empty. discriminate.
Qed.

Theorem hrun_rtop self_ genesis oracle_ ops : rtop (hrun (init_hg self_ genesis oracle_) ops).
Proof. apply rtop_qtop, (hrun_qtop _ _ _ above_none), rtop_qtop, rinv_rtop, rinv_init. Qed.

Lemma sorted_nth_lt l : StronglySorted Z.lt l -> forall k a b, nth_error l k = Some a -> nth_error l (S k) = Some b -> a < b.
Proof.
  induction 1 as [|x l S IH F]; intros k a b Ha Hb; [destruct k; discriminate|].
  destruct k as [|k]; cbn in Ha, Hb.
  - inversion Ha; subst. rewrite Forall_forall in F. apply F. destruct l; [discriminate|]. inversion Hb; subst. left; reflexivity.
  - eapply IH; eauto.
Qed.

(* round-received strictly increases along the sequence of commit callbacks *)
Theorem delivered_rr_increasing self_ genesis oracle_ ops k d d' :
  nth_error (delivered (hrun (init_hg self_ genesis oracle_) ops)) k = Some d ->
  nth_error (delivered (hrun (init_hg self_ genesis oracle_) ops)) (S k) = Some d' ->
  b_rr d < b_rr d'.
Proof.
  intros H H'. destruct (hrun_rtop self_ genesis oracle_ ops) as [S _].
  eapply (sorted_nth_lt _ S k); rewrite nth_error_map; [rewrite H|rewrite H']; reflexivity.
Qed.
