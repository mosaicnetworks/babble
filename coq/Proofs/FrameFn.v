(* What GetFrame computes, as pure functions of (i) the stored events, their rounds,
   witness flags and Lamport timestamps, (ii) the self-parent chains, (iii) the last consensus
   events of the frames of the lower rounds. *)
From Coq Require Import ZArith List Bool Lia Permutation.
From RecordUpdate Require Import RecordSet.
From V Require Import Model.ZMap Model.Quorum Model.Median Model.HgImpl Proofs.ZMapFacts Proofs.AdmissionProofs
  Proofs.OrderSort Proofs.OrderProofs Proofs.FirstDesc Proofs.CInvRun Proofs.NoFail.
From V Require Import Proofs.FirstDescD.
Import ListNotations RecordSetNotations.
Open Scope Z_scope.

Definition root_of (st : hg) (c h : Z) : list frameev :=
  match create_root st c h with Some l => l | None => [] end.

Definition roots1_fn (cre spf : Z -> Z) (rootf : Z -> Z -> list frameev)
    (sorted : list frameev) (roots : list (Z * list frameev)) : list (Z * list frameev) :=
  fold_left (fun roots fe =>
     let p := cre (fe_id fe) in
     match aget p roots with
     | Some _ => roots
     | None => roots_insert p (rootf p (spf (fe_id fe))) roots
     end) sorted roots.

Definition lce_head (lce : list (Z * Z)) (k : Z) : Z := match aget k lce with Some h => h | None => -1 end.

Definition roots2_fn (rootf : Z -> Z -> list frameev) (rep : list peer) (frs : list (Z * Z)) (lce : list (Z * Z))
    (rr : Z) (roots : list (Z * list frameev)) : list (Z * list frameev) :=
  fold_left (fun roots (p : peer) =>
     match aget (pid p) frs with
     | None => roots
     | Some fr =>
       if rr <? fr then roots
       else match aget (pkey p) roots with
            | Some _ => roots
            | None => roots_insert (pkey p) (rootf (pkey p) (lce_head lce (pkey p))) roots
            end
     end) rep roots.

Definition roots_fn cre spf rootf rep frs lce rr sorted :=
  roots2_fn rootf rep frs lce rr (roots1_fn cre spf rootf sorted []).

Definition ts_of (st : hg) (w : Z) : Z := match get_event st w with Some e => e_ts (ev_e e) | None => 0 end.

Lemma fold_none {A B} (f : option B -> A -> option B) (l : list A) :
  (forall a, f None a = None) -> fold_left f l None = None.
Proof. intros H. induction l as [|a l IH]; cbn [fold_left]; [reflexivity|]. rewrite H. exact IH. Qed.

Lemma roots1_opt st sorted : forall roots r,
  fold_left (fun (acc : option (list (Z * list frameev))) fe =>
     match acc with
     | None => None
     | Some roots =>
       let p := creator_of st (fe_id fe) in
       match aget p roots with
       | Some _ => Some roots
       | None => match create_root st p (sp_of st (fe_id fe)) with
                 | Some r => Some (roots_insert p r roots)
                 | None => None
                 end
       end
     end) sorted (Some roots) = Some r ->
  r = roots1_fn (creator_of st) (sp_of st) (root_of st) sorted roots.
Proof.
  induction sorted as [|fe l IH]; intros roots r; cbn [fold_left]; unfold roots1_fn; cbn [fold_left].
  - intros H; inversion H; reflexivity.
  - cbv zeta. destruct (aget (creator_of st (fe_id fe)) roots) eqn:Ea; [apply IH|].
    unfold root_of. destruct (create_root st (creator_of st (fe_id fe)) (sp_of st (fe_id fe))) as [r0|]; [apply IH|].
    rewrite fold_none; [discriminate|reflexivity].
Qed.

Lemma roots2_opt st rr (rep : list peer) : forall roots r,
  fold_left (fun (acc : option (list (Z * list frameev))) (p : peer) =>
     match acc with
     | None => None
     | Some roots =>
       match aget (pid p) (first_rounds st) with
       | None => Some roots
       | Some fr =>
         if rr <? fr then Some roots
         else match aget (pkey p) roots with
              | Some _ => Some roots
              | None =>
                let h := match aget (pkey p) (last_cons_ev st) with Some h => h | None => -1 end in
                match create_root st (pkey p) h with
                | Some r => Some (roots_insert (pkey p) r roots)
                | None => None
                end
              end
       end
     end) rep (Some roots) = Some r ->
  r = roots2_fn (root_of st) rep (first_rounds st) (last_cons_ev st) rr roots.
Proof.
  induction rep as [|p l IH]; intros roots r; cbn [fold_left]; unfold roots2_fn; cbn [fold_left].
  - intros H; inversion H; reflexivity.
  - destruct (aget (pid p) (first_rounds st)) as [fr|]; [|apply IH].
    destruct (rr <? fr); [apply IH|].
    destruct (aget (pkey p) roots); [apply IH|]. cbv zeta.
    unfold root_of, lce_head. destruct (create_root st (pkey p) _) as [r0|]; [apply IH|].
    rewrite fold_none; [discriminate|reflexivity].
Qed.

Lemma cfe_fold2 st xs : forall acc evs,
  fold_left (fun (acc : option (list frameev)) x =>
     match acc, create_frame_event st x with
     | Some l, Some fe => Some (l ++ [fe])
     | _, _ => None
     end) xs (Some acc) = Some evs ->
  exists news, evs = acc ++ news /\ Forall2 (fun x fe => create_frame_event st x = Some fe) xs news.
Proof.
  induction xs as [|x xs IH]; intros acc evs; cbn [fold_left].
  - intros H; inversion H; subst. exists []. rewrite app_nil_r. split; [reflexivity|constructor].
  - destruct (create_frame_event st x) as [fe|] eqn:Hc.
    + intros H. destruct (IH _ _ H) as [news [E F]]. exists (fe :: news).
      split; [rewrite E, <- app_assoc; reflexivity|constructor; assumption].
    + intros H. exfalso. clear - H. induction xs as [|y xs IHx]; cbn [fold_left] in H; [discriminate|auto].
Qed.

Lemma get_frame_new_spec st rr f s1 :
  zget rr (frames st) = None -> get_frame st rr = (Some f, s1) ->
  exists ri evs,
    get_round st rr = Some ri /\ s1 = st <| frames := zset rr f (frames st) |> /\
    f_round f = rr /\ get_peerset st rr = Some (f_peers f) /\ f_peersets f = peersets st /\
    f_events f = fe_sort st evs /\
    Forall2 (fun x fe => create_frame_event st x = Some fe) (ri_received ri) evs /\
    f_ts f = median (map (ts_of st) (famous_witnesses ri)) /\
    f_roots f = roots_fn (creator_of st) (sp_of st) (root_of st) (repertoire st) (first_rounds st)
                         (last_cons_ev st) rr (f_events f).
Proof.
  unfold get_frame. intros Hc. rewrite Hc.
  destruct (get_round st rr) as [ri|] eqn:Hr; [|discriminate].
  destruct (get_peerset st rr) as [ps|] eqn:Hp; [|discriminate].
  match goal with |- context [fold_left ?f (ri_received ri) ?a] => destruct (fold_left f (ri_received ri) a) as [evs|] eqn:Ef end;
    [|discriminate].
  match goal with |- context [fold_left ?f (fe_sort st evs) ?a] => destruct (fold_left f (fe_sort st evs) a) as [roots1|] eqn:E1 end.
  2:{ rewrite fold_none; [discriminate|reflexivity]. }
  match goal with |- context [fold_left ?f (repertoire st) ?a] => destruct (fold_left f (repertoire st) a) as [roots|] eqn:E2 end;
    [|discriminate].
  intros H. inversion H; subst; clear H. cbn [f_round f_peersets f_peers f_events f_ts f_roots].
  destruct (cfe_fold2 _ _ _ _ Ef) as [news [E F]]. cbn [app] in E. subst news.
  exists ri, evs. split; [reflexivity|]. split; [reflexivity|]. split; [reflexivity|]. split; [reflexivity|].
  split; [reflexivity|]. split; [reflexivity|]. split; [exact F|]. split; [reflexivity|].
  apply roots1_opt in E1. apply roots2_opt in E2. unfold roots_fn. rewrite <- E1. exact E2.
Qed.

Lemma Forall2_right {A B} (P : A -> B -> Prop) xs ys : Forall2 P xs ys -> forall y, In y ys -> exists x, In x xs /\ P x y.
Proof.
  induction 1 as [|x y xs ys Hp _ IH]; intros y0 Hy; [destruct Hy|].
  destruct Hy as [<-|Hy]; [exists x; split; [left; reflexivity|exact Hp]|].
  destruct (IH y0 Hy) as [x0 [Hx0 Hp0]]. exists x0. split; [right; exact Hx0|exact Hp0].
Qed.

Lemma get_frame_new_cfe st rr f s1 : zget rr (frames st) = None -> get_frame st rr = (Some f, s1) ->
  forall fe, In fe (f_events f) -> create_frame_event st (fe_id fe) = Some fe.
Proof.
  intros Hc H fe Hfe. destruct (get_frame_new_spec st rr f s1 Hc H) as [ri [evs [_ [_ [_ [_ [_ [Hev [F2 _]]]]]]]]].
  rewrite Hev in Hfe. apply (Permutation_in _ (fe_sort_perm st evs)) in Hfe.
  destruct (Forall2_right _ _ _ F2 fe Hfe) as [x [_ Hx]]. destruct (create_frame_event_spec _ _ _ Hx) as [Hid _].
  rewrite Hid. exact Hx.
Qed.

Definition fe_of (st : hg) (x : Z) : frameev :=
  match create_frame_event st x with Some fe => fe | None => mkFE x 0 0 false end.

Fixpoint sp_chain (st : hg) (h : Z) (n : nat) : list Z :=
  match n with
  | O => []
  | S m => let p := sp_of st h in if p =? -1 then [] else p :: sp_chain st p m
  end.

Definition root_fn (st : hg) (h : Z) : list frameev :=
  if h =? -1 then [] else rev (map (fe_of st) (h :: sp_chain st h ROOT_DEPTH)).

Lemma stored_nonneg st x ex : get_event st x = Some ex -> 0 <= x.
Proof. unfold get_event. apply zget_some_nonneg. Qed.

Lemma participant_event_listed st x ex : dag_ok st -> get_event st x = Some ex ->
  participant_event st (e_creator (ev_e ex)) (e_index (ev_e ex)) = Some x.
Proof.
  intros OK Hx. destruct (d_listed st OK x ex Hx) as [p [Hp [H0 Hn]]].
  destruct (d_chain st OK _ _ Hp) as [Hl _].
  unfold participant_event. rewrite Hp. unfold pidx_get_item.
  assert (Hlen : (Z.to_nat (e_index (ev_e ex)) < length (pi_items p))%nat) by (apply nth_error_Some; rewrite Hn; discriminate).
  replace (pi_last p - Z.of_nat (length (pi_items p)) + 1) with 0 by lia.
  replace (e_index (ev_e ex) <? 0) with false by lia. rewrite Z.sub_0_r.
  replace (Z.of_nat (length (pi_items p)) <=? e_index (ev_e ex)) with false by lia. exact Hn.
Qed.

(* what create_frame_event and create_root need of the state *)
Record freadyD (P : Z -> peerset) (st : hg) : Prop := {
  frd_dag : dag_ok st;
  frd_c : cinvD P None st;
  frd_lt : forall x ex, get_event st x = Some ex -> zget x (lt_memo st) <> None
}.

Lemma fready_D g st : fready g st -> freadyD (fun _ => g) st.
Proof. intros [OK I L _ _]. constructor; [exact OK|exact (cinv_cinvD _ _ _ I)|exact L]. Qed.

Lemma create_frame_event_someD P st x : freadyD P st -> get_event st x <> None -> create_frame_event st x <> None.
Proof.
  intros [OK I Hlt] Hx. unfold create_frame_event.
  destruct (get_event st x) as [ev|] eqn:Hev; [|contradiction].
  destruct (cd_all _ _ _ I x ev Hev ltac:(discriminate)) as [r [w [Hr [Hw _]]]].
  unfold rmemo in Hr. rewrite Hr.
  pose proof (cd_tabc _ _ _ I x r w Hr Hw) as Hin. unfold wl in Hin.
  destruct (get_round st r) as [ri|]; [|destruct Hin].
  assert (Hk : aget x (ri_created ri) <> None).
  { apply aget_in_keys. unfold wl_of in Hin. apply in_map_iff in Hin. destruct Hin as [[x' wf] [E Hin]].
    injection E as -> _. apply (in_map fst) in Hin. exact Hin. }
  destruct (aget x (ri_created ri)) as [[w' t]|]; [|contradiction].
  pose proof (Hlt x ev Hev) as Hl. destruct (zget x (lt_memo st)); [discriminate|contradiction].
Qed.

Lemma root_below_chainD P st : freadyD P st -> forall n h he, get_event st h = Some he ->
  root_below st (e_creator (ev_e he)) (e_index (ev_e he)) n = Some (map (fe_of st) (sp_chain st h n)).
Proof.
  intros Fr. pose proof (frd_dag _ _ Fr) as OK.
  induction n as [|n IH]; intros h he Hh; cbn [root_below sp_chain]; [reflexivity|].
  unfold sp_of at 1. rewrite Hh.
  destruct (d_sp st OK h he Hh) as [[Hs Hi]|[ps [Hps [Hc Hi]]]].
  - rewrite Hs, Hi. reflexivity.
  - pose proof (stored_nonneg _ _ _ Hps) as Hnn.
    destruct (d_listed st OK _ _ Hps) as [_ [_ [H0 _]]].
    replace (e_index (ev_e he) - 1) with (e_index (ev_e ps)) by lia.
    replace (e_index (ev_e ps) <? 0) with false by lia.
    rewrite <- Hc. rewrite (participant_event_listed st _ ps OK Hps).
    replace (e_sp (ev_e he) =? -1) with false by lia.
    pose proof (create_frame_event_someD P st _ Fr ltac:(rewrite Hps; discriminate)) as Hsome.
    unfold sp_of. rewrite Hh. cbn [map]. unfold fe_of at 1.
    destruct (create_frame_event st (e_sp (ev_e he))) as [fe|]; [|contradiction].
    rewrite (IH _ ps Hps). reflexivity.
Qed.

Lemma create_root_fnD P st c h : freadyD P st ->
  (h = -1 \/ exists he, get_event st h = Some he /\ e_creator (ev_e he) = c) ->
  create_root st c h = Some (root_fn st h).
Proof.
  intros Fr Hh. unfold create_root, root_fn. destruct (Z.eqb_spec h (-1)) as [->|Hne]; [reflexivity|].
  destruct Hh as [?|[he [Hhe Hc]]]; [contradiction|].
  pose proof (create_frame_event_someD P st h Fr ltac:(rewrite Hhe; discriminate)) as Hsome.
  unfold fe_of at 1. cbn [map]. destruct (create_frame_event st h) as [hfe|]; [|contradiction].
  rewrite Hhe. rewrite <- Hc. rewrite (root_below_chainD P st Fr ROOT_DEPTH h he Hhe). unfold fe_of at 1.
  reflexivity.
Qed.

Lemma roots1_fn_ext cre cre' spf spf' rootf rootf' sorted :
  (forall fe, In fe sorted -> cre (fe_id fe) = cre' (fe_id fe) /\
     rootf (cre (fe_id fe)) (spf (fe_id fe)) = rootf' (cre' (fe_id fe)) (spf' (fe_id fe))) ->
  forall roots, roots1_fn cre spf rootf sorted roots = roots1_fn cre' spf' rootf' sorted roots.
Proof.
  unfold roots1_fn. induction sorted as [|fe l IH]; intros H roots; cbn [fold_left]; [reflexivity|].
  destruct (H fe (or_introl eq_refl)) as [E1 E2]. cbv zeta. rewrite <- E2, <- E1.
  apply IH. intros fe' Hfe'. apply H. right. exact Hfe'.
Qed.

Lemma roots2_fn_ext rootf rootf' (rep : list peer) frs lce lce' rr :
  (forall p, In p rep -> rootf (pkey p) (lce_head lce (pkey p)) = rootf' (pkey p) (lce_head lce' (pkey p))) ->
  forall roots, roots2_fn rootf rep frs lce rr roots = roots2_fn rootf' rep frs lce' rr roots.
Proof.
  unfold roots2_fn. induction rep as [|p l IH]; intros H roots; cbn [fold_left]; [reflexivity|].
  rewrite <- (H p (or_introl eq_refl)). apply IH. intros p' Hp'. apply H. right. exact Hp'.
Qed.

Definition lce_add (cre : Z -> Z) (acc : list (Z * Z)) (f : frame) : list (Z * Z) :=
  fold_left (fun a fe => aset (cre (fe_id fe)) (fe_id fe) a) (f_events f) acc.
Definition lce_step (cre : Z -> Z) (frs : zmap frame) (acc : list (Z * Z)) (R : Z) : list (Z * Z) :=
  match zget R frs with Some f => lce_add cre acc f | None => acc end.
Definition lce_fn (cre : Z -> Z) (frs : zmap frame) (n : nat) : list (Z * Z) :=
  fold_left (lce_step cre frs) (zseq 0 n) [].

Lemma zseq_snoc n : forall lo, zseq lo (S n) = zseq lo n ++ [lo + Z.of_nat n].
Proof.
  induction n as [|n IH]; intros lo; [cbn; rewrite Z.add_0_r; reflexivity|].
  change (zseq lo (S (S n))) with (lo :: zseq (lo + 1) (S n)). rewrite IH. cbn [zseq app].
  replace (lo + 1 + Z.of_nat n) with (lo + Z.of_nat (S n)) by lia. reflexivity.
Qed.

Lemma lce_fn_S cre frs n : lce_fn cre frs (S n) = lce_step cre frs (lce_fn cre frs n) (Z.of_nat n).
Proof. unfold lce_fn. rewrite zseq_snoc, fold_left_app. cbn [fold_left]. rewrite Z.add_0_l. reflexivity. Qed.

Lemma lce_add_ids cre f : forall acc,
  lce_add cre acc f = fold_left (fun a x => aset (cre x) x a) (map fe_id (f_events f)) acc.
Proof. unfold lce_add. induction (f_events f) as [|fe l IH]; intros acc; cbn [map fold_left]; [reflexivity|apply IH]. Qed.

(* the function looks at the frames below n only: at the identifiers of their events and at the creators of those *)
Lemma lce_fn_ext_ids cre cre' frs frs' n :
  (forall R, 0 <= R < Z.of_nat n ->
     option_map (fun f => map fe_id (f_events f)) (zget R frs) = option_map (fun f => map fe_id (f_events f)) (zget R frs')) ->
  (forall R f fe, 0 <= R < Z.of_nat n -> zget R frs = Some f -> In fe (f_events f) -> cre (fe_id fe) = cre' (fe_id fe)) ->
  lce_fn cre frs n = lce_fn cre' frs' n.
Proof.
  induction n as [|n IH]; intros H1 H2; [reflexivity|]. rewrite !lce_fn_S.
  assert (Hn : forall R, 0 <= R < Z.of_nat n -> 0 <= R < Z.of_nat (S n)) by (clear; lia).
  assert (Hn' : 0 <= Z.of_nat n < Z.of_nat (S n)) by (clear; lia).
  rewrite IH; [|intros R HR; apply H1, Hn, HR|intros R f fe HR; apply H2, Hn, HR].
  unfold lce_step. pose proof (H1 _ Hn') as E1.
  destruct (zget (Z.of_nat n) frs) as [f|] eqn:E; destruct (zget (Z.of_nat n) frs') as [f'|]; try discriminate E1; [|reflexivity].
  injection E1 as Ev. rewrite !lce_add_ids, <- Ev. pose proof (fun fe => H2 _ f fe Hn' E) as Hc.
  revert Hc. generalize (lce_fn cre' frs' n) as acc. generalize (f_events f) as l.
  induction l as [|fe l IHl]; intros acc Hc; cbn [map fold_left]; [reflexivity|].
  rewrite (Hc fe (or_introl eq_refl)). apply IHl. intros fe' Hfe'. apply Hc. right. exact Hfe'.
Qed.

Lemma lce_fn_ext cre cre' frs frs' n :
  (forall R, 0 <= R < Z.of_nat n -> zget R frs = zget R frs') ->
  (forall R f fe, 0 <= R < Z.of_nat n -> zget R frs = Some f -> In fe (f_events f) -> cre (fe_id fe) = cre' (fe_id fe)) ->
  lce_fn cre frs n = lce_fn cre' frs' n.
Proof. intros H1 H2. apply lce_fn_ext_ids; [|exact H2]. intros R HR. rewrite (H1 R HR). reflexivity. Qed.

Lemma lce_fn_beyond cre frs n m : (n <= m)%nat ->
  (forall R f, zget R frs = Some f -> R < Z.of_nat n) -> lce_fn cre frs m = lce_fn cre frs n.
Proof.
  intros Hle Hb. induction Hle as [|m Hle IH]; [reflexivity|]. rewrite lce_fn_S, IH. unfold lce_step.
  destruct (zget (Z.of_nat m) frs) as [f|] eqn:E; [|reflexivity]. specialize (Hb _ _ E). lia.
Qed.

Lemma lce_add_creator cre acc f c h :
  aget c (lce_add cre acc f) = Some h -> aget c acc = Some h \/ (cre h = c /\ In h (map fe_id (f_events f))).
Proof.
  unfold lce_add. generalize (f_events f) as l. intros l. revert acc.
  induction l as [|fe l IH]; intros acc; cbn [fold_left map]; [auto|].
  intros H. destruct (IH _ H) as [H0|[H1 H2]]; [|right; split; [exact H1|right; exact H2]].
  rewrite Ancestry.aget_aset in H0. destruct (Z.eqb_spec (cre (fe_id fe)) c) as [E|E]; [|left; exact H0].
  inversion H0; subst h. right. split; [exact E|left; reflexivity].
Qed.

Lemma lce_fn_creator cre frs n c h : aget c (lce_fn cre frs n) = Some h ->
  cre h = c /\ exists R f, 0 <= R < Z.of_nat n /\ zget R frs = Some f /\ In h (map fe_id (f_events f)).
Proof.
  induction n as [|n IH]; [discriminate|]. rewrite lce_fn_S. unfold lce_step.
  destruct (zget (Z.of_nat n) frs) as [f|] eqn:E.
  - intros H. destruct (lce_add_creator _ _ _ _ _ H) as [H0|[H1 H2]].
    + destruct (IH H0) as [A [R [f0 [HR B]]]]. split; [exact A|]. exists R, f0. split; [lia|exact B].
    + split; [exact H1|]. exists (Z.of_nat n), f. split; [lia|]. split; [exact E|exact H2].
  - intros H. destruct (IH H) as [A [R [f0 [HR B]]]]. split; [exact A|]. exists R, f0. split; [lia|exact B].
Qed.

Lemma add_consensus_events_lce_fn l : forall s,
  last_cons_ev (fold_left add_consensus_event l s) =
  fold_left (fun a fe => aset (creator_of s (fe_id fe)) (fe_id fe) a) l (last_cons_ev s).
Proof.
  induction l as [|fe l IH]; intros s; cbn [fold_left]; [reflexivity|]. rewrite IH.
  assert (E : last_cons_ev (add_consensus_event s fe) = aset (creator_of s (fe_id fe)) (fe_id fe) (last_cons_ev s))
    by reflexivity.
  rewrite E.
  assert (C : forall y, creator_of (add_consensus_event s fe) y = creator_of s y) by (intros y; reflexivity).
  clear E IH. generalize (aset (creator_of s (fe_id fe)) (fe_id fe) (last_cons_ev s)) as acc.
  induction l as [|fe' l IHl]; intros acc; cbn [fold_left]; [reflexivity|]. rewrite C. apply IHl.
Qed.

Lemma process_frame_lce_fn s f : last_cons_ev (process_frame s f) = lce_add (creator_of s) (last_cons_ev s) f.
Proof.
  unfold process_frame, lce_add. destruct (f_events f) as [|fe rest] eqn:E; [reflexivity|].
  cbv zeta. set (s1 := fold_left add_consensus_event (fe :: rest) s).
  pose proof (add_consensus_events_lce_fn (fe :: rest) s) as A. fold s1 in A.
  set (b := block_of_frame _ _ _).
  assert (K : forall s2, lcv s2 = lcv s1 -> last_cons_ev s2 = last_cons_ev s1).
  { intros s2 H. destruct (lcv_fields _ _ H) as [_ [H2 _]]. exact H2. }
  rewrite <- A.
  destruct (b_txs b), (b_itxs b); try reflexivity; (apply K; rewrite lcv_commit, lcv_store_set_block; reflexivity).
Qed.
