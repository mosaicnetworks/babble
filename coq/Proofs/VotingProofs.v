(* The virtual-voting loop (Model/Voting.v) and its reference semantics (Model/VotingRef.v): counting and tally lemmas,
   the quorum-intersection argument, the step equations of the reference vote, the view hypotheses [view_ok] and
   [same_history] for one fixed number of validators, and the soundness of their executable checkers.  The safety
   theorems are proved in Proofs/VotingProofsD.v. *)
From Coq Require Import ZArith List Bool Lia ZifyBool ZifyNat Permutation.
From V Require Import Model.ZMap Model.Quorum Model.Voting Model.VotingRef Proofs.QuorumProofs.
Import ListNotations.
Open Scope Z_scope.

Lemma aget_aset_eq {A} k (v : A) l : aget k (aset k v l) = Some v.
Proof.
  induction l as [|[k' v'] l IH]; cbn [aset aget].
  - rewrite Z.eqb_refl; reflexivity.
  - destruct (Z.eqb_spec k' k) as [E|E]; cbn [aget].
    + rewrite Z.eqb_refl; reflexivity.
    + destruct (Z.eqb_spec k' k); [contradiction|exact IH].
Qed.

Lemma aget_aset_neq {A} k k' (v : A) l : k <> k' -> aget k' (aset k v l) = aget k' l.
Proof.
  intros Hne. induction l as [|[k0 v0] l IH]; cbn [aset aget].
  - destruct (Z.eqb_spec k k'); [contradiction|reflexivity].
  - destruct (Z.eqb_spec k0 k) as [E|E]; cbn [aget].
    + subst k0. destruct (Z.eqb_spec k k'); [contradiction|reflexivity].
    + destruct (Z.eqb_spec k0 k'); [reflexivity|exact IH].
Qed.

Definition cnt (g : Z -> bool) (l : list Z) : Z := Z.of_nat (length (filter g l)).
(* number of members of l whose vote is v *)
Definition cntv (f : Z -> bool) (v : bool) (l : list Z) : Z := cnt (fun w => Bool.eqb (f w) v) l.

Lemma cnt_nonneg g l : 0 <= cnt g l.
Proof. unfold cnt; lia. Qed.

Lemma cnt_le_length g l : cnt g l <= Z.of_nat (length l).
Proof. unfold cnt. pose proof (filter_split g l). lia. Qed.

Lemma cnt_ext g h l : (forall w, In w l -> g w = h w) -> cnt g l = cnt h l.
Proof. intros H; unfold cnt. rewrite (filter_ext_in g h l H). reflexivity. Qed.

Lemma cnt_impl g h l : (forall w, In w l -> g w = true -> h w = true) -> cnt g l <= cnt h l.
Proof.
  unfold cnt. induction l as [|x l IH]; intros H; cbn [filter]; [lia|].
  assert (IH' : Z.of_nat (length (filter g l)) <= Z.of_nat (length (filter h l))).
  { apply IH. intros w Hw; apply H; right; exact Hw. }
  destruct (g x) eqn:Eg.
  - rewrite (H x (or_introl eq_refl) Eg). cbn [length]. lia.
  - destruct (h x); cbn [length]; lia.
Qed.

Lemma cnt_split g l : cnt g l + cnt (fun w => negb (g w)) l = Z.of_nat (length l).
Proof. unfold cnt. pose proof (filter_split g l). lia. Qed.

Lemma filter_perm (g : Z -> bool) l l' : Permutation l l' -> Permutation (filter g l) (filter g l').
Proof.
  induction 1 as [|x l l' Hp IH|x y l|l1 l2 l3 H1 IH1 H2 IH2]; cbn [filter].
  - constructor.
  - destruct (g x); [constructor|]; exact IH.
  - destruct (g x), (g y); try apply Permutation_refl. constructor.
  - eapply Permutation_trans; eassumption.
Qed.

Lemma cnt_perm g l l' : Permutation l l' -> cnt g l = cnt g l'.
Proof. intros H; unfold cnt; rewrite (Permutation_length (filter_perm g l l' H)); reflexivity. Qed.

Lemma cntv_true f l : cntv f true l = cnt f l.
Proof. unfold cntv. apply cnt_ext. intros w _. destruct (f w); reflexivity. Qed.

Lemma cntv_false f l : cntv f false l = cnt (fun w => negb (f w)) l.
Proof. unfold cntv. apply cnt_ext. intros w _. destruct (f w); reflexivity. Qed.

Lemma cntv_split f v l : cntv f v l + cntv f (negb v) l = Z.of_nat (length l).
Proof.
  destruct v; cbn [negb]; rewrite cntv_true, cntv_false; pose proof (cnt_split f l); lia.
Qed.

Lemma cntv_ext f g v l : (forall w, In w l -> f w = g w) -> cntv f v l = cntv g v l.
Proof. intros H; unfold cntv; apply cnt_ext. intros w Hw; rewrite (H w Hw); reflexivity. Qed.

Lemma cntv_perm f v l l' : Permutation l l' -> cntv f v l = cntv f v l'.
Proof. apply cnt_perm. Qed.

Lemma cntv_all f v l : (forall w, In w l -> f w = v) -> cntv f v l = Z.of_nat (length l).
Proof.
  intros H. unfold cntv, cnt.
  assert (E : filter (fun w => Bool.eqb (f w) v) l = l).
  { induction l as [|x l IH]; cbn [filter]; [reflexivity|].
    rewrite (H x (or_introl eq_refl)), eqb_reflx. f_equal. apply IH.
    intros w Hw; apply H; right; exact Hw. }
  rewrite E; reflexivity.
Qed.

Lemma tally_tallyf votes ssw : tally votes ssw = tallyf (vote_of votes) ssw.
Proof. reflexivity. Qed.

Lemma tallyf_cnt f l :
  tallyf f l = if cntv f false l <=? cntv f true l then (true, cntv f true l) else (false, cntv f false l).
Proof.
  pose proof (cntv_split f true l) as Hs. cbn [negb] in Hs.
  rewrite cntv_true in *. unfold tallyf. fold (cnt f l).
  replace (Z.of_nat (length l) - cnt f l) with (cntv f false l) by lia.
  destruct (cntv f false l <=? cnt f l); reflexivity.
Qed.

Lemma tallyf_ext f g l : (forall w, In w l -> f w = g w) -> tallyf f l = tallyf g l.
Proof. intros H. rewrite !tallyf_cnt. rewrite !(cntv_ext f g _ l H). reflexivity. Qed.

Lemma tallyf_perm f l l' : Permutation l l' -> tallyf f l = tallyf f l'.
Proof. intros H. rewrite !tallyf_cnt. rewrite !(cntv_perm f _ l l' H). reflexivity. Qed.

Lemma tallyf_snd f l : snd (tallyf f l) = cntv f (fst (tallyf f l)) l.
Proof. rewrite tallyf_cnt. destruct (cntv f false l <=? cntv f true l); reflexivity. Qed.

(* a strict majority determines the result (ties do not arise) *)
Lemma tallyf_major f l v : cntv f (negb v) l < cntv f v l -> tallyf f l = (v, cntv f v l).
Proof.
  intros H. rewrite tallyf_cnt. destruct v; cbn [negb] in H.
  - destruct (cntv f false l <=? cntv f true l) eqn:E; [reflexivity|lia].
  - destruct (cntv f false l <=? cntv f true l) eqn:E; [lia|reflexivity].
Qed.

Lemma tallyf_unanimous f l v :
  (forall w, In w l -> f w = v) -> 1 <= Z.of_nat (length l) -> tallyf f l = (v, Z.of_nat (length l)).
Proof.
  intros H Hl. pose proof (cntv_all f v l H) as Ha. pose proof (cntv_split f v l) as Hs.
  rewrite <- Ha. apply tallyf_major. lia.
Qed.

(* The quorum-intersection argument.  U: all witnesses of the previous round (at most n).
   A: at least s of them, all voting v as far as S knows them.  S: the at-least-s witnesses
   strongly seen by some y.  Then the v-voters form a strict majority of S. *)
Lemma majority_forced (U A S : list Z) (f : Z -> bool) (v : bool) (n s : Z) :
  NoDup U -> Z.of_nat (length U) <= n -> 3 * s > 2 * n ->
  NoDup A -> incl A U -> s <= Z.of_nat (length A) ->
  NoDup S -> incl S U -> s <= Z.of_nat (length S) ->
  (forall w, In w A -> In w S -> f w = v) ->
  cntv f (negb v) S < cntv f v S.
Proof.
  intros HU HUn Hs HA HAU HAs HS HSU HSs Hf.
  pose proof (inter_lower U S A HS HA HSU HAU) as Hi.
  assert (Hc : Z.of_nat (length (inter S A)) <= cntv f v S).
  { unfold inter, cntv. fold (cnt (fun x => mem_key x A) S). apply cnt_impl.
    intros w Hw Hm. apply mem_key_In in Hm. rewrite (Hf w Hm Hw). apply eqb_reflx. }
  pose proof (cntv_split f v S) as Hsp. lia.
Qed.

Definition ssw_step (P : vparams) (j y : Z) (acc : option (list Z)) (w : Z) : option (list Z) :=
  match acc, P.(vp_ss) j y w with
  | Some l, Some b => Some (if b then l ++ [w] else l)
  | _, _ => None
  end.

Lemma ssw_fold P j y prev acc :
  (forall w, In w prev -> vp_ss P j y w <> None) ->
  fold_left (ssw_step P j y) prev (Some acc) = Some (acc ++ filter (ssb P j y) prev).
Proof.
  revert acc. induction prev as [|w prev IH]; intros acc H; cbn [fold_left filter].
  - rewrite app_nil_r; reflexivity.
  - unfold ssw_step at 2. unfold ssb at 1.
    destruct (vp_ss P j y w) as [b|] eqn:E; [|exfalso; apply (H w (or_introl eq_refl) E)].
    rewrite IH by (intros w' Hw'; apply H; right; exact Hw').
    destruct b; [rewrite <- app_assoc|]; reflexivity.
Qed.

Lemma ss_witnesses_ok P j y prev :
  (forall w, In w prev -> vp_ss P j y w <> None) ->
  ss_witnesses P j y prev = Some (filter (ssb P j y) prev).
Proof. intros H. exact (ssw_fold P j y prev [] H). Qed.

Lemma In_zseq j lo m : In j (zseq lo m) <-> lo <= j < lo + Z.of_nat m.
Proof.
  revert lo; induction m as [|m IH]; intros lo; cbn [zseq In]; [lia|].
  rewrite IH. lia.
Qed.

Lemma In_zrange j lo hi : In j (zrange lo hi) <-> lo <= j <= hi.
Proof. unfold zrange. rewrite In_zseq. lia. Qed.

Lemma Vz_base P W r s y : Vz P W r s (r + 1) y = seesb P y.
Proof. unfold Vz. replace (r + 1 - r - 1) with 0 by lia. reflexivity. Qed.

Lemma Vz_step P W r s j y : r + 2 <= j ->
  Vz P W r s j y =
  (if 0 <? (j - r) mod 4 then fst (tallyf (Vz P W r s (j - 1)) (ssset P W j y))
   else if s <=? snd (tallyf (Vz P W r s (j - 1)) (ssset P W j y))
        then fst (tallyf (Vz P W r s (j - 1)) (ssset P W j y)) else vp_coin P y).
Proof.
  intros Hj. unfold Vz.
  replace (Z.to_nat (j - r - 1)) with (S (Z.to_nat (j - r - 2))) by lia.
  cbn [refvote].
  replace (r + 2 + Z.of_nat (Z.to_nat (j - r - 2))) with j by lia.
  replace (j - 1 - r - 1) with (j - r - 2) by lia.
  reflexivity.
Qed.

(* (P, W, J) is a well-formed view of the votes about a candidate witness of round r, with n
   validators.  [vo_prev] is slightly more general than "vp_prev P j = Some (W (j-1))": the
   previous round may be listed in any order. *)
Record view_ok (n r : Z) (P : vparams) (W : Z -> list Z) (J : Z) : Prop := {
  vo_n : 1 <= n;
  vo_J : r <= J;
  vo_nodup : forall j, r + 1 <= j <= J -> NoDup (W j);
  vo_len : forall j, r + 1 <= j <= J -> Z.of_nat (length (W j)) <= n;
  vo_distinct : forall j j' y, r + 1 <= j <= J -> r + 1 <= j' <= J ->
      In y (W j) -> In y (W j') -> j = j';
  vo_sm : forall j, r + 2 <= j <= J -> vp_sm P j = Some (sm n);
  vo_prev : forall j, r + 2 <= j <= J ->
      exists prev, vp_prev P j = Some prev /\ Permutation prev (W (j - 1));
  vo_ss : forall j y w, r + 2 <= j <= J -> In y (W j) -> In w (W (j - 1)) ->
      vp_ss P j y w <> None;
  vo_quorum : forall j y, r + 2 <= j <= J -> In y (W j) ->
      sm n <= Z.of_nat (length (ssset P W j y));
  vo_sees : forall y, r + 1 <= J -> In y (W (r + 1)) -> vp_sees P y <> None
}.

Lemma ssset_In P W j y w : In w (ssset P W j y) <-> In w (W (j - 1)) /\ ssb P j y w = true.
Proof. unfold ssset. apply filter_In. Qed.

Lemma ssset_incl P W j y : incl (ssset P W j y) (W (j - 1)).
Proof. intros w Hw. apply ssset_In in Hw. tauto. Qed.

Section Votes.
Variables (n r : Z) (P : vparams) (W : Z -> list Z) (J : Z).

Notation V := (Vz P W r (sm n)).

(* every recorded vote is the reference vote of a known witness *)
Definition votes_sound (votes : list (Z * bool)) : Prop :=
  forall y b, aget y votes = Some b -> exists j, r + 1 <= j <= J /\ In y (W j) /\ b = V j y.
(* all witnesses of rounds before j0 have their vote recorded *)
Definition votes_complete (votes : list (Z * bool)) (j0 : Z) : Prop :=
  forall j y, r + 1 <= j < j0 -> In y (W j) -> aget y votes = Some (V j y).
Definition votes_done (votes : list (Z * bool)) (j : Z) (done : list Z) : Prop :=
  forall y, In y done -> aget y votes = Some (V j y).

End Votes.

(* the instrumented loop is the loop *)
Lemma fame_loop_votes_fst Q rw r0 js votes :
  fame_loop Q rw r0 js votes = option_map snd (fame_loop_votes Q rw r0 js votes).
Proof.
  revert votes. induction js as [|j js IH]; intros votes; cbn [fame_loop fame_loop_votes].
  - reflexivity.
  - destruct (rw j) as [ws|]; [|reflexivity].
    destruct (fame_round_j Q r0 j ws votes) as [[votes' [v|]]|]; [reflexivity|apply IH|reflexivity].
Qed.

(* G j: all round-j witnesses of the history (at most one per validator).  Both views know
   sub-lists of G j; they read the same sees/coin bits for the witnesses they share, and a
   witness known to both strongly sees the same SET of witnesses of the previous round in
   both (these are ancestors of y, hence known to every view that knows y). *)
Record same_history (n r : Z) (P1 : vparams) (W1 : Z -> list Z) (J1 : Z)
       (P2 : vparams) (W2 : Z -> list Z) (J2 : Z) (G : Z -> list Z) : Prop := {
  sh_sees : forall y, In y (W1 (r + 1)) -> In y (W2 (r + 1)) -> vp_sees P1 y = vp_sees P2 y;
  sh_coin : forall j y, r + 2 <= j <= Z.min J1 J2 -> In y (W1 j) -> In y (W2 j) ->
      vp_coin P1 y = vp_coin P2 y;
  sh_G_nodup : forall j, r + 1 <= j <= Z.min J1 J2 -> NoDup (G j);
  sh_G_len : forall j, r + 1 <= j <= Z.min J1 J2 -> Z.of_nat (length (G j)) <= n;
  sh_W1 : forall j, r + 1 <= j <= Z.min J1 J2 -> incl (W1 j) (G j);
  sh_W2 : forall j, r + 1 <= j <= Z.min J1 J2 -> incl (W2 j) (G j);
  sh_ss : forall j y w, r + 2 <= j <= Z.min J1 J2 -> In y (W1 j) -> In y (W2 j) ->
      (In w (ssset P1 W1 j y) <-> In w (ssset P2 W2 j y))
}.

(* P' reads the same store as P, possibly listing previous rounds in another order *)
Record same_params_upto_order (r J : Z) (P P' : vparams) (W : Z -> list Z) : Prop := {
  spo_sees : forall y, vp_sees P' y = vp_sees P y;
  spo_ss : forall j y w, vp_ss P' j y w = vp_ss P j y w;
  spo_sm : forall j, vp_sm P' j = vp_sm P j;
  spo_coin : forall y, vp_coin P' y = vp_coin P y;
  spo_prev : forall j, r + 2 <= j <= J ->
      exists prev, vp_prev P' j = Some prev /\ Permutation prev (W (j - 1))
}.

(* [view_ok] from hypotheses in which the previous round is listed as [W (j - 1)] itself: the
   form [view_okb] checks *)
Lemma view_ok_intro n r P W J :
  1 <= n -> r <= J ->
  (forall j, r + 1 <= j <= J -> NoDup (W j) /\ Z.of_nat (length (W j)) <= n) ->
  (forall j j' y, r + 1 <= j <= J -> r + 1 <= j' <= J -> In y (W j) -> In y (W j') -> j = j') ->
  (forall j, r + 2 <= j <= J -> vp_sm P j = Some (sm n)) ->
  (forall j, r + 2 <= j <= J -> vp_prev P j = Some (W (j - 1))) ->
  (forall j y w, r + 2 <= j <= J -> In y (W j) -> In w (W (j - 1)) -> vp_ss P j y w <> None) ->
  (forall j y, r + 2 <= j <= J -> In y (W j) -> sm n <= Z.of_nat (length (ssset P W j y))) ->
  (forall y, In y (W (r + 1)) -> vp_sees P y <> None) ->
  view_ok n r P W J.
Proof.
  intros H1 H2 H3 H4 H5 H6 H7 H8 H9. constructor; auto.
  - intros j Hj; apply H3; exact Hj.
  - intros j Hj; apply H3; exact Hj.
  - intros j Hj. exists (W (j - 1)). split; [apply H6; exact Hj|apply Permutation_refl].
Qed.

Lemma zinb_In k l : zinb k l = true <-> In k l.
Proof.
  induction l as [|x t IH]; cbn [zinb In]; [split; [discriminate|tauto]|].
  rewrite orb_true_iff, IH, Z.eqb_eq. tauto.
Qed.

Lemma nodupb_NoDup l : nodupb l = true -> NoDup l.
Proof.
  induction l as [|x t IH]; cbn [nodupb]; intros H; [constructor|].
  apply andb_prop in H as [H1 H2]. constructor; [|apply IH; exact H2].
  intros Hin. apply zinb_In in Hin. rewrite Hin in H1. discriminate.
Qed.

Lemma disjointb_spec a b x : disjointb a b = true -> In x a -> In x b -> False.
Proof.
  unfold disjointb. rewrite forallb_forall. intros H Ha Hb.
  specialize (H x Ha). apply zinb_In in Hb. rewrite Hb in H. discriminate.
Qed.

Lemma is_some_neq {A} (o : option A) : is_some o = true -> o <> None.
Proof. destruct o; [discriminate|discriminate]. Qed.

Lemma view_okb_sound n r P W J : view_okb n r P W J = true -> view_ok n r P W J.
Proof.
  unfold view_okb. intros H.
  apply andb_prop in H as [H H6]. apply andb_prop in H as [H H5].
  apply andb_prop in H as [H H4]. apply andb_prop in H as [H H3].
  apply andb_prop in H as [H1 H2].
  rewrite forallb_forall in H3, H4, H5, H6.
  assert (H5' : forall j, r + 2 <= j <= J ->
    vp_sm P j = Some (sm n) /\ vp_prev P j = Some (W (j - 1)) /\
    forall y, In y (W j) -> (forall w, In w (W (j - 1)) -> vp_ss P j y w <> None) /\
                            sm n <= Z.of_nat (length (ssset P W j y))).
  { intros j Hj. specialize (H5 j ltac:(apply In_zrange; exact Hj)).
    apply andb_prop in H5 as [H5 H5c]. apply andb_prop in H5 as [H5a H5b].
    split; [|split].
    - destruct (vp_sm P j) as [x|]; [|discriminate]. apply Z.eqb_eq in H5a. rewrite H5a. reflexivity.
    - destruct (vp_prev P j) as [prev|]; [|discriminate].
      destruct (list_eq_dec Z.eq_dec prev (W (j - 1))) as [->|]; [reflexivity|discriminate].
    - intros y Hy. rewrite forallb_forall in H5c. specialize (H5c y Hy).
      apply andb_prop in H5c as [Ha Hb]. rewrite forallb_forall in Ha. split.
      + intros w Hw. apply is_some_neq. apply Ha; exact Hw.
      + apply Z.leb_le, Hb. }
  apply view_ok_intro.
  - apply Z.leb_le, H1.
  - apply Z.leb_le, H2.
  - intros j Hj. specialize (H3 j ltac:(apply In_zrange; exact Hj)).
    apply andb_prop in H3 as [H3 H3']. split; [apply nodupb_NoDup; exact H3|apply Z.leb_le, H3'].
  - intros j j' y Hj Hj' Hy Hy'.
    specialize (H4 j ltac:(apply In_zrange; exact Hj)). rewrite forallb_forall in H4.
    specialize (H4 j' ltac:(apply In_zrange; exact Hj')).
    apply orb_prop in H4 as [H4|H4]; [apply Z.eqb_eq, H4|].
    exfalso. exact (disjointb_spec _ _ y H4 Hy Hy').
  - intros j Hj. apply (H5' j Hj).
  - intros j Hj. apply (H5' j Hj).
  - intros j y w Hj Hy Hw. destruct (H5' j Hj) as [_ [_ H]]. apply (H y Hy); exact Hw.
  - intros j y Hj Hy. destruct (H5' j Hj) as [_ [_ H]]. apply (H y Hy).
  - intros y Hy. apply is_some_neq. apply H6; exact Hy.
Qed.

Lemma inclb_incl a b : inclb a b = true -> incl a b.
Proof.
  unfold inclb. rewrite forallb_forall. intros H x Hx. apply zinb_In. apply H; exact Hx.
Qed.

Lemma obool_eqb_eq a b : obool_eqb a b = true -> a = b.
Proof.
  destruct a as [x|], b as [y|]; cbn [obool_eqb]; intros H; try discriminate; [|reflexivity].
  apply eqb_prop in H. rewrite H. reflexivity.
Qed.

Lemma same_historyb_sound n r P1 W1 J1 P2 W2 J2 G :
  same_historyb n r P1 W1 J1 P2 W2 J2 G = true -> same_history n r P1 W1 J1 P2 W2 J2 G.
Proof.
  unfold same_historyb. intros H.
  apply andb_prop in H as [H H3]. apply andb_prop in H as [H1 H2].
  rewrite forallb_forall in H1, H2, H3.
  assert (H2' : forall j y, r + 2 <= j <= Z.min J1 J2 -> In y (W1 j) -> In y (W2 j) ->
     vp_coin P1 y = vp_coin P2 y /\ incl (ssset P1 W1 j y) (ssset P2 W2 j y) /\
     incl (ssset P2 W2 j y) (ssset P1 W1 j y)).
  { intros j y Hj Hy1 Hy2. specialize (H2 j ltac:(apply In_zrange; exact Hj)).
    rewrite forallb_forall in H2. specialize (H2 y Hy1).
    apply zinb_In in Hy2. rewrite Hy2 in H2. cbn [negb orb] in H2.
    apply andb_prop in H2 as [H2 Hc]. apply andb_prop in H2 as [Ha Hb].
    split; [apply eqb_prop; exact Ha|]. split; apply inclb_incl; assumption. }
  assert (H3' : forall j, r + 1 <= j <= Z.min J1 J2 ->
     NoDup (G j) /\ Z.of_nat (length (G j)) <= n /\ incl (W1 j) (G j) /\ incl (W2 j) (G j)).
  { intros j Hj. specialize (H3 j ltac:(apply In_zrange; exact Hj)).
    apply andb_prop in H3 as [H3 Hd]. apply andb_prop in H3 as [H3 Hc].
    apply andb_prop in H3 as [Ha Hb].
    split; [apply nodupb_NoDup; exact Ha|]. split; [apply Z.leb_le, Hb|]. split; apply inclb_incl; assumption. }
  constructor.
  - intros y Hy1 Hy2. specialize (H1 y Hy1). apply zinb_In in Hy2. rewrite Hy2 in H1.
    apply obool_eqb_eq. exact H1.
  - intros j y Hj Hy1 Hy2. apply (H2' j y Hj Hy1 Hy2).
  - intros j Hj. apply (H3' j Hj).
  - intros j Hj. apply (H3' j Hj).
  - intros j Hj. apply (H3' j Hj).
  - intros j Hj. apply (H3' j Hj).
  - intros j y w Hj Hy1 Hy2. destruct (H2' j y Hj Hy1 Hy2) as [_ [Ha Hb]].
    split; [apply Ha|apply Hb].
Qed.
