(* Non-interference of the block bookkeeping (C11, also used to relate ProcessSigPool schedules):
   the components [blocks], [anchor], [sigpool], [last_block], [delivered], [self_sigs] of the
   HgImpl state never influence any other component.  [wb st x] overwrites those six components;
   every function of the per-event pipeline commutes with [wb] up to a new overwrite.
   Consequences: two nodes that insert the same events but call ProcessSigPool at different moments
   (or whose block store was disturbed) agree on everything else; if moreover the last block index,
   the delivered list and the own signatures agree ([fine]) they keep agreeing on those. *)
From Coq Require Import ZArith List Bool Lia.
From RecordUpdate Require Import RecordSet.
From V Require Import Model.ZMap Model.Quorum Model.Voting Model.HgImpl Model.PeerSetSpec Model.Recovery Proofs.ZMapFacts Proofs.HgFrames
  Proofs.AdmissionProofs Proofs.HgBlockFrames Proofs.BlockInv.
Import ListNotations RecordSetNotations.
Open Scope Z_scope.

Record ign := mkIgn {
  i_blocks : zmap block; i_anchor : option Z; i_sigpool : list bsig;
  i_lb : Z; i_del : list block; i_ss : list bsig }.

Definition wb (st : hg) (x : ign) : hg :=
  st <| blocks := i_blocks x |> <| anchor := i_anchor x |> <| sigpool := i_sigpool x |>
     <| last_block := i_lb x |> <| delivered := i_del x |> <| self_sigs := i_ss x |>.

Definition ign_of (st : hg) : ign :=
  mkIgn (blocks st) (anchor st) (sigpool st) (last_block st) (delivered st) (self_sigs st).

Lemma wb_ign_of st : wb st (ign_of st) = st.
Proof. destruct st; reflexivity. Qed.
Lemma wb_wb st x y : wb (wb st x) y = wb st y.
Proof. lazy. reflexivity. Qed.
Lemma ign_of_wb st x : ign_of (wb st x) = x.
Proof. destruct x; reflexivity. Qed.

Lemma pevents_wb st x : pevents (wb st x) = pevents st.
Proof. reflexivity. Qed.
Lemma rounds_wb st x : rounds (wb st x) = rounds st.
Proof. reflexivity. Qed.
Lemma last_round_wb st x : last_round (wb st x) = last_round st.
Proof. reflexivity. Qed.
Lemma peersets_wb st x : peersets (wb st x) = peersets st.
Proof. reflexivity. Qed.
Lemma repertoire_wb st x : repertoire (wb st x) = repertoire st.
Proof. reflexivity. Qed.
Lemma first_rounds_wb st x : first_rounds (wb st x) = first_rounds st.
Proof. reflexivity. Qed.
Lemma undetermined_wb st x : undetermined (wb st x) = undetermined st.
Proof. reflexivity. Qed.
Lemma pending_wb st x : pending (wb st x) = pending st.
Proof. reflexivity. Qed.
Lemma last_consensus_wb st x : last_consensus (wb st x) = last_consensus st.
Proof. reflexivity. Qed.
Lemma lower_bound_wb st x : lower_bound (wb st x) = lower_bound st.
Proof. reflexivity. Qed.
Lemma round_memo_wb st x : round_memo (wb st x) = round_memo st.
Proof. reflexivity. Qed.
Lemma witness_memo_wb st x : witness_memo (wb st x) = witness_memo st.
Proof. reflexivity. Qed.
Lemma lt_memo_wb st x : lt_memo (wb st x) = lt_memo st.
Proof. reflexivity. Qed.
Lemma frames_wb st x : frames (wb st x) = frames st.
Proof. reflexivity. Qed.
Lemma last_cons_ev_wb st x : last_cons_ev (wb st x) = last_cons_ev st.
Proof. reflexivity. Qed.
Lemma cons_count_wb st x : cons_count (wb st x) = cons_count st.
Proof. reflexivity. Qed.
Lemma topo_wb st x : topo (wb st x) = topo st.
Proof. reflexivity. Qed.
Lemma pending_loaded_wb st x : pending_loaded (wb st x) = pending_loaded st.
Proof. reflexivity. Qed.
Lemma sigpool_wb st x : sigpool (wb st x) = i_sigpool x.
Proof. reflexivity. Qed.
Lemma anchor_wb st x : anchor (wb st x) = i_anchor x.
Proof. reflexivity. Qed.
Lemma self_wb st x : self (wb st x) = self st.
Proof. reflexivity. Qed.
Lemma validators_wb st x : validators (wb st x) = validators st.
Proof. reflexivity. Qed.
Lemma oracle_wb st x : oracle (wb st x) = oracle st.
Proof. reflexivity. Qed.
Lemma failed_wb st x : failed (wb st x) = failed st.
Proof. reflexivity. Qed.

(* [lazy] first: both sides are stacks of updates, which [reflexivity] alone unifies slowly *)
Lemma set_pevents_wb st x v : (wb st x) <| pevents := v |> = wb (st <| pevents := v |>) x.
Proof. lazy. reflexivity. Qed.
Lemma set_rounds_wb st x v : (wb st x) <| rounds := v |> = wb (st <| rounds := v |>) x.
Proof. lazy. reflexivity. Qed.
Lemma set_peersets_wb st x v : (wb st x) <| peersets := v |> = wb (st <| peersets := v |>) x.
Proof. lazy. reflexivity. Qed.
Lemma set_repertoire_wb st x v : (wb st x) <| repertoire := v |> = wb (st <| repertoire := v |>) x.
Proof. lazy. reflexivity. Qed.
Lemma set_first_rounds_wb st x v : (wb st x) <| first_rounds := v |> = wb (st <| first_rounds := v |>) x.
Proof. lazy. reflexivity. Qed.
Lemma set_undetermined_wb st x v : (wb st x) <| undetermined := v |> = wb (st <| undetermined := v |>) x.
Proof. lazy. reflexivity. Qed.
Lemma set_pending_wb st x v : (wb st x) <| pending := v |> = wb (st <| pending := v |>) x.
Proof. lazy. reflexivity. Qed.
Lemma set_last_consensus_wb st x v : (wb st x) <| last_consensus := v |> = wb (st <| last_consensus := v |>) x.
Proof. lazy. reflexivity. Qed.
Lemma set_round_memo_wb st x v : (wb st x) <| round_memo := v |> = wb (st <| round_memo := v |>) x.
Proof. lazy. reflexivity. Qed.
Lemma set_witness_memo_wb st x v : (wb st x) <| witness_memo := v |> = wb (st <| witness_memo := v |>) x.
Proof. lazy. reflexivity. Qed.
Lemma set_lt_memo_wb st x v : (wb st x) <| lt_memo := v |> = wb (st <| lt_memo := v |>) x.
Proof. lazy. reflexivity. Qed.
Lemma set_frames_wb st x v : (wb st x) <| frames := v |> = wb (st <| frames := v |>) x.
Proof. lazy. reflexivity. Qed.
Lemma set_last_cons_ev_wb st x v : (wb st x) <| last_cons_ev := v |> = wb (st <| last_cons_ev := v |>) x.
Proof. lazy. reflexivity. Qed.
Lemma set_cons_count_wb st x v : (wb st x) <| cons_count := v |> = wb (st <| cons_count := v |>) x.
Proof. lazy. reflexivity. Qed.
Lemma set_topo_wb st x v : (wb st x) <| topo := v |> = wb (st <| topo := v |>) x.
Proof. lazy. reflexivity. Qed.
Lemma set_pending_loaded_wb st x v : (wb st x) <| pending_loaded := v |> = wb (st <| pending_loaded := v |>) x.
Proof. lazy. reflexivity. Qed.
Lemma set_validators_wb st x v : (wb st x) <| validators := v |> = wb (st <| validators := v |>) x.
Proof. lazy. reflexivity. Qed.
Lemma set_oracle_wb st x v : (wb st x) <| oracle := v |> = wb (st <| oracle := v |>) x.
Proof. lazy. reflexivity. Qed.

Lemma get_event_wb st x y : get_event (wb st x) y = get_event st y.
Proof. reflexivity. Qed.
Lemma get_round_wb st x r : get_round (wb st x) r = get_round st r.
Proof. reflexivity. Qed.
Lemma get_peerset_wb st x r : get_peerset (wb st x) r = get_peerset st r.
Proof. reflexivity. Qed.
Lemma fuel_of_wb st x : fuel_of (wb st x) = fuel_of st.
Proof. reflexivity. Qed.
Lemma participant_event_wb st x c i : participant_event (wb st x) c i = participant_event st c i.
Proof. reflexivity. Qed.
Lemma ancestor_wb st x a b : ancestor (wb st x) a b = ancestor st a b.
Proof. reflexivity. Qed.
Lemma creator_of_wb st x y : creator_of (wb st x) y = creator_of st y.
Proof. reflexivity. Qed.
Lemma sp_of_wb st x y : sp_of (wb st x) y = sp_of st y.
Proof. reflexivity. Qed.
Lemma coin_of_wb st x y : coin_of (wb st x) y = coin_of st y.
Proof. reflexivity. Qed.
Lemma queued_wb st x r : queued (wb st x) r = queued st r.
Proof. reflexivity. Qed.
Lemma round_or_new_wb st x r : round_or_new (wb st x) r = round_or_new st r.
Proof. reflexivity. Qed.
Lemma check_self_parent_wb st x e : check_self_parent (wb st x) e = check_self_parent st e.
Proof. reflexivity. Qed.
Lemma check_other_parent_wb st x e : check_other_parent (wb st x) e = check_other_parent st e.
Proof. reflexivity. Qed.
Lemma init_coords_wb st x e : init_coords (wb st x) e = init_coords st e.
Proof. reflexivity. Qed.
Lemma known_events_wb st x : known_events (wb st x) = known_events st.
Proof. reflexivity. Qed.
Lemma create_frame_event_wb st x y : create_frame_event (wb st x) y = create_frame_event st y.
Proof. reflexivity. Qed.
Lemma round_witnesses_wb st x j : round_witnesses (wb st x) j = round_witnesses st j.
Proof. reflexivity. Qed.
Lemma root_below_wb st x c n : forall i, root_below (wb st x) c i n = root_below st c i n.
Proof.
  induction n as [|m IH]; intros i; cbn [root_below]; [reflexivity|].
  rewrite participant_event_wb. destruct (i - 1 <? 0); [reflexivity|].
  destruct (participant_event st c (i - 1)); [|reflexivity].
  rewrite create_frame_event_wb, IH. reflexivity.
Qed.
Lemma create_root_wb st x c h : create_root (wb st x) c h = create_root st c h.
Proof.
  unfold create_root. rewrite create_frame_event_wb, get_event_wb.
  destruct (h =? -1); [reflexivity|]. destruct (create_frame_event st h); [|reflexivity].
  destruct (get_event st h); [|reflexivity]. rewrite root_below_wb. reflexivity.
Qed.
Lemma fe_less_wb st x a b : fe_less (wb st x) a b = fe_less st a b.
Proof. reflexivity. Qed.
Lemma fe_insert_wb st x a l : fe_insert (wb st x) a l = fe_insert st a l.
Proof. induction l as [|y r IH]; cbn [fe_insert]; [reflexivity|]. rewrite fe_less_wb, IH. reflexivity. Qed.
Lemma fe_sort_wb st x l : fe_sort (wb st x) l = fe_sort st l.
Proof. induction l as [|y r IH]; cbn [fe_sort fold_right]; [reflexivity|]. unfold fe_sort in IH. rewrite IH, fe_insert_wb. reflexivity. Qed.
Lemma block_of_frame_wb i f st x : block_of_frame i f (wb st x) = block_of_frame i f st.
Proof. reflexivity. Qed.

Lemma set_evst_wb st x y e : set_evst (wb st x) y e = wb (set_evst st y e) x.
Proof. lazy. reflexivity. Qed.
Lemma set_round_wb st x r ri : set_round (wb st x) r ri = wb (set_round st r ri) x.
Proof. lazy. reflexivity. Qed.
Lemma fail_wb st x : fail (wb st x) = wb (fail st) x.
Proof. lazy. reflexivity. Qed.
Lemma set_event_round_wb st x y r : set_event_round (wb st x) y r = wb (set_event_round st y r) x.
Proof. unfold set_event_round. rewrite get_event_wb. destruct (get_event st y); [apply set_evst_wb|reflexivity]. Qed.
Lemma set_event_lt_wb st x y r : set_event_lt (wb st x) y r = wb (set_event_lt st y r) x.
Proof. unfold set_event_lt. rewrite get_event_wb. destruct (get_event st y); [apply set_evst_wb|reflexivity]. Qed.
Lemma maybe_queue_wb st x r ri : maybe_queue (wb st x) r ri = wb (maybe_queue st r ri) x.
Proof.
  unfold maybe_queue. rewrite queued_wb, lower_bound_wb, pending_wb.
  destruct (_ && _ && _); [apply set_pending_wb|reflexivity].
Qed.

(* a closure folded over may read the state at single points *)
Lemma fold_left_ext {A B} (f g : A -> B -> A) (l : list B) :
  (forall a b, f a b = g a b) -> forall a, fold_left f l a = fold_left g l a.
Proof. intros H. induction l as [|b r IH]; intros a; cbn [fold_left]; [reflexivity|]. rewrite H. apply IH. Qed.

Definition wb2 {A} (p : A * hg) (x : ign) : A * hg := (fst p, wb (snd p) x).

Lemma if_wb2 {A} (c : bool) (v : A) st x (p q : A * hg) :
  q = wb2 p x -> (if c then (v, wb st x) else q) = wb2 (if c then (v, st) else p) x.
Proof. intros ->. destruct c; reflexivity. Qed.

(* a match on an optional result whose two continuations commute with the overwrite ([w] is [wb], [wb2] or [wbf]) *)
Lemma bind_wb {A C} (w : C -> ign -> C) (k : A -> hg -> C) (n : hg -> C) x p :
  (forall s, n (wb s x) = w (n s) x) -> (forall v s, k v (wb s x) = w (k v s) x) ->
  (let (o, s) := wb2 p x in match o with Some v => k v s | None => n s end) =
  w (let (o, s) := p in match o with Some v => k v s | None => n s end) x.
Proof. intros Hn Hk. destruct p as [[v|] s]; [apply Hk|apply Hn]. Qed.

Lemma bind_wb2 {A B} (k : A -> hg -> option B * hg) x p :
  (forall v s, k v (wb s x) = wb2 (k v s) x) ->
  (let (o, s) := wb2 p x in match o with Some v => k v s | None => (None, s) end) =
  wb2 (let (o, s) := p in match o with Some v => k v s | None => (None, s) end) x.
Proof. apply (bind_wb wb2 k (fun s => (None, s))). reflexivity. Qed.

Lemma round_f_wb fuel : forall st x y, round_f fuel (wb st x) y = wb2 (round_f fuel st y) x.
Proof.
  induction fuel as [|f IH]; intros st x y; cbn [round_f]; rewrite round_memo_wb.
  - destruct (zget y (round_memo st)); reflexivity.
  - destruct (zget y (round_memo st)); [reflexivity|].
    rewrite get_event_wb. destruct (get_event st y) as [ex|]; [|reflexivity].
    rewrite (if_wb2 _ _ _ _ _ _ (IH st x _)).
    apply bind_wb2. intros spr st1.
    rewrite (if_wb2 _ _ _ _ _ _ (IH st1 x _)).
    apply bind_wb2. intros opr st2.
    destruct ((if spr <? opr then opr else spr) =? -1).
    + rewrite round_memo_wb, set_round_memo_wb. reflexivity.
    + rewrite get_round_wb, get_peerset_wb.
      destruct (get_round st2 _) as [pri|]; [|reflexivity].
      destruct (get_peerset st2 _) as [pps|]; [|reflexivity].
      change (strongly_see (wb st2 x)) with (strongly_see st2). destruct (fold_left _ _ _); [|reflexivity].
      rewrite round_memo_wb, set_round_memo_wb. reflexivity.
Qed.

Lemma witness_f_wb fuel st x y : witness_f fuel (wb st x) y = wb2 (witness_f fuel st y) x.
Proof.
  unfold witness_f. rewrite witness_memo_wb.
  destruct (zget y (witness_memo st)); [reflexivity|].
  rewrite get_event_wb. destruct (get_event st y) as [ex|]; [|reflexivity].
  rewrite round_f_wb. apply bind_wb2. intros xr st1.
  rewrite get_peerset_wb. destruct (get_peerset st1 xr) as [ps|]; [|reflexivity].
  cbv zeta. destruct (negb _).
  - rewrite witness_memo_wb, set_witness_memo_wb. reflexivity.
  - rewrite (if_wb2 _ _ _ _ _ _ (round_f_wb fuel st1 x _)). apply bind_wb2. intros spr st2.
    rewrite witness_memo_wb, set_witness_memo_wb. reflexivity.
Qed.

Lemma lamport_f_wb fuel : forall st x y, lamport_f fuel (wb st x) y = wb2 (lamport_f fuel st y) x.
Proof.
  induction fuel as [|f IH]; intros st x y; cbn [lamport_f]; rewrite lt_memo_wb.
  - destruct (zget y (lt_memo st)); reflexivity.
  - destruct (zget y (lt_memo st)); [reflexivity|].
    rewrite get_event_wb. destruct (get_event st y) as [ex|]; [|reflexivity].
    rewrite (if_wb2 _ _ _ _ _ _ (IH st x _)). apply bind_wb2. intros plt st1.
    rewrite get_event_wb. erewrite if_wb2.
    + apply bind_wb2. intros m st2. rewrite lt_memo_wb, set_lt_memo_wb. reflexivity.
    + destruct (get_event st1 _); [|reflexivity]. rewrite IH. apply bind_wb2. reflexivity.
Qed.

Lemma fd_walk_wb fuel : forall st x c index y ah, fd_walk fuel (wb st x) c index y ah = wb (fd_walk fuel st c index y ah) x.
Proof.
  induction fuel as [|f IH]; intros st x c index y ah; cbn [fd_walk]; [reflexivity|].
  rewrite get_event_wb. destruct (get_event st ah) as [a|]; [|reflexivity].
  destruct (aget c (ev_fd a)); [reflexivity|].
  cbv zeta. rewrite set_evst_wb, fuel_of_wb, witness_f_wb.
  destruct (witness_f _ _ ah) as [[[|]|] st2]; unfold wb2; cbn [fst snd]; [reflexivity|apply IH|apply IH].
Qed.

Lemma fold_wb {A} (f : hg -> A -> hg) (l : list A) :
  (forall s x a, f (wb s x) a = wb (f s a) x) -> forall st x, fold_left f l (wb st x) = wb (fold_left f l st) x.
Proof.
  intros Hf. induction l as [|a r IH]; intros st x; cbn [fold_left]; [reflexivity|]. rewrite Hf. apply IH.
Qed.

Lemma update_ancestor_fd_wb st x e la : update_ancestor_fd (wb st x) e la = wb (update_ancestor_fd st e la) x.
Proof. unfold update_ancestor_fd. apply fold_wb. intros s x' ce. rewrite fuel_of_wb. apply fd_walk_wb. Qed.

Lemma store_set_event_wb st x es :
  store_set_event (wb st x) es = option_map (fun s => wb s x) (store_set_event st es).
Proof.
  unfold store_set_event. rewrite get_event_wb. destruct (get_event st _).
  - cbn [option_map]. rewrite set_evst_wb. reflexivity.
  - rewrite pevents_wb. destruct (zget _ (pevents st)) as [p|]; [|reflexivity].
    destruct (pidx_set p _ _); [|reflexivity]. cbn [option_map].
    rewrite set_pevents_wb, set_evst_wb. reflexivity.
Qed.

Lemma divide_round_wb st x y : divide_round (wb st x) y = wb (divide_round st y) x.
Proof.
  unfold divide_round. rewrite fuel_of_wb, round_f_wb.
  apply (bind_wb wb); [intros; apply fail_wb|]. intros r s.
  cbv zeta. rewrite set_event_round_wb, round_or_new_wb, maybe_queue_wb, fuel_of_wb, witness_f_wb.
  apply (bind_wb wb); intros; [apply fail_wb|apply set_round_wb].
Qed.

Lemma divide_lt_wb st x y : divide_lt (wb st x) y = wb (divide_lt st y) x.
Proof.
  unfold divide_lt. rewrite fuel_of_wb, lamport_f_wb.
  apply (bind_wb wb); intros; [apply fail_wb|apply set_event_lt_wb].
Qed.

Lemma divide_one_wb st x y : divide_one (wb st x) y = wb (divide_one st y) x.
Proof.
  unfold divide_one. rewrite failed_wb. destruct (failed st); [reflexivity|].
  rewrite get_event_wb. destruct (get_event st y) as [ev|]; [|apply fail_wb].
  assert (H : (match ev_round ev with Some _ => wb st x | None => divide_round (wb st x) y end)
              = wb (match ev_round ev with Some _ => st | None => divide_round st y end) x).
  { destruct (ev_round ev); [reflexivity|apply divide_round_wb]. }
  rewrite H. clear H. set (st1 := match ev_round ev with Some _ => st | None => divide_round st y end).
  rewrite failed_wb. destruct (failed st1); [reflexivity|].
  rewrite get_event_wb. destruct (get_event st1 y) as [ev1|]; [|apply fail_wb].
  destruct (ev_lt ev1); [reflexivity|apply divide_lt_wb].
Qed.

Lemma divide_rounds_wb st x : divide_rounds (wb st x) = wb (divide_rounds st) x.
Proof. unfold divide_rounds. rewrite undetermined_wb. apply fold_wb. intros; apply divide_one_wb. Qed.

Definition wbf {B} (p : hg * B) (x : ign) : hg * B := (wb (fst p) x, snd p).

Lemma fail_wbf {B} s x (b : B) : (fail (wb s x), b) = wbf (fail s, b) x.
Proof. lazy. reflexivity. Qed.

Lemma fold_wbf {A B} (f : hg * B -> A -> hg * B) (l : list A) :
  (forall s b x a, f (wb s x, b) a = wbf (f (s, b) a) x) ->
  forall st b x, fold_left f l (wb st x, b) = wbf (fold_left f l (st, b)) x.
Proof.
  intros Hf. induction l as [|a r IH]; intros st b x; cbn [fold_left]; [reflexivity|].
  rewrite Hf. destruct (f (st, b) a) as [s' b']. unfold wbf; cbn [fst snd]. apply IH.
Qed.

Lemma decide_fame_round_wb s dec x pr :
  decide_fame_round (wb s x, dec) pr = wbf (decide_fame_round (s, dec) pr) x.
Proof.
  unfold decide_fame_round. rewrite failed_wb. destruct (failed s); [reflexivity|].
  rewrite get_round_wb, get_peerset_wb.
  destruct (get_round s (fst pr)) as [ri|]; [|apply fail_wbf].
  destruct (get_peerset s (fst pr)) as [rps|]; [|apply fail_wbf].
  change (fame_of (wb s x)) with (fame_of s). destruct (fold_left _ _ _) as [ri'|]; [|apply fail_wbf].
  destruct (witnesses_decided ri' rps) as [d ri'']. unfold wbf; cbn [fst snd]. rewrite set_round_wb. reflexivity.
Qed.

Lemma decide_fame_wb st x : decide_fame (wb st x) = wb (decide_fame st) x.
Proof.
  unfold decide_fame. rewrite pending_wb.
  rewrite (fold_wbf decide_fame_round (pending st)) by (intros; apply decide_fame_round_wb).
  destruct (fold_left decide_fame_round (pending st) (st, [])) as [s decided]. unfold wbf; cbn [fst snd].
  rewrite failed_wb. destruct (failed s); [reflexivity|]. rewrite pending_wb, set_pending_wb. reflexivity.
Qed.

Lemma rr_loop_wb y : forall is_ st x, rr_loop (wb st x) y is_ = wbf (rr_loop st y is_) x.
Proof.
  induction is_ as [|i rest IH]; intros st x; cbn beta iota delta [rr_loop]; [reflexivity|].
  rewrite get_round_wb. destruct (get_round st i) as [tr|];
    [|rewrite lower_bound_wb; destruct (lower_bound st) as [lb0|]; [destruct (i <=? lb0); [apply IH|reflexivity]|reflexivity]].
  rewrite get_peerset_wb. destruct (get_peerset st i) as [tps|]; [|apply fail_wbf].
  destruct (witnesses_decided tr tps) as [d tr'].
  rewrite rounds_wb, set_rounds_wb. set (st1 := st <| rounds := _ |>). clearbody st1. cbv zeta.
  destruct (negb d).
  - rewrite lower_bound_wb. destruct (lower_bound st1) as [lb|]; [|reflexivity].
    destruct (lb <? i); [reflexivity|apply IH].
  - change (see (wb st1 x)) with (see st1). destruct (fold_left _ _ _) as [s|]; [|apply fail_wbf].
    destruct (_ && _); [|apply IH].
    rewrite get_event_wb. destruct (get_event st1 y) as [ex|]; [|apply fail_wbf].
    unfold wbf; cbn [fst snd]. rewrite set_evst_wb, set_round_wb. reflexivity.
Qed.

Lemma decide_rr_one_wb s und x y : decide_rr_one (wb s x, und) y = wbf (decide_rr_one (s, und) y) x.
Proof.
  unfold decide_rr_one. rewrite failed_wb. destruct (failed s); [reflexivity|].
  rewrite fuel_of_wb, round_f_wb. apply (bind_wb wbf); [intros; apply fail_wbf|]. intros r s1.
  rewrite last_round_wb, rr_loop_wb. destruct (rr_loop s1 y _) as [s' received]. reflexivity.
Qed.

Lemma decide_round_received_wb st x : decide_round_received (wb st x) = wb (decide_round_received st) x.
Proof.
  unfold decide_round_received. rewrite undetermined_wb.
  rewrite (fold_wbf decide_rr_one (undetermined st)) by (intros; apply decide_rr_one_wb).
  destruct (fold_left decide_rr_one (undetermined st) (st, [])) as [s und]. unfold wbf; cbn [fst snd].
  rewrite failed_wb. destruct (failed s); [reflexivity|]. rewrite set_undetermined_wb. reflexivity.
Qed.

Lemma get_frame_wb st x rr : get_frame (wb st x) rr = wb2 (get_frame st rr) x.
Proof.
  unfold get_frame at 1.
  rewrite frames_wb, get_round_wb, get_peerset_wb, repertoire_wb, peersets_wb.
  change (create_frame_event (wb st x)) with (create_frame_event st).
  unfold get_frame.
  destruct (zget rr (frames st)); [reflexivity|].
  destruct (get_round st rr) as [ri|]; [|reflexivity]. destruct (get_peerset st rr) as [ps|]; [|reflexivity].
  destruct (fold_left _ (ri_received ri) (Some [])) as [evs|]; [|reflexivity].
  cbv zeta. rewrite fe_sort_wb.
  erewrite fold_left_ext by (intros; rewrite first_rounds_wb, last_cons_ev_wb, create_root_wb; reflexivity).
  erewrite (fold_left_ext _ _ (fe_sort st evs)) by (intros; rewrite creator_of_wb, sp_of_wb, create_root_wb; reflexivity).
  destruct (fold_left _ (repertoire st) _) as [roots|]; [|reflexivity].
  rewrite set_frames_wb.
  reflexivity.
Qed.

Lemma add_consensus_event_wb s x fe : add_consensus_event (wb s x) fe = wb (add_consensus_event s fe) x.
Proof.
  unfold add_consensus_event. rewrite creator_of_wb, get_event_wb, cons_count_wb.
  rewrite set_cons_count_wb, last_cons_ev_wb, set_last_cons_ev_wb, pending_loaded_wb, set_pending_loaded_wb.
  reflexivity.
Qed.

Lemma bump_last_consensus_wb s x r : bump_last_consensus (wb s x) r = wb (bump_last_consensus s r) x.
Proof.
  unfold bump_last_consensus. rewrite last_consensus_wb. destruct (last_consensus s) as [l|].
  - destruct (l <? r); [apply set_last_consensus_wb|reflexivity].
  - apply set_last_consensus_wb.
Qed.

Lemma reindex_wb s x R F P :
  (wb s x) <| repertoire := R |> <| first_rounds := F |> <| pevents := P |> =
  wb (s <| repertoire := R |> <| first_rounds := F |> <| pevents := P |>) x.
Proof. rewrite set_repertoire_wb, set_first_rounds_wb. apply set_pevents_wb. Qed.

Lemma sp_step_wb r s x p : sp_step r (wb s x) p = wb (sp_step r s p) x.
Proof. rewrite !sp_step_eq. apply reindex_wb. Qed.

Lemma set_peerset_wb st x r ps : set_peerset (wb st x) r ps = option_map (fun s => wb s x) (set_peerset st r ps).
Proof.
  rewrite !set_peerset_unfold, peersets_wb. destruct (table_has r (peersets st)); [reflexivity|].
  cbn [option_map]. rewrite set_peersets_wb. apply f_equal, fold_wb. intros; apply sp_step_wb.
Qed.

Lemma process_receipts_wb st x rr itxs : process_receipts (wb st x) rr itxs = wb (process_receipts st rr itxs) x.
Proof.
  unfold process_receipts. rewrite validators_wb.
  destruct (fold_left _ itxs (validators st, false)) as [vals changed].
  destruct changed; [|reflexivity].
  rewrite set_peerset_wb. destruct (set_peerset st (rr + 6) vals) as [st1|]; cbn [option_map]; [|reflexivity].
  apply set_validators_wb.
Qed.

Definition fine3 (st : hg) := (last_block st, delivered st, self_sigs st).
Definition fine (a : hg) (x : ign) : Prop := (i_lb x, i_del x, i_ss x) = fine3 a.

Lemma fine_ign_of a : fine a (ign_of a).
Proof. reflexivity. Qed.
Lemma fine_keep a a' x : fine3 a' = fine3 a -> fine a x -> fine a' x.
Proof. unfold fine. congruence. Qed.
Lemma fine3_eq s lb d ss : fine3 s = (lb, d, ss) -> last_block s = lb /\ delivered s = d /\ self_sigs s = ss.
Proof. intros [= -> -> ->]. auto. Qed.
Lemma fine3_proj s s' : fine3 s = fine3 s' -> last_block s = last_block s' /\ delivered s = delivered s' /\ self_sigs s = self_sigs s'.
Proof. apply fine3_eq. Qed.
Lemma bview_fine3 a a' : bview a' = bview a -> fine3 a' = fine3 a.
Proof. intros H. exact (f_equal (fun v => let '(_, lb, d, _, _, _, _, _, ss, _, _) := v in (lb, d, ss)) H). Qed.

(* a function that commutes with every overwrite neither reads nor writes the six components *)
Lemma commute_ign (f : hg -> hg) : (forall a x, f (wb a x) = wb (f a) x) -> forall s, ign_of (f s) = ign_of s.
Proof. intros C s. rewrite <- (wb_ign_of s) at 1. rewrite C. apply ign_of_wb. Qed.
Lemma commute_fine3 (f : hg -> hg) : (forall a x, f (wb a x) = wb (f a) x) -> forall s, fine3 (f s) = fine3 s.
Proof. intros C s. symmetry. change (fine (f s) (ign_of s)). rewrite <- (commute_ign f C s). apply fine_ign_of. Qed.

(* states that differ in the six components only are identified by wb *)
Definition core (st : hg) : hg := wb st (mkIgn zempty None [] 0 [] []).
Lemma wb_same a a' x : core a = core a' -> wb a x = wb a' x.
Proof. intros H. rewrite <- (wb_wb a (mkIgn zempty None [] 0 [] []) x), <- (wb_wb a' (mkIgn zempty None [] 0 [] []) x). unfold core in H. rewrite H. reflexivity. Qed.
Lemma core_wb a x : core (wb a x) = core a.
Proof. unfold core. apply wb_wb. Qed.
Lemma core_eq_wb a b : core a = core b -> b = wb a (ign_of b).
Proof. intros H. rewrite <- (wb_ign_of b) at 1. symmetry. apply wb_same. exact H. Qed.

(* [simr false] ignores the six components, [simr true] only [blocks], [anchor], [sigpool] *)
Definition simr (fl : bool) (a b : hg) : Prop := core a = core b /\ (fl = true -> fine3 a = fine3 b).

Lemma simr_refl fl a : simr fl a a.
Proof. split; auto. Qed.
Lemma simr_sym fl a b : simr fl a b -> simr fl b a.
Proof. intros [H1 H2]. split; [auto|intros E; symmetry; auto]. Qed.
Lemma simr_trans fl a b c : simr fl a b -> simr fl b c -> simr fl a c.
Proof. intros [H1 H2] [H3 H4]. split; [congruence|intros E; rewrite H2, H4; auto]. Qed.
Lemma simr_weaken a b : simr true a b -> simr false a b.
Proof. intros [H _]. split; [auto|discriminate]. Qed.

Lemma simr_inv fl a b : simr fl a b -> exists x, b = wb a x /\ (fl = true -> fine a x).
Proof.
  intros [H1 H2]. exists (ign_of b). split; [apply core_eq_wb; exact H1|].
  intros E. symmetry. exact (H2 E).
Qed.
Lemma simr_wb fl a x : (fl = true -> fine a x) -> simr fl a (wb a x).
Proof. intros F. split; [symmetry; apply core_wb|intros E; symmetry; exact (F E)]. Qed.

(* what commutes with the overwrite respects both relations: readers ... *)
Lemma simr_read {A} (g : hg -> A) : (forall a x, g (wb a x) = g a) -> forall fl a b, simr fl a b -> g a = g b.
Proof. intros C fl a b S. destruct (simr_inv _ _ _ S) as [x [-> _]]. symmetry. apply C. Qed.
(* ... and state transformers *)
Lemma simr_commute (f : hg -> hg) : (forall a x, f (wb a x) = wb (f a) x) ->
  forall fl a b, simr fl a b -> simr fl (f a) (f b).
Proof.
  intros C fl a b S. destruct (simr_inv _ _ _ S) as [x [-> F]]. rewrite C. apply simr_wb.
  intros E. eapply fine_keep; [apply (commute_fine3 f C)|exact (F E)].
Qed.

Definition simr_failed := simr_read failed failed_wb.
Definition simr_pending := simr_read pending pending_wb.
Definition simr_self := simr_read self self_wb.

Lemma fail_simr fl a b : simr fl a b -> simr fl (fail a) (fail b).
Proof. apply (simr_commute fail fail_wb). Qed.
Lemma bump_simr fl a b r : simr fl a b -> simr fl (bump_last_consensus a r) (bump_last_consensus b r).
Proof. apply (simr_commute (fun s => bump_last_consensus s r)). intros; apply bump_last_consensus_wb. Qed.
Lemma process_receipts_simr fl a b rr itxs : simr fl a b -> simr fl (process_receipts a rr itxs) (process_receipts b rr itxs).
Proof. apply (simr_commute (fun s => process_receipts s rr itxs)). intros; apply process_receipts_wb. Qed.
Lemma divide_rounds_simr fl a b : simr fl a b -> simr fl (divide_rounds a) (divide_rounds b).
Proof. apply (simr_commute divide_rounds divide_rounds_wb). Qed.
Lemma decide_fame_simr fl a b : simr fl a b -> simr fl (decide_fame a) (decide_fame b).
Proof. apply (simr_commute decide_fame decide_fame_wb). Qed.
Lemma decide_round_received_simr fl a b : simr fl a b -> simr fl (decide_round_received a) (decide_round_received b).
Proof. apply (simr_commute decide_round_received decide_round_received_wb). Qed.
Lemma get_frame_simr fl a b r : simr fl a b ->
  fst (get_frame a r) = fst (get_frame b r) /\ simr fl (snd (get_frame a r)) (snd (get_frame b r)).
Proof.
  intros S. split.
  - apply (simr_read (fun s => fst (get_frame s r))) with (1 := fun a x => f_equal fst (get_frame_wb a x r)) (2 := S).
  - apply (simr_commute (fun s => snd (get_frame s r))) with (1 := fun a x => f_equal snd (get_frame_wb a x r)) (2 := S).
Qed.

(** * The functions that do touch the six components: each leaves [core] alone and acts on
      (last block, delivered, own signatures) through that triple only *)

Definition ign_store (x : ign) (b : block) : ign :=
  mkIgn (zset (b_index b) b (i_blocks x)) (i_anchor x) (i_sigpool x) (Z.max (b_index b) (i_lb x)) (i_del x) (i_ss x).
Definition ign_anchor (a : hg) (x : ign) (b : block) : ign :=
  match get_peerset a (b_rr b) with
  | None => x
  | Some ps =>
    if (trust_count ps <? Z.of_nat (length (b_sigs b))) &&
       (match i_anchor x with None => true | Some an => an <? b_index b end)
    then mkIgn (i_blocks x) (Some (b_index b)) (i_sigpool x) (i_lb x) (i_del x) (i_ss x) else x
  end.
Definition ign_deliver (x : ign) (b : block) : ign :=
  mkIgn (i_blocks x) (i_anchor x) (i_sigpool x) (i_lb x) (i_del x ++ [b]) (i_ss x).
Definition ign_sigs (x : ign) (l : list bsig) : ign :=
  mkIgn (i_blocks x) (i_anchor x) (fold_left sigpool_add l (i_sigpool x)) (i_lb x) (i_del x) (i_ss x).

Lemma store_set_block_wb a x b : store_set_block (wb a x) b = wb a (ign_store x b).
Proof. lazy. reflexivity. Qed.
Lemma set_anchor_block_wb a x b : set_anchor_block (wb a x) b = wb a (ign_anchor a x b).
Proof.
  unfold set_anchor_block, ign_anchor. rewrite get_peerset_wb. destruct (get_peerset a (b_rr b)); [|reflexivity].
  rewrite anchor_wb. destruct (_ && _); [lazy; reflexivity|reflexivity].
Qed.
Lemma deliver_wb a x b : deliver (wb a x) b = wb a (ign_deliver x b).
Proof. lazy. reflexivity. Qed.
Lemma set_sigpool_wb s x v :
  (wb s x) <| sigpool := v |> = wb s (mkIgn (i_blocks x) (i_anchor x) v (i_lb x) (i_del x) (i_ss x)).
Proof. lazy. reflexivity. Qed.

Definition t3 := (Z * list block * list bsig)%type.
Definition t3_store (t : t3) (b : block) : t3 := let '(lb, del, ss) := t in (Z.max (b_index b) lb, del, ss).
Definition t3_deliver (t : t3) (b : block) : t3 := let '(lb, del, ss) := t in (lb, del ++ [b], ss).
Definition t3_ss (t : t3) (v : list bsig) : t3 := let '(lb, del, ss) := t in (lb, del, v).

Lemma core_store_set_block a b : core (store_set_block a b) = core a.
Proof. lazy. reflexivity. Qed.
Lemma fine3_store' s b : fine3 (store_set_block s b) = t3_store (fine3 s) b.
Proof. reflexivity. Qed.
Lemma core_deliver a b : core (deliver a b) = core a.
Proof. lazy. reflexivity. Qed.
Lemma fine3_deliver' s b : fine3 (deliver s b) = t3_deliver (fine3 s) b.
Proof. reflexivity. Qed.
Lemma core_set_self_sigs s v : core (s <| self_sigs := v |>) = core s.
Proof. lazy. reflexivity. Qed.
Lemma fine3_set_ss s v : fine3 (s <| self_sigs := v |>) = t3_ss (fine3 s) v.
Proof. reflexivity. Qed.
Lemma core_set_sigpool s v : core (s <| sigpool := v |>) = core s.
Proof. lazy. reflexivity. Qed.
Lemma fine3_set_sigpool s v : fine3 (s <| sigpool := v |>) = fine3 s.
Proof. reflexivity. Qed.
Lemma core_set_anchor_block a b : core (set_anchor_block a b) = core a.
Proof.
  unfold set_anchor_block. destruct (get_peerset a (b_rr b)); [|reflexivity].
  destruct (_ && _); [lazy; reflexivity|reflexivity].
Qed.
Lemma fine3_set_anchor_block a b : fine3 (set_anchor_block a b) = fine3 a.
Proof.
  unfold set_anchor_block. destruct (get_peerset a (b_rr b)); [|reflexivity].
  destruct (_ && _); reflexivity.
Qed.

Lemma fine_store a x b : fine a x -> fine (store_set_block a b) (ign_store x b).
Proof. unfold fine. rewrite fine3_store'. intros <-. reflexivity. Qed.
Lemma fine_anchor a x b : fine a x -> fine a (ign_anchor a x b).
Proof. unfold ign_anchor. destruct (get_peerset a (b_rr b)); [|auto]. destruct (_ && _); auto. Qed.
Lemma fine_deliver a x b : fine a x -> fine (deliver a b) (ign_deliver x b).
Proof. unfold fine. rewrite fine3_deliver'. intros <-. reflexivity. Qed.

(* on related states, with the same block when the triple is compared *)
Lemma store_set_block_simr fl a a' b b' : simr fl a a' -> (fl = true -> b = b') ->
  simr fl (store_set_block a b) (store_set_block a' b').
Proof.
  intros [C F] E. split; [rewrite !core_store_set_block; exact C|].
  intros H. rewrite !fine3_store', (F H), (E H). reflexivity.
Qed.
Lemma deliver_simr fl a a' b b' : simr fl a a' -> (fl = true -> b = b') -> simr fl (deliver a b) (deliver a' b').
Proof.
  intros [C F] E. split; [rewrite !core_deliver; exact C|].
  intros H. rewrite !fine3_deliver', (F H), (E H). reflexivity.
Qed.
Lemma set_self_sigs_simr fl a a' v v' : simr fl a a' -> (fl = true -> v = v') ->
  simr fl (a <| self_sigs := v |>) (a' <| self_sigs := v' |>).
Proof.
  intros [C F] E. split; [rewrite !core_set_self_sigs; exact C|].
  intros H. rewrite !fine3_set_ss, (F H), (E H). reflexivity.
Qed.
Lemma set_anchor_block_simr fl a a' b b' : simr fl a a' -> simr fl (set_anchor_block a b) (set_anchor_block a' b').
Proof.
  intros [C F]. split; [rewrite !core_set_anchor_block; exact C|].
  intros H. rewrite !fine3_set_anchor_block. exact (F H).
Qed.

Lemma sign_block_simr fl a a' b b' bps : simr fl a a' -> (fl = true -> b = b') ->
  simr fl (snd (sign_block a b bps)) (snd (sign_block a' b' bps)) /\
  (fl = true -> fst (sign_block a b bps) = fst (sign_block a' b' bps)).
Proof.
  intros S E. unfold sign_block. rewrite <- (simr_self _ _ _ S).
  destruct (mem_key (self a) (keys bps)); cbn [fst snd]; [|auto].
  split; [|intros H; rewrite (E H); reflexivity].
  apply set_self_sigs_simr.
  - apply store_set_block_simr; [exact S|]. intros H. rewrite (E H). reflexivity.
  - intros H. destruct (fine3_proj _ _ (proj2 S H)) as [_ [_ ->]]. rewrite (E H). reflexivity.
Qed.

(** commit: only the round received and the internal transactions of the block reach [core] *)

(* what commit does once the block is stored *)
Definition commit_after_store (s : hg) (c : block) : hg :=
  match get_peerset s (b_rr c) with
  | None => deliver s c
  | Some bps =>
    let bs := sign_block s c bps in
    deliver (process_receipts (set_anchor_block (snd bs) (fst bs)) (b_rr (fst bs)) (b_itxs (fst bs))) (fst bs)
  end.

Lemma commit_after_store_simr fl s s' c c' : simr fl s s' -> b_rr c = b_rr c' -> b_itxs c = b_itxs c' -> (fl = true -> c = c') ->
  simr fl (commit_after_store s c) (commit_after_store s' c').
Proof.
  intros S Hr Hi E. unfold commit_after_store.
  rewrite <- Hr, <- (simr_read (fun s => get_peerset s (b_rr c)) (fun s x => get_peerset_wb s x _) _ _ _ S).
  destruct (get_peerset s (b_rr c)) as [bps|]; [|apply deliver_simr; assumption]. cbv zeta.
  destruct (sign_block_simr fl s s' c c' bps S E) as [S2 E2].
  apply deliver_simr; [|exact E2].
  assert (Hs : forall t d, b_rr (fst (sign_block t d bps)) = b_rr d /\ b_itxs (fst (sign_block t d bps)) = b_itxs d)
    by (intros; unfold sign_block; destruct (mem_key _ _); split; reflexivity).
  destruct (Hs s c) as [-> ->], (Hs s' c') as [-> ->]. rewrite <- Hr, <- Hi.
  apply process_receipts_simr, set_anchor_block_simr, S2.
Qed.

Lemma commit_via_after_store s b : commit s b =
  if self s =? -1 then deliver s b else
  let b1 := b <| b_committed := true |> <| b_receipts := map (fun t => (itx_id t, itx_accept t)) (b_itxs b) |>
              <| b_bodyid := hd (-1) (oracle s) |> in
  commit_after_store (store_set_block (s <| oracle := tl (oracle s) |>) b1) b1.
Proof. unfold commit, commit_after_store. reflexivity. Qed.

Lemma commit_simr fl a a' b b' : simr fl a a' -> b_rr b = b_rr b' -> b_itxs b = b_itxs b' -> (fl = true -> b = b') ->
  simr fl (commit a b) (commit a' b').
Proof.
  intros S Hr Hi E. rewrite !commit_via_after_store, <- (simr_self _ _ _ S), <- (simr_read oracle oracle_wb _ _ _ S).
  destruct (self a =? -1); [apply deliver_simr; assumption|].
  cbv zeta. apply commit_after_store_simr; [|exact Hr|exact Hi|intros H; rewrite (E H); reflexivity].
  apply store_set_block_simr; [|intros H; rewrite (E H); reflexivity].
  apply (simr_commute (fun s => s <| oracle := tl (oracle a) |>)); [intros; apply set_oracle_wb|exact S].
Qed.

Lemma block_of_frame_any i j f s :
  b_txs (block_of_frame i f s) = b_txs (block_of_frame j f s) /\
  b_itxs (block_of_frame i f s) = b_itxs (block_of_frame j f s) /\
  b_rr (block_of_frame i f s) = b_rr (block_of_frame j f s).
Proof. repeat split. Qed.

Lemma process_frame_simr fl a a' f : simr fl a a' -> simr fl (process_frame a f) (process_frame a' f).
Proof.
  intros S. unfold process_frame. destruct (f_events f) as [|fe0 rest] eqn:Ef; [exact S|]. rewrite <- Ef.
  assert (S1 : simr fl (fold_left add_consensus_event (f_events f) a) (fold_left add_consensus_event (f_events f) a')).
  { apply (simr_commute (fold_left add_consensus_event (f_events f))); [|exact S].
    apply fold_wb. intros; apply add_consensus_event_wb. }
  set (s1 := fold_left add_consensus_event (f_events f) a) in *.
  set (s1' := fold_left add_consensus_event (f_events f) a') in *.
  (* the two blocks differ in their index at most *)
  assert (Eb : forall i, block_of_frame i f s1' = block_of_frame i f s1).
  { intros i. destruct (simr_inv _ _ _ S1) as [x [-> _]]. apply block_of_frame_wb. }
  rewrite !Eb.
  destruct (block_of_frame_any (last_block s1' + 1) (last_block s1 + 1) f s1) as [Ht [Hi Hr]]. rewrite Ht, Hi.
  assert (K : simr fl (commit (store_set_block s1 (block_of_frame (last_block s1 + 1) f s1)) (block_of_frame (last_block s1 + 1) f s1))
                      (commit (store_set_block s1' (block_of_frame (last_block s1' + 1) f s1)) (block_of_frame (last_block s1' + 1) f s1))).
  { assert (E : fl = true -> block_of_frame (last_block s1 + 1) f s1 = block_of_frame (last_block s1' + 1) f s1).
    { intros H. destruct (fine3_proj _ _ (proj2 S1 H)) as [-> _]. reflexivity. }
    apply commit_simr; [apply store_set_block_simr; assumption|symmetry; exact Hr|symmetry; exact Hi|exact E]. }
  destruct (b_txs (block_of_frame (last_block s1 + 1) f s1)), (b_itxs (block_of_frame (last_block s1 + 1) f s1));
    [exact S1|exact K|exact K|exact K].
Qed.

(* the accumulator of ProcessDecidedRounds on related states: same processed rounds, same stop flag *)
Inductive simr3 (fl : bool) : hg * list Z * bool -> hg * list Z * bool -> Prop :=
  simr3_intro a b p st : simr fl a b -> simr3 fl (a, p, st) (b, p, st).

Lemma process_round_simr fl x y pr : simr3 fl x y -> simr3 fl (process_round x pr) (process_round y pr).
Proof.
  intros [a b p st S]. unfold process_round. rewrite <- (simr_failed fl a b S).
  destruct (st || failed a); [constructor; exact S|].
  destruct (negb (snd pr)); [constructor; exact S|].
  rewrite <- (simr_read (fun s => get_round s (fst pr)) (fun s x => get_round_wb s x _) _ _ _ S).
  destruct (get_round a (fst pr)); [|constructor; apply fail_simr, S].
  destruct (get_frame_simr fl a b (fst pr) S) as [E1 S1].
  destruct (get_frame a (fst pr)) as [fa sa], (get_frame b (fst pr)) as [fb sb]. cbn [fst snd] in E1, S1. subst fb.
  destruct fa as [f|]; constructor; [apply bump_simr, process_frame_simr|apply fail_simr]; exact S1.
Qed.

Lemma process_decided_rounds_simr fl a b : simr fl a b -> simr fl (process_decided_rounds a) (process_decided_rounds b).
Proof.
  intros S. unfold process_decided_rounds. rewrite <- (simr_pending fl a b S).
  assert (G : forall l x y, simr3 fl x y -> simr3 fl (fold_left process_round l x) (fold_left process_round l y)).
  { induction l as [|pr l IH]; intros x y H; [exact H|]. apply IH, process_round_simr, H. }
  destruct (G (pending a) _ _ (simr3_intro fl a b [] false S)) as [sa sb pa xa S1].
  rewrite <- (simr_pending fl sa sb S1).
  apply (simr_commute (fun s => s <| pending := filter (fun p => negb (existsb (Z.eqb (fst p)) pa)) (pending sa) |>));
    [intros; apply set_pending_wb|exact S1].
Qed.

Lemma run_consensus_simr fl a b : simr fl a b -> simr fl (run_consensus a) (run_consensus b).
Proof.
  intros S. unfold run_consensus.
  pose proof (divide_rounds_simr fl a b S) as S1. rewrite <- (simr_failed _ _ _ S1).
  destruct (failed (divide_rounds a)); [exact S1|].
  pose proof (decide_fame_simr fl _ _ S1) as S2. rewrite <- (simr_failed _ _ _ S2).
  destruct (failed (decide_fame (divide_rounds a))); [exact S2|].
  pose proof (decide_round_received_simr fl _ _ S2) as S3. rewrite <- (simr_failed _ _ _ S3).
  destruct (failed (decide_round_received (decide_fame (divide_rounds a)))); [exact S3|].
  apply process_decided_rounds_simr. exact S3.
Qed.

(** InsertEvent: blind up to the signatures it appends to the pool *)
Lemma wb_set_sigpool s v y : wb (s <| sigpool := v |>) y = wb s y.
Proof. lazy. reflexivity. Qed.

Lemma after_store_wb s x e la : after_store (wb s x) e la = wb (after_store s e la) (ign_sigs x (e_sigs e)).
Proof.
  unfold after_store. rewrite update_ancestor_fd_wb. generalize (update_ancestor_fd s e la). intros s3.
  rewrite undetermined_wb, set_undetermined_wb. set (s4 := s3 <| undetermined := _ |>). clearbody s4. cbv zeta.
  rewrite wb_set_sigpool.
  destruct (is_loaded e); rewrite ?pending_loaded_wb, ?set_pending_loaded_wb, sigpool_wb; apply set_sigpool_wb.
Qed.

Lemma insert_admitted_wb a x e :
  insert_admitted (wb a x) e =
  let (r, s) := insert_admitted a e in (r, wb s (match r with InsOk => ign_sigs x (e_sigs e) | _ => x end)).
Proof.
  rewrite !insert_admitted_eq, topo_wb, set_topo_wb. cbv zeta. rewrite init_coords_wb, store_set_event_wb.
  destruct (store_set_event _ _) as [a2|]; cbn [option_map]; [|reflexivity]. rewrite after_store_wb. reflexivity.
Qed.

Lemma insert_event_wb a x e :
  insert_event (wb a x) e =
  let (r, s) := insert_event a e in (r, wb s (match r with InsOk => ign_sigs x (e_sigs e) | _ => x end)).
Proof.
  unfold insert_event. rewrite check_self_parent_wb, check_other_parent_wb.
  destruct (negb (e_sigok e)); [reflexivity|].
  destruct (check_self_parent a e); try reflexivity.
  destruct (check_other_parent a e); try reflexivity. apply insert_admitted_wb.
Qed.

Lemma insert_event_simr fl a b e : simr fl a b ->
  fst (insert_event a e) = fst (insert_event b e) /\ simr fl (snd (insert_event a e)) (snd (insert_event b e)).
Proof.
  intros S. destruct (simr_inv _ _ _ S) as [x [-> F]]. rewrite insert_event_wb.
  pose proof (bview_fine3 _ _ (insert_event_bview a e)) as B.
  destruct (insert_event a e) as [r s]. cbn [fst snd] in *. split; [reflexivity|].
  apply simr_wb. intros E. unfold fine. rewrite B. destruct r; exact (F E).
Qed.

Lemma step_simr fl a b e : simr fl a b ->
  fst (insert_and_run a e) = fst (insert_and_run b e) /\ simr fl (step a e) (step b e).
Proof.
  intros S. unfold step, insert_and_run.
  destruct (insert_event_simr fl a b e S) as [E1 S1].
  destruct (insert_event a e) as [ra sa], (insert_event b e) as [rb sb]. cbn [fst snd] in *. subst rb.
  destruct ra; cbn [fst snd]; auto. split; [reflexivity|]. apply run_consensus_simr. exact S1.
Qed.

(** ProcessSigPool: only blocks, anchor, sigpool change, and the last block index when the
    signed block lies above it *)
Lemma process_sig_as_on_block st s :
  process_sig st s = match zget (bs_index s) (blocks st) with Some b => sig_on_block st s b | None => st end.
Proof. reflexivity. Qed.

Lemma sig_on_block_sim st s b :
  core (sig_on_block st s b) = core st /\
  (fine3 (sig_on_block st s b) = fine3 st \/ fine3 (sig_on_block st s b) = t3_store (fine3 st) b).
Proof.
  remember (sig_on_block st s b) as r eqn:E. unfold sig_on_block in E.
  destruct (get_peerset st (b_rr b)); [|subst r; auto].
  destruct (negb (mem_key _ _)); [subst r; auto|]. destruct (negb (_ =? _)); subst r; [auto|]. cbv zeta.
  split; [rewrite core_set_sigpool, core_set_anchor_block; apply core_store_set_block|right].
  rewrite fine3_set_sigpool, fine3_set_anchor_block. reflexivity.
Qed.

Lemma sig_on_block_delivered st s b : delivered (sig_on_block st s b) = delivered st.
Proof. destruct (sig_on_block_sim st s b) as [_ [H|H]]; apply fine3_eq in H; apply H. Qed.

Lemma process_sig_simr fl st s : (fl = true -> binv st) -> simr fl st (process_sig st s).
Proof.
  intros OK. rewrite process_sig_as_on_block.
  destruct (zget (bs_index s) (blocks st)) as [b|] eqn:Hb; [|apply simr_refl].
  destruct (sig_on_block_sim st s b) as [C F]. split; [symmetry; exact C|].
  intros E. destruct F as [->| ->]; [reflexivity|].
  destruct (b_idx st (OK E) _ _ Hb) as [Hi Hl]. unfold t3_store, fine3. rewrite Z.max_r by lia. reflexivity.
Qed.

(* under the block-store invariant ProcessSigPool does not move the last block index either *)
Lemma process_sigpool_simr fl st : (fl = true -> binv st) -> simr fl st (process_sigpool st).
Proof.
  unfold process_sigpool. generalize (sigpool st). intros l. revert st.
  induction l as [|s l IH]; intros st OK; cbn [fold_left]; [apply simr_refl|].
  eapply simr_trans; [apply process_sig_simr, OK|]. apply IH. intros E. apply process_sig_binv, OK, E.
Qed.
