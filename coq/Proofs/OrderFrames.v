(* C04: which passes can change the Lamport memo, the Lamport timestamp / round-received fields of
   stored events, the received lists of the round table, the undetermined list and the frame
   cache.  [okeep] = none of them changes. *)
From Coq Require Import ZArith List Bool Lia.
From RecordUpdate Require Import RecordSet.
From V Require Import Model.ZMap Model.Quorum Model.Voting Model.HgImpl
  Proofs.ZMapFacts Proofs.HgFrames Proofs.HgDagFrames.
Import ListNotations RecordSetNotations.
Open Scope Z_scope.

Definition ev_b (es : evst) := (ev_e es, ev_lt es, ev_rr es).
Definition rcv (st : hg) (r : Z) : list Z :=
  match get_round st r with Some ri => ri_received ri | None => [] end.

Record okeep (st st' : hg) : Prop := {
  o_lt : lt_memo st' = lt_memo st;
  o_ev : forall x, option_map ev_b (get_event st' x) = option_map ev_b (get_event st x);
  o_rcv : forall r, rcv st' r = rcv st r;
  o_und : undetermined st' = undetermined st;
  o_fr : frames st' = frames st
}.

Lemma okeep_refl st : okeep st st.
Proof. constructor; reflexivity. Qed.
Lemma okeep_trans a b c : okeep a b -> okeep b c -> okeep a c.
Proof.
  intros [A1 A2 A3 A4 A5] [B1 B2 B3 B4 B5]. constructor; congruence.
Qed.

Lemma okeep_same st st' :
  events st' = events st -> rounds st' = rounds st -> lt_memo st' = lt_memo st ->
  undetermined st' = undetermined st -> frames st' = frames st -> okeep st st'.
Proof.
  intros E R L U F. constructor; auto.
  - intros x. unfold get_event. rewrite E. reflexivity.
  - intros r. unfold rcv, get_round. rewrite R. reflexivity.
Qed.

Lemma okeep_nort st st' : nort st' = nort st -> okeep st st'.
Proof.
  intros H. apply okeep_same.
  - exact (f_equal events H).
  - exact (f_equal rounds H).
  - exact (f_equal lt_memo H).
  - exact (f_equal undetermined H).
  - exact (f_equal frames H).
Qed.

Lemma round_f_okeep fuel st x : okeep st (snd (round_f fuel st x)).
Proof. apply okeep_nort, round_f_nort. Qed.
Lemma witness_f_okeep fuel st x : okeep st (snd (witness_f fuel st x)).
Proof. apply okeep_nort, witness_f_nort. Qed.

Lemma get_event_set_evst st x es y :
  get_event (set_evst st x es) y = if (x =? y) && (0 <=? x) then Some es else get_event st y.
Proof. apply zget_zset. Qed.

(* updating a stored event without touching body, timestamp, round-received *)
Lemma okeep_set_evst st x es es' :
  get_event st x = Some es -> ev_b es' = ev_b es -> okeep st (set_evst st x es').
Proof.
  intros Hx Hb. constructor; try reflexivity.
  intros y. rewrite get_event_set_evst.
  destruct (Z.eqb_spec x y) as [->|]; cbn [andb]; [|reflexivity].
  destruct (0 <=? y); [|reflexivity]. rewrite Hx. cbn [option_map]. congruence.
Qed.

Lemma okeep_fail st : okeep st (fail st).
Proof. apply okeep_same; reflexivity. Qed.
Lemma okeep_set_pending st p : okeep st (st <| pending := p |>).
Proof. apply okeep_same; reflexivity. Qed.
Lemma okeep_set_sigpool st p : okeep st (st <| sigpool := p |>).
Proof. apply okeep_same; reflexivity. Qed.
Lemma okeep_set_pending_loaded st p : okeep st (st <| pending_loaded := p |>).
Proof. apply okeep_same; reflexivity. Qed.

Ltac okeep_chain := repeat (eapply okeep_trans; [eassumption|]).

Lemma fd_walk_okeep fuel : forall st c index x ah, okeep st (fd_walk fuel st c index x ah).
Proof.
  induction fuel as [|f IH]; intros st c index x ah; cbn [fd_walk]; [apply okeep_refl|].
  destruct (get_event st ah) as [a|] eqn:Ha; [|apply okeep_refl].
  destruct (aget c (ev_fd a)); [apply okeep_refl|].
  set (st1 := set_evst st ah _).
  assert (F1 : okeep st st1) by (eapply okeep_set_evst; eauto; reflexivity).
  pose proof (witness_f_okeep (fuel_of st1) st1 ah) as F2.
  destruct (witness_f (fuel_of st1) st1 ah) as [[[|]|] st2]; cbn [snd] in F2; okeep_chain;
    try apply okeep_refl; apply IH.
Qed.

Lemma update_ancestor_fd_okeep st e la : okeep st (update_ancestor_fd st e la).
Proof.
  apply (fold_left_preorder okeep); [apply okeep_refl|apply okeep_trans|].
  intros s ce. apply fd_walk_okeep.
Qed.

(** * rewriting a RoundInfo without touching its received list *)
Lemma rcv_set_round st r ri q :
  rcv (set_round st r ri) q = if (r =? q) && (0 <=? r) then ri_received ri else rcv st q.
Proof.
  unfold rcv. change (get_round (set_round st r ri) q) with (zget q (zset r ri (rounds st))).
  rewrite zget_zset. destruct ((r =? q) && (0 <=? r)); reflexivity.
Qed.

Lemma okeep_set_round st r ri : ri_received ri = rcv st r -> okeep st (set_round st r ri).
Proof.
  intros H. constructor; try reflexivity.
  intros q. rewrite rcv_set_round. destruct (Z.eqb_spec r q) as [->|]; cbn [andb]; [|reflexivity].
  destruct (0 <=? q); [exact H|reflexivity].
Qed.

Lemma add_created_received ri x w : ri_received (add_created ri x w) = ri_received ri.
Proof. unfold add_created. destruct (aget x (ri_created ri)); reflexivity. Qed.
Lemma set_fame_received ri x f : ri_received (set_fame ri x f) = ri_received ri.
Proof. unfold set_fame. destruct (aget x (ri_created ri)) as [[w t]|]; reflexivity. Qed.
Lemma witnesses_decided_received ri ps : ri_received (snd (witnesses_decided ri ps)) = ri_received ri.
Proof.
  unfold witnesses_decided. destruct (ri_decided ri); [reflexivity|].
  destruct (existsb _ _); [reflexivity|]. reflexivity.
Qed.

Lemma divide_round_okeep st x : okeep st (divide_round st x).
Proof.
  unfold divide_round.
  pose proof (round_f_okeep (fuel_of st) st x) as Fr.
  destruct (round_f (fuel_of st) st x) as [[r|] s]; cbn [snd] in Fr; [|okeep_chain; apply okeep_fail].
  cbv zeta.
  set (s1 := set_event_round s x r). set (ri := round_or_new s1 r). set (s2 := maybe_queue s1 r ri).
  assert (F1 : okeep s s1).
  { subst s1. unfold set_event_round. destruct (get_event s x) eqn:H; [|apply okeep_refl].
    eapply okeep_set_evst; [eassumption|reflexivity]. }
  assert (F2 : okeep s1 s2).
  { subst s2. unfold maybe_queue. destruct (_ && _ && _); [apply okeep_set_pending|apply okeep_refl]. }
  pose proof (witness_f_okeep (fuel_of s2) s2 x) as Fw.
  destruct (witness_f (fuel_of s2) s2 x) as [[w|] s']; cbn [snd] in Fw; okeep_chain; [|apply okeep_fail].
  apply okeep_set_round. rewrite add_created_received.
  assert (E : rcv s' r = rcv s1 r) by (rewrite (o_rcv _ _ Fw), (o_rcv _ _ F2); reflexivity).
  rewrite E. subst ri. unfold round_or_new, rcv. destruct (get_round s1 r); reflexivity.
Qed.

Lemma decide_fame_round_okeep s dec pr : okeep s (fst (decide_fame_round (s, dec) pr)).
Proof.
  unfold decide_fame_round.
  destruct (failed s); [apply okeep_refl|].
  destruct (get_round s (fst pr)) as [ri|] eqn:Hri; [|apply okeep_fail].
  destruct (get_peerset s (fst pr)) as [rps|]; [|apply okeep_fail].
  match goal with |- context [fold_left ?f ?l ?a] => destruct (fold_left f l a) as [ri'|] eqn:Ef end; [|apply okeep_fail].
  apply (fame_fold_steps (fun a b => ri_received b = ri_received a) (fun _ => eq_refl) (fun a b c H1 H2 => eq_trans H2 H1)
           set_fame_received) in Ef.
  pose proof (witnesses_decided_received ri' rps) as W.
  destruct (witnesses_decided ri' rps) as [d ri'']. cbn [fst snd] in *.
  apply okeep_set_round. unfold rcv. rewrite Hri. congruence.
Qed.

Lemma decide_fame_okeep st : okeep st (decide_fame st).
Proof.
  unfold decide_fame.
  pose proof (fold_left_preorder (fun acc acc' => okeep (fst acc) (fst acc')) decide_fame_round) as F.
  specialize (F (fun acc => okeep_refl _) (fun a b c => okeep_trans _ _ _)
                (fun acc pr => let '(s, dec) := acc in decide_fame_round_okeep s dec pr)
                (pending st) (st, [])).
  destruct (fold_left decide_fame_round (pending st) (st, [])) as [s decided]. cbn [fst] in F.
  destruct (failed s); [exact F|]. eapply okeep_trans; [exact F|apply okeep_set_pending].
Qed.

(** * commit / ProcessDecidedRounds except the frame cache / ProcessSigPool *)
Definition okeep_nf (st st' : hg) : Prop :=
  lt_memo st' = lt_memo st /\ events st' = events st /\ rounds st' = rounds st /\
  undetermined st' = undetermined st /\ round_memo st' = round_memo st.

Lemma okeep_nf_refl st : okeep_nf st st.
Proof. unfold okeep_nf; auto. Qed.
Lemma okeep_nf_trans a b c : okeep_nf a b -> okeep_nf b c -> okeep_nf a c.
Proof. unfold okeep_nf. intros [A1 [A2 [A3 [A4 A5]]]] [B1 [B2 [B3 [B4 B5]]]]. repeat split; congruence. Qed.

Lemma okeep_of_nf st st' : okeep_nf st st' -> frames st' = frames st -> okeep st st'.
Proof. intros [A1 [A2 [A3 [A4 A5]]]] F. apply okeep_same; auto. Qed.

Definition ov (st : hg) := (lt_memo st, events st, rounds st, undetermined st, round_memo st, frames st).
Lemma ov_nf st st' : ov st' = ov st -> okeep_nf st st' /\ frames st' = frames st.
Proof. unfold ov, okeep_nf. intros H. inversion H. auto 10. Qed.

Lemma ov_commit_rest st st' : commit_rest st' = commit_rest st -> ov st' = ov st.
Proof.
  intros H.
  exact (f_equal (fun '((ev, ro, _, und, rm, _, lt, _, _, _), (fr, _, _, _)) =>
                    (lt, ev, ro, und, rm, fr)) H).
Qed.

Lemma ov_set_peerset st r ps st' : set_peerset st r ps = Some st' -> ov st' = ov st.
Proof. intros H. apply ov_commit_rest, (set_peerset_commit_rest _ _ _ _ H). Qed.
Lemma ov_add_consensus_events l s : ov (fold_left add_consensus_event l s) = ov s.
Proof. apply ov_commit_rest, commit_rest_sig_rest, add_consensus_events_sig_rest. Qed.
Lemma process_frame_ov s f : ov (process_frame s f) = ov s.
Proof. apply ov_commit_rest, process_frame_commit_rest. Qed.
Lemma process_sigpool_ov st : ov (process_sigpool st) = ov st.
Proof. apply ov_commit_rest, commit_rest_sig_rest, process_sigpool_sig_rest. Qed.
