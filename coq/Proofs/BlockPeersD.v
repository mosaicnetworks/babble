(* Dynamic membership: the peers field of a delivered block.  For EVERY run of the model that has not failed (any
   events, any membership changes, no distance bound): the peer-set recorded in a cached frame of round R -- hence the
   peers field of the block built from it -- is [validators_at genesis (delivered st) R]: genesis modified, in block
   order, by the accepted receipts of the delivered blocks with round-received + 6 <= R.  (The frame of R is created
   while R is being processed; every block delivered from then on has round-received >= R, hence takes effect at
   R + 6 or later.)  Consequence, with Proofs/BlockAgreeD.v: the k-th delivered blocks of two nodes that respect the
   distance bound carry the same peers. *)
From Coq Require Import ZArith List Bool Lia Sorted.
From RecordUpdate Require Import RecordSet.
From V Require Import Model.ZMap Model.Quorum Model.HgImpl Model.PeerSetSpec Proofs.ZMapFacts Proofs.HgBlockFrames
  Proofs.BlockInv Proofs.RoundOrder Proofs.OrderProofs Proofs.AdmissionProofs Proofs.CInvRun Proofs.Committed
  Proofs.PeerSetProofs Proofs.TidyRR Proofs.GapWindow Proofs.BlockAgree Proofs.Agreement Proofs.BlockAgreeD
  Proofs.FsvFrames Proofs.FsvD Proofs.FrameFn.
Import ListNotations RecordSetNotations.
Open Scope Z_scope.

Definition tbl_below (g : peerset) (ds : list block) (R : Z) : list (Z * peerset) :=
  fst (replay_genesis g (filter (fun d => b_rr d <? R) ds)).
Definition FPI (g : peerset) (s : hg) : Prop :=
  forall R f, zget R (frames s) = Some f ->
    f_peers f = validators_at g (delivered s) R /\ f_peersets f = tbl_below g (delivered s) R.

Definition fv (s : hg) := (frames s, delivered s, last_consensus s).

Lemma fp_ext g s s' : fv s' = fv s -> FR s /\ FPI g s -> FR s' /\ FPI g s'.
Proof.
  unfold fv. intros E [A B]. inversion E as [[E1 E2 E3]]. unfold FR, FPI, lcle. rewrite E1, E2, E3. auto.
Qed.

Lemma fv_bview s s' : bview s' = bview s -> fv s' = fv s.
Proof. intros H. destruct (bview_fields _ _ H) as [D [F L]]. unfold fv. rewrite D, F, L. reflexivity. Qed.

Lemma fv_rv s s' : rv s' = rv s -> fv s' = fv s.
Proof. intros H. destruct (rv_fields _ _ H) as [_ [_ [L [F D]]]]. unfold fv. congruence. Qed.

Lemma get_frame_peers st rr f s : get_frame st rr = (Some f, s) ->
  (zget rr (frames st) = Some f /\ s = st) \/
  (zget rr (frames st) = None /\ get_peerset st rr = Some (f_peers f) /\ frames s = zset rr f (frames st) /\
   f_peersets f = peersets st).
Proof.
  intros H. destruct (zget rr (frames st)) as [f0|] eqn:Hz.
  - left. rewrite (PeerSetProofs.get_frame_cached st rr f0 Hz) in H. injection H as <- <-. split; reflexivity.
  - right. destruct (get_frame_new_spec st rr f s Hz H) as [ri [evs [_ [Es [_ [Hp [Hps _]]]]]]].
    split; [reflexivity|]. split; [exact Hp|]. split; [rewrite Es; reflexivity|exact Hps].
Qed.

Lemma validators_at_snoc g ds b q : q < b_rr b + 6 -> validators_at g (ds ++ [b]) q = validators_at g ds q.
Proof.
  intros H. unfold validators_at, effective_blocks. rewrite filter_app. cbn [filter].
  replace (b_rr b + 6 <=? q) with false by lia. rewrite app_nil_r. reflexivity.
Qed.

Lemma validators_below_snoc g ds b q : q <= b_rr b -> tbl_below g (ds ++ [b]) q = tbl_below g ds q.
Proof.
  intros H. unfold tbl_below. rewrite filter_app. cbn [filter].
  replace (b_rr b <? q) with false by lia. rewrite app_nil_r. reflexivity.
Qed.

Lemma filter_all {A} (f : A -> bool) l : (forall x, In x l -> f x = true) -> filter f l = l.
Proof.
  induction l as [|a l IH]; intros H; cbn [filter]; [reflexivity|]. rewrite (H a (or_introl eq_refl)).
  rewrite IH; [reflexivity|]. intros x Hx. apply H. right. exact Hx.
Qed.

Lemma process_round_fp g s p stop pr : rinvA s -> lc_lt s (fst pr) -> c10inv g s -> FR s -> FPI g s -> J s ->
  FR (fst (fst (process_round (s, p, stop) pr))) /\ FPI g (fst (fst (process_round (s, p, stop) pr))) /\
  J (fst (fst (process_round (s, p, stop) pr))).
Proof.
  intros A Hlt C Hfr Hfp Hj.
  assert (Kfail : FR (fail s) /\ FPI g (fail s) /\ J (fail s)).
  { destruct (fp_ext g s (fail s) (fv_rv _ _ (rv_fail s)) (conj Hfr Hfp)) as [X' Y'].
    split; [exact X'|]. split; [exact Y'|]. apply (J_qview s); [apply fail_qview|apply fsv_fail|exact Hj]. }
  destruct (process_round_cases s p stop pr) as [[b ->]|[->|[ri [f [s1 [Hri [Hgf ->]]]]]]]; cbn [fst]; [auto|exact Kfail|].
  pose proof (get_frame_qview s (fst pr)) as Qg. pose proof (fsv_get_frame s (fst pr)) as Fg. rewrite Hgf in Qg, Fg.
  cbn [snd] in Qg, Fg.
  destruct (get_frame_spec s (fst pr) f s1 (r_frames s A) Hgf) as [HfR [Hd1 [_ [_ [_ [Lc1 _]]]]]].
  set (r := fst pr) in *. set (s2 := process_frame s1 f).
  destruct (cv_eq _ _ (process_frame_cv s1 f)) as [_ [Lc2 Fr2]]. fold s2 in Lc2, Fr2. rewrite Lc1 in Lc2.
  assert (Lc3 : last_consensus (bump_last_consensus s2 r) = Some r).
  { apply bump_lc. unfold lc_lt in *. rewrite Lc2. exact Hlt. }
  destruct (bump_keep s2 r) as [_ [Fr3 Dl3]].
  assert (Hr0 : 0 <= r) by (apply (r_contig s A); congruence).
  (* the cached frames after GetFrame *)
  assert (Hprev : forall d, In d (delivered s) -> b_rr d < r).
  { intros d Hin. destruct (r_del_lc s A d Hin) as [l [Hl Hle]]. unfold lc_lt in Hlt. rewrite Hl in Hlt. exact (Z.le_lt_trans _ _ _ Hle Hlt). }
  pose proof (f_equal fst (c_replay g s C)) as Et. cbn [fst] in Et.
  assert (Keys : forall q g0, zget q (frames s1) = Some g0 ->
            q <= r /\ f_peers g0 = validators_at g (delivered s) q /\ f_peersets g0 = tbl_below g (delivered s) q).
  { intros q g0 Hq.
    assert (Old : zget q (frames s) = Some g0 ->
              q <= r /\ f_peers g0 = validators_at g (delivered s) q /\ f_peersets g0 = tbl_below g (delivered s) q).
    { intros Hq0. split; [|apply Hfp; exact Hq0]. destruct (Hfr q g0 Hq0) as [l [Hl Hle]]. unfold lc_lt in Hlt. rewrite Hl in Hlt.
      exact (Z.lt_le_incl _ _ (Z.le_lt_trans _ _ _ Hle Hlt)). }
    destruct (get_frame_peers s r f s1 Hgf) as [[_ ->]|[Hz [Hps [Hfs Hpt]]]]; [apply Old; exact Hq|].
    rewrite Hfs, zget_zset in Hq. destruct ((r =? q) && (0 <=? r)) eqn:E; [|apply Old; exact Hq].
    injection Hq as <-. assert (q = r) by (clear - E; lia). subst q. split; [apply Z.le_refl|]. split.
    - unfold get_peerset in Hps. rewrite Et in Hps.
      rewrite (lookup_is_prefix_replay g (delivered s) r (r_del_sorted s A) (c10inv_rr_nonneg g s C) Hr0) in Hps.
      injection Hps as <-. reflexivity.
    - rewrite Hpt, Et. unfold tbl_below. rewrite filter_all; [reflexivity|]. intros d Hd. apply Z.ltb_lt, Hprev, Hd. }
  (* the table keys lie below r + 6 *)
  assert (Hk : forall k p0, In (k, p0) (peersets s1) -> k < f_round f + 6).
  { intros k p0. destruct (pview_fields _ _ (proj1 (qview_split _ _ Qg))) as [_ [_ [_ [Ept _]]]].
    rewrite Ept, Et, HfR. unfold replay_genesis. intros Hin.
    destruct (replay_keys _ _ _ _ _ Hin) as [[p1 [X|[]]]|[d [Hd Ek]]]; [injection X as <- _; clear - Hr0; lia|].
    specialize (Hprev d Hd). clear - Ek Hprev. lia. }
  split; [|split].
  - intros q g0. rewrite Fr3, Fr2. intros Hq. destruct (Keys q g0 Hq) as [Hle _]. exists r. split; [exact Lc3|exact Hle].
  - intros q g0. rewrite Fr3, Fr2, Dl3. intros Hq. destruct (Keys q g0 Hq) as [Hle [Hp Hp2]]. rewrite Hp, Hp2.
    destruct (process_frame_delivered s1 f) as [E|[bf [E Hb]]]; fold s2 in E; rewrite E, Hd1; [split; reflexivity|].
    split; symmetry; [apply validators_at_snoc; rewrite Hb, HfR; clear - Hle; lia|apply validators_below_snoc; rewrite Hb, HfR; exact Hle].
  - apply (J_qview s2); [apply bump_last_consensus_qview|apply fsv_bump|]. unfold s2. apply process_frame_J; [|exact Hk].
    apply (J_qview s); [exact Qg|exact Fg|exact Hj].
Qed.

Lemma process_fold_fp g : forall l s p stop,
  rinvA s -> StronglySorted Z.lt (map fst l) -> (forall r, In r (map fst l) -> lc_lt s r) ->
  binv s -> PeerSetProofs.finv s -> c10inv g s -> FR s -> FPI g s -> J s ->
  FR (fst (fst (fold_left process_round l (s, p, stop)))) /\ FPI g (fst (fst (fold_left process_round l (s, p, stop)))) /\
  J (fst (fst (fold_left process_round l (s, p, stop)))).
Proof.
  induction l as [|pr rest IH]; intros s p stop A Hs Hab OK FI C Hfr Hfp Hj; cbn [fold_left]; [cbn [fst]; auto|].
  cbn [map] in Hs, Hab. inversion Hs as [|? ? Hs' Hall]; subst. rewrite Forall_forall in Hall.
  assert (Hlt : lc_lt s (fst pr)) by (apply Hab; left; reflexivity).
  destruct (process_round_spec s p stop pr A Hlt) as [A' [_ Hcase]].
  pose proof (process_round_binv s p stop pr OK) as OK'.
  destruct (process_round_lift (c10inv g) (fun st st' E _ => c10inv_ext g st st' E) (c10inv_commit g) s p stop pr OK FI C) as [FI' C'].
  destruct (process_round_fp g s p stop pr A Hlt C Hfr Hfp Hj) as [Hfr' [Hfp' Hj']].
  destruct (process_round (s, p, stop) pr) as [[s' p'] stop']. cbn [fst snd] in A', Hcase, OK', FI', C', Hfr', Hfp', Hj'.
  apply (IH s' p' stop' A' Hs'); [|exact OK'|exact FI'|exact C'|exact Hfr'|exact Hfp'|exact Hj'].
  intros r' Hr'. unfold lc_lt. destruct Hcase as [[_ [L _]]|[_ [_ L]]]; rewrite L.
  - apply (Hab r'). right. exact Hr'.
  - apply Hall. exact Hr'.
Qed.

Lemma J_bview s s' : bview s' = bview s -> fsv s' = fsv s -> J s -> J s'.
Proof. intros B. apply J_ext. exact (proj1 (proj2 (proj2 (proj2 (pview_fields _ _ (bview_pview _ _ B)))))). Qed.

Lemma fpj_ext g s s' : fv s' = fv s -> bview s' = bview s -> fsv s' = fsv s ->
  FR s /\ FPI g s /\ J s -> FR s' /\ FPI g s' /\ J s'.
Proof.
  intros A B C [X [Y Z0]]. destruct (fp_ext g s s' A (conj X Y)) as [X' Y']. split; [exact X'|]. split; [exact Y'|].
  apply (J_bview s); auto.
Qed.

Lemma run_consensus_fp g st : rinv st -> binv st -> PeerSetProofs.finv st -> c10inv g st -> FR st -> FPI g st -> J st ->
  FR (run_consensus st) /\ FPI g (run_consensus st) /\ J (run_consensus st).
Proof.
  intros R OK FI C Hfr Hfp Hj. unfold run_consensus.
  pose proof (divide_rounds_bview st) as B1.
  assert (X1 : FR (divide_rounds st) /\ FPI g (divide_rounds st) /\ J (divide_rounds st))
    by (apply (fpj_ext g st); [apply fv_bview, B1|exact B1|apply divide_rounds_fsv|auto]).
  destruct (failed (divide_rounds st)) eqn:F1; [exact X1|].
  assert (R1 : rinv (divide_rounds st)).
  { destruct (divide_rounds_rinv st (or_intror R)) as [F|R1]; [congruence|exact R1]. }
  set (s1 := divide_rounds st) in *.
  pose proof (decide_fame_bview s1) as B2.
  assert (X2 : FR (decide_fame s1) /\ FPI g (decide_fame s1) /\ J (decide_fame s1))
    by (apply (fpj_ext g s1); [apply fv_bview, B2|exact B2|apply decide_fame_fsv|auto]).
  destruct (failed (decide_fame s1)) eqn:F2; [exact X2|].
  pose proof (decide_fame_rinv s1 R1) as R2. set (s2 := decide_fame s1) in *.
  pose proof (decide_round_received_bview s2) as B3.
  assert (X3 : FR (decide_round_received s2) /\ FPI g (decide_round_received s2) /\ J (decide_round_received s2))
    by (apply (fpj_ext g s2); [apply fv_bview, B3|exact B3|apply decide_round_received_fsv|auto]).
  destruct (failed (decide_round_received s2)) eqn:F3; [exact X3|].
  pose proof (rinv_rstep s2 _ R2 (decide_round_received_rstep s2 (proj1 (rinv_bounded s2 R2)))) as R3.
  set (s3 := decide_round_received s2) in *.
  assert (Bv : bview s3 = bview st) by (rewrite B3, B2, B1; reflexivity).
  assert (OK3 : binv s3) by (apply (binv_bview st); auto).
  assert (FI3 : PeerSetProofs.finv s3) by (apply (PeerSetProofs.finv_frames st); [apply bview_frames; exact Bv|exact FI]).
  assert (C3 : c10inv g s3) by (apply (c10inv_ext g st); [apply bview_pview; exact Bv|exact C]).
  destruct X3 as [Hfr3 [Hfp3 Hj3]].
  pose proof (process_fold_fp g (pending s3) s3 [] false (proj1 R3) (r_sorted s3 (proj1 R3)) (r_above s3 (proj2 R3)) OK3 FI3 C3 Hfr3 Hfp3 Hj3) as X4.
  unfold process_decided_rounds.
  destruct (fold_left process_round (pending s3) (s3, [], false)) as [[s processed] stop]. cbn [fst] in X4.
  apply (fpj_ext g s); [reflexivity|reflexivity|reflexivity|exact X4].
Qed.

Lemma process_sigpool_fv st : fv (process_sigpool st) = fv st.
Proof.
  unfold process_sigpool. generalize (sigpool st) as l. intros l. revert st.
  induction l as [|s l IH]; intros st; cbn [fold_left]; [reflexivity|]. rewrite IH. apply fv_rv, process_sig_rv.
Qed.

Record KP (g : peerset) (st : hg) : Prop := {
  kp_r : rinv st; kp_b : binv st; kp_f : PeerSetProofs.finv st; kp_c : c10inv g st; kp_fr : FR st; kp_fp : FPI g st;
  kp_j : J st
}.

Lemma hstep_KP g st o : KP g st -> failed (hstep st o) = false -> KP g (hstep st o).
Proof.
  intros [R OK FI C Hfr Hfp Hj] F.
  destruct (hstep_lift0 (c10inv g) (c10inv_ext g) (c10inv_commit g) (fun st0 s _ _ => c10inv_sig g st0 s) st o OK FI C) as [FI' C'].
  assert (X : FR (hstep st o) /\ FPI g (hstep st o) /\ J (hstep st o)).
  { destruct o as [e|]; cbn [hstep].
    - unfold step, insert_and_run.
      pose proof (insert_event_bview st e) as B. pose proof (insert_event_rstep st e) as RS. pose proof (insert_event_fsv st e) as Fs.
      destruct (insert_event st e) as [i s]. cbn [fst snd] in *.
      assert (Xs : FR s /\ FPI g s /\ J s) by (apply (fpj_ext g st); [apply fv_bview, B|exact B|exact Fs|auto]).
      destruct i; cbn [snd]; try exact Xs.
      apply run_consensus_fp; [apply (rinv_rstep st); auto|apply (binv_bview st); auto|
        apply (PeerSetProofs.finv_frames st); [apply bview_frames; exact B|exact FI]|
        apply (c10inv_ext g st); [apply bview_pview; exact B|exact C]|apply Xs|apply Xs|apply Xs].
    - destruct (fp_ext g st (process_sigpool st) (process_sigpool_fv st) (conj Hfr Hfp)) as [X' Y'].
      split; [exact X'|]. split; [exact Y'|]. apply (J_ext st); [|apply process_sigpool_fsv|exact Hj].
      pose proof (only_commit_sigpool st) as Tb. unfold tbl in Tb. inversion Tb. reflexivity. }
  constructor; [|apply hstep_binv; exact OK|exact FI'|exact C'|apply X|apply X|apply X].
  exact (proj2 (hstep_rtop st o (rinv_rtop st R)) F).
Qed.

Lemma hrun_failed_true ops : forall st, failed st = true -> failed (hrun st ops) = true.
Proof. induction ops as [|o ops IH]; intros st F; cbn [hrun fold_left]; [exact F|]. apply IH, hstep_failed_mono, F. Qed.

Lemma hrun_KP g ops : forall st, KP g st -> failed (hrun st ops) = false -> KP g (hrun st ops).
Proof.
  induction ops as [|o ops IH]; intros st K F; [exact K|].
  change (hrun st (o :: ops)) with (hrun (hstep st o) ops) in *.
  apply IH; [|exact F]. apply hstep_KP; [exact K|].
  destruct (failed (hstep st o)) eqn:E; [|reflexivity]. rewrite (hrun_failed_true ops _ E) in F. discriminate.
Qed.

Lemma KP_init self_ genesis oracle_ : self_ <> -1 -> KP genesis (init_hg self_ genesis oracle_).
Proof.
  intros Hs. destruct (init_hg_spec self_ genesis oracle_) as (_ & _ & _ & _ & _ & _ & _ & _ & _ & _ & F).
  constructor; [apply rinv_init|apply binv_init|apply PeerSetProofs.finv_init|apply c10inv_init; exact Hs| | |apply J_init].
  - intros R f. rewrite F, zget_empty. discriminate.
  - intros R f. rewrite F, zget_empty. discriminate.
Qed.

(** * THE PEERS FIELD OF A DELIVERED BLOCK *)
Theorem block_peers_spec all self_ genesis oracle_ ops d :
  self_ <> -1 -> ids_determine all -> Forall (hop_ok all) ops ->
  let st := hrun (init_hg self_ genesis oracle_) ops in
  failed st = false -> In d (delivered st) ->
  b_peers d = validators_at genesis (delivered st) (b_rr d) /\ get_peerset st (b_rr d) = Some (b_peers d).
Proof.
  intros Hs ID H st F Hd.
  pose proof (hrun_KP genesis ops _ (KP_init self_ genesis oracle_ Hs) F) as K. fold st in K.
  pose proof (hrun_ginv all self_ genesis oracle_ ops ID H) as G. fold st in G.
  destruct (delivered_block_payload all st d G Hd) as [Hz _].
  destruct (c_frames genesis st (kp_c _ _ K) d Hd) as [[F0 _] [Ep Er]].
  assert (E : b_peers d = validators_at genesis (delivered st) (b_rr d)) by (rewrite Ep; apply (proj1 (kp_fp _ _ K _ _ Hz))).
  split; [exact E|]. rewrite E. apply (lookup_is_effective_prefix self_ genesis oracle_ ops (b_rr d) Hs). lia.
Qed.

(** * The k-th delivered blocks of two nodes that respect the distance bound: everything but the frame hash *)
Definition cbodyD (d : block) := (b_index d, b_rr d, b_ts d, b_txs d, b_itxs d, b_peers d).
Section FinalPeers.
  Variables (all : list event) (g : peerset).
  Hypothesis ID : ids_determine all.
  Hypothesis SK : sigkeys_determine all.
  Hypothesis FF : fork_free all.
  Variables (s1 s2 : Z) (o1 o2 : list Z) (ops1 ops2 : list hop).
  Hypothesis S1 : s1 <> -1.
  Hypothesis S2 : s2 <> -1.
  Hypothesis H1 : Forall (hop_ok all) ops1.
  Hypothesis H2 : Forall (hop_ok all) ops2.
  Hypothesis B1 : gap_runb (init_hg s1 g o1) ops1 = true.
  Hypothesis B2 : gap_runb (init_hg s2 g o2) ops2 = true.
  Let st1 := hrun (init_hg s1 g o1) ops1.
  Let st2 := hrun (init_hg s2 g o2) ops2.
  Hypothesis F1 : failed st1 = false.
  Hypothesis F2 : failed st2 = false.

  Theorem blocks_agree_gap_full k d1 d2 :
    nth_error (delivered st1) k = Some d1 -> nth_error (delivered st2) k = Some d2 -> cbodyD d1 = cbodyD d2.
  Proof.
    intros Hk1 Hk2. destruct (gap_runs_along all g ID SK FF s1 s2 o1 o2 ops1 ops2 S1 S2 H1 H2 B1 B2 F1 F2) as [P [A1 A2]].
    pose proof (blocks_agree_along P all s1 s2 g g o1 o2 ops1 ops2 A1 A2 F1 F2 FF SK k d1 d2 Hk1 Hk2) as E. injection E as Ei Er Et Ex Ey.
    pose proof (nth_error_In _ _ Hk1) as Hd1. pose proof (nth_error_In _ _ Hk2) as Hd2.
    pose proof (block_peers_agree_along P all s1 s2 g g o1 o2 ops1 ops2 A1 A2 F1 F2 d1 d2 Hd1 Hd2 Er (proj2 (block_peers_spec all s1 g o1 ops1 d1 S1 ID H1 F1 Hd1))
                  (proj2 (block_peers_spec all s2 g o2 ops2 d2 S2 ID H2 F2 Hd2))) as Ep.
    unfold cbodyD. rewrite Ei, Er, Et, Ex, Ey, Ep. reflexivity.
  Qed.

  (* prefix form *)
  Corollary blocks_prefix_gap : (length (delivered st1) <= length (delivered st2))%nat ->
    map cbodyD (delivered st1) = firstn (length (delivered st1)) (map cbodyD (delivered st2)).
  Proof.
    intros Hlen. apply map_prefix_of_pointwise; [exact Hlen|]. exact blocks_agree_gap_full.
  Qed.
End FinalPeers.
