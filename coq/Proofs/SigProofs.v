(* C09: block signatures, anchor, self signatures -- invariants of every operation sequence.
   Built on the commit / process_sig footprints (HgFrames.v, PeerSetProofs.v) and the lifting
   sections [Lift], [LiftNoPool] of PeerSetProofs.v. *)
From Coq Require Import ZArith List Bool Lia ZifyBool Sorted.
From RecordUpdate Require Import RecordSet.
From V Require Import Model.ZMap Model.Quorum Model.Voting Model.HgImpl Model.PeerSetSpec Proofs.ZMapFacts
  Proofs.QuorumProofs Proofs.HgFrames Proofs.HgBlockFrames Proofs.BlockInv Proofs.PeerSetProofs.
Import ListNotations RecordSetNotations.
Open Scope Z_scope.
Ltac Zify.zify_post_hook ::= Z.div_mod_to_equations.

Lemma In_aget_some {A} (l : list (Z * A)) x w : In (x, w) l -> exists w', aget x l = Some w'.
Proof.
  induction l as [|[a b] l IH]; intros HI; [destruct HI|]. cbn [aget].
  destruct (Z.eqb_spec a x); [eauto|]. destruct HI as [E|HI]; [inversion E; subst; contradiction|auto].
Qed.

Lemma aget_In_fst {A} (l : list (Z * A)) x w : aget x l = Some w -> In x (map fst l).
Proof.
  induction l as [|[a b] l IH]; intros HI; [discriminate|]. cbn [aget] in HI. cbn [map fst].
  destruct (Z.eqb_spec a x); [left; auto|right; auto].
Qed.

Lemma aset_keys_NoDup {A} k (v : A) l : NoDup (map fst l) -> NoDup (map fst (aset k v l)).
Proof.
  induction l as [|[k' v'] r IH]; cbn [aset map fst]; intros H.
  - constructor; [intros []|constructor].
  - inversion H; subst. destruct (Z.eqb_spec k' k) as [->|Hne]; cbn [map fst]; [constructor; auto|].
    constructor; [|apply IH; auto].
    intros HI. apply in_map_iff in HI. destruct HI as [[k0 v0] [E HI]]. cbn in E; subst k0.
    destruct (In_aget_some _ _ _ HI) as [w' Hw'].
    rewrite aget_aset_other in Hw' by auto. apply H2. eapply aget_In_fst; eauto.
Qed.

Lemma aset_length_ge {A} k (v : A) l : (length l <= length (aset k v l))%nat.
Proof.
  induction l as [|[k' v'] r IH]; cbn [aset length]; [lia|]. destruct (Z.eqb k' k); cbn [length]; lia.
Qed.

Lemma aget_In {A} k (v : A) l : aget k l = Some v -> In (k, v) l.
Proof.
  induction l as [|[k' v'] r IH]; cbn [aget]; [discriminate|].
  destruct (Z.eqb_spec k' k) as [->|]; [intros H; inversion H; left; reflexivity|right; auto].
Qed.

Lemma aget_aset_cases {A} k k' (v v' : A) l :
  aget k' (aset k v l) = Some v' -> (k' = k /\ v' = v) \/ (k' <> k /\ aget k' l = Some v').
Proof.
  destruct (Z.eq_dec k k') as [->|Hne].
  - rewrite aget_aset_same. intros H; inversion H; auto.
  - rewrite aget_aset_other by auto. intros H. right. split; [congruence|exact H].
Qed.

Lemma sigpool_add_In l s t : In t (sigpool_add l s) -> In t l \/ t = s.
Proof.
  unfold sigpool_add. rewrite in_app_iff. intros [H|[H|[]]]; [|right; auto].
  apply filter_In in H. left. apply H.
Qed.

Lemma fold_sigpool_add_In sigs : forall l t, In t (fold_left sigpool_add sigs l) -> In t l \/ In t sigs.
Proof.
  induction sigs as [|s sigs IH]; intros l t H; cbn [fold_left] in H; [left; exact H|].
  destruct (IH _ _ H) as [X|X]; [|right; right; exact X].
  destruct (sigpool_add_In _ _ _ X) as [Y|Y]; [left; exact Y|right; left; auto].
Qed.

Lemma stored_delivered st i b :
  binv st -> zget i (blocks st) = Some b ->
  exists d, nth_error (delivered st) (Z.to_nat i) = Some d /\ In d (delivered st) /\ body b = body d.
Proof.
  intros OK Hb. destruct (b_idx st OK _ _ Hb) as [_ Hr]. pose proof (b_len st OK) as Hl.
  destruct (nth_error (delivered st) (Z.to_nat i)) as [d|] eqn:E.
  - exists d. split; [reflexivity|]. split; [eapply nth_error_In; eauto|].
    destruct (b_del st OK _ _ E) as [_ [b' [Hb' [Bd _]]]]. rewrite Z2Nat.id in Hb' by lia. congruence.
  - apply nth_error_None in E. lia.
Qed.

Definition sig_accepts (st : hg) (s : bsig) (b : block) (ps : peerset) : Prop :=
  zget (bs_index s) (blocks st) = Some b /\ get_peerset st (b_rr b) = Some ps /\
  mem_key (bs_validator s) (keys ps) = true /\ bs_over s = b_bodyid b.

Definition sig_recorded (b : block) (s : bsig) : block :=
  b <| b_sigs := aset (bs_validator s) (bs_over s) (b_sigs b) |>.

Lemma sig_recorded_fields b s :
  b_index (sig_recorded b s) = b_index b /\ b_rr (sig_recorded b s) = b_rr b /\
  b_bodyid (sig_recorded b s) = b_bodyid b /\ b_sigs (sig_recorded b s) = aset (bs_validator s) (bs_over s) (b_sigs b).
Proof. destruct b; cbn. auto. Qed.

(* C09_recorded_valid at the moment of recording: ProcessSigPool changes a block only by adding a
   signature (i) for a stored block, (ii) whose signer is in the peer set the table gives NOW for
   the block's round-received, (iii) over the node's own body of that block *)
Lemma process_sig_spec st s :
  binv st ->
  process_sig st s = st \/
  exists b ps, sig_accepts st s b ps /\
    (forall i, zget i (blocks (process_sig st s)) = if i =? bs_index s then Some (sig_recorded b s) else zget i (blocks st)) /\
    last_block (process_sig st s) = last_block st /\
    anchor (process_sig st s) =
      (if (trust_count ps <? Z.of_nat (length (b_sigs (sig_recorded b s)))) &&
          (match anchor st with None => true | Some a => a <? bs_index s end)
       then Some (bs_index s) else anchor st) /\
    sigpool (process_sig st s) = filter (fun t => negb (sig_key_eq t s)) (sigpool st).
Proof.
  intros OK. destruct (process_sig_cases st s) as [E|(b & ps & Hb & Hp & Hm & Ho & E)]; [left; exact E|right].
  exists b, ps. split; [repeat split; assumption|]. cbv zeta in E. fold (sig_recorded b s) in E.
  destruct (b_idx st OK _ _ Hb) as [Hi Hr]. change (b_index b) with (b_index (sig_recorded b s)) in Hi.
  repeat apply conj.
  - intros i. replace (blocks (process_sig st s)) with (blocks (store_set_block st (sig_recorded b s))) by (rewrite E; reflexivity).
    rewrite zget_blocks_store, Hi by lia. reflexivity.
  - replace (last_block (process_sig st s)) with (last_block (store_set_block st (sig_recorded b s))) by (rewrite E; reflexivity).
    rewrite last_block_store. lia.
  - replace (anchor (process_sig st s)) with (new_anchor (store_set_block st (sig_recorded b s)) (sig_recorded b s))
      by (rewrite E; reflexivity).
    unfold new_anchor. change (get_peerset _ _) with (get_peerset st (b_rr b)). rewrite Hp, Hi. reflexivity.
  - rewrite E. reflexivity.
Qed.

Lemma commit_facts g s f :
  binv s -> frame_ok f -> c10inv g s ->
  let b := block_of_frame (last_block s + 1) f s in
  exists bps bf, commit_post s b (commit (store_set_block s b) b) bps bf /\
    b_sigs b = [] /\ b_index b = last_block s + 1 /\ 0 <= b_rr b /\
    b_index bf = b_index b /\ b_rr bf = b_rr b /\ b_bodyid bf = hd (-1) (oracle s) /\
    b_sigs bf = (if mem_key (self s) (keys bps) then [(self s, hd (-1) (oracle s))] else []) /\
    (forall r, r < b_rr b + 6 -> get_peerset (commit (store_set_block s b) b) r = get_peerset s r).
Proof.
  intros OK FO CI. cbv zeta.
  destruct (fresh_block_facts s f OK FO) as (Bs & Bk & Bi & Br & Br0 & Bf & Bp).
  set (b := block_of_frame (last_block s + 1) f s) in *.
  destruct (commit_spec s b Bs Bk (c_self _ _ CI) (table_wf_nonempty _ (c_wf _ _ CI))) as [bps [bf CP]].
  exists bps, bf. split; [exact CP|].
  unfold commit_post in CP. cbv zeta in CP.
  destruct CP as (C1 & C2 & C3 & C4 & C5 & C6 & C7 & C8 & C9 & C10 & C11 & C12).
  destruct (committed_fields _ _ _ _ C2) as (G1 & G2 & G3 & G4 & G5 & G6 & G7).
  repeat split; auto.
  intros r Hr. unfold get_peerset. apply (f_equal fst) in C6. cbn [fst] in C6. rewrite C6.
  unfold replay_block. rewrite G2. apply (replay_step_no_retro (peersets s, validators s)); auto.
  exact (c_wf _ _ CI).
Qed.

(* more than TrustCount signatures is more than a third of the distinct validators; any
   signature when the set has at most one peer *)
Lemma trust_gt_third ps k : trust_count ps < k -> 3 * k > ps_len ps.
Proof.
  unfold trust_count, tc. pose proof (ps_len_le_slice ps) as L.
  assert (N : 0 <= ps_len ps) by (unfold ps_len; lia).
  destruct (ps_slice_len ps <=? 1) eqn:E; intros H; lia.
Qed.

Lemma trust_single ps k : ps_slice_len ps <= 1 -> 1 <= k -> trust_count ps < k.
Proof. unfold trust_count, tc. intros H Hk. replace (ps_slice_len ps <=? 1) with true by lia. lia. Qed.

Definition sigs_attributed (e : event) : Prop := forall s, In s (e_sigs e) -> bs_validator s = e_creator e.

Section C09.
  Variable genesis : peerset.
  Variable E : list event.     (* ghost: the events handed to InsertEvent, accepted or not *)
  Variable Att : bsig -> event -> Prop.   (* what the wire layer guarantees about a signature in an event *)

  (* the signature came in the payload of one of those events (and, with Att := "keyed by the
     creator", is attributed to the creator of that event) *)
  Definition carried (s : bsig) : Prop :=
    exists e, In e E /\ In s (e_sigs e) /\ Att s e.
  Definition Qev (e : event) : Prop := In e E /\ forall s, In s (e_sigs e) -> Att s e.

  Record c09inv (st : hg) : Prop := {
    s_c10 : c10inv genesis st;
    s_nodup : forall i b, zget i (blocks st) = Some b -> NoDup (map fst (b_sigs b));
    s_members : rr_increasing_list (delivered st) ->
      forall i b v o, zget i (blocks st) = Some b -> aget v (b_sigs b) = Some o ->
      exists ps, get_peerset st (b_rr b) = Some ps /\ mem_key v (keys ps) = true;
    s_members_some : forall i b v o, zget i (blocks st) = Some b -> aget v (b_sigs b) = Some o ->
      exists k ps, In (k, ps) (peersets st) /\ mem_key v (keys ps) = true;
    s_anchor : forall a, anchor st = Some a -> exists b, zget a (blocks st) = Some b /\
      (exists k ps, In (k, ps) (peersets st) /\ trust_count ps < Z.of_nat (length (b_sigs b))) /\
      (rr_increasing_list (delivered st) ->
       exists ps, get_peerset st (b_rr b) = Some ps /\ trust_count ps < Z.of_nat (length (b_sigs b)));
    s_self : forall s, In s (self_sigs st) -> bs_validator s = self st /\ 0 <= bs_index s /\
      exists d, nth_error (delivered st) (Z.to_nat (bs_index s)) = Some d /\ b_index d = bs_index s /\ bs_over s = b_bodyid d;
    s_pool : forall s, In s (sigpool st) -> carried s;
    s_attr : forall i b v o, zget i (blocks st) = Some b -> aget v (b_sigs b) = Some o ->
      v = self st \/ carried (mkBsig v i o)
  }.

  Lemma c09inv_ext_gen st st' :
    pview st' = pview st -> (forall s, In s (sigpool st') -> carried s) -> c09inv st -> c09inv st'.
  Proof.
    intros V HP [H1 H2 H3 H4 H5 H6 H7 H8].
    pose proof (c10inv_ext genesis st st' V H1) as H1'.
    destruct (pview_fields _ _ V) as (E1 & _ & E2 & E3 & _ & E4 & E5 & _ & E6).
    constructor; unfold get_peerset in *; rewrite ?E1, ?E2, ?E3, ?E4, ?E5, ?E6; auto.
  Qed.

  Lemma c09inv_ext st st' : pview st' = pview st -> sigpool st' = sigpool st -> c09inv st -> c09inv st'.
  Proof. intros V S H. apply (c09inv_ext_gen st st' V); [|exact H]. rewrite S. apply (s_pool st H). Qed.

  Lemma c09inv_insert st st' e :
    Qev e -> c09inv st -> pview st' = pview st -> sigpool st' = fold_left sigpool_add (e_sigs e) (sigpool st) -> c09inv st'.
  Proof.
    intros [QI QA] H V S. apply (c09inv_ext_gen st st' V); [|exact H]. rewrite S. intros s Hs.
    destruct (fold_sigpool_add_In _ _ _ Hs) as [X|X]; [apply (s_pool st H); exact X|].
    exists e. auto.
  Qed.

  (* [st'] is [st] with [nb] as the block of index [k], a table that has only grown, and the
     anchor evaluated again for [nb] against [ps], the peer set of its round-received.  A signature
     on [nb] is one of the block it replaces, or one by a member of [ps]: the node's own or a carried one *)
  Lemma c09inv_slot st st' k nb ps :
    c09inv st -> c10inv genesis st' ->
    (forall i, zget i (blocks st') = if i =? k then Some nb else zget i (blocks st)) ->
    (forall j p, In (j, p) (peersets st) -> In (j, p) (peersets st')) ->
    get_peerset st' (b_rr nb) = Some ps ->
    (rr_increasing_list (delivered st') -> rr_increasing_list (delivered st) /\
       forall i b0, zget i (blocks st) = Some b0 -> get_peerset st' (b_rr b0) = get_peerset st (b_rr b0)) ->
    anchor st' = (if (trust_count ps <? Z.of_nat (length (b_sigs nb))) &&
                     (match anchor st with None => true | Some a => a <? k end)
                  then Some k else anchor st) ->
    self st' = self st ->
    NoDup (map fst (b_sigs nb)) ->
    (forall b0, zget k (blocks st) = Some b0 -> b_rr nb = b_rr b0 /\ (length (b_sigs b0) <= length (b_sigs nb))%nat) ->
    (forall v o, aget v (b_sigs nb) = Some o ->
       (exists b0, zget k (blocks st) = Some b0 /\ aget v (b_sigs b0) = Some o) \/
       mem_key v (keys ps) = true /\ (v = self st \/ carried (mkBsig v k o))) ->
    (forall s, In s (self_sigs st') -> bs_validator s = self st' /\ 0 <= bs_index s /\
       exists d, nth_error (delivered st') (Z.to_nat (bs_index s)) = Some d /\ b_index d = bs_index s /\ bs_over s = b_bodyid d) ->
    (forall s, In s (sigpool st') -> carried s) ->
    c09inv st'.
  Proof.
    intros H CI' Gb Grow Gps Old Ga Gself Nd Same NewSig Self Pool.
    destruct (get_In _ _ _ Gps) as [kp Hkp].
    (* a signature on a block of [st'] stands on the block of that index in [st], or is new on [nb] *)
    assert (Sig : forall i b0 v o, zget i (blocks st') = Some b0 -> aget v (b_sigs b0) = Some o ->
              (exists b1, zget i (blocks st) = Some b1 /\ aget v (b_sigs b1) = Some o /\ b_rr b0 = b_rr b1) \/
              (b_rr b0 = b_rr nb /\ mem_key v (keys ps) = true /\ (v = self st \/ carried (mkBsig v i o)))).
    { intros i b0 v o. rewrite Gb. destruct (Z.eqb_spec i k) as [->|_]; [|intros Hb0 Hv; left; exists b0; auto].
      intros [= <-] Hv. destruct (NewSig v o Hv) as [(b1 & Hb1 & Hv1)|N]; [left; exists b1|right; auto].
      split; [exact Hb1|]. split; [exact Hv1|apply (Same b1 Hb1)]. }
    constructor.
    - exact CI'.
    - intros i b0. rewrite Gb. destruct (i =? k); [intros [= <-]; exact Nd|apply (s_nodup st H)].
    - intros S i b0 v o Hb0 Hv. destruct (Old S) as [S0 Og].
      destruct (Sig i b0 v o Hb0 Hv) as [(b1 & Hb1 & Hv1 & ->)|(-> & M & _)]; [|exists ps; auto].
      rewrite (Og i b1 Hb1). exact (s_members st H S0 i b1 v o Hb1 Hv1).
    - intros i b0 v o Hb0 Hv.
      destruct (Sig i b0 v o Hb0 Hv) as [(b1 & Hb1 & Hv1 & _)|(_ & M & _)]; [|exists kp, ps; auto].
      destruct (s_members_some st H i b1 v o Hb1 Hv1) as (j & p & A & B). exists j, p. auto.
    - intros a. rewrite Ga.
      destruct ((trust_count ps <? Z.of_nat (length (b_sigs nb))) && _) eqn:Cond.
      + intros [= <-]. exists nb. rewrite Gb, Z.eqb_refl.
        assert (T : trust_count ps < Z.of_nat (length (b_sigs nb))) by (clear - Cond; lia).
        split; [reflexivity|]. split; [exists kp, ps; auto|]. intros _. exists ps. auto.
      + intros Ha. destruct (s_anchor st H a Ha) as (b0 & Hb0 & (j & p & A & B) & Cnd).
        (* the anchor block may be the one replaced: same round-received, no fewer signatures *)
        assert (New : exists b1, zget a (blocks st') = Some b1 /\ b_rr b1 = b_rr b0 /\
                                 (length (b_sigs b0) <= length (b_sigs b1))%nat).
        { rewrite Gb. destruct (Z.eqb_spec a k) as [->|_]; [exists nb|exists b0; auto].
          destruct (Same b0 Hb0). auto. }
        destruct New as (b1 & Hb1 & Er & Le). exists b1. split; [exact Hb1|].
        split; [exists j, p; split; [auto|clear - B Le; lia]|].
        intros S. destruct (Old S) as [S0 Og]. destruct (Cnd S0) as (p1 & P1 & P2). exists p1.
        rewrite Er, (Og a b0 Hb0). split; [exact P1|clear - P2 Le; lia].
    - exact Self.
    - exact Pool.
    - intros i b0 v o Hb0 Hv. rewrite Gself.
      destruct (Sig i b0 v o Hb0 Hv) as [(b1 & Hb1 & Hv1 & _)|(_ & _ & C)]; [exact (s_attr st H i b1 v o Hb1 Hv1)|exact C].
  Qed.

  Lemma c09inv_commit s f :
    binv s -> finv s -> frame_ok f -> c09inv s ->
    let b := block_of_frame (last_block s + 1) f s in c09inv (commit (store_set_block s b) b).
  Proof.
    intros OK FI FO H. cbv zeta.
    pose proof (c10inv_commit genesis s f OK FI FO (s_c10 s H)) as CI'. cbv zeta in CI'.
    destruct (commit_facts genesis s f OK FO (s_c10 s H)) as [bps [bf (CP & Bs & Bi & Br0 & Fi & Fr & Fid & Fs & NR)]].
    set (b := block_of_frame (last_block s + 1) f s) in *.
    set (s' := commit (store_set_block s b) b) in *. clearbody s' b.
    unfold commit_post in CP. cbv zeta in CP.
    destruct CP as (C1 & C2 & C3 & C4 & C5 & C6 & C7 & C8 & C9 & C10 & C11 & C12).
    pose proof (b_lb s OK) as Hlb.
    apply (c09inv_slot s s' (b_index b) bf bps H CI' C3).
    - intros k ps HI. apply (f_equal fst) in C6. cbn [fst] in C6. rewrite C6. unfold replay_block.
      apply (replay_step_incl (peersets s, validators s)). exact HI.
    - rewrite Fr, NR by (clear; lia). exact C1.
    - (* under increasing round-received, older blocks are out of reach of the new table entry *)
      rewrite C5. intros S. destruct (sorted_snoc_inv _ _ S) as [S0 Lt]. split; [exact S0|].
      intros i b0 Hb0. destruct (stored_delivered s i b0 OK Hb0) as [d [_ [Hd Bd]]].
      destruct (body_fields _ _ Bd) as (_ & Er & _). specialize (Lt d Hd). apply NR. clear - Er Lt Fr. lia.
    - exact C7.
    - exact C9.
    - rewrite Fs. destruct (mem_key _ _); cbn; repeat constructor. intros [].
    - intros b0 Hb0. destruct (b_idx s OK _ _ Hb0) as [_ Hr]. clear - Hr Bi. lia.
    - intros v o. rewrite Fs. destruct (mem_key (self s) (keys bps)) eqn:M; [|discriminate]. cbn [aget].
      destruct (Z.eqb_spec (self s) v) as [<-|]; [intros _; right; auto|discriminate].
    - intros t. rewrite C9, C8, C5. intros Ht.
      assert (OldS : In t (self_sigs s) -> bs_validator t = self s /\ 0 <= bs_index t /\
                exists d, nth_error (delivered s ++ [bf]) (Z.to_nat (bs_index t)) = Some d /\ b_index d = bs_index t /\ bs_over t = b_bodyid d).
      { intros X. destruct (s_self s H t X) as [A [B [d [D1 D2]]]]. split; [exact A|]. split; [exact B|].
        exists d. split; [apply nth_error_app1_some; exact D1|exact D2]. }
      destruct (mem_key (self s) (keys bps)); [|auto].
      destruct (sigpool_add_In _ _ _ Ht) as [X| ->]; [auto|]. cbn [bs_validator bs_index bs_over].
      split; [reflexivity|]. split; [clear - Bi Hlb; lia|]. exists bf.
      pose proof (b_len s OK) as Hl.
      assert (Hn : Z.to_nat (b_index b) = length (delivered s)) by (clear - Bi Hl; lia).
      rewrite Hn, nth_error_app2, Nat.sub_diag by apply le_n. cbn. auto.
    - intros t. rewrite C10. apply (s_pool s H).
  Qed.

  Lemma c09inv_sig st s : binv st -> finv st -> c09inv st -> carried s -> c09inv (process_sig st s).
  Proof.
    intros OK _ H Rs.
    destruct (process_sig_spec st s OK) as [Eq|[b [ps [(A1 & A2 & A3 & A4) (B1 & B2 & B3 & B4)]]]]; [rewrite Eq; exact H|].
    destruct (process_sig_rest st s) as (R1 & R2 & R3 & R4 & R5 & R6).
    destruct (sig_recorded_fields b s) as (F1 & F2 & F3 & F4).
    set (st' := process_sig st s) in *.
    assert (Gp : forall r, get_peerset st' r = get_peerset st r) by (intros r; unfold get_peerset; rewrite R2; reflexivity).
    apply (c09inv_slot st st' (bs_index s) (sig_recorded b s) ps H (c10inv_sig genesis st s (s_c10 st H)) B1).
    - rewrite R2. auto.
    - rewrite Gp, F2. exact A2.
    - rewrite R1. auto.
    - exact B3.
    - exact R4.
    - rewrite F4. apply aset_keys_NoDup, (s_nodup st H _ _ A1).
    - rewrite A1. intros b0 [= <-]. rewrite F4. split; [exact F2|apply aset_length_ge].
    - intros v o. rewrite F4. intros Hv. destruct (aget_aset_cases _ _ _ _ _ Hv) as [[-> ->]|[_ Y]]; [right|left; eauto].
      split; [exact A3|right; destruct s; exact Rs].
    - rewrite R6, R4, R1. apply (s_self st H).
    - intros t. rewrite B4. intros Ht. apply filter_In in Ht. apply (s_pool st H), Ht.
  Qed.

  Lemma c09inv_init self_ oracle_ : self_ <> -1 -> c09inv (init_hg self_ genesis oracle_).
  Proof.
    intros Hs. destruct (init_hg_spec self_ genesis oracle_) as (B & _ & D & Pt & V & A & S & _ & SS & SP & _).
    constructor; rewrite ?B, ?A, ?SS, ?SP.
    - apply c10inv_init; exact Hs.
    - intros i b. rewrite zget_empty. discriminate.
    - intros _ i b v o. rewrite zget_empty. discriminate.
    - intros i b v o. rewrite zget_empty. discriminate.
    - discriminate.
    - intros s [].
    - intros s [].
    - intros i b v o. rewrite zget_empty. discriminate.
  Qed.

  Theorem hrun_c09inv self_ oracle_ ops :
    self_ <> -1 -> Forall (op_ok Qev) ops -> c09inv (hrun (init_hg self_ genesis oracle_) ops).
  Proof.
    intros Hs Ho.
    apply (hrun_lift Qev c09inv carried c09inv_ext c09inv_insert c09inv_commit (fun st s H => s_pool st H s) c09inv_sig ops); auto.
    - apply binv_init.
    - apply finv_init.
    - apply c09inv_init; exact Hs.
  Qed.
End C09.

Fixpoint events_of (ops : list hop) : list event :=
  match ops with
  | [] => []
  | HInsert e :: r => e :: events_of r
  | HSigPool :: r => events_of r
  end.

(* the wire layer attributes every gossiped signature to the creator of the event that carries it
   (ReadWireInfo: wevent.BlockSignatures(creatorBytes)) *)
Definition keyed_by_creator (s : bsig) (e : event) : Prop := bs_validator s = e_creator e.
Definition wire_attributed (ops : list hop) : Prop := Forall sigs_attributed (events_of ops).

Lemma ops_ok_events (A : bsig -> event -> Prop) ops :
  Forall (fun e => forall s, In s (e_sigs e) -> A s e) (events_of ops) -> Forall (op_ok (Qev (events_of ops) A)) ops.
Proof.
  intros W. assert (G : forall E, incl (events_of ops) E -> Forall (op_ok (Qev E A)) ops).
  { induction ops as [|o ops IH]; intros E HI; [constructor|].
    destruct o as [e|]; cbn [events_of] in *.
    - inversion W; subst. constructor; [constructor; split; [apply HI; left; reflexivity|assumption]|].
      apply IH; auto. intros x Hx. apply HI. right; exact Hx.
    - constructor; [constructor|apply IH; auto]. }
  apply G. apply incl_refl.
Qed.

(* with the wire guarantee: provenance and attribution of every pool entry / recorded signature *)
Theorem reach_c09inv_attr self_ genesis oracle_ ops :
  self_ <> -1 -> wire_attributed ops ->
  c09inv genesis (events_of ops) keyed_by_creator (hrun (init_hg self_ genesis oracle_) ops).
Proof. intros Hs W. apply hrun_c09inv; [exact Hs|apply ops_ok_events; exact W]. Qed.

(* without any assumption on the events (adversarial payloads included) *)
Theorem reach_c09inv self_ genesis oracle_ ops :
  self_ <> -1 -> c09inv genesis (events_of ops) (fun _ _ => True) (hrun (init_hg self_ genesis oracle_) ops).
Proof.
  intros Hs. apply hrun_c09inv; [exact Hs|apply ops_ok_events]. apply Forall_forall. intros e _ s _. exact I.
Qed.

(** * the anchor never moves backwards (no reset in hrun) *)
Section AnchorMono.
  Variable genesis : peerset.
  Variable a0 : Z.
  Definition anchor_ge (st : hg) : Prop := c10inv genesis st /\ exists a', anchor st = Some a' /\ a0 <= a'.

  Lemma anchor_ge_ext st st' : pview st' = pview st -> anchor_ge st -> anchor_ge st'.
  Proof.
    intros V [H1 H2]. split; [eapply c10inv_ext; eauto|]. unfold pview in V.
    assert (E : anchor st' = anchor st) by congruence. rewrite E. exact H2.
  Qed.

  Lemma anchor_ge_commit s f :
    binv s -> finv s -> frame_ok f -> anchor_ge s ->
    let b := block_of_frame (last_block s + 1) f s in anchor_ge (commit (store_set_block s b) b).
  Proof.
    intros OK FI FO [H1 [a' [Ha Hle]]]. cbv zeta. split; [apply c10inv_commit; auto|].
    destruct (commit_facts genesis s f OK FO H1) as [bps [bf (CP & _)]].
    unfold commit_post in CP. cbv zeta in CP. destruct CP as (_ & _ & _ & _ & _ & _ & C7 & _).
    rewrite Ha in C7. rewrite C7.
    match goal with |- context [if ?c then _ else _] => destruct c eqn:Cond end; [|eauto].
    eexists. split; [reflexivity|]. lia.
  Qed.

  Lemma anchor_ge_sig st s : binv st -> finv st -> anchor_ge st -> anchor_ge (process_sig st s).
  Proof.
    intros OK _ [H1 [a' [Ha Hle]]]. split; [apply c10inv_sig; exact H1|].
    destruct (process_sig_spec st s OK) as [Eq|[b [ps [_ (_ & _ & B3 & _)]]]]; [rewrite Eq; eauto|].
    rewrite Ha in B3. rewrite B3.
    match goal with |- context [if ?c then _ else _] => destruct c eqn:Cond end; [|eauto].
    eexists. split; [reflexivity|]. lia.
  Qed.
End AnchorMono.

Theorem anchor_monotone self_ genesis oracle_ ops ops' a :
  self_ <> -1 -> anchor (hrun (init_hg self_ genesis oracle_) ops) = Some a ->
  exists a', anchor (hrun (init_hg self_ genesis oracle_) (ops ++ ops')) = Some a' /\ a <= a'.
Proof.
  intros Hs Ha. rewrite hrun_app.
  destruct (hrun_c10inv self_ genesis oracle_ ops Hs) as [FI CI].
  pose proof (hrun_binv self_ genesis oracle_ ops) as OK.
  destruct (hrun_lift0 (anchor_ge genesis a) (anchor_ge_ext genesis a) (anchor_ge_commit genesis a)
              (anchor_ge_sig genesis a) ops' _ OK FI) as [_ [_ R]]; [|exact R].
  split; [exact CI|]. exists a. split; [exact Ha|lia].
Qed.

Lemma anchor_third genesis E Att st a :
  binv st -> c09inv genesis E Att st -> rr_increasing_list (delivered st) -> anchor st = Some a ->
  exists b ps, zget a (blocks st) = Some b /\ get_peerset st (b_rr b) = Some ps /\
    NoDup (map fst (b_sigs b)) /\
    (forall v, In v (map fst (b_sigs b)) -> In v (keys ps) /\ aget v (b_sigs b) = Some (b_bodyid b)) /\
    3 * Z.of_nat (length (map fst (b_sigs b))) > ps_len ps.
Proof.
  intros OK H S Ha. destruct (s_anchor _ _ _ _ H a Ha) as [b [Hb [_ Cnd]]].
  destruct (Cnd S) as [ps [Hp Ht]]. exists b, ps. split; [exact Hb|]. split; [exact Hp|].
  split; [eapply (s_nodup _ _ _ _ H); eauto|]. split.
  - intros v Hv. apply in_map_iff in Hv. destruct Hv as [[v' o] [Ev HI]]. cbn in Ev; subst v'.
    destruct (In_aget_some _ _ _ HI) as [o' Ho'].
    destruct (s_members _ _ _ _ H S a b v o' Hb Ho') as [ps' [Hp' Hm]].
    assert (ps' = ps) by congruence. subst ps'. split; [apply mem_key_In; exact Hm|].
    rewrite Ho'. f_equal. exact (b_valid st OK a b Hb v o' Ho').
  - rewrite map_length. apply trust_gt_third. exact Ht.
Qed.

(* lia's division equations are wanted in this file only *)
Ltac Zify.zify_post_hook ::= idtac.
