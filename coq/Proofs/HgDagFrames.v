(* Every consensus pass leaves the admitted DAG alone: the static part of each stored event
   (body, last ancestors, topological index), the key set of the event map and the
   per-creator indexes (up to new, empty participants) do not change. *)
From Coq Require Import ZArith List Bool Lia.
From RecordUpdate Require Import RecordSet.
From V Require Import Model.ZMap Model.Quorum Model.Voting Model.HgImpl Proofs.ZMapFacts Proofs.HgFrames.
Import ListNotations RecordSetNotations.
Open Scope Z_scope.

Definition ev_static_eq (E E' : zmap evst) : Prop :=
  forall x, option_map ev_static (zget x E') = option_map ev_static (zget x E).

Definition pev_ext (P P' : zmap pidx) : Prop :=
  forall c, zget c P' = zget c P \/ (zget c P = None /\ zget c P' = Some new_pidx).

Definition dag_frame (st st' : hg) : Prop :=
  ev_static_eq (events st) (events st') /\ pev_ext (pevents st) (pevents st') /\ topo st' = topo st.

Lemma ev_static_eq_refl E : ev_static_eq E E.
Proof. intros x; reflexivity. Qed.
Lemma ev_static_eq_trans E1 E2 E3 : ev_static_eq E1 E2 -> ev_static_eq E2 E3 -> ev_static_eq E1 E3.
Proof. intros H1 H2 x; rewrite H2, H1; reflexivity. Qed.
Lemma pev_ext_refl P : pev_ext P P.
Proof. intros c; left; reflexivity. Qed.
Lemma pev_ext_trans P1 P2 P3 : pev_ext P1 P2 -> pev_ext P2 P3 -> pev_ext P1 P3.
Proof.
  intros H1 H2 c. destruct (H2 c) as [E2|[N2 S2]], (H1 c) as [E1|[N1 S1]].
  - left; congruence.
  - right; split; congruence.
  - right; split; congruence.
  - congruence.
Qed.
Lemma dag_frame_refl st : dag_frame st st.
Proof. split; [apply ev_static_eq_refl|split; [apply pev_ext_refl|reflexivity]]. Qed.
Lemma dag_frame_trans s1 s2 s3 : dag_frame s1 s2 -> dag_frame s2 s3 -> dag_frame s1 s3.
Proof.
  intros [A1 [B1 C1]] [A2 [B2 C2]]. split; [eapply ev_static_eq_trans; eauto|].
  split; [eapply pev_ext_trans; eauto|congruence].
Qed.

(* a state that differs only in components outside events/pevents/topo *)
Lemma dag_frame_same st st' :
  events st' = events st -> pevents st' = pevents st -> topo st' = topo st -> dag_frame st st'.
Proof.
  intros E P T. unfold dag_frame. rewrite E, P. split; [apply ev_static_eq_refl|split; [apply pev_ext_refl|exact T]].
Qed.

Lemma dag_frame_nomemo st st' : nomemo st' = nomemo st -> dag_frame st st'.
Proof.
  intros H. apply dag_frame_same.
  - exact (f_equal events H).
  - exact (f_equal pevents H).
  - exact (f_equal topo H).
Qed.

(* updating an event in place without touching its static part *)
Lemma ev_static_eq_set E x es es' :
  zget x E = Some es -> ev_static es' = ev_static es -> ev_static_eq E (zset x es' E).
Proof.
  intros Hx Hs y. rewrite zget_zset.
  destruct (Z.eqb_spec x y) as [->|Hne]; cbn [andb]; [|reflexivity].
  destruct (Z.leb_spec 0 y); [|reflexivity]. rewrite Hx. cbn [option_map]. congruence.
Qed.

Lemma dag_frame_set_evst st x es es' :
  get_event st x = Some es -> ev_static es' = ev_static es -> dag_frame st (set_evst st x es').
Proof.
  intros Hx Hs. split; [exact (ev_static_eq_set _ _ _ _ Hx Hs)|split; [apply pev_ext_refl|reflexivity]].
Qed.

Lemma dag_frame_set_round st r ri : dag_frame st (set_round st r ri).
Proof. apply dag_frame_same; reflexivity. Qed.

Lemma fail_frame st : dag_frame st (fail st).
Proof. apply dag_frame_same; reflexivity. Qed.

Lemma dag_frame_set_pending st p : dag_frame st (st <| pending := p |>).
Proof. apply dag_frame_same; reflexivity. Qed.
Lemma dag_frame_set_rounds st m : dag_frame st (st <| rounds := m |>).
Proof. apply dag_frame_same; reflexivity. Qed.
Lemma dag_frame_set_undetermined st u : dag_frame st (st <| undetermined := u |>).
Proof. apply dag_frame_same; reflexivity. Qed.

(** The ordering passes *)
Lemma dag_frame_ok : ord_ok dag_frame (fun _ _ => True).
Proof.
  apply ord_ok_plain.
  - exact dag_frame_refl.
  - exact dag_frame_trans.
  - exact dag_frame_nomemo.
  - exact dag_frame_set_evst.
  - exact dag_frame_set_round.
  - exact fail_frame.
  - exact dag_frame_set_pending.
  - exact dag_frame_set_rounds.
  - exact dag_frame_set_undetermined.
Qed.

Lemma round_f_frame fuel st x : dag_frame st (snd (round_f fuel st x)).
Proof. apply dag_frame_nomemo, round_f_nomemo. Qed.
Lemma update_ancestor_fd_frame st e la : dag_frame st (update_ancestor_fd st e la).
Proof. exact (update_ancestor_fd_steps _ _ dag_frame_ok st e la). Qed.
Lemma divide_round_frame st x : dag_frame st (divide_round st x).
Proof. exact (divide_round_steps _ _ dag_frame_ok st x). Qed.
Lemma divide_lt_frame st x : dag_frame st (divide_lt st x).
Proof. exact (divide_lt_steps _ _ dag_frame_ok st x). Qed.
Lemma divide_one_frame st x : dag_frame st (divide_one st x).
Proof. exact (divide_one_steps _ _ dag_frame_ok st x). Qed.
Lemma divide_rounds_frame st : dag_frame st (divide_rounds st).
Proof. exact (divide_rounds_steps _ _ dag_frame_ok st). Qed.
Lemma decide_fame_round_frame s dec pr : dag_frame s (fst (decide_fame_round (s, dec) pr)).
Proof. exact (decide_fame_round_steps _ _ dag_frame_ok s dec pr). Qed.
Lemma decide_fame_frame st : dag_frame st (decide_fame st).
Proof. exact (decide_fame_steps _ _ dag_frame_ok st). Qed.
Lemma decide_rr_one_frame s und x : dag_frame s (fst (decide_rr_one (s, und) x)).
Proof. exact (decide_rr_one_steps _ _ dag_frame_ok s und x). Qed.
Lemma decide_round_received_frame st : dag_frame st (decide_round_received st).
Proof. exact (decide_round_received_steps _ _ dag_frame_ok st). Qed.

(** ProcessDecidedRounds and ProcessSigPool: the per-creator indexes grow by SetPeerSet only *)
Lemma dag_frame_round_rest st st' : round_rest st' = round_rest st -> dag_frame st st'.
Proof.
  intros H.
  pose proof (f_equal (fun '((ev, _, _, _, _, _, _, _, tp, _), (pe, _, _)) => (ev, pe, tp)) H)
    as [= E P T].
  exact (dag_frame_same _ _ E P T).
Qed.
Lemma dag_frame_sig_rest st st' : sig_rest st' = sig_rest st -> dag_frame st st'.
Proof. intros H. apply dag_frame_round_rest, round_rest_sig_rest, H. Qed.

Lemma get_frame_frame st rr : dag_frame st (snd (get_frame st rr)).
Proof. apply dag_frame_round_rest, get_frame_round_rest. Qed.

Lemma pev_ext_add P k : zget k P = None -> pev_ext P (zset k new_pidx P).
Proof.
  intros Hk c. rewrite zget_zset.
  destruct (Z.eqb_spec k c) as [->|Hne]; cbn [andb]; [|left; reflexivity].
  destruct (0 <=? c); [right; auto|left; reflexivity].
Qed.

Lemma set_peerset_frame st r ps st' : set_peerset st r ps = Some st' -> dag_frame st st'.
Proof.
  apply (set_peerset_steps dag_frame dag_frame_trans); [intros s t; apply dag_frame_same; reflexivity|].
  intros r0 s p. unfold sp_step. cbv zeta.
  destruct (zmem (pkey p) _) eqn:Hm; [apply dag_frame_same; reflexivity|].
  split; [apply ev_static_eq_refl|split; [|reflexivity]]. apply pev_ext_add.
  unfold zmem in Hm. destruct (zget _ _); [discriminate Hm|reflexivity].
Qed.

Lemma process_receipts_frame st rr itxs : dag_frame st (process_receipts st rr itxs).
Proof.
  exact (process_receipts_steps _ dag_frame_trans set_peerset_frame
           (fun _ _ H => dag_frame_sig_rest _ _ (f_equal fst H)) st rr itxs).
Qed.

Lemma process_round_frame s processed stop pr :
  dag_frame s (fst (fst (process_round (s, processed, stop) pr))).
Proof.
  exact (process_round_steps _ dag_frame_trans set_peerset_frame dag_frame_round_rest s processed stop pr).
Qed.

Lemma process_decided_rounds_frame st : dag_frame st (process_decided_rounds st).
Proof. exact (process_decided_rounds_steps _ dag_frame_trans set_peerset_frame dag_frame_round_rest st). Qed.

(** ProcessSigPool *)
Lemma dag_frame_set_sigpool st p : dag_frame st (st <| sigpool := p |>).
Proof. apply dag_frame_same; reflexivity. Qed.

Lemma process_sigpool_frame st : dag_frame st (process_sigpool st).
Proof. apply dag_frame_sig_rest, process_sigpool_sig_rest. Qed.

(** the consensus passes after an insertion *)
Lemma run_consensus_frame st : dag_frame st (run_consensus st).
Proof.
  apply run_consensus_preorder.
  - apply dag_frame_trans.
  - apply divide_rounds_frame.
  - apply decide_fame_frame.
  - apply decide_round_received_frame.
  - apply process_decided_rounds_frame.
Qed.
