(* The condition under which WitnessesDecided answers true for a round ([full_dec]), with static membership; the
   development over it is in Proofs/FamousSetD.v. *)
From Coq Require Import ZArith List Bool Lia ZifyBool Permutation.
From RecordUpdate Require Import RecordSet.
From V Require Import Model.ZMap Model.Quorum Model.HgImpl Proofs.ZMapFacts Proofs.FirstDesc Proofs.FdWalk Proofs.StronglySee
  Proofs.FameInv.
Import ListNotations RecordSetNotations.
Open Scope Z_scope.

(* all the round-r witnesses known to the state have a recorded fame, and they are a supermajority:
   the condition under which WitnessesDecided answers true (and sets the sticky flag) *)
Definition full_dec (g : peerset) (st : hg) (r : Z) : Prop :=
  super_majority g <= Z.of_nat (length (wits st r)) /\
  forall x, In x (wits st r) -> exists v, frec st r x v.

Lemma frec_in_wits st r x v : frec st r x v -> In x (wits st r).
Proof.
  intros [ri [Hg Ha]]. rewrite (wits_get_round st r ri Hg). unfold witnesses.
  apply in_map_iff. exists (x, (true, tri_of v)). split; [reflexivity|]. apply filter_In. split; [|reflexivity].
  apply aget_In. exact Ha.
Qed.

Lemma wl_created_nodup st r ri : NoDup (map fst (wl st r)) -> get_round st r = Some ri -> NoDup (map fst (ri_created ri)).
Proof. intros U Hg. unfold wl in U. rewrite Hg in U. unfold wl_of in U. rewrite map_map in U. exact U. Qed.

Lemma witness_created ri y : NoDup (map fst (ri_created ri)) -> In y (witnesses ri) ->
  exists f, aget y (ri_created ri) = Some (true, f).
Proof.
  intros U Hy. unfold witnesses in Hy. apply in_map_iff in Hy. destruct Hy as [[y' [w f]] [E Hy]]. cbn in E. subst y'.
  apply filter_In in Hy. destruct Hy as [Hin Hw]. cbn in Hw. subst w. exists f. apply ukeys_In_aget; assumption.
Qed.

(* no witness of the round is undecided, and the witnesses are a supermajority *)
Lemma full_dec_of_created g st r ri : NoDup (map fst (ri_created ri)) -> get_round st r = Some ri ->
  existsb (fun e : Z * (bool * trilean) => match snd e with (true, Undefined) => true | _ => false end) (ri_created ri) = false ->
  super_majority g <= Z.of_nat (length (witnesses ri)) -> full_dec g st r.
Proof.
  intros U Hg Ex Hsm.
  split; [rewrite (wits_get_round st r ri Hg); exact Hsm|].
  intros x Hx. rewrite (wits_get_round st r ri Hg) in Hx.
  destruct (witness_created ri x U Hx) as [f Ha].
  assert (Hf : f <> Undefined).
  { intros ->. rewrite <- not_true_iff_false in Ex. apply Ex, existsb_exists.
    exists (x, (true, Undefined)). split; [apply aget_In; exact Ha|reflexivity]. }
  destruct f; [contradiction|exists true|exists false]; exists ri; auto.
Qed.

(* WitnessesDecided answering true on a round whose flag is not yet set means full_dec *)
Lemma witnesses_decided_full_dec g st r ri : good g st -> get_round st r = Some ri ->
  ri_decided ri = false -> fst (witnesses_decided ri g) = true -> full_dec g st r.
Proof.
  intros G Hg Hd. unfold witnesses_decided. rewrite Hd.
  destruct (existsb _ _) eqn:Ex; [discriminate|]. cbn [fst]. intros Hsm. apply Z.leb_le in Hsm.
  apply (full_dec_of_created g st r ri (wl_created_nodup st r ri (c_tabu _ _ _ (gd_c _ _ G) r) Hg) Hg Ex Hsm).
Qed.

(* executable form of full_dec *)
Definition full_decb (g : peerset) (st : hg) (r : Z) : bool :=
  (super_majority g <=? Z.of_nat (length (wits st r))) &&
  forallb (fun x => match get_round st r with
                    | Some ri => match aget x (ri_created ri) with
                                 | Some (true, TTrue) | Some (true, TFalse) => true
                                 | _ => false end
                    | None => false end) (wits st r).

Lemma full_decb_sound g st r : full_decb g st r = true -> full_dec g st r.
Proof.
  unfold full_decb. intros H. apply andb_true_iff in H. destruct H as [H1 H2].
  split; [apply Z.leb_le; exact H1|]. rewrite forallb_forall in H2. intros x Hx. specialize (H2 x Hx).
  destruct (get_round st r) as [ri|] eqn:Hg; [|discriminate].
  destruct (aget x (ri_created ri)) as [[[|] [| |]]|] eqn:Ha; try discriminate.
  - exists true, ri. auto.
  - exists false, ri. auto.
Qed.
