(* C13: the frame an honest peer serves satisfies [frame_shape] -- distinct non-negative event
   identifiers over roots + events, non-negative rounds, peer-set table sorted -- for every
   reachable serving state under static membership.  Built on the frame equations FE of
   Proofs/FrameInv.v (roots = roots_fn of self-parent chains / last consensus events of lower rounds).
   Then, for a node that fast-forwards from such a peer: C02 for the blocks it delivers afterwards
   ([after_reset_served]), C07 for the events it admits afterwards ([admitted_after_reset_served]),
   and both under the premises the runner evaluates on every fast-forward ([after_reset_checked]). *)
From Coq Require Import ZArith List Bool Lia ZifyBool Permutation Sorted.
From RecordUpdate Require Import RecordSet.
From V Require Import Model.ZMap Model.Quorum Model.HgImpl Model.HgReset Proofs.ZMapFacts Proofs.AdmissionProofs
  Proofs.Ancestry Proofs.BlockInv Proofs.OrderProofs Proofs.Static Proofs.FirstDesc Proofs.NoFail Proofs.FrameFn
  Proofs.FrameInv Proofs.BlockAgree Proofs.ResetProofs Proofs.ResetServer Proofs.ResetMemo Proofs.ResetAfter
  Proofs.ResetOrder Proofs.ResetDag.
From V Require Import Proofs.FameInvD Proofs.RoundReceivedD.
Import ListNotations RecordSetNotations.
Open Scope Z_scope.

Section Chain.
  Variables (all : list event) (S : hg).
  Hypothesis G : ginv all S.
  Hypothesis NF : failed S = false.
  Let OK : dag_ok S := g_dag _ _ (gi_core _ _ G).

  Definition lt_of (x : Z) : Z := match zget x (lt_memo S) with Some t => t | None => 0 end.

  Lemma stored_lt x ex : get_event S x = Some ex -> ev_lt ex = Some (lt_of x) /\ zget x (lt_memo S) = Some (lt_of x).
  Proof.
    intros Hx. destruct (ev_lt ex) as [t|] eqn:Et; [|exfalso; apply (gi_all _ _ G NF x ex Hx Et)].
    pose proof (l_ev _ (g_l _ _ (gi_core _ _ G)) x ex t Hx Et) as M. unfold lt_of. rewrite M. auto.
  Qed.

  Lemma sp_stored x ex : get_event S x = Some ex -> sp_of S x <> -1 ->
    exists ep, get_event S (sp_of S x) = Some ep /\ e_creator (ev_e ep) = e_creator (ev_e ex) /\
               e_index (ev_e ep) = e_index (ev_e ex) - 1 /\ lt_of (sp_of S x) < lt_of x.
  Proof.
    intros Hx Hn. unfold sp_of in *. rewrite Hx in *.
    destruct (d_sp S OK x ex Hx) as [[Hs _]|[ps [Hps [Hc Hi]]]]; [congruence|].
    destruct (stored_lt x ex Hx) as [Et _].
    destruct (lamport_parent_lt all S x ex (lt_of x) (e_sp (ev_e ex)) G Hx Et (or_introl eq_refl) Hn) as [ep [tp [Hep [Htp Hlt]]]].
    rewrite Hps in Hep. inversion Hep; subst ep. destruct (stored_lt _ ps Hps) as [Et' _]. rewrite Et' in Htp. inversion Htp.
    exists ps. split; [exact Hps|split; [exact Hc|split; [clear - Hi; lia|subst tp; exact Hlt]]].
  Qed.

  (* every element of the chain below h is a stored event of h's creator, lower in index and in time *)
  Lemma sp_chain_spec n : forall h he, get_event S h = Some he ->
    forall x, In x (sp_chain S h n) ->
      exists ex, get_event S x = Some ex /\ e_creator (ev_e ex) = e_creator (ev_e he) /\
                 e_index (ev_e ex) < e_index (ev_e he) /\ lt_of x < lt_of h.
  Proof.
    induction n as [|n IH]; intros h he Hh x; cbn [sp_chain]; [intros []|].
    destruct (Z.eqb_spec (sp_of S h) (-1)) as [E|Hne]; [intros []|].
    destruct (sp_stored h he Hh Hne) as [ep [Hep [Hc [Hi Hlt]]]].
    intros [<-|Hin]; [exists ep; split; [exact Hep|split; [exact Hc|split; [clear - Hi; lia|exact Hlt]]]|].
    destruct (IH _ ep Hep x Hin) as [ex [Hx [Hcx [Hix Hltx]]]].
    exists ex. split; [exact Hx|split; [congruence|clear - Hi Hix Hlt Hltx; lia]].
  Qed.

  Lemma sp_chain_nodup n : forall h he, get_event S h = Some he -> NoDup (h :: sp_chain S h n).
  Proof.
    induction n as [|n IH]; intros h he Hh; cbn [sp_chain]; [constructor; [intros []|constructor]|].
    destruct (Z.eqb_spec (sp_of S h) (-1)) as [E|Hne]; [constructor; [intros []|constructor]|].
    destruct (sp_stored h he Hh Hne) as [ep [Hep _]].
    constructor; [|apply (IH _ ep Hep)].
    intros Hin. destruct (sp_chain_spec (Datatypes.S n) h he Hh h) as [ex [Hx [_ [Hi _]]]].
    { cbn [sp_chain]. destruct (Z.eqb_spec (sp_of S h) (-1)); [contradiction|exact Hin]. }
    rewrite Hh in Hx. inversion Hx; subst. lia.
  Qed.

  Lemma fe_of_id x : fe_id (fe_of S x) = x.
  Proof.
    unfold fe_of. destruct (create_frame_event S x) as [fe|] eqn:E; [|reflexivity].
    apply (create_frame_event_spec S x fe E).
  Qed.

  Lemma root_fn_ids h : map fe_id (root_fn S h) = if h =? -1 then [] else rev (h :: sp_chain S h ROOT_DEPTH).
  Proof.
    unfold root_fn. destruct (h =? -1); [reflexivity|]. rewrite map_rev, map_map.
    f_equal. rewrite <- (map_id (h :: sp_chain S h ROOT_DEPTH)) at 2. apply map_ext. intros x. apply fe_of_id.
  Qed.
End Chain.

Section ChainRounds.
  Variables (g : peerset) (S : hg).
  Hypothesis I : cinv g None S.

  Lemma sp_round_le x r : rmemo S x = Some r -> sp_of S x <> -1 ->
    exists rp, rmemo S (sp_of S x) = Some rp /\ rp <= r.
  Proof.
    intros Hr Hn. destruct (c_rdom _ _ _ I x r Hr) as [_ [ex [Hx [spr [opr [Hs [_ [H1 H2]]]]]]]].
    unfold sp_of in *. rewrite Hx in *. unfold prnd in Hs. destruct (Z.eqb_spec (e_sp (ev_e ex)) (-1)); [contradiction|].
    exists spr. split; [exact Hs|]. destruct (Z.eq_dec (Z.max spr opr) (-1)) as [E|E].
    - specialize (H1 E). clear - H1 E. lia.
    - destruct (H2 E) as [_ ->]. clear. destruct (_ <=? _); lia.
  Qed.

  Lemma sp_chain_round_le n : forall h r, rmemo S h = Some r ->
    forall x, In x (sp_chain S h n) -> exists rx, rmemo S x = Some rx /\ rx <= r.
  Proof.
    induction n as [|n IH]; intros h r Hr x; cbn [sp_chain]; [intros []|].
    destruct (Z.eqb_spec (sp_of S h) (-1)) as [E|Hne]; [intros []|].
    destruct (sp_round_le h r Hr Hne) as [rp [Hrp Hle]].
    intros [<-|Hin]; [exists rp; auto|]. destruct (IH _ rp Hrp x Hin) as [rx [Hrx Hlx]]. exists rx. split; [exact Hrx|lia].
  Qed.
End ChainRounds.

Lemma aget_roots_insert c r roots k : aget c roots = None ->
  aget k (roots_insert c r roots) = if c =? k then Some r else aget k roots.
Proof.
  induction roots as [|[c' r'] rest IH]; cbn [roots_insert aget]; intros Hn.
  - destruct (c =? k); reflexivity.
  - destruct (Z.eqb_spec c' c) as [->|Hne]; [discriminate|].
    destruct (Z.ltb_spec c c').
    + cbn [aget]. destruct (Z.eqb_spec c k); [reflexivity|]. reflexivity.
    + destruct (Z.eqb_spec c c'); [congruence|]. cbn [aget]. rewrite (IH Hn).
      destruct (Z.eqb_spec c' k) as [->|]; [|reflexivity]. destruct (Z.eqb_spec c k); [congruence|reflexivity].
Qed.

Lemma roots_insert_perm c r roots : aget c roots = None -> Permutation (roots_insert c r roots) ((c, r) :: roots).
Proof.
  induction roots as [|[c' r'] rest IH]; cbn [roots_insert aget]; intros Hn; [apply Permutation_refl|].
  destruct (Z.eqb_spec c' c) as [->|Hne]; [discriminate|].
  destruct (c <? c'); [apply Permutation_refl|]. destruct (Z.eqb_spec c c'); [congruence|].
  eapply perm_trans; [apply perm_skip, IH, Hn|apply perm_swap].
Qed.

Lemma aget_none_keys {A} c (l : list (Z * A)) : aget c l = None <-> ~ In c (map fst l).
Proof.
  induction l as [|[k v] r IH]; cbn [aget map fst In]; [tauto|].
  destruct (Z.eqb_spec k c) as [->|Hne]; [split; [discriminate|intros H; exfalso; apply H; auto]|].
  rewrite IH. tauto.
Qed.

Lemma roots_insert_nodup c r roots : aget c roots = None -> NoDup (map fst roots) -> NoDup (map fst (roots_insert c r roots)).
Proof.
  intros Hn ND. eapply Permutation_NoDup; [apply Permutation_map, Permutation_sym, roots_insert_perm; exact Hn|].
  cbn [map fst]. constructor; [apply aget_none_keys; exact Hn|exact ND].
Qed.

Section Folds.
  Variables (cre spf : Z -> Z) (rootf : Z -> Z -> list frameev) (P : Z -> list frameev -> Prop).

  (* phase 1: one root per creator of a frame event, made from the self-parent of the creator's FIRST event *)
  Lemma roots1_inv sorted :
    (forall pre fe post, sorted = pre ++ fe :: post -> (forall x, In x pre -> cre (fe_id x) <> cre (fe_id fe)) ->
       P (cre (fe_id fe)) (rootf (cre (fe_id fe)) (spf (fe_id fe)))) ->
    roots_all P (roots1_fn cre spf rootf sorted []) /\ NoDup (map fst (roots1_fn cre spf rootf sorted [])) /\
    (forall fe, In fe sorted -> aget (cre (fe_id fe)) (roots1_fn cre spf rootf sorted []) <> None) /\
    (forall c, aget c (roots1_fn cre spf rootf sorted []) <> None -> exists fe, In fe sorted /\ cre (fe_id fe) = c).
  Proof.
    intros HP. unfold roots1_fn.
    assert (Gen : forall todo done roots, sorted = done ++ todo ->
      roots_all P roots -> NoDup (map fst roots) ->
      (forall fe, In fe done -> aget (cre (fe_id fe)) roots <> None) ->
      (forall c, aget c roots <> None -> exists fe, In fe done /\ cre (fe_id fe) = c) ->
      let res := fold_left (fun roots fe =>
                   let p := cre (fe_id fe) in
                   match aget p roots with
                   | Some _ => roots
                   | None => roots_insert p (rootf p (spf (fe_id fe))) roots
                   end) todo roots in
      roots_all P res /\ NoDup (map fst res) /\ (forall fe, In fe sorted -> aget (cre (fe_id fe)) res <> None) /\
      (forall c, aget c res <> None -> exists fe, In fe sorted /\ cre (fe_id fe) = c)).
    { induction todo as [|fe todo IH]; intros done roots E A N K B; cbn [fold_left].
      - rewrite app_nil_r in E. subst done. auto.
      - cbv zeta. apply (IH (done ++ [fe])); [rewrite <- app_assoc; exact E| | | |].
        + destruct (aget (cre (fe_id fe)) roots) eqn:Ag; [exact A|].
          apply roots_insert_all; [|exact A]. apply (HP done fe todo E).
          intros x Hx C. apply (K x Hx). rewrite C. exact Ag.
        + destruct (aget (cre (fe_id fe)) roots) eqn:Ag; [exact N|]. apply roots_insert_nodup; assumption.
        + intros x Hx. apply in_app_iff in Hx. destruct (aget (cre (fe_id fe)) roots) eqn:Ag.
          * destruct Hx as [Hx|[<-|[]]]; [apply K; exact Hx|congruence].
          * rewrite aget_roots_insert by exact Ag. destruct (Z.eqb_spec (cre (fe_id fe)) (cre (fe_id x))); [discriminate|].
            destruct Hx as [Hx|[<-|[]]]; [apply K; exact Hx|congruence].
        + intros c Hc. destruct (aget (cre (fe_id fe)) roots) eqn:Ag.
          * destruct (B c Hc) as [x [Hx Ex]]. exists x. split; [apply in_app_iff; auto|exact Ex].
          * rewrite aget_roots_insert in Hc by exact Ag. destruct (Z.eqb_spec (cre (fe_id fe)) c) as [<-|Hne].
            -- exists fe. split; [apply in_app_iff; right; left; reflexivity|reflexivity].
            -- destruct (B c Hc) as [x [Hx Ex]]. exists x. split; [apply in_app_iff; auto|exact Ex]. }
    apply (Gen sorted [] []); [reflexivity|intros c l []|constructor|intros fe []|intros c Hc; exfalso; apply Hc; reflexivity].
  Qed.

  (* phase 2: only for keys that have no root yet; the keys of phase 1 are kept *)
  Lemma roots2_inv (rep : list peer) frs lce rr : forall roots0,
    roots_all P roots0 -> NoDup (map fst roots0) ->
    (forall k, aget k roots0 = None -> P k (rootf k (lce_head lce k))) ->
    roots_all P (roots2_fn rootf rep frs lce rr roots0) /\ NoDup (map fst (roots2_fn rootf rep frs lce rr roots0)) /\
    (forall k, aget k roots0 <> None -> aget k (roots2_fn rootf rep frs lce rr roots0) <> None).
  Proof.
    unfold roots2_fn. induction rep as [|p rep IH]; intros roots0 A N HP; cbn [fold_left]; [auto|].
    destruct (aget (pid p) frs) as [fr|]; [|apply IH; assumption].
    destruct (rr <? fr); [apply IH; assumption|].
    destruct (aget (pkey p) roots0) eqn:Ag; [apply IH; assumption|].
    destruct (IH (roots_insert (pkey p) (rootf (pkey p) (lce_head lce (pkey p))) roots0)) as [A' [N' K']].
    - apply roots_insert_all; [apply HP; exact Ag|exact A].
    - apply roots_insert_nodup; assumption.
    - intros k Hk. rewrite aget_roots_insert in Hk by exact Ag. destruct (pkey p =? k); [discriminate|]. apply HP; exact Hk.
    - split; [exact A'|split; [exact N'|]]. intros k Hk. apply K'. rewrite aget_roots_insert by exact Ag.
      destruct (pkey p =? k); [discriminate|exact Hk].
  Qed.
End Folds.

Lemma nodup_flat_roots (roots : list (Z * list frameev)) :
  NoDup (map fst roots) ->
  (forall c l, In (c, l) roots -> NoDup (map fe_id l)) ->
  (forall c l c' l' x, In (c, l) roots -> In (c', l') roots -> c <> c' -> In x (map fe_id l) -> ~ In x (map fe_id l')) ->
  NoDup (map fe_id (flat_map snd roots)).
Proof.
  induction roots as [|[c l] rest IH]; intros ND Each Dis; cbn [flat_map snd map]; [constructor|].
  cbn [map fst] in ND. inversion ND as [|? ? Hc ND']; subst. rewrite map_app.
  apply NoDup_app_intro'.
  - apply (Each c l). left; reflexivity.
  - apply IH; [exact ND'|intros c0 l0 H0; apply (Each c0 l0); right; exact H0|].
    intros c0 l0 c1 l1 x H0 H1. apply Dis; right; assumption.
  - intros x Hx Hin.
    assert (Hx2 : exists c' l', In (c', l') rest /\ In x (map fe_id l')).
    { clear - Hin. induction rest as [|[c1 l1] rest IHr]; cbn [flat_map snd map] in Hin; [destruct Hin|].
      rewrite map_app in Hin. apply in_app_iff in Hin. destruct Hin as [H|H].
      - exists c1, l1. split; [left; reflexivity|exact H].
      - destruct (IHr H) as [c' [l' [A B]]]. exists c', l'. split; [right; exact A|exact B]. }
    destruct Hx2 as [c' [l' [Hin' Hx']]].
    apply (Dis c l c' l' x); [left; reflexivity|right; exact Hin'| |exact Hx|exact Hx'].
    intros ->. apply Hc. apply in_map_iff. exists (c', l'). auto.
Qed.

Lemma sorted_after {A} (R : A -> A -> Prop) pre x post :
  StronglySorted R (pre ++ x :: post) -> forall y, In y post -> R x y.
Proof.
  induction pre as [|a pre IH]; cbn [app]; intros S y Hy; inversion S as [|? ? S' F]; subst.
  - rewrite Forall_forall in F. apply F. exact Hy.
  - apply IH; assumption.
Qed.

Lemma feok_bounds st fe r R : frame_event_ok st fe -> rmemo st (fe_id fe) = Some r -> r < R ->
  0 <= fe_id fe /\ 0 <= fe_round fe /\ fe_round fe < R.
Proof.
  intros (Mr & _ & _ & _ & P1 & P2) Hr Hlt. unfold rmemo in Hr. rewrite Hr in Mr. injection Mr as ->. auto.
Qed.

Section Shape.
  Variables (g : peerset) (all : list event) (S : hg) (R : Z) (f : frame).
  Hypothesis N : nf_inv g all S.
  Hypothesis Hf : zget R (frames S) = Some f.
  Hypothesis E : FE g S R f.

  Let G : ginv all S := nf_g _ _ _ N.
  Let NF : failed S = false := nf_f _ _ _ N.
  Let OK : dag_ok S := g_dag _ _ (gi_core _ _ G).
  Let FR : fready g S := nf_fready g all S N.

  (* frame events are received in a later round than the one they were created in *)
  Hypothesis RR : forall R0 f0 fe, zget R0 (frames S) = Some f0 -> In fe (f_events f0) ->
                  exists r, rmemo S (fe_id fe) = Some r /\ r < R0.

  Let ids := map fe_id (f_events f).

  (* what is known of a root: the chain below a head of the key's creator, disjoint from the frame's events *)
  Definition rootP (c : Z) (l : list frameev) : Prop :=
    exists h, l = root_fn S h /\
      (h = -1 \/ exists he, get_event S h = Some he /\ e_creator (ev_e he) = c) /\
      (h <> -1 -> forall x, In x (h :: sp_chain S h ROOT_DEPTH) -> ~ In x ids) /\
      (h <> -1 -> exists r, rmemo S h = Some r /\ r < R).

  Lemma frame_facts : f_round f = R /\ lt_sorted (f_events f) /\ NoDup ids /\
    (forall fe, In fe (f_events f) -> exists ex, get_event S (fe_id fe) = Some ex /\ lt_of S (fe_id fe) = fe_lt fe).
  Proof.
    destruct (gi_f _ _ G R f Hf) as [A [B [C [D [F0 _]]]]]. split; [exact A|split; [exact B|split; [exact C|]]].
    intros fe Hin. destruct (F0 fe Hin) as [ex Hex]. exists ex. split; [exact Hex|].
    destruct (D fe Hin) as [_ M]. unfold lt_of. rewrite M. reflexivity.
  Qed.

  Lemma chain_member h he x : get_event S h = Some he -> In x (h :: sp_chain S h ROOT_DEPTH) ->
    exists ex, get_event S x = Some ex /\ e_creator (ev_e ex) = e_creator (ev_e he) /\ lt_of S x <= lt_of S h.
  Proof.
    intros Hh [<-|Hin]; [exists he; split; [exact Hh|split; [reflexivity|apply Z.le_refl]]|].
    destruct (sp_chain_spec all S G NF ROOT_DEPTH h he Hh x Hin) as [ex [Hx [Hc [_ Hlt]]]].
    exists ex. split; [exact Hx|split; [exact Hc|apply Z.lt_le_incl, Hlt]].
  Qed.

  Lemma phase1_root pre fe post :
    f_events f = pre ++ fe :: post ->
    (forall x, In x pre -> creator_of S (fe_id x) <> creator_of S (fe_id fe)) ->
    rootP (creator_of S (fe_id fe)) (root_fn S (sp_of S (fe_id fe))).
  Proof.
    intros Ev First. destruct frame_facts as [_ [Srt [_ Facts]]].
    assert (Hin : In fe (f_events f)) by (rewrite Ev; apply in_app_iff; right; left; reflexivity).
    destruct (Facts fe Hin) as [ex [Hx Lx]].
    assert (Cx : creator_of S (fe_id fe) = e_creator (ev_e ex)) by (unfold creator_of; rewrite Hx; reflexivity).
    exists (sp_of S (fe_id fe)). split; [reflexivity|]. split; [|split].
    - destruct (Z.eq_dec (sp_of S (fe_id fe)) (-1)) as [?|Hne]; [left; assumption|right].
      destruct (sp_stored all S G NF _ ex Hx Hne) as [ep [Hep [Hc _]]]. exists ep. split; [exact Hep|congruence].
    - intros Hne y Hy Hids.
      destruct (sp_stored all S G NF _ ex Hx Hne) as [ep [Hep [Hc [_ Hlt]]]].
      destruct (chain_member _ ep y Hep Hy) as [ey [Hey [Hcy Hly]]].
      apply in_map_iff in Hids. destruct Hids as [e' [Eid Hin']]. rewrite Ev in Hin'. apply in_app_iff in Hin'.
      destruct Hin' as [Hpre|[<-|Hpost]].
      + apply (First e' Hpre). rewrite Cx. unfold creator_of. rewrite Eid, Hey. congruence.
      + subst y. clear - Hly Hlt. lia.
      + assert (Hin2 : In e' (f_events f)) by (rewrite Ev; apply in_app_iff; right; right; exact Hpost).
        destruct (Facts e' Hin2) as [_ [_ Le']]. rewrite Ev in Srt.
        pose proof (sorted_after _ pre fe post Srt e' Hpost) as Hle. cbn beta in Hle. subst y. clear - Hly Hlt Hle Le' Lx. lia.
    - intros Hne. destruct (RR R f fe Hf Hin) as [r [Hr Hlt]].
      destruct (sp_round_le g S (nf_c _ _ _ N) _ r Hr Hne) as [rp [Hrp Hle]]. exists rp. split; [exact Hrp|exact (Z.le_lt_trans _ _ _ Hle Hlt)].
  Qed.

  Lemma lce_head_ok k h : 0 <= R -> aget k (lce_fn (creator_of S) (frames S) (Z.to_nat R)) = Some h ->
    (exists he, get_event S h = Some he /\ e_creator (ev_e he) = k) /\ exists r, rmemo S h = Some r /\ r < R.
  Proof.
    intros HR H. destruct (lce_fn_creator _ _ _ _ _ H) as [Hc [R0 [f0 [HR0 [Hf0 Hin]]]]].
    apply in_map_iff in Hin. destruct Hin as [fe [Eid Hfe]].
    destruct (gi_f _ _ G R0 f0 Hf0) as [_ [_ [_ [_ [F0 _]]]]]. destruct (F0 fe Hfe) as [ex Hex]. rewrite Eid in Hex.
    split; [exists ex; split; [exact Hex|]; unfold creator_of in Hc; rewrite Hex in Hc; exact Hc|].
    destruct (RR R0 f0 fe Hf0 Hfe) as [r [Hr Hlt]]. rewrite Eid in Hr. exists r. split; [exact Hr|clear - HR HR0 Hlt; lia].
  Qed.

  Theorem FE_frame_shape : frame_shape f /\ Forall (fun fe => fe_round fe < R) (all_frame_events f).
  Proof.
    destruct frame_facts as [_ [Srt [NDe Facts]]].
    assert (HR0 : 0 <= R) by (eapply zget_some_nonneg; exact Hf).
    set (lce := lce_fn (creator_of S) (frames S) (Z.to_nat R)).
    set (roots1 := roots1_fn (creator_of S) (sp_of S) (fun _ h => root_fn S h) (f_events f) []).
    destruct (roots1_inv (creator_of S) (sp_of S) (fun _ h => root_fn S h) rootP (f_events f) phase1_root) as [A1 [N1 [K1 _]]].
    fold roots1 in A1, N1, K1.
    destruct (roots2_inv (fun _ h => root_fn S h) rootP (repertoire S) (first_rounds S) lce R roots1 A1 N1) as [A2 [N2 _]].
    { intros k Hk. exists (lce_head lce k). split; [reflexivity|]. unfold lce_head.
      destruct (aget k lce) as [h|] eqn:Al; [|split; [left; reflexivity|split; intros C; contradiction]].
      destruct (lce_head_ok k h HR0 Al) as [[he [Hhe Hc]] Hrd]. split; [right; exists he; auto|]. split; [|intros _; exact Hrd].
      intros _ y Hy Hids. destruct (chain_member h he y Hhe Hy) as [ey [Hey [Hcy _]]].
      apply in_map_iff in Hids. destruct Hids as [e' [Eid Hin']].
      apply (K1 e' Hin'). replace (creator_of S (fe_id e')) with k; [exact Hk|].
      unfold creator_of. rewrite Eid, Hey. congruence. }
    assert (Er : f_roots f = roots2_fn (fun _ h => root_fn S h) (repertoire S) (first_rounds S) lce R roots1)
      by (rewrite (fe_roots _ _ _ _ E); reflexivity).
    rewrite <- Er in A2, N2.
    (* identifiers of one root *)
    assert (RootIds : forall c l, In (c, l) (f_roots f) ->
              NoDup (map fe_id l) /\
              (forall x, In x (map fe_id l) -> (exists ex, get_event S x = Some ex /\ e_creator (ev_e ex) = c) /\ ~ In x ids) /\
              Forall (fun fe => 0 <= fe_id fe /\ 0 <= fe_round fe /\ fe_round fe < R) l).
    { intros c l Hin. destruct (A2 c l Hin) as [h [-> [Hh [Hdis Hrd]]]]. rewrite (root_fn_ids S h).
      destruct (Z.eqb_spec h (-1)) as [->|Hne].
      { split; [constructor|split; [intros x []|]]. unfold root_fn. cbn. constructor. }
      destruct Hh as [?|[he [Hhe Hc]]]; [contradiction|].
      split; [apply NoDup_rev, (sp_chain_nodup all S G NF ROOT_DEPTH h he Hhe)|]. split.
      - intros x Hx. apply in_rev in Hx. destruct (chain_member h he x Hhe Hx) as [ex [Hex [Hcx _]]].
        split; [exists ex; split; [exact Hex|congruence]|apply (Hdis Hne x Hx)].
      - unfold root_fn. rewrite (proj2 (Z.eqb_neq h (-1)) Hne). apply Forall_rev. rewrite Forall_forall. intros fe Hfe.
        apply in_map_iff in Hfe. destruct Hfe as [x [<- Hx]]. destruct (chain_member h he x Hhe Hx) as [ex [Hex _]].
        pose proof (create_frame_event_some g S x FR ltac:(rewrite Hex; discriminate)) as Hs.
        unfold fe_of. destruct (create_frame_event S x) as [fe|] eqn:Cf; [|contradiction].
        pose proof (from_cfe_ok S fe (ex_intro _ x Cf)) as Ok. destruct (Hrd Hne) as [rh [Hrh Hlt]].
        destruct Hx as [<-|Hx]; [apply (feok_bounds S fe rh R Ok); [rewrite (cfe_id _ _ _ Cf); exact Hrh|exact Hlt]|].
        destruct (sp_chain_round_le g S (nf_c _ _ _ N) ROOT_DEPTH h rh Hrh x Hx) as [rx [Hrx Hle]].
        apply (feok_bounds S fe rx R Ok); [rewrite (cfe_id _ _ _ Cf); exact Hrx|exact (Z.le_lt_trans _ _ _ Hle Hlt)]. }
    assert (Bounds : Forall (fun fe => 0 <= fe_id fe /\ 0 <= fe_round fe /\ fe_round fe < R) (all_frame_events f)).
    { unfold all_frame_events, root_events. apply Forall_app. split.
      - rewrite Forall_forall. intros fe Hfe. apply in_flat_map in Hfe. destruct Hfe as [[c l] [Hcl Hfe]]. cbn [snd] in Hfe.
        pose proof (proj2 (proj2 (RootIds c l Hcl))) as Fp. rewrite Forall_forall in Fp. apply (Fp fe Hfe).
      - pose proof (fe_evs _ _ _ _ E) as Fe. rewrite Forall_forall in *. intros fe Hfe.
        destruct (RR R f fe Hf Hfe) as [r [Hr Hlt]].
        apply (feok_bounds S fe r R (from_cfe_ok S fe (ex_intro _ (fe_id fe) (Fe fe Hfe))) Hr Hlt). }
    split; [constructor|eapply Forall_impl; [|exact Bounds]; cbn beta; tauto].
    - unfold all_frame_events, root_events. rewrite map_app. apply NoDup_app_intro'.
      + apply nodup_flat_roots; [exact N2|intros c l Hin; apply (RootIds c l Hin)|].
        intros c l c' l' x Hin Hin' Hne Hx Hx'.
        destruct (proj1 (proj2 (RootIds c l Hin)) x Hx) as [[ex [Hex Hc]] _].
        destruct (proj1 (proj2 (RootIds c' l' Hin')) x Hx') as [[ex' [Hex' Hc']] _]. congruence.
      + exact NDe.
      + intros x Hx. rewrite in_map_iff in Hx. destruct Hx as [fe [Eid Hfe]]. apply in_flat_map in Hfe.
        destruct Hfe as [[c l] [Hcl Hfe]]. cbn [snd] in Hfe.
        apply (proj2 (proj1 (proj2 (RootIds c l Hcl)) x ltac:(rewrite <- Eid; apply in_map; exact Hfe))).
    - eapply Forall_impl; [|exact Bounds]. cbn beta. tauto.
    - rewrite (fe_psets _ _ _ _ E). cbn. constructor; constructor.
  Qed.
End Shape.

Section Served.
  Variables (g : peerset) (all : list event).
  Hypothesis ID : ids_determine all.
  Hypothesis NA : no_accept all.

  (* an event of a cached frame was created in an earlier round than the frame's *)
  Lemma frame_event_round self_ oracle_ ops R0 f0 fe :
    Forall (hop_ok all) ops -> zget R0 (frames (hrun (init_hg self_ g oracle_) ops)) = Some f0 -> In fe (f_events f0) ->
    exists r, rmemo (hrun (init_hg self_ g oracle_) ops) (fe_id fe) = Some r /\ r < R0.
  Proof.
    intros Ho Hz Hfe. pose proof (hrun_nf g all self_ oracle_ ops ID NA Ho) as N.
    set (st := hrun (init_hg self_ g oracle_) ops) in *.
    pose proof (nf_g _ _ _ N) as G.
    destruct (gi_f _ _ G R0 f0 Hz) as [_ [_ [_ [D _]]]]. destruct (D fe Hfe) as [Hrcv _].
    destruct (c_in _ (g_o _ _ (gi_core _ _ G)) R0 _ Hrcv) as [ex [Hex Hrr]].
    destruct (rr_spec_hrun g all self_ oracle_ ops (fe_id fe) ex R0 ID NA Ho Hex Hrr) as [r [Hr [Hlt _]]].
    destruct (c_all _ _ _ (nf_c _ _ _ N) (fe_id fe) ex Hex ltac:(discriminate)) as [r' [w [Hm [_ Hr']]]].
    exists r. split; [congruence|exact Hlt].
  Qed.

  Theorem served_frame_facts self_ oracle_ ops R f :
    Forall (hop_ok all) ops -> zget R (frames (hrun (init_hg self_ g oracle_) ops)) = Some f ->
    frame_shape f /\ Forall (fun fe => fe_round fe < R) (all_frame_events f).
  Proof.
    intros Ho Hz.
    destruct (f2_fe g self_ oracle_ ops (hrun_finv2 g all ID NA self_ oracle_ ops Ho) R f Hz) as [k [_ [E Hk]]].
    pose proof (Forall_firstn _ k _ Ho) as Hok.
    pose proof (hrun_nf g all self_ oracle_ (firstn k ops) ID NA Hok) as N.
    apply (FE_frame_shape g all _ R f N Hk E).
    intros R0 f0 fe H0 Hfe. apply (frame_event_round self_ oracle_ (firstn k ops) R0 f0 fe Hok H0 Hfe).
  Qed.

  Theorem served_frame_shape self_ oracle_ ops R f :
    Forall (hop_ok all) ops -> zget R (frames (hrun (init_hg self_ g oracle_) ops)) = Some f -> frame_shape f.
  Proof. intros Ho Hz. apply (served_frame_facts self_ oracle_ ops R f Ho Hz). Qed.

  (* the frame GetAnchorBlockWithFrame answers is a cached frame *)
  Lemma anchor_frame_cached self_ oracle_ ops b f cores s' :
    Forall (hop_ok all) ops -> self_ <> -1 ->
    anchor_block_with_frame (hrun (init_hg self_ g oracle_) ops) = (Some (b, f, cores), s') ->
    zget (b_rr b) (frames (hrun (init_hg self_ g oracle_) ops)) = Some f.
  Proof.
    intros Ho Hs H.
    destruct (anchor_answer all self_ g oracle_ ops b f cores s' ID Ho Hs H) as [_ [Ef [_ [k [d [Hd [_ [Hbody _]]]]]]]].
    pose proof (hrun_ginv all self_ g oracle_ ops ID Ho) as G.
    destruct (body_fields _ _ Hbody) as (_ & Er & _ & _ & _ & Efr & _).
    destruct (gi_d all _ G d (nth_error_In _ _ Hd)) as [Hc _]. rewrite Ef, Er, Efr. exact Hc.
  Qed.

  Theorem anchor_frame_shape self_ oracle_ ops b f cores s' :
    Forall (hop_ok all) ops -> self_ <> -1 ->
    anchor_block_with_frame (hrun (init_hg self_ g oracle_) ops) = (Some (b, f, cores), s') -> frame_shape f.
  Proof.
    intros Ho Hs H. eapply served_frame_shape; [exact Ho|]. eapply anchor_frame_cached; eauto.
  Qed.

  (* no round recorded in the anchor's frame is above the anchor's round-received, which is >= 0 *)
  Theorem anchor_frame_rounds self_ oracle_ ops b f cores s' :
    Forall (hop_ok all) ops -> self_ <> -1 ->
    anchor_block_with_frame (hrun (init_hg self_ g oracle_) ops) = (Some (b, f, cores), s') ->
    0 <= b_rr b /\ Forall (fun fe => fe_round fe <= b_rr b) (all_frame_events f).
  Proof.
    intros Ho Hs H. pose proof (anchor_frame_cached self_ oracle_ ops b f cores s' Ho Hs H) as Hc.
    split; [eapply zget_some_nonneg; exact Hc|].
    destruct (served_frame_facts self_ oracle_ ops (b_rr b) f Ho Hc) as [_ F].
    eapply Forall_impl; [|exact F]. cbn beta. intros fe Hlt. lia.
  Qed.
End Served.

Lemma nodupb_complete l : NoDup l -> nodupb l = true.
Proof.
  induction 1 as [|x r Hx Hr IH]; cbn [nodupb]; [reflexivity|]. rewrite IH, andb_true_r. apply negb_true_iff.
  destruct (existsb (Z.eqb x) r) eqn:Ex; [|reflexivity]. exfalso. apply Hx.
  apply existsb_exists in Ex. destruct Ex as [y [Hy He]]. apply Z.eqb_eq in He. subst. exact Hy.
Qed.
Lemma sorted_ltb_complete l : StronglySorted Z.lt l -> sorted_ltb l = true.
Proof.
  induction 1 as [|x r Sr IH F]; cbn [sorted_ltb]; [reflexivity|]. rewrite IH, andb_true_r.
  apply forallb_forall. intros y Hy. rewrite Forall_forall in F. specialize (F y Hy). lia.
Qed.
Lemma frame_shapeb_complete f : frame_shape f -> frame_shapeb f = true.
Proof.
  intros [A B C]. unfold frame_shapeb. rewrite (nodupb_complete _ A), (sorted_ltb_complete _ C), andb_true_r. cbn [andb].
  apply forallb_forall. intros fe Hfe. rewrite Forall_forall in B. destruct (B fe Hfe). lia.
Qed.

(* the blocks a reset node delivers: consecutive indexes after the anchor's, increasing
   round-received above the anchor's *)
Lemma deliveries_after_reset v b f cores v' ops :
  frame_shape f -> Forall (fun fe => fe_round fe <= b_rr b) (all_frame_events f) -> 0 <= b_rr b ->
  node_fast_forward v b f cores = (true, v') ->
  exists news, delivered (hrun v' ops) = delivered v ++ news /\
    (forall k d, nth_error news k = Some d -> b_index d = Z.max (b_index b) (-1) + 1 + Z.of_nat k) /\
    StronglySorted Z.lt (map b_rr news) /\ (forall d, In d news -> b_rr b < b_rr d).
Proof.
  intros FS RB R0 FF.
  destruct (ResetAfter.deliveries_after_reset_consecutive v b f cores v' ops FF) as [news [D1 [_ Hn]]].
  destruct (ResetOrder.deliveries_after_reset_increasing v b f cores v' FS RB R0 FF ops) as [news' [D2 [Srt Hgt]]].
  assert (news' = news) by (rewrite D1 in D2; apply app_inv_head in D2; congruence). subst news'.
  exists news. split; [exact D1|]. split; [|split; [exact Srt|exact Hgt]].
  intros j dj Hj. apply (Hn j dj Hj).
Qed.

(* after a fast-forward from an honest peer (static membership): C02 for the reset node *)
Theorem after_reset_served g all ss os ops b f cores s' v v' ops' :
  ids_determine all -> no_accept all -> Forall (hop_ok all) ops -> ss <> -1 ->
  anchor_block_with_frame (hrun (init_hg ss g os) ops) = (Some (b, f, cores), s') ->
  node_fast_forward v b f cores = (true, v') ->
  exists news, delivered (hrun v' ops') = delivered v ++ news /\
    (forall k d, nth_error news k = Some d -> b_index d = b_index b + 1 + Z.of_nat k) /\
    StronglySorted Z.lt (map b_rr news) /\ (forall d, In d news -> b_rr b < b_rr d).
Proof.
  intros ID NA Ho Hs H FF.
  pose proof (anchor_frame_shape g all ID NA ss os ops b f cores s' Ho Hs H) as FS.
  destruct (anchor_frame_rounds g all ID NA ss os ops b f cores s' Ho Hs H) as [R0 RB].
  destruct (anchor_answer all ss g os ops b f cores s' ID Ho Hs H) as [_ [_ [_ [k [d [_ [Hb _]]]]]]].
  destruct (b_idx _ (hrun_binv ss g os ops) _ _ Hb) as [Hi _].
  destruct (deliveries_after_reset v b f cores v' ops' FS RB R0 FF) as [news [D [Hn R]]].
  exists news. split; [exact D|split; [|exact R]]. intros j dj Hj. rewrite (Hn j dj Hj). lia.
Qed.

(* after a fast-forward from an honest peer (static membership): C07 for the reset node.
   [all] is the universe both the responder's and the reset node's insertion attempts are drawn
   from (identifiers determine bodies in it) *)
Theorem admitted_after_reset_served g all ss os ops b f cores s' v v' ops' :
  ids_determine all -> no_accept all -> Forall (hop_ok all) ops -> ss <> -1 ->
  anchor_block_with_frame (hrun (init_hg ss g os) ops) = (Some (b, f, cores), s') ->
  node_fast_forward v b f cores = (true, v') -> Forall (hop_ok all) ops' ->
  dag_okR (frame_ids f) (hrun v' ops') /\ from_attempts (hrun v' ops') all /\ grows v' (hrun v' ops').
Proof.
  intros ID NA Ho Hs H FF Ho'.
  pose proof (anchor_frame_shape g all ID NA ss os ops b f cores s' Ho Hs H) as FS.
  destruct (anchor_answer all ss g os ops b f cores s' ID Ho Hs H) as [_ [_ [Hc _]]].
  pose proof (hrun_ginv all ss g os ops ID Ho) as G.
  assert (CO : cores_ok all cores f).
  { rewrite Hc. apply served_cores_ok; [apply (g_dag _ _ (gi_core _ _ G))|apply (g_from _ _ (gi_core _ _ G))]. }
  apply (admitted_after_reset v b f cores v' all ops' FS CO ID Ho' FF).
Qed.

(* the premises as the runner evaluates them on every fast-forward (kinds RS and RP), dynamic
   membership included: what remains unchecked is only that the shipped bodies belong to the
   universe in which identifiers determine bodies *)
Lemma after_reset_premisesb_sound b f cores : after_reset_premisesb b f cores = true ->
  0 <= b_rr b /\ Forall (fun fe => fe_round fe <= b_rr b) (all_frame_events f) /\
  forall fe e, In fe (all_frame_events f) -> core_of cores (fe_id fe) = Some e -> 0 <= e_index e.
Proof.
  unfold after_reset_premisesb. intros H. apply andb_prop in H. destruct H as [H H3]. apply andb_prop in H. destruct H as [H1 H2].
  rewrite forallb_forall in H2, H3.
  split; [lia|]. split.
  - apply Forall_forall. intros fe Hin. specialize (H2 fe Hin). lia.
  - intros fe e Hin Hc. specialize (H3 fe Hin). rewrite Hc in H3. lia.
Qed.

Theorem after_reset_checked v b f cores v' ops :
  frame_shapeb f = true -> after_reset_premisesb b f cores = true ->
  node_fast_forward v b f cores = (true, v') ->
  (exists news, delivered (hrun v' ops) = delivered v ++ news /\
     (forall k d, nth_error news k = Some d -> b_index d = Z.max (b_index b) (-1) + 1 + Z.of_nat k) /\
     StronglySorted Z.lt (map b_rr news) /\ (forall d, In d news -> b_rr b < b_rr d)) /\
  (forall all, (forall fe e, In fe (all_frame_events f) -> core_of cores (fe_id fe) = Some e -> In e all) ->
     ids_determine all -> Forall (hop_ok all) ops ->
     dag_okR (frame_ids f) (hrun v' ops) /\ from_attempts (hrun v' ops) all /\ grows v' (hrun v' ops)).
Proof.
  intros HS HP FF. pose proof (frame_shapeb_sound f HS) as FS.
  destruct (after_reset_premisesb_sound b f cores HP) as [R0 [RB IX]].
  split.
  - apply (deliveries_after_reset v b f cores v' ops FS RB R0 FF).
  - intros all Hin ID Ho.
    apply (admitted_after_reset v b f cores v' all ops FS); [|exact ID|exact Ho|exact FF].
    intros fe e Hfe Hc. split; [apply (IX fe e Hfe Hc)|apply (Hin fe e Hfe Hc)].
Qed.
