(* Dynamic membership (model after fix 05eda0b): AGREEMENT ON THE TRANSACTIONS OF THE DELIVERED BLOCKS for two nodes that
   respect the distance bound -- with NO premise on the validator-set tables: [tables_agree] is PROVED here, by induction
   on the total number of steps of the two runs (remove the last step of one run; the lookups the longer run makes for
   its new rounds are determined by blocks both nodes have processed, whose internal transactions agree by the induction
   hypothesis and the round-received / frame-event agreement of Proofs/RoundReceivedD.v, Proofs/CommittedD.v).
   The frame level used here is the list of (event, Lamport timestamp) of a cached frame: roots, f_peers and f_peersets
   are not compared (they are not needed for the transactions). *)
From Coq Require Import ZArith List Bool Lia Permutation Sorted.
From RecordUpdate Require Import RecordSet.
From V Require Import Model.Quorum Model.HgImpl Model.PeerSetSpec Model.Window Proofs.AdmissionProofs
  Proofs.HgBlockFrames Proofs.BlockInv Proofs.RoundOrder Proofs.OrderSort Proofs.OrderProofs Proofs.CInvRun
  Proofs.ViewOk Proofs.Agreement Proofs.Committed Proofs.BlockAgree Proofs.PeerSetProofs Proofs.TidyRR
  Proofs.WindowStable Proofs.GapWindow Proofs.RoundAgreeD Proofs.FameInvD Proofs.DecidedFlagD Proofs.RoundReceivedD.
Import ListNotations RecordSetNotations.
Open Scope Z_scope.

(** * The distance bound on prefixes and in the final state *)
Lemma gap_runb_app st a b : gap_runb st (a ++ b) = true -> gap_runb st a = true /\ gap_runb (hrun st a) b = true.
Proof.
  revert st. induction a as [|o a IH]; intros st H; cbn [app gap_runb hrun fold_left] in *; [auto|].
  apply andb_prop in H. destruct H as [H1 H2]. destruct (IH _ H2) as [A B]. rewrite H1, A. auto.
Qed.

(** * last_consensus never decreases *)
Definition lc_le (s s' : hg) : Prop :=
  forall l, last_consensus s = Some l -> exists l', last_consensus s' = Some l' /\ l <= l'.

Lemma lc_le_refl s : lc_le s s.
Proof. intros l H. exists l. split; [exact H|lia]. Qed.
Lemma lc_le_trans a b c : lc_le a b -> lc_le b c -> lc_le a c.
Proof. intros A B l H. destruct (A l H) as [l1 [H1 L1]]. destruct (B l1 H1) as [l2 [H2 L2]]. exists l2. split; [exact H2|lia]. Qed.
Lemma lc_le_eq s s' : last_consensus s' = last_consensus s -> lc_le s s'.
Proof. intros E l H. exists l. rewrite E. split; [exact H|lia]. Qed.

Lemma lc_le_bump s r : lc_le s (bump_last_consensus s r).
Proof.
  intros l H. unfold bump_last_consensus. rewrite H. destruct (Z.ltb_spec l r).
  - exists r. split; [reflexivity|lia].
  - exists l. split; [exact H|lia].
Qed.

Lemma get_frame_lc st rr : last_consensus (snd (get_frame st rr)) = last_consensus st.
Proof.
  destruct (get_frame_cases st rr) as [[E _]|[E|[f [ri [evs [E _]]]]]]; rewrite E; cbn [snd]; try reflexivity.
Qed.

Lemma process_round_lc_le s p stop pr : lc_le s (fst (fst (process_round (s, p, stop) pr))).
Proof.
  destruct (process_round_cases s p stop pr) as [[b ->]|[->|[ri [f [s1 [_ [Hgf ->]]]]]]]; cbn [fst];
    [apply lc_le_refl|apply lc_le_eq; reflexivity|].
  pose proof (get_frame_lc s (fst pr)) as L1. rewrite Hgf in L1. cbn [snd] in L1.
  eapply lc_le_trans; [|apply lc_le_bump]. apply lc_le_eq.
  destruct (cv_eq _ _ (process_frame_cv s1 f)) as [_ [A _]]. rewrite A. exact L1.
Qed.

Lemma process_decided_rounds_lc_le st : lc_le st (process_decided_rounds st).
Proof.
  unfold process_decided_rounds.
  assert (G : forall l s p b, lc_le s (fst (fst (fold_left process_round l (s, p, b))))).
  { induction l as [|pr l IH]; intros s p b; cbn [fold_left]; [apply lc_le_refl|].
    pose proof (process_round_lc_le s p b pr) as A. destruct (process_round (s, p, b) pr) as [[s' p'] b']. cbn [fst] in A.
    eapply lc_le_trans; [exact A|apply IH]. }
  specialize (G (pending st) st [] false).
  destruct (fold_left process_round (pending st) (st, [], false)) as [[s processed] stop]. cbn [fst] in G.
  eapply lc_le_trans; [exact G|]. apply lc_le_eq. reflexivity.
Qed.

Lemma run_consensus_lc_le st : lc_le st (run_consensus st).
Proof.
  unfold run_consensus.
  assert (A1 : lc_le st (divide_rounds st)).
  { apply lc_le_eq. destruct (bview_fields _ _ (divide_rounds_bview st)) as [_ [_ L]]. exact L. }
  destruct (failed (divide_rounds st)); [exact A1|]. cbv zeta.
  assert (A2 : lc_le st (decide_fame (divide_rounds st))).
  { eapply lc_le_trans; [exact A1|]. apply lc_le_eq. destruct (bview_fields _ _ (decide_fame_bview (divide_rounds st))) as [_ [_ L]]. exact L. }
  destruct (failed (decide_fame (divide_rounds st))); [exact A2|].
  assert (A3 : lc_le st (decide_round_received (decide_fame (divide_rounds st)))).
  { eapply lc_le_trans; [exact A2|]. apply lc_le_eq. destruct (bview_fields _ _ (decide_round_received_bview (decide_fame (divide_rounds st)))) as [_ [_ L]]. exact L. }
  destruct (failed (decide_round_received (decide_fame (divide_rounds st)))); [exact A3|].
  eapply lc_le_trans; [exact A3|apply process_decided_rounds_lc_le].
Qed.

Lemma hstep_lc_le st o : lc_le st (hstep st o).
Proof.
  destruct o as [e|]; cbn [hstep].
  - unfold step, insert_and_run. pose proof (insert_event_bview st e) as B.
    destruct (insert_event st e) as [r s]. cbn [snd] in B.
    assert (A : lc_le st s) by (apply lc_le_eq; destruct (bview_fields _ _ B) as [_ [_ L]]; exact L).
    destruct r; cbn [snd]; try exact A. eapply lc_le_trans; [exact A|apply run_consensus_lc_le].
  - apply lc_le_eq. assert (E : rv (process_sigpool st) = rv st).
    { unfold process_sigpool. generalize (sigpool st). intros l. generalize st.
      induction l as [|s l IHl]; intros st0; cbn [fold_left]; [reflexivity|]. rewrite IHl. apply (proj1 (process_sig_rv st0 s)). }
    destruct (rv_fields _ _ E) as [_ [_ [L _]]]. exact L.
Qed.

(* a processed round stays processed *)
Lemma lcle_hstep st o R : lcle st R -> lcle (hstep st o) R.
Proof. apply lcle_mono. apply hstep_lc_le. Qed.

Lemma lcle_hrun ops : forall st R, lcle st R -> lcle (hrun st ops) R.
Proof. induction ops as [|o ops IH]; intros st R H; cbn [hrun fold_left]; [exact H|]. apply IH. apply lcle_hstep. exact H. Qed.

(* the block that writes the entry of a round q reachable under the distance bound is already processed *)
Lemma gap_step_processed st o R q : gap_stepb st (hstep st o) = true -> 0 <= R -> R + 6 <= q -> q <= last_round (hstep st o) -> lcle st R.
Proof.
  unfold gap_stepb, lc_next, lcle. intros G H0 Hq Hl. apply Z.leb_le in G.
  destruct (last_consensus st) as [l|]; [exists l; split; [reflexivity|lia]|lia].
Qed.

(* the (event, Lamport timestamp) list of a frame *)
Definition kl (f : frame) : list (Z * Z) := map (fun fe => (fe_id fe, fe_lt fe)) (f_events f).

Lemma replay_ext tbl vals l1 l2 :
  map (fun d => (b_rr d, b_itxs d)) l1 = map (fun d => (b_rr d, b_itxs d)) l2 -> replay tbl vals l1 = replay tbl vals l2.
Proof.
  revert tbl vals l2. induction l1 as [|d1 l1 IH]; intros tbl vals l2 E; destruct l2 as [|d2 l2]; cbn [map] in E; try discriminate; [reflexivity|].
  injection E as E1 E2 E3. unfold replay. cbn [fold_left]. unfold replay_block at 2 4. rewrite E1, E2.
  destruct (replay_step (tbl, vals) (b_rr d2) (b_itxs d2)) as [t' v']. apply (IH t' v' l2 E3).
Qed.

(** * The blocks that determine a lookup *)
Lemma StronglySorted_map_elim {A B} (f : A -> B) (R : B -> B -> Prop) l :
  StronglySorted R (map f l) -> StronglySorted (fun a b => R (f a) (f b)) l.
Proof.
  induction l as [|a l IH]; cbn [map]; intros S; [constructor|]. inversion S as [|? ? S1 F1]; subst. constructor; [apply IH; exact S1|].
  rewrite Forall_forall in *. intros x Hx. apply F1. apply in_map. exact Hx.
Qed.

Lemma StronglySorted_filter_keep {A} (R : A -> A -> Prop) (p : A -> bool) l : StronglySorted R l -> StronglySorted R (filter p l).
Proof.
  induction 1 as [|a l S IH F]; cbn [filter]; [constructor|]. destruct (p a); [|exact IH]. constructor; [exact IH|].
  rewrite Forall_forall in *. intros x Hx. apply filter_In in Hx. apply F. tauto.
Qed.

Lemma StronglySorted_lt_NoDup {A} (k : A -> Z) l : StronglySorted (fun a b => k a < k b) l -> NoDup l.
Proof.
  induction 1 as [|a l S IH F]; constructor; [|exact IH]. intros Hin. rewrite Forall_forall in F. specialize (F a Hin). lia.
Qed.

Definition bkey (d : block) : Z * list itx := (b_rr d, b_itxs d).

(* both filtered block lists are strictly sorted by round-received; each block of one has its twin in the other
   (block_transfer_along, block_data_agree_along); a sorted list is determined by its members *)
Theorem effective_agree P all s1 s2 g1 g2 o1 o2 ops1 ops2 q :
  along P all s1 g1 o1 ops1 -> along P all s2 g2 o2 ops2 -> sigkeys_determine all -> fork_free all ->
  let st1 := hrun (init_hg s1 g1 o1) ops1 in
  let st2 := hrun (init_hg s2 g2 o2) ops2 in
  failed st1 = false -> failed st2 = false ->
  (forall d1, In d1 (effective_blocks q (delivered st1)) -> lcle st2 (b_rr d1)) ->
  (forall d2, In d2 (effective_blocks q (delivered st2)) -> lcle st1 (b_rr d2)) ->
  map bkey (effective_blocks q (delivered st1)) = map bkey (effective_blocks q (delivered st2)).
Proof.
  intros A1 A2 SK FF st1 st2 F1 F2 L12 L21.
  assert (Srt : forall s g o ops, StronglySorted (fun a b : Z * list itx => fst a < fst b)
                  (map bkey (effective_blocks q (delivered (hrun (init_hg s g o) ops))))).
  { intros s g o ops. apply StronglySorted_map_intro. unfold effective_blocks. apply StronglySorted_filter_keep.
    apply (StronglySorted_map_elim b_rr Z.lt). apply (reach_rr_increasing s g o ops). }
  assert (Inc : forall sa sb ga gb oa ob opsa opsb (Aa : along P all sa ga oa opsa) (Ab : along P all sb gb ob opsb),
            failed (hrun (init_hg sa ga oa) opsa) = false -> failed (hrun (init_hg sb gb ob) opsb) = false ->
            (forall d1, In d1 (effective_blocks q (delivered (hrun (init_hg sa ga oa) opsa))) -> lcle (hrun (init_hg sb gb ob) opsb) (b_rr d1)) ->
            forall p, In p (map bkey (effective_blocks q (delivered (hrun (init_hg sa ga oa) opsa)))) ->
                      In p (map bkey (effective_blocks q (delivered (hrun (init_hg sb gb ob) opsb))))).
  { intros sa sb ga gb oa ob opsa opsb Aa Ab Fa Fb Lab p Hp.
    apply in_map_iff in Hp. destruct Hp as [d1 [<- Hd1]]. pose proof (Lab d1 Hd1) as Hlc.
    unfold effective_blocks in Hd1. apply filter_In in Hd1. destruct Hd1 as [Hd1 Hq].
    destruct (block_transfer_along P all sa sb ga gb oa ob opsa opsb Aa Ab Fa Fb FF d1 Hd1 Hlc) as [d2 [Hd2 Er]].
    destruct (block_data_agree_along P all sa sb ga gb oa ob opsa opsb Aa Ab Fa Fb FF SK d1 d2 Hd1 Hd2 (eq_sym Er)) as [_ Ei].
    apply in_map_iff. exists d2. split; [unfold bkey; rewrite Er, Ei; reflexivity|].
    unfold effective_blocks. apply filter_In. split; [exact Hd2|rewrite Er; exact Hq]. }
  apply (sorted_perm_unique (fun a b : Z * list itx => fst a < fst b)).
  - apply NoDup_Permutation; [apply (StronglySorted_lt_NoDup fst), Srt|apply (StronglySorted_lt_NoDup fst), Srt|].
    intros p. split.
    + apply (Inc s1 s2 g1 g2 o1 o2 ops1 ops2 A1 A2 F1 F2 L12).
    + apply (Inc s2 s1 g2 g1 o2 o1 ops2 ops1 A2 A1 F2 F1 L21).
  - apply Srt.
  - apply Srt.
  - intros a b _ _ A B. lia.
Qed.

(** * tables_agree is a THEOREM: induction on the total number of steps *)

Lemma gap_last_step st ops o : gap_runb st (ops ++ [o]) = true ->
  gap_runb st ops = true /\ gap_stepb (hrun st ops) (hstep (hrun st ops) o) = true.
Proof.
  intros H. destruct (gap_runb_app st ops [o] H) as [A B]. split; [exact A|].
  cbn [gap_runb] in B. apply andb_prop in B. tauto.
Qed.

Lemma exists_last_or_nil {A} (l : list A) : l = [] \/ exists l' a, l = l' ++ [a].
Proof. destruct l as [|x l]; [left; reflexivity|right]. destruct (exists_last (l := x :: l)) as [l' [a E]]; [discriminate|eauto]. Qed.

Lemma ta_step all s1 s2 g o1 o2 ops1 o ops2 :
  ids_determine all -> sigkeys_determine all -> fork_free all -> s1 <> -1 -> s2 <> -1 ->
  Forall (hop_ok all) (ops1 ++ [o]) -> Forall (hop_ok all) ops2 ->
  gap_runb (init_hg s1 g o1) (ops1 ++ [o]) = true -> gap_runb (init_hg s2 g o2) ops2 = true ->
  failed (hrun (init_hg s1 g o1) (ops1 ++ [o])) = false -> failed (hrun (init_hg s2 g o2) ops2) = false ->
  tables_agree (hrun (init_hg s1 g o1) ops1) (hrun (init_hg s2 g o2) ops2) ->
  tables_agree (hrun (init_hg s1 g o1) (ops1 ++ [o])) (hrun (init_hg s2 g o2) ops2).
Proof.
  intros ID SK FF S1 S2 H1 H2 B1 B2 F1 F2 T' q A B.
  pose proof H1 as H1'. apply Forall_app in H1'. destruct H1' as [H1p _].
  destruct (gap_last_step _ _ _ B1) as [B1p G1].
  pose proof (hrun_app (init_hg s1 g o1) ops1 [o]) as Eapp. cbn [hrun fold_left] in Eapp.
  set (st1' := hrun (init_hg s1 g o1) ops1) in *. set (st1 := hrun (init_hg s1 g o1) (ops1 ++ [o])) in *.
  set (st2 := hrun (init_hg s2 g o2) ops2) in *.
  assert (F1p : failed st1' = false).
  { destruct (failed st1') eqn:E; [|reflexivity]. rewrite Eapp, (hstep_failed_mono st1' o E) in F1. discriminate. }
  pose proof (proj2 (hrun_rtop s1 g o1 (ops1 ++ [o])) F1) as R1. fold st1 in R1.
  pose proof (proj2 (hrun_rtop s2 g o2 ops2) F2) as R2. fold st2 in R2.
  assert (Hq1 : 0 <= q <= last_round st1) by (apply (rinv_contig _ R1); exact A).
  assert (Hq2 : 0 <= q <= last_round st2) by (apply (rinv_contig _ R2); exact B).
  (* the lookup of the longer run is the one its prefix would have made *)
  assert (E1 : get_peerset st1' q = get_peerset st1 q).
  { pose proof (gap_run_window s1 g o1 S1 (ops1 ++ [o]) [] B1) as Hw. unfold reach in Hw. cbn in Hw.
    destruct (window_lookup_final_step s1 g o1 S1 (ops1 ++ [o]) (length ops1) q Hw) as [X _].
    - rewrite app_length. cbn. lia.
    - unfold reach. replace (firstn (S (length ops1)) (ops1 ++ [o])) with (ops1 ++ [o]); [fold st1; lia|].
      rewrite firstn_all2; [reflexivity|rewrite app_length; cbn; lia].
    - unfold reach in X. rewrite firstn_app, firstn_all, Nat.sub_diag in X. cbn [firstn] in X. rewrite app_nil_r in X. exact X. }
  rewrite <- E1.
  destruct (get_round st1' q) as [rq|] eqn:Hrq; [apply T'; [rewrite Hrq; discriminate|exact B]|].
  (* a new round of node 1: both lookups are determined by blocks both nodes have processed *)
  unfold st1', st2.
  rewrite (lookup_is_effective_prefix s1 g o1 ops1 q S1 ltac:(lia)), (lookup_is_effective_prefix s2 g o2 ops2 q S2 ltac:(lia)).
  fold st1' st2. f_equal. unfold validators_at, replay_genesis. f_equal. apply replay_ext.
  destruct (two_runs_along all s1 s2 g g o1 o2 ops1 ops2 ID S1 S2 H1p H2 B1p B2 F1p F2 T') as [P [A1 A2]].
  apply (effective_agree P all s1 s2 g g o1 o2 ops1 ops2 q A1 A2 SK FF F1p F2).
  - intros d1 Hd1. unfold effective_blocks in Hd1. apply filter_In in Hd1. destruct Hd1 as [Hd1 Hle]. apply Z.leb_le in Hle.
    fold st1' in Hd1. fold st2.
    assert (H0 : 0 <= b_rr d1).
    { pose proof (c10inv_rr_nonneg _ _ (proj2 (hrun_c10inv s1 g o1 ops1 S1))) as Fa. rewrite Forall_forall in Fa. apply Fa. exact Hd1. }
    destruct (exists_last_or_nil ops2) as [->|[ops2' [o2' ->]]].
    + exfalso. apply B. unfold st2. cbn [hrun fold_left]. apply init_no_round.
    + destruct (gap_last_step _ _ _ B2) as [_ G2].
      pose proof (hrun_app (init_hg s2 g o2) ops2' [o2']) as Eapp2. cbn [hrun fold_left] in Eapp2.
      unfold st2. rewrite Eapp2. apply lcle_hstep.
      apply (gap_step_processed _ o2' (b_rr d1) q G2 H0 Hle). rewrite <- Eapp2. fold st2. lia.
  - intros d2 Hd2. unfold effective_blocks in Hd2. apply filter_In in Hd2. destruct Hd2 as [Hd2 Hle]. apply Z.leb_le in Hle.
    fold st2 in Hd2. fold st1'.
    assert (H0 : 0 <= b_rr d2).
    { pose proof (c10inv_rr_nonneg _ _ (proj2 (hrun_c10inv s2 g o2 ops2 S2))) as Fa. rewrite Forall_forall in Fa. apply Fa. exact Hd2. }
    apply (gap_step_processed st1' o (b_rr d2) q G1 H0 Hle). rewrite <- Eapp. fold st1. lia.
Qed.

Theorem tables_agree_runs all g : ids_determine all -> sigkeys_determine all -> fork_free all ->
  forall n s1 s2 o1 o2 ops1 ops2, (length ops1 + length ops2 = n)%nat ->
  s1 <> -1 -> s2 <> -1 -> Forall (hop_ok all) ops1 -> Forall (hop_ok all) ops2 ->
  gap_runb (init_hg s1 g o1) ops1 = true -> gap_runb (init_hg s2 g o2) ops2 = true ->
  failed (hrun (init_hg s1 g o1) ops1) = false -> failed (hrun (init_hg s2 g o2) ops2) = false ->
  tables_agree (hrun (init_hg s1 g o1) ops1) (hrun (init_hg s2 g o2) ops2).
Proof.
  intros ID SK FF. induction n as [|n IH]; intros s1 s2 o1 o2 ops1 ops2 Hn S1 S2 H1 H2 B1 B2 F1 F2.
  - destruct ops1; [|cbn in Hn; lia]. intros q A _. exfalso. apply A. cbn [hrun fold_left]. apply init_no_round.
  - destruct (exists_last_or_nil ops1) as [->|[ops1' [o ->]]].
    + (* node 1 has not moved: remove the last step of node 2 *)
      destruct (exists_last_or_nil ops2) as [->|[ops2' [o ->]]]; [cbn in Hn; lia|].
      apply tables_agree_sym.
      pose proof H2 as H2'. apply Forall_app in H2'. destruct H2' as [H2p _].
      destruct (gap_last_step _ _ _ B2) as [B2p _].
      assert (F2p : failed (hrun (init_hg s2 g o2) ops2') = false).
      { destruct (failed (hrun (init_hg s2 g o2) ops2')) eqn:E; [|reflexivity].
        rewrite hrun_app in F2. cbn [hrun fold_left] in F2. rewrite (hstep_failed_mono _ o E) in F2. discriminate. }
      apply (ta_step all s2 s1 g o2 o1 ops2' o [] ID SK FF S2 S1 H2 H1 B2 B1 F2 F1).
      apply tables_agree_sym. apply (IH s1 s2 o1 o2 [] ops2'); auto. clear - Hn. rewrite app_length in Hn. cbn [length] in *. lia.
    + pose proof H1 as H1'. apply Forall_app in H1'. destruct H1' as [H1p _].
      destruct (gap_last_step _ _ _ B1) as [B1p _].
      assert (F1p : failed (hrun (init_hg s1 g o1) ops1') = false).
      { destruct (failed (hrun (init_hg s1 g o1) ops1')) eqn:E; [|reflexivity].
        rewrite hrun_app in F1. cbn [hrun fold_left] in F1. rewrite (hstep_failed_mono _ o E) in F1. discriminate. }
      apply (ta_step all s1 s2 g o1 o2 ops1' o ops2 ID SK FF S1 S2 H1 H2 B1 B2 F1 F2).
      apply (IH s1 s2 o1 o2 ops1' ops2); auto. clear - Hn. rewrite app_length in Hn. cbn [length] in Hn. lia.
Qed.

(** * AGREEMENT UNDER DYNAMIC MEMBERSHIP: the k-th delivered blocks of two nodes that respect the distance bound *)
Section Final.
  Variables (all : list event) (g : peerset).
  Hypothesis ID : ids_determine all.
  Hypothesis SK : sigkeys_determine all.
  Hypothesis FF : fork_free all.
  Variables (s1 s2 : Z) (o1 o2 : list Z) (ops1 ops2 : list hop).
  Hypothesis S1 : s1 <> -1.
  Hypothesis S2 : s2 <> -1.
  Hypothesis H1 : Forall (hop_ok all) ops1.
  Hypothesis H2 : Forall (hop_ok all) ops2.
  Hypothesis B1 : gap_runb (init_hg s1 g o1) ops1 = true.
  Hypothesis B2 : gap_runb (init_hg s2 g o2) ops2 = true.
  Let st1 := hrun (init_hg s1 g o1) ops1.
  Let st2 := hrun (init_hg s2 g o2) ops2.
  Hypothesis F1 : failed st1 = false.
  Hypothesis F2 : failed st2 = false.

  Theorem gap_tables_agree : tables_agree st1 st2.
  Proof. apply (tables_agree_runs all g ID SK FF _ s1 s2 o1 o2 ops1 ops2 eq_refl S1 S2 H1 H2 B1 B2 F1 F2). Qed.

  (* the two runs are runs along one common assignment *)
  Lemma gap_runs_along : exists P, along P all s1 g o1 ops1 /\ along P all s2 g o2 ops2.
  Proof. exact (two_runs_along all s1 s2 g g o1 o2 ops1 ops2 ID S1 S2 H1 H2 B1 B2 F1 F2 gap_tables_agree). Qed.

  Theorem blocks_agree_gap_ts k d1 d2 :
    nth_error (delivered st1) k = Some d1 -> nth_error (delivered st2) k = Some d2 ->
    (b_index d1, b_rr d1, b_ts d1, b_txs d1, b_itxs d1) = (b_index d2, b_rr d2, b_ts d2, b_txs d2, b_itxs d2).
  Proof. destruct gap_runs_along as [P [A1 A2]]. exact (blocks_agree_along P all s1 s2 g g o1 o2 ops1 ops2 A1 A2 F1 F2 FF SK k d1 d2). Qed.
End Final.

(** what two nodes that respect the distance bound compute for a shared event / a shared witness, with NO premise on
    the tables (same genesis set) *)
Theorem gap_consensus_agree all g s1 s2 o1 o2 ops1 ops2 :
  ids_determine all -> sigkeys_determine all -> fork_free all -> s1 <> -1 -> s2 <> -1 ->
  Forall (hop_ok all) ops1 -> Forall (hop_ok all) ops2 ->
  gap_runb (init_hg s1 g o1) ops1 = true -> gap_runb (init_hg s2 g o2) ops2 = true ->
  let st1 := hrun (init_hg s1 g o1) ops1 in
  let st2 := hrun (init_hg s2 g o2) ops2 in
  failed st1 = false -> failed st2 = false ->
  (forall x e1 e2, get_event st1 x = Some e1 -> get_event st2 x = Some e2 ->
     ev_round e1 = ev_round e2 /\ ev_round e1 <> None /\
     (forall i1 i2, ev_rr e1 = Some i1 -> ev_rr e2 = Some i2 -> i1 = i2)) /\
  (forall x r v1 v2, fame_of st1 x r = Some (Some v1) -> fame_of st2 x r = Some (Some v2) -> v1 = v2) /\
  (forall q, get_round st1 q <> None -> get_round st2 q <> None -> get_peerset st1 q = get_peerset st2 q).
Proof.
  intros ID SK FF S1 S2 H1 H2 B1 B2 st1 st2 F1 F2.
  pose proof (gap_tables_agree all g ID SK FF s1 s2 o1 o2 ops1 ops2 S1 S2 H1 H2 B1 B2 F1 F2) as T.
  split; [|split; [|exact T]].
  - intros x e1 e2 E1 E2.
    destruct (gap_round_agree all s1 s2 g g o1 o2 ops1 ops2 ID S1 S2 H1 H2 B1 B2 F1 F2 T x e1 e2 E1 E2) as [A [B _]].
    split; [exact A|split; [exact B|]]. intros i1 i2 R1 R2.
    exact (rr_agreement_gap_universe all s1 s2 g g o1 o2 ops1 ops2 x e1 e2 i1 i2 ID FF S1 S2 H1 H2 B1 B2 F1 F2 T E1 E2 R1 R2).
  - intros x r v1 v2.
    exact (gap_fame_agreement_universe all s1 s2 g g o1 o2 ops1 ops2 x r v1 v2 ID FF S1 S2 H1 H2 B1 B2 F1 F2 T).
Qed.
