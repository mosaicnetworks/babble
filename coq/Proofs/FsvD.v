(* Dynamic membership: the repertoire and the first-round table of a node are a function of its validator-set table
   (SetPeerSet is the only writer of the three, and in a run it only appends entries with increasing rounds). *)
From Coq Require Import ZArith List Bool Lia.
From RecordUpdate Require Import RecordSet.
From V Require Import Model.ZMap Model.Quorum Model.HgImpl Proofs.Static Proofs.PeerSetProofs Proofs.FsvFrames.
From V Require Import Proofs.HgFrames.
Import ListNotations RecordSetNotations.
Open Scope Z_scope.

Definition fsv_add1 (r : Z) (acc : list peer * list (Z * Z)) (p : peer) : list peer * list (Z * Z) :=
  (if rep_mem (pkey p) (fst acc) then fst acc else fst acc ++ [p], add_first_round (pid p) r (snd acc)).
Definition fsv_add (acc : list peer * list (Z * Z)) (e : Z * peerset) : list peer * list (Z * Z) :=
  fold_left (fsv_add1 (fst e)) (snd e) acc.
Definition fsv_tbl (t : list (Z * peerset)) : list peer * list (Z * Z) := fold_left fsv_add t ([], []).

Definition J (st : hg) : Prop := fsv st = fsv_tbl (peersets st).

Lemma J_ext st st' : peersets st' = peersets st -> fsv st' = fsv st -> J st -> J st'.
Proof. unfold J. intros A B C. rewrite A, B. exact C. Qed.

Lemma ps_table_insert_last r ps t : (forall k p, In (k, p) t -> k < r) -> ps_table_insert r ps t = t ++ [(r, ps)].
Proof.
  induction t as [|[k p] t IH]; intros H; cbn [ps_table_insert app]; [reflexivity|].
  pose proof (H k p (or_introl eq_refl)). replace (r <? k) with false by lia.
  rewrite IH; [reflexivity|]. intros k' p' Hin. apply (H k' p'). right. exact Hin.
Qed.

Lemma set_peerset_fsv st r ps st' : set_peerset st r ps = Some st' ->
  peersets st' = ps_table_insert r ps (peersets st) /\ fsv st' = fsv_add (fsv st) (r, ps).
Proof.
  unfold set_peerset. destruct (existsb _ _); [discriminate|]. intros H. inversion H; subst; clear H.
  match goal with |- context [fold_left ?f ps ?s0] =>
    assert (G : forall l s, peersets (fold_left f l s) = peersets s /\ fsv (fold_left f l s) = fold_left (fsv_add1 r) l (fsv s)) end.
  { induction l as [|p l IH]; intros s; cbn [fold_left]; [auto|].
    match goal with |- context [fold_left _ l ?x] => destruct (IH x) as [A B] end.
    rewrite A, B. cbv zeta. split.
    - destruct (zmem _ _); reflexivity.
    - f_equal. unfold fsv, fsv_add1. destruct (zmem _ _); reflexivity. }
  match goal with |- context [fold_left ?f ps ?s0] => destruct (G ps s0) as [A B] end.
  rewrite A, B. split; [reflexivity|]. unfold fsv_add. cbn [fst snd]. reflexivity.
Qed.

Lemma set_peerset_J st r ps st' : J st -> (forall k p, In (k, p) (peersets st) -> k < r) ->
  set_peerset st r ps = Some st' -> J st'.
Proof.
  unfold J. intros Hj Hk E. destruct (set_peerset_fsv st r ps st' E) as [A B].
  rewrite A, B, Hj, (ps_table_insert_last r ps _ Hk). unfold fsv_tbl. rewrite fold_left_app. reflexivity.
Qed.

Lemma process_receipts_J st rr itxs : J st -> (forall k p, In (k, p) (peersets st) -> k < rr + 6) ->
  J (process_receipts st rr itxs).
Proof.
  intros Hj Hk. unfold process_receipts. destruct (fold_left _ itxs (validators st, false)) as [vals changed].
  destruct changed; [|exact Hj]. destruct (set_peerset st (rr + 6) vals) as [st1|] eqn:E; [|exact Hj].
  apply (J_ext st1); [reflexivity|reflexivity|]. apply (set_peerset_J st (rr + 6) vals st1 Hj Hk E).
Qed.

Lemma sign_block_rr' st b bps : b_rr (fst (sign_block st b bps)) = b_rr b.
Proof. exact (f_equal (fun '(_, rr, _, _, _, _, _) => rr) (proj1 (sign_block_delivers st b bps))). Qed.

Lemma commit_J st b : J st -> (forall k p, In (k, p) (peersets st) -> k < b_rr b + 6) -> J (commit st b).
Proof.
  intros Hj Hk. unfold commit. destruct (self st =? -1).
  { apply (J_ext st); [apply peersets_deliver|apply fsv_deliver|exact Hj]. }
  cbv zeta. set (st0 := st <| oracle := _ |>).
  assert (J0 : J st0) by (apply (J_ext st); [reflexivity|reflexivity|exact Hj]).
  assert (P0 : peersets st0 = peersets st) by reflexivity.
  match goal with |- context [store_set_block st0 ?b1] => set (bb := b1) end.
  assert (Hbb : b_rr bb = b_rr b) by reflexivity.
  set (st1 := store_set_block st0 bb).
  assert (J1 : J st1) by (apply (J_ext st0); [apply peersets_store_set_block|apply fsv_store_set_block|exact J0]).
  assert (P1 : peersets st1 = peersets st) by (unfold st1; rewrite peersets_store_set_block; exact P0).
  destruct (get_peerset st1 (b_rr bb)) as [bps|].
  - pose proof (peersets_sign_block st1 bb bps) as Ps. pose proof (fsv_sign_block st1 bb bps) as Fs.
    pose proof (sign_block_rr' st1 bb bps) as Rs.
    destruct (sign_block st1 bb bps) as [b2 st2]. cbn [fst snd] in *.
    apply (J_ext (process_receipts (set_anchor_block st2 b2) (b_rr b2) (b_itxs b2))); [apply peersets_deliver|apply fsv_deliver|].
    apply process_receipts_J.
    + apply (J_ext st2); [apply peersets_set_anchor_block|apply fsv_set_anchor_block|].
      apply (J_ext st1); [exact Ps|exact Fs|exact J1].
    + intros k p. rewrite peersets_set_anchor_block, Ps, P1, Rs, Hbb. apply Hk.
  - apply (J_ext st1); [apply peersets_deliver|apply fsv_deliver|exact J1].
Qed.

Lemma J_qview s s' : qview s' = qview s -> fsv s' = fsv s -> J s -> J s'.
Proof.
  intros Q F. apply J_ext; [|exact F]. destruct (qview_split _ _ Q) as [P _]. unfold pview in P. inversion P. reflexivity.
Qed.

Lemma process_frame_J s f : J s -> (forall k p, In (k, p) (peersets s) -> k < f_round f + 6) -> J (process_frame s f).
Proof.
  intros Hj Hk. unfold process_frame. destruct (f_events f) as [|fe rest]; [exact Hj|]. cbv zeta.
  set (s1 := fold_left add_consensus_event (fe :: rest) s).
  destruct (add_consensus_events_qview (fe :: rest) s) as [Q1 _]. fold s1 in Q1.
  assert (J1 : J s1) by (apply (J_qview s); [exact Q1|apply fsv_add_consensus_events|exact Hj]).
  assert (P1 : peersets s1 = peersets s).
  { destruct (qview_split _ _ Q1) as [P _]. unfold pview in P. inversion P. reflexivity. }
  set (b := block_of_frame (last_block s1 + 1) f s1).
  assert (Hb : b_rr b = f_round f) by reflexivity.
  assert (Jc : J (commit (store_set_block s1 b) b)).
  { apply commit_J.
    - apply (J_ext s1); [apply peersets_store_set_block|apply fsv_store_set_block|exact J1].
    - intros k p. rewrite peersets_store_set_block, P1, Hb. apply Hk. }
  destruct (b_txs b), (b_itxs b); auto.
Qed.

Lemma J_init self_ genesis oracle_ : J (init_hg self_ genesis oracle_).
Proof.
  unfold init_hg. destruct (set_peerset (empty_hg self_) 0 genesis) as [st|] eqn:E.
  - apply (J_ext st); [reflexivity|reflexivity|].
    apply (set_peerset_J (empty_hg self_) 0 genesis st); [reflexivity|intros k p []|exact E].
  - reflexivity.
Qed.
