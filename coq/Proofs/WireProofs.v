(* C15 encoding identity: the theorems about Model/Wire.v. *)
From Coq Require Import ZArith List Bool String Ascii Lia Permutation.
From V Require Import Model.Wire Proofs.WireSort Proofs.WireJson.
Import ListNotations.
Open Scope Z_scope.

Lemma json_eqb_refl : forall j, json_eqb j j = true.
Proof.
  fix IH 1. intros [ | b | z | s | b | l | l | l | l]; cbn [json_eqb].
  - reflexivity.
  - destruct b; reflexivity.
  - apply Z.eqb_refl.
  - apply zlist_eqb_refl.
  - apply zlist_eqb_refl.
  - induction l as [|p l IHl]; [reflexivity|]. rewrite IH. exact IHl.
  - induction l as [|[k p] l IHl]; [reflexivity|]. rewrite String.eqb_refl, IH. exact IHl.
  - induction l as [|[k p] l IHl]; [reflexivity|]. rewrite zlist_eqb_refl, IH. exact IHl.
  - induction l as [|[k p] l IHl]; [reflexivity|]. rewrite Z.eqb_refl, IH. exact IHl.
Qed.

Lemma json_eqb_eq : forall a b, json_eqb a b = true -> a = b.
Proof.
  fix IH 1. intros [ | x | x | x | x | x | x | x | x] [ | y | y | y | y | y | y | y | y] H; try discriminate H; cbn [json_eqb] in H.
  (* the three kinds of keyed lists go the same way, up to the test on the keys *)
  7-9: f_equal; revert y H; induction x as [|[k p] x IHx]; intros [|[k' q] y] H; try discriminate; [reflexivity|].
  7-9: apply andb_true_iff in H; destruct H as [H Hx]; apply andb_true_iff in H; destruct H as [Hk Hp].
  7-9: assert (k = k') as <- by (first [apply String.eqb_eq | apply zlist_eqb_eq | apply Z.eqb_eq]; exact Hk).
  7-9: f_equal; [f_equal; apply IH; exact Hp | apply IHx; exact Hx].
  - reflexivity.
  - apply Bool.eqb_prop in H. congruence.
  - apply Z.eqb_eq in H. congruence.
  - apply zlist_eqb_eq in H. congruence.
  - apply zlist_eqb_eq in H. congruence.
  - f_equal. revert y H. induction x as [|p x IHx]; intros [|q y] H; try discriminate; [reflexivity|].
    apply andb_true_iff in H. destruct H as [Hp Hx]. f_equal; [apply IH; exact Hp | apply IHx; exact Hx].
Qed.

Lemma json_eqb_iff : forall a b, json_eqb a b = true <-> a = b.
Proof. intros a b. split; [apply json_eqb_eq | intros ->; apply json_eqb_refl]. Qed.

Lemma json_eqb_false_neq : forall a b, json_eqb a b = false -> a <> b.
Proof. intros a b H E. subst. rewrite json_eqb_refl in H. discriminate. Qed.

(* what "the same event" means for the parties that only see the serialized part *)

Definition same_public (a b : event) : Prop :=
  b_txs (e_body a) = b_txs (e_body b) /\ b_itxs (e_body a) = b_itxs (e_body b) /\
  b_parents (e_body a) = b_parents (e_body b) /\ b_creator (e_body a) = b_creator (e_body b) /\
  b_index (e_body a) = b_index (e_body b) /\ b_bsigs (e_body a) = b_bsigs (e_body b) /\
  b_ts (e_body a) = b_ts (e_body b) /\ e_sig a = e_sig b.

Definition same_wire_info (a b : event) : Prop :=
  b_cid (e_body a) = b_cid (e_body b) /\ b_opcid (e_body a) = b_opcid (e_body b) /\
  b_spi (e_body a) = b_spi (e_body b) /\ b_opi (e_body a) = b_opi (e_body b).

(* the digest reads the serialized fields only *)
Lemma same_public_body : forall a b, same_public a b -> with_wire (e_body a) 0 0 0 0 = with_wire (e_body b) 0 0 0 0.
Proof.
  intros a b (H1 & H2 & H3 & H4 & H5 & H6 & H7 & _). unfold with_wire.
  rewrite H1, H2, H3, H4, H5, H6, H7. reflexivity.
Qed.

Lemma same_public_digest : forall a b, same_public a b -> event_digest a = event_digest b.
Proof.
  intros a b H. unfold event_digest.
  rewrite <- (j_body_with_wire escape (e_body a) 0 0 0 0), (same_public_body a b H). reflexivity.
Qed.

Lemma same_public_verify : forall a b, same_public a b -> verify_preserved b a = true.
Proof.
  intros a b H. unfold verify_preserved, same_event_hash. rewrite (same_public_digest a b H), json_eqb_refl.
  destruct H as (_ & _ & _ & _ & _ & _ & _ & Hs). rewrite Hs. apply zlist_eqb_refl.
Qed.

Lemma same_public_clear : forall e, same_public (event_clear e) e.
Proof. intros e. unfold same_public, event_clear. cbn. repeat split. Qed.

(* the part of the admission invariant (C07, C16) that the conversion relies on *)
Record store_ok (st : wstore) : Prop := {
  (* the two repertoires (by id, by public key) describe the same peers *)
  so_rep : forall k id, id_of_key k (ws_rep st) = Some id -> zfind id (ws_rep st) = Some k;
  (* an event that the store returns by hash is also the event at (its creator, its index), and
     indexes are not negative *)
  so_ev : forall h k i, ev_find h (ws_ev st) = Some (k, i) ->
          0 <= i /\ forall id, id_of_key k (ws_rep st) = Some id -> pe_find id i (ws_pe st) = Some h }.

Lemma read_self_parent_back : forall st k cid sp spi,
  store_ok st -> id_of_key k (ws_rep st) = Some cid ->
  (if zlist_eqb sp [] then spi = -1 else ev_find sp (ws_ev st) = Some (k, spi)) ->
  read_self_parent st cid spi = Some sp.
Proof.
  intros st k cid sp spi Hok Hcid H. unfold read_self_parent. destruct (zlist_eqb sp []) eqn:Esp.
  - apply zlist_eqb_eq in Esp. rewrite H, Esp. reflexivity.
  - destruct (so_ev st Hok _ _ _ H) as [Hi Hpe]. destruct (Z.leb_spec 0 spi); [|lia]. exact (Hpe _ Hcid).
Qed.

(* the sender [ds] describes the other-parent, the reader [rs] finds it: [rs] knows the peers and
   the events of [ds] under the same ids, creators and indexes *)
Lemma other_parent_back : forall ds rs op oid opi,
  store_ok rs ->
  (forall k id, id_of_key k (ws_rep ds) = Some id -> id_of_key k (ws_rep rs) = Some id) ->
  (forall h k i, ev_find h (ws_ev ds) = Some (k, i) -> ev_find h (ws_ev rs) = Some (k, i)) ->
  other_parent_info ds op = Some (inr (oid, opi)) ->
  read_other_parent rs oid opi = Some (inr op).
Proof.
  intros ds rs op oid opi Hok Hrep Htr H. unfold other_parent_info in H. unfold read_other_parent.
  destruct (zlist_eqb op []) eqn:Eop.
  - apply zlist_eqb_eq in Eop. injection H as <- <-. rewrite Eop. reflexivity.
  - destruct (ev_find op (ws_ev ds)) as [[k i]|] eqn:Hev; [|discriminate].
    destruct (id_of_key k (ws_rep ds)) as [id|] eqn:Hid; [|discriminate].
    injection H as <- <-. apply Hrep in Hid. apply Htr in Hev.
    destruct (so_ev rs Hok _ _ _ Hev) as [Hi Hpe]. destruct (Z.leb_spec 0 i); [|lia].
    rewrite (so_rep rs Hok _ _ Hid), (Hpe _ Hid). reflexivity.
Qed.

Lemma unwire_wire_bsigs : forall k l,
  (forall x b, l = Some x -> In b x -> bs_validator b = Some k) ->
  unwire_bsigs k (wire_bsigs l) = l.
Proof.
  intros k [l|] H; [|reflexivity]. cbn [wire_bsigs unwire_bsigs]. f_equal.
  rewrite map_map. cbn [wbs_index wbs_sig]. rewrite <- (map_id l) at 2. apply map_ext_in.
  intros [v i s] Hin. cbn [bs_index bs_sig]. rewrite <- (H l _ eq_refl Hin). reflexivity.
Qed.

(* reading back the wire form of [e] with wire fields that name its creator and its two parents *)
Lemma read_wire_back : forall rs e e1 sp op k cid opcid spi opi,
  zfind cid (ws_rep rs) = Some k ->
  read_self_parent rs cid spi = Some sp ->
  read_other_parent rs opcid opi = Some (inr op) ->
  b_parents (e_body e) = Some [sp; op] ->
  b_creator (e_body e) = Some k ->
  (forall l b, b_bsigs (e_body e) = Some l -> In b l -> bs_validator b = Some k) ->
  e_body e1 = with_wire (e_body e) cid opcid spi opi -> e_sig e1 = e_sig e ->
  exists e2, read_wire rs (to_wire e1) = inr e2 /\ same_public e2 e /\ same_wire_info e2 e1.
Proof.
  intros rs e e1 sp op k cid opcid spi opi Hk Hsp Hop Hpar Hcr Hbs Hb Hs.
  unfold read_wire, to_wire. cbv zeta. rewrite Hb, Hs.
  cbn [with_wire b_txs b_itxs b_bsigs b_cid b_opcid b_index b_spi b_opi b_ts
       w_cid w_spi w_opcid w_opi w_txs w_itxs w_bsigs w_index w_ts w_sig].
  rewrite Hk, Hsp, Hop. eexists. split; [reflexivity|]. split.
  - unfold same_public, mk_event. cbn [e_body e_sig b_txs b_itxs b_parents b_creator b_index b_bsigs b_ts].
    rewrite (unwire_wire_bsigs k (b_bsigs (e_body e)) Hbs), Hpar, Hcr. repeat split.
  - unfold same_wire_info, mk_event. rewrite Hb. cbn. repeat split.
Qed.

Lemma set_wire_info_valid : forall st e e1, set_wire_info st e = inr e1 -> event_valid e = true -> event_valid e1 = true.
Proof.
  intros st e e1 H Hv. unfold set_wire_info in H. cbv zeta in H.
  destruct (b_parents (e_body e)) as [[|sp [|op r]]|]; try discriminate.
  destruct (id_of_key _ _); [|discriminate].
  destruct (self_parent_index st sp); [|discriminate].
  destruct (other_parent_info st op) as [[err|[oid opi]]|]; try discriminate.
  injection H as <-. exact Hv.
Qed.

Section WireRoundtrip.
  Variables (st : wstore) (e e1 : event) (sp op : gostr) (k : bytes).
  Hypothesis Hok : store_ok st.
  Hypothesis Hpar : b_parents (e_body e) = Some [sp; op].
  Hypothesis Hcr : b_creator (e_body e) = Some k.
  Hypothesis Hown : sp <> [] -> exists i, ev_find sp (ws_ev st) = Some (k, i).
  Hypothesis Hbs : forall l b, b_bsigs (e_body e) = Some l -> In b l -> bs_validator b = Some k.

  Theorem wire_roundtrip :
    set_wire_info st e = inr e1 ->
    exists e2, read_wire st (to_wire e1) = inr e2 /\ same_public e2 e /\ same_wire_info e2 e1.
  Proof using Hok Hpar Hcr Hown Hbs.
    intros H. unfold set_wire_info in H. cbv zeta in H. rewrite Hpar, Hcr in H. cbn [key_bytes] in H.
    destruct (id_of_key k (ws_rep st)) as [cid|] eqn:Hcid; [|discriminate].
    destruct (self_parent_index st sp) as [spi|] eqn:Hsp; [|discriminate].
    destruct (other_parent_info st op) as [[err|[oid opi]]|] eqn:Hop; try discriminate.
    injection H as <-.
    apply (read_wire_back st e _ sp op k cid oid spi opi); try assumption; try reflexivity.
    - exact (so_rep st Hok _ _ Hcid).
    - apply (read_self_parent_back st k); [exact Hok | exact Hcid |].
      unfold self_parent_index in Hsp. destruct (zlist_eqb sp []) eqn:Esp.
      + injection Hsp as <-. reflexivity.
      + apply zlist_eqb_neq in Esp. destruct (Hown Esp) as [i Hev]. rewrite Hev in Hsp. injection Hsp as <-. exact Hev.
    - exact (other_parent_back st st op oid opi Hok (fun _ _ H => H) (fun _ _ _ H => H) Hop).
  Qed.

  (* the same through encoding/json (SyncResponse / EagerSyncRequest), for valid UTF-8 strings *)
  Theorem wire_roundtrip_json :
    event_valid e = true ->
    set_wire_info st e = inr e1 ->
    exists e2, wire_rt true st e1 = Some (inr e2) /\ same_public e2 e /\ same_wire_info e2 e1.
  Proof using Hok Hpar Hcr Hown Hbs.
    intros Hv H. unfold wire_rt, json_rt_wevent.
    rewrite rt_wevent, (n_wevent_to_wire e1 (set_wire_info_valid st e e1 H Hv)).
    destruct (wire_roundtrip H) as (e2 & -> & Hp). exists e2. split; [reflexivity | exact Hp].
  Qed.
End WireRoundtrip.

Theorem db_roundtrip : forall e,
  event_valid e = true -> coords_valid (e_last e) = true -> coords_valid (e_first e) = true ->
  exists e', db_rt e = Some e' /\ same_public e' e /\ same_wire_info e' e /\
    e_topo e' = e_topo e /\ e_last e' = view_coords (e_last e) /\ e_first e' = view_coords (e_first e) /\
    e_round e' = None /\ e_lamport e' = None /\ e_rr e' = None.
Proof.
  intros e Hv Hl Hf. exists (n_db e). split; [apply rt_wrapper|].
  unfold event_valid in Hv. apply andb_true_iff in Hv. destruct Hv as [Hb Hs].
  assert (forall c : gostr * Z, valid_str (fst c) = true -> n_coord c = c) as Hc
    by (intros [h i] Hh; unfold n_coord; cbn [fst snd] in *; rewrite (sanitize_valid h Hh); reflexivity).
  unfold n_db. rewrite (n_body_valid _ Hb), (sanitize_valid _ Hs).
  rewrite (n_smap_valid _ n_coord _ Hc Hl), (n_smap_valid _ n_coord _ Hc Hf).
  split; [unfold same_public; cbn; repeat split|].
  split; [unfold same_wire_info; cbn; repeat split|].
  cbn. repeat split.
Qed.

Theorem itx_roundtrip : forall t, itx_valid t = true -> json_rt_itx t = Some t.
Proof. intros t H. unfold json_rt_itx. rewrite rt_itx, n_itx_valid by exact H. reflexivity. Qed.

Theorem block_roundtrip : forall b,
  block_valid b = true ->
  json_rt_block b = Some (view_block b) /\
  blockbody_digest (view_block b) = blockbody_digest b /\
  block_digest (view_block b) = block_digest b.
Proof.
  intros b H. unfold block_valid in H. split_and.
  split.
  - unfold json_rt_block. rewrite rt_block. unfold n_block, view_block.
    rewrite n_blockbody_valid, (n_smap_valid valid_str sanitize _ sanitize_valid) by assumption. reflexivity.
  - split; [reflexivity|].
    unfold block_digest, j_block, view_block. cbn [bl_body bl_sigs].
    destruct (bl_sigs b) as [l|]; [|reflexivity]. rewrite j_smap_isort; [reflexivity | exact sf_ok_escape |].
    intros kv Hin. match goal with Hs : list_all _ (Some l) = true |- _ => pose proof (forallb_in _ _ _ Hs Hin) as Hkv end.
    apply andb_true_iff in Hkv. apply Hkv.
Qed.

Lemma frame_digest_n : forall ug f,
  frame_valid f = true -> (ug = true -> no_nil_root f = true) ->
  frame_digest (n_frame ug f) = frame_digest f.
Proof.
  intros ug f Hv Hug. unfold frame_digest.
  rewrite (jn_frame raw ug f sf_ok_raw Hv Hug), (jn_frame escape ug f sf_ok_escape Hv Hug). reflexivity.
Qed.

Theorem frame_json_roundtrip : forall f,
  frame_valid f = true ->
  exists f', json_rt_frame f = Some f' /\ frame_digest f' = frame_digest f /\ f' = n_frame false f.
Proof.
  intros f Hv. exists (n_frame false f). split; [apply rt_frame|].
  split; [|reflexivity]. apply frame_digest_n; [exact Hv | discriminate].
Qed.

(* Frame.Marshal / Unmarshal (the database form of a frame): only when the writer terminates *)
Theorem frame_db_roundtrip : forall f,
  frame_valid f = true -> no_nil_root f = true -> frame_digest f <> None ->
  exists f', ug_rt_frame f = Some (Some f') /\ frame_digest f' = frame_digest f /\ f' = n_frame true f.
Proof.
  intros f Hv Hn Hd. exists (n_frame true f). unfold ug_rt_frame. unfold frame_digest in Hd.
  destruct (ug_write (j_frame raw f) (j_frame escape f)); [|contradiction].
  rewrite rt_frame. split; [reflexivity|]. split; [|reflexivity].
  apply frame_digest_n; [exact Hv | intros _; exact Hn].
Qed.

(* the events of a frame arrive with the same serialized part (hence the same hash and signature),
   and WITHOUT any private field *)
Theorem frame_events_roundtrip : forall f l,
  frame_valid f = true -> f_events f = Some l ->
  f_events (n_frame false f) =
  Some (map (fun o => match o with
                      | None => None
                      | Some fe => Some {| fe_core := match fe_core fe with None => None | Some e => Some (event_clear e) end;
                                          fe_round := fe_round fe; fe_lamport := fe_lamport fe; fe_witness := fe_witness fe |}
                      end) l).
Proof.
  intros f l Hv Hl. unfold frame_valid in Hv. split_and.
  unfold n_frame. cbn [f_events]. rewrite Hl in *. cbn [n_list]. f_equal.
  apply (map_ext_forallb (opt_all fevent_valid)); [|assumption].
  intros [fe|] Hfe; [|reflexivity]. unfold fevent_valid in Hfe. cbn [opt_all n_ptr] in *. unfold n_fevent. do 2 f_equal.
  destruct (fe_core fe) as [e|]; [|reflexivity]. cbn [n_ptr opt_all] in *. rewrite (n_event_valid e Hfe). reflexivity.
Qed.

(* the frame digest does not depend on the order in which the two maps (roots, peer sets) are
   listed; the keys of each map are distinct, those of the roots also after escaping *)
Definition frame_perm (f g : frame) : Prop :=
  f_round f = f_round g /\ f_peers f = f_peers g /\ f_events f = f_events g /\ f_ts f = f_ts g /\
  match f_roots f, f_roots g with
  | None, None => True
  | Some l1, Some l2 => Permutation l1 l2 /\ NoDup (map fst l1) /\ NoDup (map (fun kv => escape (fst kv)) l1)
  | _, _ => False
  end /\
  match f_psets f, f_psets g with
  | None, None => True
  | Some l1, Some l2 => Permutation l1 l2 /\ NoDup (map fst l1)
  | _, _ => False
  end.

Lemma j_smap_perm : forall {A} sf (g : A -> json) (l1 l2 : list (gostr * A)),
  Permutation l1 l2 -> NoDup (map (fun kv => sf (fst kv)) l1) ->
  j_smap sf g (Some l1) = j_smap sf g (Some l2).
Proof.
  intros A sf g l1 l2 Hp Hnd. cbn [j_smap]. f_equal. apply isort_lex_perm.
  - rewrite map_map. cbn [fst]. exact Hnd.
  - apply Permutation_map. exact Hp.
Qed.

Lemma j_imap_perm : forall {A} (g : A -> json) (l1 l2 : list (Z * A)),
  Permutation l1 l2 -> NoDup (map fst l1) -> j_imap g (Some l1) = j_imap g (Some l2).
Proof.
  intros A g l1 l2 Hp Hnd. cbn [j_imap]. f_equal. apply isort_z_perm.
  - rewrite map_map. cbn [fst]. exact Hnd.
  - apply Permutation_map. exact Hp.
Qed.

Lemma j_frame_perm : forall sf f g,
  (sf = raw \/ sf = escape) -> frame_perm f g -> j_frame sf f = j_frame sf g.
Proof.
  intros sf f g Hsf (H1 & H2 & H3 & H4 & H5 & H6). apply j_frame_ext; [exact H1 | rewrite H2; reflexivity | | rewrite H3; reflexivity | | exact H4].
  - destruct (f_roots f) as [l1|], (f_roots g) as [l2|]; try contradiction; [|reflexivity].
    destruct H5 as (Hp & Hn1 & Hn2). apply j_smap_perm; [exact Hp|].
    destruct Hsf as [-> | ->]; [exact Hn1 | exact Hn2].
  - destruct (f_psets f) as [l1|], (f_psets g) as [l2|]; try contradiction; [|reflexivity].
    destruct H6 as (Hp & Hn). apply j_imap_perm; assumption.
Qed.

Theorem frame_canonical : forall f g, frame_perm f g -> frame_digest f = frame_digest g.
Proof.
  intros f g H. unfold frame_digest.
  rewrite (j_frame_perm raw f g (or_introl eq_refl) H), (j_frame_perm escape f g (or_intror eq_refl) H).
  reflexivity.
Qed.

(* private fields: an event is written the same whatever its private fields and its wire fields are *)
Lemma j_event_private : forall sf e b' s' t r l rr la fd hc,
  b' = e_body e -> s' = e_sig e ->
  j_event sf {| e_body := with_wire b' 0 0 0 0; e_sig := s'; e_topo := t; e_round := r; e_lamport := l;
                e_rr := rr; e_last := la; e_first := fd; e_hexc := hc |} = j_event sf e.
Proof. intros; subst; reflexivity. Qed.

(* hash functions: every statement above about digest inputs transfers to any hash function *)

Section Hash.
  Variable H : json -> Z.
  Definition event_hash (e : event) : Z := H (event_digest e).
  (* Event.Hex() with the private cache *)
  Definition event_hex (e : event) : Z := match e_hexc e with Some h => h | None => event_hash e end.
  Definition cache_coherent (e : event) : Prop := forall h, e_hexc e = Some h -> h = event_hash e.

  Lemma same_public_hash : forall a b, same_public a b -> event_hash a = event_hash b.
  Proof. intros a b Hp. unfold event_hash. rewrite (same_public_digest a b Hp). reflexivity. Qed.

  Lemma event_hex_coherent : forall e, cache_coherent e -> event_hex e = event_hash e.
  Proof. intros e He. unfold event_hex. destruct (e_hexc e) as [h|] eqn:E; [exact (He h E) | reflexivity]. Qed.

  Lemma same_public_hex : forall a b,
    same_public a b -> cache_coherent a -> cache_coherent b -> event_hex a = event_hex b.
  Proof.
    intros a b Hp Ha Hb. rewrite (event_hex_coherent a Ha), (event_hex_coherent b Hb). exact (same_public_hash a b Hp).
  Qed.
End Hash.

(* a checker for store_ok (used on concrete stores) *)

Definition store_ok_b (st : wstore) : bool :=
  forallb (fun p : Z * bytes =>
             match id_of_key (snd p) (ws_rep st) with
             | Some id => match zfind id (ws_rep st) with Some k => zlist_eqb k (snd p) | None => false end
             | None => true
             end) (ws_rep st) &&
  forallb (fun x : gostr * (bytes * Z) =>
             (0 <=? snd (snd x)) &&
             match id_of_key (fst (snd x)) (ws_rep st) with
             | Some id => match pe_find id (snd (snd x)) (ws_pe st) with
                          | Some h => zlist_eqb h (fst x)
                          | None => false
                          end
             | None => true
             end) (ws_ev st).

Lemma id_of_key_in : forall k l id, id_of_key k l = Some id -> In (id, k) l.
Proof.
  induction l as [|[i k'] l IH]; intros id H; cbn [id_of_key] in H; [discriminate|].
  destruct (zlist_eqb k' k) eqn:E.
  - apply zlist_eqb_eq in E. injection H as <-. left. rewrite E. reflexivity.
  - right. apply IH. exact H.
Qed.

Lemma ev_find_in : forall h l v, ev_find h l = Some v -> In (h, v) l.
Proof.
  induction l as [|[h' v'] l IH]; intros v H; cbn [ev_find] in H; [discriminate|].
  destruct (zlist_eqb h' h) eqn:E.
  - apply zlist_eqb_eq in E. inversion H; subst. left. reflexivity.
  - right. apply IH. exact H.
Qed.

Lemma store_ok_b_sound : forall st, store_ok_b st = true -> store_ok st.
Proof.
  intros st H. unfold store_ok_b in H. apply andb_true_iff in H. destruct H as [H1 H2].
  rewrite forallb_forall in H1, H2. constructor.
  - intros k id Hid. pose proof (H1 _ (id_of_key_in _ _ _ Hid)) as Hc. cbn [snd] in Hc. rewrite Hid in Hc.
    destruct (zfind id (ws_rep st)) as [k2|]; [|discriminate]. apply zlist_eqb_eq in Hc. subst. reflexivity.
  - intros h k i Hev. pose proof (H2 _ (ev_find_in _ _ _ Hev)) as Hc. cbn [fst snd] in Hc.
    apply andb_true_iff in Hc. destruct Hc as [Hi Hc]. split; [lia|].
    intros id Hid. rewrite Hid in Hc. destruct (pe_find id i (ws_pe st)) as [h'|]; [|discriminate].
    apply zlist_eqb_eq in Hc. subst. reflexivity.
Qed.

Lemma same_public_same_hash : forall (H : json -> Z) a b,
  same_public a b -> cache_coherent H a -> cache_coherent H b ->
  event_hash H a = event_hash H b /\ event_hex H a = event_hex H b /\ verify_preserved b a = true.
Proof.
  intros H a b Hp Ha Hb. split; [apply same_public_hash; exact Hp|].
  split; [apply same_public_hex; assumption | apply same_public_verify; exact Hp].
Qed.
