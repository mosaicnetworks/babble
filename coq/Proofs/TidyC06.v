(* C06, the deterministic core of the termination argument of virtual voting, on the abstract
   voting loop (Model/Voting.v, reference semantics Model/VotingRef.v):
   - unanimity of a round is decided at the next normal round, hence within two rounds;
   - a supermajority of (honest) witnesses voting v before a normal round makes that round
     unanimous (NOT decided: see Properties/C06.v for the counterexample), hence decided within
     two further rounds;
   - what the coin is for: in a coin round a witness flips the coin only if its own tally has no
     supermajority; all supermajority tallies of a round carry the same value; nobody decides in a
     coin round; a unanimous previous round makes the coin irrelevant.
   The probabilistic part (some coin round eventually produces unanimity) is outside. *)
From Coq Require Import ZArith List Bool Lia ZifyBool Permutation.
From V Require Import Model.ZMap Model.Quorum Model.Voting Model.VotingRef Proofs.VotingProofs Proofs.VotingProofsD.
Import ListNotations.
Open Scope Z_scope.

Lemma view_ok_restrict n r P W J J' : view_ok n r P W J -> r <= J' <= J -> view_ok n r P W J'.
Proof.
  intros HV HJ. destruct HV as [H1 H2 H3 H4 H5 H6 H7 H8 H9 H10]. constructor.
  - exact H1.
  - lia.
  - intros j Hj. apply H3. lia.
  - intros j Hj. apply H4. lia.
  - intros j j' y Hj Hj'. apply H5; lia.
  - intros j Hj. apply H6. lia.
  - intros j Hj. apply H7. lia.
  - intros j y w Hj. apply H8. lia.
  - intros j y Hj. apply H9. lia.
  - intros y Hj. apply H10. lia.
Qed.

Section View.
Variables (n r : Z) (P : vparams) (W : Z -> list Z) (J : Z).
Hypothesis HV : view_ok n r P W J.

Notation s := (sm n).
Notation V := (Vz P W r s).
Notation dec := (decider P W r s).

(* a unanimous round makes every witness of the next NORMAL round a decider, for that value *)
Lemma unanimous_decider j v : r + 2 <= j <= J -> 0 < (j - r) mod 4 ->
  (forall w, In w (W (j - 1)) -> V (j - 1) w = v) ->
  forall y, In y (W j) -> dec j y = true /\ V j y = v.
Proof.
  intros Hj Hn Hu y Hy.
  destruct (unanimous_step n r P W J HV j v Hj Hu y Hy) as [Hv Ht].
  split; [|exact Hv]. unfold decider. rewrite Ht. cbn [snd].
  pose proof (vo_quorum _ _ _ _ _ HV j y Hj Hy) as Hq.
  apply andb_true_intro. split; [apply andb_true_intro; split|]; lia.
Qed.

(* the loop over the rounds up to J' <= J *)
Definition decided_by (J' : Z) (v : bool) : Prop :=
  fame_loop P (fun j => Some (W j)) r (zrange (r + 1) J') [] = Some (Some v).

(* unanimity at round j0 is decided at every later normal round j that has a witness, whatever the rounds
   J' >= j the loop runs over *)
Lemma unanimity_decides j0 v j y :
  r + 1 <= j0 -> j0 < j <= J -> 0 < (j - r) mod 4 -> In y (W j) ->
  (forall w, In w (W j0) -> V j0 w = v) ->
  forall J', j <= J' <= J -> decided_by J' v.
Proof.
  intros Hj0 Hj Hn Hy Hu J' HJ.
  assert (Hu' : forall w, In w (W (j - 1)) -> V (j - 1) w = v).
  { intros w Hw. apply (unanimous_from n r P W J HV j0 v Hj0 Hu (j - 1) w); [lia|exact Hw]. }
  destruct (unanimous_decider j v ltac:(lia) Hn Hu' y Hy) as [Hd Hv].
  apply (decision_iff_decider n r P W J' (view_ok_restrict n r P W J J' HV ltac:(lia)) v).
  exists j, y. split; [lia|]. split; [exact Hy|]. split; [exact Hd|exact Hv].
Qed.

(** (a) all round-(r+1) witnesses vote the same way (all see the candidate, or none does):
    decided at round r+2, as soon as that round has a witness *)
Theorem unanimous_decides_next_round v y :
  r + 2 <= J -> In y (W (r + 2)) ->
  (forall w, In w (W (r + 1)) -> seesb P w = v) ->
  decided_by (r + 2) v /\ decided_by J v.
Proof.
  intros HJ Hy Hu.
  assert (Hu' : forall w, In w (W (r + 1)) -> V (r + 1) w = v).
  { intros w Hw. rewrite Vz_base. apply Hu; exact Hw. }
  assert (Hn : 0 < (r + 2 - r) mod 4) by (replace (r + 2 - r) with 2 by lia; reflexivity).
  pose proof (unanimity_decides (r + 1) v (r + 2) y ltac:(lia) ltac:(lia) Hn Hy Hu') as D.
  split; apply D; lia.
Qed.

(** the general form: unanimity at any round j0 is decided at the next normal round -- j0+1, or
    j0+2 when j0+1 is a coin round -- hence within two rounds *)
Theorem unanimity_decides_within_two_rounds j0 v y1 y2 :
  r + 1 <= j0 -> j0 + 2 <= J -> In y1 (W (j0 + 1)) -> In y2 (W (j0 + 2)) ->
  (forall w, In w (W j0) -> V j0 w = v) ->
  decided_by (j0 + 2) v /\ decided_by J v.
Proof.
  intros Hj0 HJ Hy1 Hy2 Hu.
  destruct (Z.eq_dec ((j0 + 1 - r) mod 4) 0) as [Hc|Hn].
  - pose proof (unanimity_decides j0 v (j0 + 2) y2 Hj0 ltac:(lia) ltac:(lia) Hy2 Hu) as D.
    split; apply D; lia.
  - pose proof (unanimity_decides j0 v (j0 + 1) y1 Hj0 ltac:(lia) ltac:(lia) Hy1 Hu) as D.
    split; apply D; lia.
Qed.

(* the round at which it is decided, exactly *)
Theorem unanimity_decides_at_next_normal_round j0 v j y :
  r + 1 <= j0 -> j0 < j <= J -> 0 < (j - r) mod 4 -> In y (W j) ->
  (forall w, In w (W j0) -> V j0 w = v) ->
  decided_by j v /\ decided_by J v.
Proof.
  intros Hj0 Hj Hn Hy Hu.
  pose proof (unanimity_decides j0 v j y Hj0 Hj Hn Hy Hu) as D.
  split; apply D; lia.
Qed.

(** (b) U = all witnesses of round j of the history (at most n, one per validator), known to the
    view or not; A = at least a supermajority of them (e.g. the honest ones) whose vote is v as
    far as the view knows them.  If j+1 is a normal round, EVERY witness of round j+1 votes v:
    round j+1 is unanimous (its witnesses need not be deciders: Properties/C06.v) *)
Theorem supermajority_forces_next_round j (U A : list Z) v :
  r + 1 <= j -> j + 1 <= J -> 0 < (j + 1 - r) mod 4 ->
  NoDup U -> Z.of_nat (length U) <= n -> incl (W j) U ->
  NoDup A -> incl A U -> s <= Z.of_nat (length A) ->
  (forall w, In w A -> In w (W j) -> V j w = v) ->
  forall y, In y (W (j + 1)) -> V (j + 1) y = v.
Proof.
  intros Hj HJ Hn HU HUn HWU HA HAU HAs Hv y Hy.
  rewrite (Vz_step P W r s (j + 1) y) by lia. apply Z.ltb_lt in Hn. rewrite Hn, tallyf_Vz_D.
  refine (tally_forcedD _ _ _ _ _ (view_ok_D HV) (j + 1) U A v ltac:(lia) HU _ _ HA HAU HAs _ y Hy);
    replace (j + 1 - 1) with j by lia; try assumption.
  intros w HwA Hw. rewrite <- (Vz_D P W r s). apply Hv; assumption.
Qed.

(* ... and is therefore decided within two further rounds (at j+2 if normal, else at j+3) *)
Theorem supermajority_decides_within_three_rounds j (U A : list Z) v y2 y3 :
  r + 1 <= j -> j + 3 <= J -> 0 < (j + 1 - r) mod 4 ->
  NoDup U -> Z.of_nat (length U) <= n -> incl (W j) U ->
  NoDup A -> incl A U -> s <= Z.of_nat (length A) ->
  (forall w, In w A -> In w (W j) -> V j w = v) ->
  In y2 (W (j + 2)) -> In y3 (W (j + 3)) ->
  decided_by (j + 3) v /\ decided_by J v.
Proof.
  intros Hj HJ Hn HU HUn HWU HA HAU HAs Hv Hy2 Hy3.
  pose proof (supermajority_forces_next_round j U A v Hj ltac:(lia) Hn HU HUn HWU HA HAU HAs Hv) as Hu.
  replace (j + 3) with (j + 1 + 2) in * by lia. replace (j + 2) with (j + 1 + 1) in Hy2 by lia.
  apply (unanimity_decides_within_two_rounds (j + 1) v y2 y3); [lia|exact HJ|exact Hy2|exact Hy3|exact Hu].
Qed.

(** (c) the coin.  In a coin round j ((j - r) mod 4 = 0) a witness votes the majority value of
    its tally when that tally is a supermajority, and flips its coin otherwise; it never decides *)
Theorem coin_round_vote j y :
  r + 2 <= j -> (j - r) mod 4 = 0 ->
  let vt := tallyf (V (j - 1)) (ssset P W j y) in
  (s <= snd vt -> V j y = fst vt) /\ (snd vt < s -> V j y = vp_coin P y) /\ dec j y = false.
Proof.
  intros Hj Hc vt. rewrite (Vz_step P W r s j y Hj). fold vt.
  replace (0 <? (j - r) mod 4) with false by lia.
  split; [intros H; replace (s <=? snd vt) with true by lia; reflexivity|].
  split; [intros H; replace (s <=? snd vt) with false by lia; reflexivity|].
  unfold decider. replace (0 <? (j - r) mod 4) with false by lia.
  rewrite andb_false_r. reflexivity.
Qed.

(* in any round, a supermajority tally of one witness fixes the majority value of the tally of
   every other witness of that round: two supermajority tallies never disagree *)
Theorem supermajority_tally_unique j y y' :
  r + 2 <= j <= J -> In y (W j) -> In y' (W j) ->
  s <= snd (tallyf (V (j - 1)) (ssset P W j y)) ->
  fst (tallyf (V (j - 1)) (ssset P W j y')) = fst (tallyf (V (j - 1)) (ssset P W j y)).
Proof.
  intros Hj Hy Hy' Hs. rewrite !tallyf_Vz_D in *.
  apply (supermajority_tally_uniqueD _ _ _ _ _ (view_ok_D HV)); assumption.
Qed.

(* hence in a coin round in which some witness has a supermajority tally for v, every witness
   votes v or its own coin: the coin matters exactly for the witnesses without a supermajority *)
Theorem coin_round_votes j y y' :
  r + 2 <= j <= J -> (j - r) mod 4 = 0 -> In y (W j) -> In y' (W j) ->
  s <= snd (tallyf (V (j - 1)) (ssset P W j y)) ->
  V j y = fst (tallyf (V (j - 1)) (ssset P W j y)) /\
  (V j y' = fst (tallyf (V (j - 1)) (ssset P W j y)) \/
   (snd (tallyf (V (j - 1)) (ssset P W j y')) < s /\ V j y' = vp_coin P y')).
Proof.
  intros Hj Hc Hy Hy' Hs.
  destruct (coin_round_vote j y ltac:(lia) Hc) as [H1 _].
  split; [apply H1; exact Hs|].
  destruct (coin_round_vote j y' ltac:(lia) Hc) as [H1' [H2' _]].
  destruct (Z_lt_le_dec (snd (tallyf (V (j - 1)) (ssset P W j y'))) s) as [Hlt|Hge].
  - right. split; [exact Hlt|apply H2'; exact Hlt].
  - left. rewrite (H1' Hge). apply supermajority_tally_unique; assumption.
Qed.

(* and when the previous round is unanimous the coin is not used at all *)
Theorem coin_irrelevant_when_unanimous j v y :
  r + 2 <= j <= J -> (forall w, In w (W (j - 1)) -> V (j - 1) w = v) -> In y (W j) ->
  V j y = v /\ s <= snd (tallyf (V (j - 1)) (ssset P W j y)).
Proof.
  intros Hj Hu Hy. destruct (unanimous_step n r P W J HV j v Hj Hu y Hy) as [Hv Ht].
  split; [exact Hv|]. rewrite Ht. cbn [snd]. apply (vo_quorum _ _ _ _ _ HV); assumption.
Qed.

End View.

(** * The stronger reading of (b) is false *)
From V Require Import Model.VotingWitness.

(* "a supermajority of round-j witnesses voting v makes every witness of the normal round j+1 a
   DECIDER": false, a witness of round j+1 strongly sees only a supermajority of round j, of which
   as few as 2 * sm - n vote v *)
Definition supermajority_decides_next_round_statement : Prop :=
  forall n r P W J j A v, view_ok n r P W J ->
    r + 1 <= j -> j + 1 <= J -> 0 < (j + 1 - r) mod 4 ->
    NoDup A -> incl A (W j) -> sm n <= Z.of_nat (length A) ->
    (forall w, In w A -> Vz P W r (sm n) j w = v) ->
    forall y, In y (W (j + 1)) -> decider P W r (sm n) (j + 1) y = true.

Theorem supermajority_decides_next_round_refuted : ~ supermajority_decides_next_round_statement.
Proof.
  intros H.
  assert (HV : view_ok 4 0 c06_P c06_W 3) by (apply view_okb_sound; vm_compute; reflexivity).
  specialize (H 4 0 c06_P c06_W 3 1 [1; 2; 3] true HV).
  assert (D : decider c06_P c06_W 0 (sm 4) (1 + 1) 5 = true).
  { apply H.
    - lia.
    - lia.
    - reflexivity.
    - apply nodupb_NoDup. reflexivity.
    - apply inclb_incl. reflexivity.
    - vm_compute. discriminate.
    - intros w Hw. cbn in Hw. destruct Hw as [<-|[<-|[<-|[]]]]; vm_compute; reflexivity.
    - vm_compute. tauto. }
  vm_compute in D. discriminate D.
Qed.
