(* Stage S2, insertion: what updateAncestorFirstDescendant does.  One downward walk along a
   creator's chain adds the entry (c -> (i, x)) exactly to the events from the starting point down
   to the first event that already has an entry for c or down to (and including) the first
   witness; nothing else in the state changes. *)
From Coq Require Import ZArith List Bool Lia ZifyBool.
From RecordUpdate Require Import RecordSet.
From V Require Import Model.ZMap Model.Quorum Model.Voting Model.HgImpl Proofs.ZMapFacts Proofs.HgFrames
  Proofs.HgDagFrames Proofs.AdmissionProofs Proofs.Ancestry Proofs.OrderFrames Proofs.Static Proofs.FirstDesc.
Import ListNotations RecordSetNotations.
Open Scope Z_scope.

Definition add_fd (c i x : Z) (eb : evst) : evst := eb <| ev_fd := ev_fd eb ++ [(c, (i, x))] |>.

Lemma add_fd_static c i x eb : ev_static (add_fd c i x eb) = ev_static eb.
Proof. reflexivity. Qed.
Lemma add_fd_e c i x eb : ev_e (add_fd c i x eb) = ev_e eb.
Proof. reflexivity. Qed.
Lemma add_fd_la c i x eb : ev_la (add_fd c i x eb) = ev_la eb.
Proof. reflexivity. Qed.
Lemma add_fd_round c i x eb : ev_round (add_fd c i x eb) = ev_round eb.
Proof. reflexivity. Qed.
Lemma add_fd_fd c i x eb : ev_fd (add_fd c i x eb) = ev_fd eb ++ [(c, (i, x))].
Proof. reflexivity. Qed.

Lemma aget_add_fd_same c i x eb : aget c (ev_fd eb) = None -> aget c (ev_fd (add_fd c i x eb)) = Some (i, x).
Proof. intros H. rewrite add_fd_fd, aget_app_none by exact H. cbn [aget]. rewrite Z.eqb_refl. reflexivity. Qed.
Lemma aget_add_fd_other c i x eb c' : c' <> c -> aget c' (ev_fd (add_fd c i x eb)) = aget c' (ev_fd eb).
Proof.
  intros H. rewrite add_fd_fd. destruct (aget c' (ev_fd eb)) as [v|] eqn:E.
  - apply aget_app_some. exact E.
  - rewrite aget_app_none by exact E. cbn [aget]. destruct (Z.eqb_spec c c'); [congruence|reflexivity].
Qed.
Lemma aget_add_fd_mono c i x eb c' v : aget c' (ev_fd eb) = Some v -> aget c' (ev_fd (add_fd c i x eb)) = Some v.
Proof. intros H. rewrite add_fd_fd. apply aget_app_some. exact H. Qed.

(* fd-extension: only first-descendant entries for c are added, to events satisfying P *)
Record fdx (c i x : Z) (P : evst -> Prop) (s s' : hg) : Prop := {
  fx_rest : s' <| events := events s |> = s;
  fx_ev : forall b, get_event s' b = get_event s b \/
          exists eb, get_event s b = Some eb /\ aget c (ev_fd eb) = None /\
                     get_event s' b = Some (add_fd c i x eb) /\ P eb
}.

Lemma fdx_refl c i x P s : fdx c i x P s s.
Proof. constructor; [destruct s; reflexivity|intros b; left; reflexivity]. Qed.

Lemma fdx_trans c i x P a b d : fdx c i x P a b -> fdx c i x P b d -> fdx c i x P a d.
Proof.
  intros [R1 E1] [R2 E2]. constructor.
  - transitivity ((d <| events := events b |>) <| events := events a |>); [reflexivity|].
    rewrite R2. exact R1.
  - intros y. destruct (E2 y) as [H2|[eb [H2 [N2 [S2 P2]]]]].
    + destruct (E1 y) as [H1|[eb [H1 [N1 [S1 P1]]]]]; [left; congruence|right].
      exists eb. rewrite H2. auto.
    + destruct (E1 y) as [H1|[eb0 [H1 [N1 [S1 P1]]]]].
      * right. exists eb. rewrite <- H1. auto.
      * exfalso. rewrite S1 in H2. inversion H2; subst eb.
        rewrite aget_add_fd_same in N2 by exact N1. discriminate.
Qed.

Lemma fdx_weaken c i x (P Q : evst -> Prop) s s' : (forall eb, P eb -> Q eb) -> fdx c i x P s s' -> fdx c i x Q s s'.
Proof.
  intros H [R E]. constructor; [exact R|]. intros b. destruct (E b) as [?|[eb [? [? [? ?]]]]]; [left; auto|right].
  exists eb. auto.
Qed.

(* what an fd-extension does to one event *)
Definition fd_ext (c i x : Z) (P : evst -> Prop) (eb eb' : evst) : Prop :=
  ev_e eb' = ev_e eb /\ ev_la eb' = ev_la eb /\ ev_round eb' = ev_round eb /\
  (forall c' v, aget c' (ev_fd eb) = Some v -> aget c' (ev_fd eb') = Some v) /\
  (forall c' v, aget c' (ev_fd eb') = Some v ->
     aget c' (ev_fd eb) = Some v \/ (c' = c /\ v = (i, x) /\ aget c (ev_fd eb) = None /\ P eb)).

Lemma fd_ext_of c i x (P : evst -> Prop) eb eb' :
  eb' = eb \/ (aget c (ev_fd eb) = None /\ eb' = add_fd c i x eb /\ P eb) -> fd_ext c i x P eb eb'.
Proof.
  intros [->|[N [-> Pb]]]; [unfold fd_ext; auto 6|].
  split; [reflexivity|split; [reflexivity|split; [reflexivity|split]]]; intros c' v.
  - apply aget_add_fd_mono.
  - intros Hv. destruct (Z.eq_dec c' c) as [->|Hne].
    + right. rewrite aget_add_fd_same in Hv by exact N. injection Hv as <-. auto.
    + left. rewrite aget_add_fd_other in Hv by exact Hne. exact Hv.
Qed.

Section FdxFacts.
  Variables (c i x : Z) (P : evst -> Prop) (s s' : hg).
  Hypothesis X : fdx c i x P s s'.

  Lemma fdx_round_memo : round_memo s' = round_memo s.
  Proof. pose proof (f_equal round_memo (fx_rest _ _ _ _ _ _ X)) as H. exact H. Qed.
  Lemma fdx_witness_memo : witness_memo s' = witness_memo s.
  Proof. pose proof (f_equal witness_memo (fx_rest _ _ _ _ _ _ X)) as H. exact H. Qed.
  Lemma fdx_rounds : rounds s' = rounds s.
  Proof. pose proof (f_equal rounds (fx_rest _ _ _ _ _ _ X)) as H. exact H. Qed.
  Lemma fdx_topo : topo s' = topo s.
  Proof. pose proof (f_equal topo (fx_rest _ _ _ _ _ _ X)) as H. exact H. Qed.
  Lemma fdx_pevents : pevents s' = pevents s.
  Proof. pose proof (f_equal pevents (fx_rest _ _ _ _ _ _ X)) as H. exact H. Qed.
  Lemma fdx_failed : failed s' = failed s.
  Proof. pose proof (f_equal failed (fx_rest _ _ _ _ _ _ X)) as H. exact H. Qed.
  Lemma fdx_undetermined : undetermined s' = undetermined s.
  Proof. pose proof (f_equal undetermined (fx_rest _ _ _ _ _ _ X)) as H. exact H. Qed.

  Lemma fdx_rmemo y : rmemo s' y = rmemo s y.
  Proof. unfold rmemo. rewrite fdx_round_memo. reflexivity. Qed.
  Lemma fdx_wmemo y : wmemo s' y = wmemo s y.
  Proof. unfold wmemo. rewrite fdx_witness_memo. reflexivity. Qed.
  Lemma fdx_wit y : wit s' y = wit s y.
  Proof. unfold wit. rewrite fdx_wmemo. reflexivity. Qed.
  Lemma fdx_prnd p : prnd s' p = prnd s p.
  Proof. unfold prnd. rewrite fdx_rmemo. reflexivity. Qed.
  Lemma fdx_get_round r : get_round s' r = get_round s r.
  Proof. unfold get_round. rewrite fdx_rounds. reflexivity. Qed.
  Lemma fdx_wl r : wl s' r = wl s r.
  Proof. unfold wl. rewrite fdx_get_round. reflexivity. Qed.
  Lemma fdx_wits r : wits s' r = wits s r.
  Proof. unfold wits. rewrite fdx_wl. reflexivity. Qed.

  Lemma fdx_fwd b eb : get_event s b = Some eb ->
    exists eb', get_event s' b = Some eb' /\
      (eb' = eb \/ (aget c (ev_fd eb) = None /\ eb' = add_fd c i x eb /\ P eb)).
  Proof.
    intros H. destruct (fx_ev _ _ _ _ _ _ X b) as [E|[eb0 [H0 [N [S Pb]]]]].
    - exists eb. rewrite E. auto.
    - rewrite H in H0. inversion H0; subst eb0. exists (add_fd c i x eb). auto.
  Qed.
  Lemma fdx_bwd b eb' : get_event s' b = Some eb' ->
    exists eb, get_event s b = Some eb /\
      (eb' = eb \/ (aget c (ev_fd eb) = None /\ eb' = add_fd c i x eb /\ P eb)).
  Proof.
    intros H. destruct (fx_ev _ _ _ _ _ _ X b) as [E|[eb0 [H0 [N [S Pb]]]]].
    - exists eb'. rewrite <- E. auto.
    - rewrite H in S. inversion S; subst eb'. exists eb0. auto.
  Qed.

  Lemma fdx_fwd_e b eb : get_event s b = Some eb ->
    exists eb', get_event s' b = Some eb' /\ fd_ext c i x P eb eb'.
  Proof. intros H. destruct (fdx_fwd b eb H) as [eb' [H' R]]. exists eb'. split; [exact H'|apply fd_ext_of, R]. Qed.
  Lemma fdx_bwd_e b eb' : get_event s' b = Some eb' ->
    exists eb, get_event s b = Some eb /\ fd_ext c i x P eb eb'.
  Proof. intros H. destruct (fdx_bwd b eb' H) as [eb [H0 R]]. exists eb. split; [exact H0|apply fd_ext_of, R]. Qed.

  Lemma fdx_dag_frame : dag_frame s s'.
  Proof.
    split; [|split; [rewrite fdx_pevents; apply pev_ext_refl|apply fdx_topo]].
    intros b. fold (get_event s' b). fold (get_event s b).
    destruct (fx_ev _ _ _ _ _ _ X b) as [E|[eb [H0 [N [S Pb]]]]]; [rewrite E; reflexivity|].
    rewrite S, H0. cbn [option_map]. rewrite add_fd_static. reflexivity.
  Qed.

  Lemma fdx_no_wit_between q lo hi : no_wit_between s q lo hi <-> no_wit_between s' q lo hi.
  Proof.
    split; intros H y ey Hy Hc Hi.
    - destruct (fdx_bwd_e y ey Hy) as [ey0 [Hy0 [Ee _]]]. rewrite fdx_wit. rewrite Ee in *. eapply H; eauto.
    - destruct (fdx_fwd_e y ey Hy) as [ey' [Hy' [Ee _]]]. rewrite <- fdx_wit. rewrite <- Ee in *. eapply H; eauto.
  Qed.
End FdxFacts.

Lemma witness_f_memo_hit fuel st y w : wmemo st y = Some w -> witness_f fuel st y = (Some w, st).
Proof. unfold wmemo, witness_f. intros ->. reflexivity. Qed.

Lemma wmemo_set_evst st y es z : wmemo (set_evst st y es) z = wmemo st z.
Proof. reflexivity. Qed.

(* the events that may receive the entry during the walk from creator q's event of index <= t *)
Definition PQ (s0 : hg) (q t : Z) (eb : evst) : Prop :=
  e_creator (ev_e eb) = q /\ e_index (ev_e eb) <= t /\ no_wit_between s0 q (e_index (ev_e eb)) t.

Lemma fdx_set_one c i x (P : evst -> Prop) st ah a :
  get_event st ah = Some a -> aget c (ev_fd a) = None -> P a ->
  fdx c i x P st (set_evst st ah (add_fd c i x a)).
Proof.
  intros Ha Hn Pa.
  assert (Hpos : 0 <= ah) by (eapply zget_some_nonneg; exact Ha).
  constructor; [unfold set_evst; destruct st; reflexivity|].
  intros b. rewrite get_event_set_evst.
  destruct (Z.eqb_spec ah b) as [<-|Hne]; cbn [andb]; [|left; reflexivity].
  replace (0 <=? ah) with true by lia. right. exists a. auto.
Qed.

(* One walk from [ah], an event of creator q at or below index t with no witness in between: it adds
   the entry to events of the walked range only ([PQ]), leaves [ah] with an entry, and whenever it
   gives an entry to a non-witness it goes on to the self-parent, which then has one too. *)
Lemma fd_walk_spec c i x s0 q t : forall fuel st ah,
  dag_ok st ->
  fdx c i x (fun _ => True) s0 st ->
  (forall b eb, get_event st b = Some eb -> aget c (ev_fd eb) = None -> wmemo st b <> None) ->
  (forall ea, get_event st ah = Some ea ->
      e_creator (ev_e ea) = q /\ e_index (ev_e ea) <= t /\ no_wit_between s0 q (e_index (ev_e ea)) t /\
      (Z.to_nat (e_index (ev_e ea)) < fuel)%nat) ->
  fdx c i x (PQ s0 q t) st (fd_walk fuel st c i x ah) /\
  (forall ea, get_event st ah = Some ea ->
      exists ea' v, get_event (fd_walk fuel st c i x ah) ah = Some ea' /\ aget c (ev_fd ea') = Some v) /\
  (forall b eb eb', get_event st b = Some eb -> aget c (ev_fd eb) = None ->
      get_event (fd_walk fuel st c i x ah) b = Some eb' -> aget c (ev_fd eb') <> None ->
      wit st b = false -> e_sp (ev_e eb) <> -1 ->
      exists es' v, get_event (fd_walk fuel st c i x ah) (e_sp (ev_e eb)) = Some es' /\ aget c (ev_fd es') = Some v).
Proof.
  (* the walk stops at once: no event at [ah], or one that has the entry *)
  assert (Stay : forall st ah o, get_event st ah = o -> (forall ea, o = Some ea -> aget c (ev_fd ea) <> None) ->
    fdx c i x (PQ s0 q t) st st /\
    (forall ea, o = Some ea -> exists ea' v, get_event st ah = Some ea' /\ aget c (ev_fd ea') = Some v) /\
    (forall b eb eb', get_event st b = Some eb -> aget c (ev_fd eb) = None ->
        get_event st b = Some eb' -> aget c (ev_fd eb') <> None -> wit st b = false -> e_sp (ev_e eb) <> -1 ->
        exists es' v, get_event st (e_sp (ev_e eb)) = Some es' /\ aget c (ev_fd es') = Some v)).
  { intros st ah o <- H. split; [apply fdx_refl|]. split; [|intros b eb eb' Hb Hn Hb' Hn'; congruence].
    intros ea Ha. specialize (H ea Ha). destruct (aget c (ev_fd ea)) as [v|] eqn:E; [eauto|contradiction]. }
  induction fuel as [|f IH]; intros st ah OK X0 HM HA; cbn [fd_walk].
  { apply (Stay st ah _ eq_refl). intros ea Ha. destruct (HA ea Ha) as [_ [_ [_ Hf]]]. lia. }
  destruct (get_event st ah) as [a|] eqn:Ha; [|apply (Stay st ah _ Ha); discriminate].
  destruct (aget c (ev_fd a)) as [v|] eqn:Hc; [apply (Stay st ah _ Ha); intros ea [= <-]; congruence|].
  destruct (HA a eq_refl) as [Hq [Ht [Hnw Hfuel]]].
  fold (add_fd c i x a).
  set (st1 := set_evst st ah (add_fd c i x a)).
  assert (X1 : fdx c i x (PQ s0 q t) st st1).
  { apply fdx_set_one; auto. split; auto. }
  assert (G1 : forall b, get_event st1 b = if ah =? b then Some (add_fd c i x a) else get_event st b).
  { intros b. unfold st1. rewrite get_event_set_evst.
    assert (0 <= ah) by (eapply zget_some_nonneg; exact Ha).
    replace (0 <=? ah) with true by lia. rewrite andb_true_r. reflexivity. }
  assert (Hah1 : get_event st1 ah = Some (add_fd c i x a)) by (rewrite G1, Z.eqb_refl; reflexivity).
  assert (Hent : aget c (ev_fd (add_fd c i x a)) = Some (i, x)) by (apply aget_add_fd_same; exact Hc).
  destruct (wmemo st ah) as [w|] eqn:Hw; [|exfalso; eapply HM; eauto].
  rewrite (witness_f_memo_hit _ st1 ah w) by (unfold st1; rewrite wmemo_set_evst; exact Hw).
  destruct w.
  { (* a witness: the walk stops *)
    split; [exact X1|]. split; [intros ea _; eauto|].
    intros b eb eb' Hb Hn Hb' Hn' Hwb _. exfalso. rewrite G1 in Hb'.
    destruct (Z.eqb_spec ah b) as [<-|_]; [unfold wit in Hwb; rewrite Hw in Hwb; discriminate|congruence]. }
  (* not a witness: on to the self-parent, read in st1, where the invariant holds as well *)
  assert (Hwf : wit st ah = false) by (unfold wit; rewrite Hw; reflexivity).
  assert (OK1 : dag_ok st1).
  { eapply dag_ok_frame; [exact OK|]. eapply dag_frame_set_evst; [exact Ha|apply add_fd_static]. }
  pose proof (d_sp st1 OK1 _ _ Hah1) as Hpar. rewrite add_fd_e in Hpar.
  assert (X01 : fdx c i x (fun _ => True) s0 st1).
  { eapply fdx_trans; [exact X0|]. eapply fdx_weaken; [|exact X1]. auto. }
  assert (HM1 : forall b eb, get_event st1 b = Some eb -> aget c (ev_fd eb) = None -> wmemo st1 b <> None).
  { intros b eb Hb Hn. unfold st1. rewrite wmemo_set_evst. rewrite G1 in Hb.
    destruct (Z.eqb_spec ah b) as [<-|Hne]; [congruence|eapply HM; eauto]. }
  assert (HA1 : forall ea, get_event st1 (e_sp (ev_e a)) = Some ea ->
    e_creator (ev_e ea) = q /\ e_index (ev_e ea) <= t /\ no_wit_between s0 q (e_index (ev_e ea)) t /\
    (Z.to_nat (e_index (ev_e ea)) < f)%nat).
  { intros ea Hea. destruct Hpar as [[Hs _]|[ps [Hps [Hcp Hip]]]].
    { rewrite Hs, Ancestry.get_event_neg in Hea by lia. discriminate. }
    rewrite Hps in Hea. injection Hea as <-.
    destruct (d_listed st1 OK1 _ _ Hps) as [_ [_ [Hge _]]].
    split; [congruence|]. split; [lia|]. split; [|lia].
    intros y ey Hy Hcy Hiy.
    destruct (Z.eq_dec (e_index (ev_e ey)) (e_index (ev_e a))) as [Eidx|Nidx]; [|apply (Hnw y ey Hy Hcy); lia].
    (* the event of q at a's height is a itself, not a witness *)
    destruct (fdx_fwd_e _ _ _ _ _ _ X0 y ey Hy) as [ey' [Hy' [Ee _]]].
    assert (y = ah) by (eapply (dag_ok_no_fork st y ah ey' a OK Hy' Ha); rewrite Ee; congruence).
    subst y. rewrite <- (fdx_wit _ _ _ _ _ _ X0). exact Hwf. }
  destruct (IH st1 (e_sp (ev_e a)) OK1 X01 HM1 HA1) as [R1 [R2 R3]].
  set (st' := fd_walk f st1 c i x (e_sp (ev_e a))) in *.
  split; [eapply fdx_trans; eauto|]. split.
  - intros ea _.
    destruct (fdx_fwd_e _ _ _ _ _ _ R1 ah _ Hah1) as [ea' [Hea' [_ [_ [_ [Hmono _]]]]]]. eauto.
  - intros b eb eb' Hb Hn Hb' Hn' Hwb Hsp.
    destruct (Z.eq_dec b ah) as [->|Hne].
    + rewrite Ha in Hb. injection Hb as <-.
      destruct Hpar as [[Hs _]|[ps [Hps _]]]; [contradiction|exact (R2 ps Hps)].
    + assert (Hb1 : get_event st1 b = Some eb).
      { rewrite G1. destruct (Z.eqb_spec ah b); [congruence|exact Hb]. }
      apply (R3 b eb eb' Hb1 Hn Hb' Hn'); [|exact Hsp].
      rewrite (fdx_wit _ _ _ _ _ _ X1). exact Hwb.
Qed.

Lemma ukeys_In_aget {A} k (l : list (Z * A)) v : ukeys l -> In (k, v) l -> aget k l = Some v.
Proof.
  unfold ukeys. induction l as [|[k' v'] r IH]; cbn [aget map fst]; intros U H; [destruct H|].
  inversion U as [|? ? Hn Ur]; subst. destruct H as [E|H].
  - inversion E; subst. rewrite Z.eqb_refl. reflexivity.
  - destruct (Z.eqb_spec k' k) as [->|Hne]; [|auto].
    exfalso. apply Hn. apply (in_map fst) in H. exact H.
Qed.

(* events that may receive the entry during the insertion of an event with last ancestors la *)
Definition PA (s0 : hg) (la : coords) (eb : evst) : Prop :=
  exists q t y, In (q, (t, y)) la /\ PQ s0 q t eb.

Section UpdateFd.
  Variables (s0 : hg) (e : event) (es : evst).
  Let c := e_creator e.
  Let i := e_index e.
  Let x := e_id e.
  Hypothesis OK0 : dag_ok s0.
  Hypothesis LA0 : la_ok s0.
  Hypothesis Hx : get_event s0 x = Some es.
  Hypothesis HM0 : forall b eb, get_event s0 b = Some eb -> aget c (ev_fd eb) = None -> wmemo s0 b <> None.
  Hypothesis Hfuel : forall b eb, get_event s0 b = Some eb -> e_index (ev_e eb) < topo s0.

  Definition upd_inv (done : coords) (s : hg) : Prop :=
    dag_ok s /\ fdx c i x (PA s0 (ev_la es)) s0 s /\
    (forall q t y, In (q, (t, y)) done ->
       exists ey v, get_event s y = Some ey /\ aget c (ev_fd ey) = Some v) /\
    (forall b eb eb', get_event s0 b = Some eb -> aget c (ev_fd eb) = None ->
       get_event s b = Some eb' -> aget c (ev_fd eb') <> None -> wit s0 b = false -> e_sp (ev_e eb) <> -1 ->
       exists es' v, get_event s (e_sp (ev_e eb)) = Some es' /\ aget c (ev_fd es') = Some v).

  Lemma upd_inv_step done s q t y :
    In (q, (t, y)) (ev_la es) -> upd_inv done s ->
    upd_inv (done ++ [(q, (t, y))]) (fd_walk (fuel_of s) s c i x y).
  Proof.
    intros Hin [OKs [Xs [Top Cl]]].
    assert (X0 : fdx c i x (fun _ => True) s0 s) by (eapply fdx_weaken; [|exact Xs]; auto).
    assert (HMs : forall b eb, get_event s b = Some eb -> aget c (ev_fd eb) = None -> wmemo s b <> None).
    { intros b eb Hb Hn. rewrite (fdx_wmemo _ _ _ _ _ _ Xs).
      destruct (fdx_bwd _ _ _ _ _ _ Xs b eb Hb) as [eb0 [Hb0 [->|[N [-> _]]]]].
      - eapply HM0; eauto.
      - rewrite aget_add_fd_same in Hn by exact N. discriminate. }
    assert (Hg : aget q (ev_la es) = Some (t, y)).
    { apply ukeys_In_aget; [apply (la_u s0 LA0 _ _ Hx)|exact Hin]. }
    destruct (la_s s0 LA0 _ _ _ _ _ Hx Hg) as [ey0 [Hy0 [Hcy [Hiy _]]]].
    assert (HAs : forall ea, get_event s y = Some ea ->
      e_creator (ev_e ea) = q /\ e_index (ev_e ea) <= t /\ no_wit_between s0 q (e_index (ev_e ea)) t /\
      (Z.to_nat (e_index (ev_e ea)) < fuel_of s)%nat).
    { intros ea Hea. destruct (fdx_bwd_e _ _ _ _ _ _ Xs y ea Hea) as [ea0 [Hea0 [Ee _]]].
      rewrite Hy0 in Hea0. inversion Hea0; subst ea0. rewrite Ee.
      split; [exact Hcy|]. split; [lia|]. split.
      - intros y' ey' _ _ Hr. lia.
      - unfold fuel_of. rewrite (fdx_topo _ _ _ _ _ _ Xs). pose proof (Hfuel _ _ Hy0). lia. }
    destruct (fd_walk_spec c i x s0 q t (fuel_of s) s y OKs X0 HMs HAs) as [R1 [R2 R3]].
    set (s' := fd_walk (fuel_of s) s c i x y) in *.
    assert (Xs' : fdx c i x (PA s0 (ev_la es)) s0 s').
    { eapply fdx_trans; [exact Xs|]. eapply fdx_weaken; [|exact R1].
      intros eb Hp. exists q, t, y. auto. }
    split; [eapply dag_ok_frame; [exact OKs|apply (fdx_dag_frame _ _ _ _ _ _ R1)]|].
    split; [exact Xs'|]. split.
    - intros q' t' y' Hin'. apply in_app_or in Hin'. destruct Hin' as [Hin'|[E|[]]].
      + destruct (Top q' t' y' Hin') as [ey [v [Hey Hv]]].
        destruct (fdx_fwd_e _ _ _ _ _ _ R1 y' ey Hey) as [ey' [Hey' [_ [_ [_ [Hmono _]]]]]].
        exists ey', v. auto.
      + inversion E; subst q' t' y'.
        destruct (fdx_fwd_e _ _ _ _ _ _ Xs y ey0 Hy0) as [eys [Heys _]].
        apply (R2 eys Heys).
    - intros b eb eb' Hb Hn Hb' Hn' Hwb Hsp.
      destruct (fdx_fwd _ _ _ _ _ _ Xs b eb Hb) as [ebs [Hbs [->|[_ [-> _]]]]].
      + (* no entry before this walk *)
        apply (R3 b eb eb' Hbs Hn Hb' Hn'); [|exact Hsp]. rewrite (fdx_wit _ _ _ _ _ _ Xs). exact Hwb.
      + (* entry from an earlier walk *)
        assert (Hs : aget c (ev_fd (add_fd c i x eb)) <> None) by (rewrite aget_add_fd_same by exact Hn; discriminate).
        destruct (Cl b eb _ Hb Hn Hbs Hs Hwb Hsp) as [es1 [v [Hes1 Hv]]].
        destruct (fdx_fwd_e _ _ _ _ _ _ R1 _ es1 Hes1) as [es2 [Hes2 [_ [_ [_ [Hmono _]]]]]].
        exists es2, v. auto.
  Qed.

  Lemma upd_inv_fold l : forall done s,
    incl l (ev_la es) -> upd_inv done s ->
    upd_inv (done ++ l) (fold_left (fun s ce => fd_walk (fuel_of s) s c i x (snd (snd ce))) l s).
  Proof.
    induction l as [|[q [t y]] r IH]; intros done s Hl I; cbn [fold_left].
    - rewrite app_nil_r. exact I.
    - replace (done ++ (q, (t, y)) :: r) with ((done ++ [(q, (t, y))]) ++ r) by (rewrite <- app_assoc; reflexivity).
      apply IH; [intros z Hz; apply Hl; right; exact Hz|].
      cbn [snd]. apply upd_inv_step; [apply Hl; left; reflexivity|exact I].
  Qed.

  Lemma update_ancestor_fd_spec : upd_inv (ev_la es) (update_ancestor_fd s0 e (ev_la es)).
  Proof.
    unfold update_ancestor_fd. fold c i x.
    apply (upd_inv_fold (ev_la es) [] s0); [apply incl_refl|].
    split; [exact OK0|]. split; [apply fdx_refl|]. split; [intros q t y []|].
    intros b eb eb' Hb Hn Hb' Hn'. congruence.
  Qed.
End UpdateFd.
