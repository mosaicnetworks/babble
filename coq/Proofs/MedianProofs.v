(* Proofs about Model/Median.v  (property C18: block timestamps are BFT medians) *)
From Coq Require Import ZArith List Bool Lia ZifyBool ZifyNat Sorted Permutation.
From V Require Import Model.Median Model.MedianAux.
Import ListNotations.
Open Scope Z_scope.
Ltac Zify.zify_post_hook ::= Z.to_euclidean_division_equations.

Lemma insert_sorted_perm : forall x l, Permutation (insert_sorted x l) (x :: l).
Proof.
  intros x l. induction l as [|y r IH]; cbn [insert_sorted].
  - reflexivity.
  - destruct (x <=? y).
    + reflexivity.
    + etransitivity; [apply perm_skip, IH | apply perm_swap].
Qed.

Lemma sortZ_perm : forall l, Permutation (sortZ l) l.
Proof.
  intros l. induction l as [|x r IH]; cbn [sortZ].
  - reflexivity.
  - etransitivity; [apply insert_sorted_perm | apply perm_skip, IH].
Qed.

Lemma sortZ_length : forall l, length (sortZ l) = length l.
Proof. intros l. apply Permutation_length, sortZ_perm. Qed.

Lemma insert_sorted_ssorted : forall x l,
  StronglySorted Z.le l -> StronglySorted Z.le (insert_sorted x l).
Proof.
  intros x l. induction l as [|y r IH]; intros H; cbn [insert_sorted].
  - constructor; constructor.
  - inversion H as [|y' r' Hr Hall]; subst y' r'.
    destruct (Z.leb_spec x y) as [Hxy|Hxy].
    + constructor; [exact H|].
      constructor; [exact Hxy|].
      eapply Forall_impl; [|exact Hall]. cbv beta. intros a Ha. lia.
    + constructor; [apply IH; exact Hr|].
      eapply Permutation_Forall; [symmetry; apply insert_sorted_perm|].
      constructor; [lia|exact Hall].
Qed.

Lemma sortZ_ssorted : forall l, StronglySorted Z.le (sortZ l).
Proof.
  intros l. induction l as [|x r IH]; cbn [sortZ].
  - constructor.
  - apply insert_sorted_ssorted, IH.
Qed.

Lemma sortZ_sorted : forall l, Sorted Z.le (sortZ l).
Proof. intros l. apply StronglySorted_Sorted, sortZ_ssorted. Qed.

Lemma sortZ_locally_sorted : forall l, LocallySorted Z.le (sortZ l).
Proof. intros l. apply Sorted_LocallySorted_iff, sortZ_sorted. Qed.

(* a sorted list is determined by its elements *)
Lemma ssorted_perm_eq : forall l l',
  StronglySorted Z.le l -> StronglySorted Z.le l' -> Permutation l l' -> l = l'.
Proof.
  induction l as [|a r IH]; intros [|b r'] HS HS' HP.
  - reflexivity.
  - apply Permutation_nil in HP. discriminate.
  - apply Permutation_sym, Permutation_nil in HP. discriminate.
  - inversion HS as [|? ? Hr Ha]; inversion HS' as [|? ? Hr' Hb]; subst.
    assert (Hab : a <= b).
    { destruct (Permutation_in b (Permutation_sym HP) (or_introl eq_refl)) as [->|Hin]; [lia|].
      exact (proj1 (Forall_forall _ _) Ha b Hin). }
    assert (Hba : b <= a).
    { destruct (Permutation_in a HP (or_introl eq_refl)) as [->|Hin]; [lia|].
      exact (proj1 (Forall_forall _ _) Hb a Hin). }
    assert (a = b) by lia. subst b. f_equal.
    exact (IH r' Hr Hr' (Permutation_cons_inv HP)).
Qed.

Lemma sortZ_perm_invariant : forall l l', Permutation l l' -> sortZ l = sortZ l'.
Proof.
  intros l l' HP. apply ssorted_perm_eq; try apply sortZ_ssorted.
  etransitivity; [apply sortZ_perm|]. etransitivity; [exact HP|]. symmetry. apply sortZ_perm.
Qed.

Lemma median_perm_invariant : forall l l', Permutation l l' -> median l = median l'.
Proof.
  intros l l' HP. unfold median. rewrite (sortZ_perm_invariant l l' HP). reflexivity.
Qed.

Lemma sortZ_idem : forall l, sortZ (sortZ l) = sortZ l.
Proof. intros l. apply sortZ_perm_invariant, sortZ_perm. Qed.

Lemma median_nil : median [] = 0.
Proof. reflexivity. Qed.

Lemma median_singleton : forall x, median [x] = x.
Proof. intros x. reflexivity. Qed.

Lemma even_true_half : forall n, Nat.even n = true -> exists m, n = (2 * m)%nat.
Proof. intros n H. apply Nat.even_spec in H. destruct H as [m Hm]. exists m. exact Hm. Qed.

Lemma even_false_half : forall n, Nat.even n = false -> exists m, n = (2 * m + 1)%nat.
Proof.
  intros n H. rewrite <- Nat.negb_odd in H. apply negb_false_iff in H.
  apply Nat.odd_spec in H. destruct H as [m Hm]. exists m. exact Hm.
Qed.

Lemma median_odd : forall l m, length l = (2 * m + 1)%nat ->
  median l = nth m (sortZ l) 0.
Proof.
  intros l m Hlen. unfold median. rewrite sortZ_length.
  destruct (length l) as [|p] eqn:E; [lia|].
  destruct (Nat.even (S p)) eqn:Ev.
  - apply even_true_half in Ev. destruct Ev as [q Hq]. lia.
  - rewrite Hlen, <- (Nat.div_unique (2 * m + 1) 2 m 1) by lia. reflexivity.
Qed.

Lemma median_even : forall l m, length l = (2 * m + 2)%nat ->
  median l = Z.quot (wrap64 (nth m (sortZ l) 0 + nth (S m) (sortZ l) 0)) 2.
Proof.
  intros l m Hlen. unfold median. rewrite sortZ_length.
  destruct (length l) as [|p] eqn:E; [lia|].
  destruct (Nat.even (S p)) eqn:Ev.
  - rewrite Hlen, <- (Nat.div_unique (2 * m + 2) 2 (S m) 0) by lia.
    replace (S m - 1)%nat with m by lia. reflexivity.
  - apply even_false_half in Ev. destruct Ev as [q Hq]. lia.
Qed.

Lemma length_cases : forall n : nat,
  n = O \/ (exists m, n = (2 * m + 1)%nat) \/ (exists m, n = (2 * m + 2)%nat).
Proof.
  intros n. destruct n as [|p]; [left; reflexivity|right].
  destruct (Nat.even p) eqn:Ev.
  - apply even_true_half in Ev. destruct Ev as [m Hm]. left. exists m. lia.
  - apply even_false_half in Ev. destruct Ev as [m Hm]. right. exists m. lia.
Qed.

Lemma median_odd_In : forall l m, length l = (2 * m + 1)%nat -> In (median l) l.
Proof.
  intros l m Hlen. rewrite (median_odd l m Hlen).
  eapply Permutation_in; [apply sortZ_perm|].
  apply nth_In. rewrite sortZ_length. lia.
Qed.

Lemma pow63_pos : 0 < 2 ^ 63.
Proof. reflexivity. Qed.
Lemma pow64_double : 2 ^ 64 = 2 * 2 ^ 63.
Proof. reflexivity. Qed.
Lemma pow63_double : 2 ^ 63 = 2 * 2 ^ 62.
Proof. reflexivity. Qed.

Lemma wrap64_small : forall x, - 2 ^ 63 <= x < 2 ^ 63 -> wrap64 x = x.
Proof.
  intros x H. unfold wrap64. rewrite pow64_double.
  pose proof pow63_pos as Hp. revert H Hp. generalize (2 ^ 63). intros p H Hp.
  rewrite Z.mod_small by lia. lia.
Qed.

Lemma wrap64_range : forall x, - 2 ^ 63 <= wrap64 x < 2 ^ 63.
Proof.
  intros x. unfold wrap64. rewrite pow64_double.
  pose proof pow63_pos as Hp. revert Hp. generalize (2 ^ 63). intros p Hp.
  pose proof (Z.mod_pos_bound (x + p) (2 * p)) as Hm. lia.
Qed.

Lemma quot2_between : forall lo hi a b,
  lo <= a <= hi -> lo <= b <= hi -> lo <= Z.quot (a + b) 2 <= hi.
Proof. intros lo hi a b Ha Hb. lia. Qed.

Lemma filter_length_le : forall (P : Z -> bool) l, (length (filter P l) <= length l)%nat.
Proof.
  intros P l. induction l as [|a r IH]; cbn [filter length]; [lia|].
  destruct (P a); cbn [length]; lia.
Qed.

Lemma filter_none : forall (P : Z -> bool) l,
  (forall x, In x l -> P x = false) -> filter P l = [].
Proof.
  intros P l. induction l as [|a r IH]; intros H; cbn [filter]; [reflexivity|].
  rewrite (H a (or_introl eq_refl)). apply IH. intros x Hx. apply H. right. exact Hx.
Qed.

Lemma filter_all_length : forall (P : Z -> bool) l,
  Forall (fun x => P x = true) l -> length (filter P l) = length l.
Proof.
  intros P l H. induction H as [|a r Ha Hr IH]; cbn [filter length]; [reflexivity|].
  rewrite Ha. cbn [length]. rewrite IH. reflexivity.
Qed.

(* elements below index k of a sorted list are <= element k *)
Lemma ssorted_prefix_small : forall s k lo,
  StronglySorted Z.le s -> (k < length s)%nat -> nth k s 0 < lo ->
  (k + 1 <= length (filter (fun x => Z.ltb x lo) s))%nat.
Proof.
  intros s. induction s as [|a r IH]; intros k lo HS Hk Hn; cbn [length] in Hk; [lia|].
  inversion HS as [|a' r' Hr Hall]; subst a' r'.
  destruct k as [|k'].
  - cbn [nth] in Hn. cbn [filter].
    destruct (Z.ltb_spec a lo) as [Hlt|Hge]; [cbn [length]; lia | lia].
  - cbn [nth] in Hn.
    assert (Hk' : (k' < length r)%nat) by lia.
    assert (Ha : a <= nth k' r 0).
    { rewrite Forall_forall in Hall. apply Hall. apply nth_In. exact Hk'. }
    cbn [filter].
    destruct (Z.ltb_spec a lo) as [Hlt|Hge]; [|lia].
    cbn [length]. specialize (IH k' lo Hr Hk' Hn). lia.
Qed.

Lemma ssorted_suffix_large : forall s k hi,
  StronglySorted Z.le s -> (k < length s)%nat -> hi < nth k s 0 ->
  (length s - k <= length (filter (fun x => Z.ltb hi x) s))%nat.
Proof.
  intros s. induction s as [|a r IH]; intros k hi HS Hk Hn; cbn [length] in Hk; [lia|].
  inversion HS as [|a' r' Hr Hall]; subst a' r'.
  destruct k as [|k'].
  - cbn [nth] in Hn.
    rewrite filter_all_length; [lia|].
    constructor.
    + apply Z.ltb_lt. exact Hn.
    + eapply Forall_impl; [|exact Hall]. cbv beta. intros x Hx. apply Z.ltb_lt. lia.
  - cbn [nth] in Hn.
    assert (Hk' : (k' < length r)%nat) by lia.
    specialize (IH k' hi Hr Hk' Hn).
    cbn [filter]. destruct (hi <? a); cbn [length]; lia.
Qed.

Lemma filter_perm_app_length : forall (P : Z -> bool) s hon byz,
  Permutation s (hon ++ byz) -> (forall h, In h hon -> P h = false) ->
  (length (filter P s) <= length byz)%nat.
Proof.
  intros P s hon byz HP Hhon.
  assert (HPf : Permutation (filter P s) (filter P (hon ++ byz))).
  { clear Hhon. induction HP as [|x l l' HP IH|x y l|l l' l'' HP1 IH1 HP2 IH2].
    - constructor.
    - cbn [filter]. destruct (P x); [apply perm_skip|]; exact IH.
    - cbn [filter]. destruct (P x); destruct (P y);
        try apply perm_swap; reflexivity.
    - etransitivity; [exact IH1|exact IH2]. }
  rewrite (Permutation_length HPf), filter_app, (filter_none P hon Hhon).
  cbn [app]. apply filter_length_le.
Qed.

(* element k of the sorted list is >= every lower bound of the honest values when k >= |byz| *)
Lemma sorted_nth_lower : forall s hon byz lo k,
  StronglySorted Z.le s -> Permutation s (hon ++ byz) ->
  (forall h, In h hon -> lo <= h) ->
  (length byz <= k)%nat -> (k < length s)%nat ->
  lo <= nth k s 0.
Proof.
  intros s hon byz lo k HS HP Hlo Hb Hk.
  destruct (Z.le_gt_cases lo (nth k s 0)) as [Hle|Hgt]; [exact Hle|exfalso].
  pose proof (ssorted_prefix_small s k lo HS Hk Hgt) as H1.
  pose proof (filter_perm_app_length (fun x => Z.ltb x lo) s hon byz HP) as H2.
  cbv beta in H2.
  assert (H3 : forall h, In h hon -> (h <? lo) = false).
  { intros h Hh. apply Z.ltb_ge. apply Hlo. exact Hh. }
  specialize (H2 H3). lia.
Qed.

(* element k of the sorted list is <= every upper bound of the honest values when k <= n-1-|byz| *)
Lemma sorted_nth_upper : forall s hon byz hi k,
  StronglySorted Z.le s -> Permutation s (hon ++ byz) ->
  (forall h, In h hon -> h <= hi) ->
  (k + length byz < length s)%nat ->
  nth k s 0 <= hi.
Proof.
  intros s hon byz hi k HS HP Hhi Hk.
  destruct (Z.le_gt_cases (nth k s 0) hi) as [Hle|Hgt]; [exact Hle|exfalso].
  assert (Hk' : (k < length s)%nat) by lia.
  pose proof (ssorted_suffix_large s k hi HS Hk' Hgt) as H1.
  pose proof (filter_perm_app_length (fun x => Z.ltb hi x) s hon byz HP) as H2.
  cbv beta in H2.
  assert (H3 : forall h, In h hon -> (hi <? h) = false).
  { intros h Hh. apply Z.ltb_ge. apply Hhi. exact Hh. }
  specialize (H2 H3). lia.
Qed.

Lemma sorted_nth_between : forall l hon byz lo hi k,
  Permutation l (hon ++ byz) ->
  (forall h, In h hon -> lo <= h <= hi) ->
  (length byz <= k)%nat -> (k + length byz < length l)%nat ->
  lo <= nth k (sortZ l) 0 <= hi.
Proof.
  intros l hon byz lo hi k HP Hb Hk1 Hk2.
  assert (HPs : Permutation (sortZ l) (hon ++ byz)).
  { etransitivity; [apply sortZ_perm|exact HP]. }
  pose proof (sortZ_ssorted l) as HS.
  pose proof (sortZ_length l) as HL.
  split.
  - apply (sorted_nth_lower (sortZ l) hon byz lo k HS HPs); [|exact Hk1|lia].
    intros h Hh. apply Hb. exact Hh.
  - apply (sorted_nth_upper (sortZ l) hon byz hi k HS HPs); [|lia].
    intros h Hh. apply Hb. exact Hh.
Qed.

(* odd number of values: no range premise is needed at all *)
Lemma median_bft_odd : forall (hon byz l : list Z) m,
  Permutation l (hon ++ byz) ->
  length l = (2 * m + 1)%nat ->
  (2 * length byz < length hon + length byz)%nat ->
  forall lo hi, (forall h, In h hon -> lo <= h <= hi) ->
  lo <= median l <= hi.
Proof.
  intros hon byz l m HP Hlen Hmaj lo hi Hb.
  pose proof (Permutation_length HP) as HL. rewrite app_length in HL.
  rewrite (median_odd l m Hlen).
  apply (sorted_nth_between l hon byz lo hi m HP Hb); lia.
Qed.

(* even number of values: both middle elements lie within any bounds of the honest values *)
Lemma sorted_middle_between : forall (hon byz l : list Z) m,
  Permutation l (hon ++ byz) ->
  length l = (2 * m + 2)%nat ->
  (2 * length byz < length hon + length byz)%nat ->
  forall lo hi, (forall h, In h hon -> lo <= h <= hi) ->
  lo <= nth m (sortZ l) 0 <= hi /\ lo <= nth (S m) (sortZ l) 0 <= hi.
Proof.
  intros hon byz l m HP Hlen Hmaj lo hi Hb.
  pose proof (Permutation_length HP) as HL. rewrite app_length in HL.
  split; apply (sorted_nth_between l hon byz lo hi _ HP Hb); lia.
Qed.

(* general form: the honest values only need to satisfy "the sum of two does not wrap",
   i.e. -2^62 <= h <= 2^62 - 1 *)
Lemma median_bft : forall (hon byz l : list Z),
  Permutation l (hon ++ byz) ->
  (2 * length byz < length hon + length byz)%nat ->
  (forall h, In h hon -> - 2 ^ 62 <= h <= 2 ^ 62 - 1) ->
  forall lo hi, (forall h, In h hon -> lo <= h <= hi) ->
  lo <= median l <= hi.
Proof.
  intros hon byz l HP Hmaj Hrange lo hi Hb.
  destruct (length_cases (length l)) as [H0|[[m Hm]|[m Hm]]].
  - pose proof (Permutation_length HP) as HL. rewrite app_length in HL. lia.
  - exact (median_bft_odd hon byz l m HP Hm Hmaj lo hi Hb).
  - rewrite (median_even l m Hm).
    destruct (sorted_middle_between hon byz l m HP Hm Hmaj lo hi Hb) as [Ha1 Hb1].
    destruct (sorted_middle_between hon byz l m HP Hm Hmaj _ _ Hrange) as [Ha2 Hb2].
    revert Ha1 Hb1 Ha2 Hb2.
    generalize (nth m (sortZ l) 0). generalize (nth (S m) (sortZ l) 0).
    intros b a Ha1 Hb1 Ha2 Hb2.
    rewrite wrap64_small.
    + apply quot2_between; assumption.
    + rewrite pow63_double. revert Ha2 Hb2. generalize (2 ^ 62). intros p Ha2 Hb2. lia.
Qed.

Lemma median_bft_third : forall (hon byz l : list Z),
  Permutation l (hon ++ byz) ->
  (3 * length byz < length hon + length byz)%nat ->
  (forall h, In h hon -> - 2 ^ 62 <= h <= 2 ^ 62 - 1) ->
  forall lo hi, (forall h, In h hon -> lo <= h <= hi) ->
  lo <= median l <= hi.
Proof.
  intros hon byz l HP Hthird Hrange lo hi Hb.
  apply (median_bft hon byz l HP); [lia|exact Hrange|exact Hb].
Qed.

Lemma list_min_le : forall l x, In x l -> list_min l <= x.
Proof.
  intros l x Hin. destruct l as [|h t]; [destruct Hin|]. cbn [list_min].
  revert h x Hin. induction t as [|a r IH]; intros h x Hin; cbn [fold_right].
  - destruct Hin as [->|[]]. lia.
  - destruct Hin as [->|[->|Hin]].
    + pose proof (IH x x (or_introl eq_refl)). lia.
    + lia.
    + pose proof (IH h x (or_intror Hin)). lia.
Qed.

Lemma list_max_ge : forall l x, In x l -> x <= list_max l.
Proof.
  intros l x Hin. destruct l as [|h t]; [destruct Hin|]. cbn [list_max].
  revert h x Hin. induction t as [|a r IH]; intros h x Hin; cbn [fold_right].
  - destruct Hin as [->|[]]. lia.
  - destruct Hin as [->|[->|Hin]].
    + pose proof (IH x x (or_introl eq_refl)). lia.
    + lia.
    + pose proof (IH h x (or_intror Hin)). lia.
Qed.

Lemma median_bft_minmax : forall (hon byz l : list Z),
  Permutation l (hon ++ byz) ->
  (3 * length byz < length hon + length byz)%nat ->
  (forall h, In h hon -> - 2 ^ 62 <= h <= 2 ^ 62 - 1) ->
  list_min hon <= median l <= list_max hon.
Proof.
  intros hon byz l HP Hthird Hrange.
  apply (median_bft_third hon byz l HP Hthird Hrange).
  intros h Hh. split; [apply list_min_le|apply list_max_ge]; exact Hh.
Qed.

Lemma median_in_int64 : forall l,
  (forall x, In x l -> in_int64 x) -> in_int64 (median l).
Proof.
  intros l Hall. unfold in_int64, int64_min, int64_max in *.
  destruct (length_cases (length l)) as [H0|[[m Hm]|[m Hm]]].
  - destruct l; [|discriminate]. rewrite median_nil.
    pose proof pow63_pos. lia.
  - apply Hall. exact (median_odd_In l m Hm).
  - rewrite (median_even l m Hm).
    pose proof (wrap64_range (nth m (sortZ l) 0 + nth (S m) (sortZ l) 0)) as Hw.
    revert Hw. generalize (wrap64 (nth m (sortZ l) 0 + nth (S m) (sortZ l) 0)).
    pose proof pow63_pos as Hp. revert Hp. generalize (2 ^ 63). intros p Hp w Hw. lia.
Qed.

(* with the closed range -2^62 <= h <= 2^62 for the honest values the statement is false: at the
   2^62 corner the sum of the two middle elements wraps *)
Definition median_bft_closed_range_statement : Prop :=
  forall (hon byz l : list Z),
  Permutation l (hon ++ byz) ->
  (2 * length byz < length hon + length byz)%nat ->
  (forall h, In h hon -> - 2 ^ 62 <= h <= 2 ^ 62) ->
  forall lo hi, (forall h, In h hon -> lo <= h <= hi) ->
  lo <= median l <= hi.

Lemma median_corner_value : median [2 ^ 62; 2 ^ 62] = - 2 ^ 62.
Proof. vm_compute. reflexivity. Qed.

Lemma median_bft_closed_range_refuted : ~ median_bft_closed_range_statement.
Proof.
  intros H.
  specialize (H [2 ^ 62; 2 ^ 62] [] [2 ^ 62; 2 ^ 62] (Permutation_refl _)).
  assert (Hlen : (2 * length (@nil Z) < length [2 ^ 62; 2 ^ 62] + length (@nil Z))%nat)
    by (cbn [length]; lia).
  specialize (H Hlen).
  assert (Hr : forall h, In h [2 ^ 62; 2 ^ 62] -> - 2 ^ 62 <= h <= 2 ^ 62).
  { intros h [<-|[<-|[]]]; split; intros Hc; vm_compute in Hc; discriminate. }
  specialize (H Hr (2 ^ 62) (2 ^ 62)).
  assert (Hb : forall h, In h [2 ^ 62; 2 ^ 62] -> 2 ^ 62 <= h <= 2 ^ 62).
  { intros h [<-|[<-|[]]]; split; apply Z.le_refl. }
  specialize (H Hb). rewrite median_corner_value in H.
  destruct H as [H _]. vm_compute in H. apply H. reflexivity.
Qed.

Lemma sortZ_eq_perm : forall l l', sortZ l = sortZ l' -> Permutation l l'.
Proof.
  intros l l' H. etransitivity; [symmetry; apply sortZ_perm|].
  rewrite H. apply sortZ_perm.
Qed.

Lemma sortZ_eq_iff_perm : forall l l', sortZ l = sortZ l' <-> Permutation l l'.
Proof. intros l l'. split; [apply sortZ_eq_perm|apply sortZ_perm_invariant]. Qed.

(* without the range premise the conclusion fails (int64 wrap-around) *)
Lemma median_wrap_needed :
  let hon := [2 ^ 62 + 1; 2 ^ 62 + 1] in
  let byz := @nil Z in
  Permutation hon (hon ++ byz) /\
  (2 * length byz < length hon + length byz)%nat /\
  (forall h, In h hon -> 2 ^ 62 + 1 <= h <= 2 ^ 62 + 1) /\
  median hon = - (2 ^ 62 - 1) /\ median hon < 0 /\
  ~ (2 ^ 62 + 1 <= median hon <= 2 ^ 62 + 1).
Proof.
  cbv zeta. split; [apply Permutation_refl|]. split; [cbn [length]; lia|].
  split; [intros h [<-|[<-|[]]]; split; apply Z.le_refl|].
  split; [vm_compute; reflexivity|]. split; [vm_compute; reflexivity|].
  intros [H _]. vm_compute in H. apply H. reflexivity.
Qed.

Lemma small_range : forall h, 0 <= h <= 1000 -> - 2 ^ 62 <= h <= 2 ^ 62 - 1.
Proof.
  intros h H. assert (H62 : 1000 <= 2 ^ 62 - 1) by (intros Hc; vm_compute in Hc; discriminate).
  revert H62. generalize (2 ^ 62). intros p H62. lia.
Qed.

Lemma hon_example_bounds : forall h, In h [100; 101; 102] -> 100 <= h <= 102.
Proof. intros h [<-|[<-|[<-|[]]]]; lia. Qed.

Lemma hon_example_range : forall h, In h [100; 101; 102] -> - 2 ^ 62 <= h <= 2 ^ 62 - 1.
Proof. intros h Hh. apply small_range. pose proof (hon_example_bounds h Hh). lia. Qed.

Lemma median_example_low : 100 <= median [101; - 2 ^ 63; 100; 102] <= 102.
Proof.
  apply (median_bft [100; 101; 102] [- 2 ^ 63] [101; - 2 ^ 63; 100; 102]).
  - apply sortZ_eq_perm. vm_compute. reflexivity.
  - cbn [length]. lia.
  - exact hon_example_range.
  - exact hon_example_bounds.
Qed.

Lemma median_example_high : 100 <= median [2 ^ 63 - 1; 102; 100; 101] <= 102.
Proof.
  apply (median_bft [100; 101; 102] [2 ^ 63 - 1] [2 ^ 63 - 1; 102; 100; 101]).
  - apply sortZ_eq_perm. vm_compute. reflexivity.
  - cbn [length]. lia.
  - exact hon_example_range.
  - exact hon_example_bounds.
Qed.

(* 7 validators, 2 Byzantine (one at each extreme), fewer than one third *)
Lemma median_example_third :
  list_min [100; 101; 102; 103; 104] <= median [2 ^ 63 - 1; 102; 104; 100; - 2 ^ 63; 103; 101]
    <= list_max [100; 101; 102; 103; 104].
Proof.
  apply (median_bft_minmax [100; 101; 102; 103; 104] [2 ^ 63 - 1; - 2 ^ 63]).
  - apply sortZ_eq_perm. vm_compute. reflexivity.
  - cbn [length]. lia.
  - intros h Hh. apply small_range.
    destruct Hh as [<-|[<-|[<-|[<-|[<-|[]]]]]]; lia.
Qed.

(* lia's division equations are wanted in this file only *)
Ltac Zify.zify_post_hook ::= idtac.
