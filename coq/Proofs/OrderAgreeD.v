(* Dynamic membership, corollaries of Proofs/BlockAgreeD.v for two nodes that respect the distance
   bound (same genesis set): the committed ORDER of events agrees (C04, cross-node), and what a node computes for a
   shared event does not depend on the insertion order / cut (C03). *)
From Coq Require Import ZArith List Bool.
From V Require Import Model.Quorum Model.HgImpl Proofs.BlockInv Proofs.OrderProofs Proofs.AdmissionProofs
  Proofs.Agreement Proofs.GapWindow Proofs.BlockAgree Proofs.OrderIndepD Proofs.BlockAgreeD.
Import ListNotations.
Open Scope Z_scope.

(* the committed order of a node: the (event, Lamport timestamp) pairs of the frames of its delivered blocks *)
Definition corder (st : hg) : list (Z * Z) := concat (map (fun d => kl (b_frame d)) (delivered st)).

Section OrderD.
  Variables (all : list event) (g : peerset).
  Hypothesis ID : ids_determine all.
  Hypothesis SK : sigkeys_determine all.
  Hypothesis FF : fork_free all.
  Variables (s1 s2 : Z) (o1 o2 : list Z) (ops1 ops2 : list hop).
  Hypothesis S1 : s1 <> -1.
  Hypothesis S2 : s2 <> -1.
  Hypothesis H1 : Forall (hop_ok all) ops1.
  Hypothesis H2 : Forall (hop_ok all) ops2.
  Hypothesis B1 : gap_runb (init_hg s1 g o1) ops1 = true.
  Hypothesis B2 : gap_runb (init_hg s2 g o2) ops2 = true.
  Let st1 := hrun (init_hg s1 g o1) ops1.
  Let st2 := hrun (init_hg s2 g o2) ops2.
  Hypothesis F1 : failed st1 = false.
  Hypothesis F2 : failed st2 = false.

  (* the k-th blocks carry the same events in the same order *)
  Theorem block_events_agree_gap k d1 d2 :
    nth_error (delivered st1) k = Some d1 -> nth_error (delivered st2) k = Some d2 ->
    kl (b_frame d1) = kl (b_frame d2).
  Proof.
    intros Hk1 Hk2. destruct (gap_runs_along all g ID SK FF s1 s2 o1 o2 ops1 ops2 S1 S2 H1 H2 B1 B2 F1 F2) as [P [A1 A2]].
    pose proof (blocks_agree_along P all s1 s2 g g o1 o2 ops1 ops2 A1 A2 F1 F2 FF SK k d1 d2 Hk1 Hk2) as E. injection E as _ Er _ _ _.
    destruct (delivered_block_payload all _ d1 (hrun_ginv all s1 g o1 ops1 ID H1) (nth_error_In _ _ Hk1)) as [Hz1 _].
    destruct (delivered_block_payload all _ d2 (hrun_ginv all s2 g o2 ops2 ID H2) (nth_error_In _ _ Hk2)) as [Hz2 _]. rewrite <- Er in Hz2.
    exact (frames_kl_agree_along P all s1 s2 g g o1 o2 ops1 ops2 A1 A2 F1 F2 FF SK (b_rr d1) (b_frame d1) (b_frame d2) Hz1 Hz2).
  Qed.

  (* the committed order of the node with fewer blocks is a prefix of the other's *)
  Theorem corder_prefix_gap : (length (delivered st1) <= length (delivered st2))%nat ->
    exists l, corder st2 = corder st1 ++ l.
  Proof.
    intros Hlen. set (F := fun d => kl (b_frame d)).
    assert (E : map F (delivered st1) = firstn (length (map F (delivered st1))) (map F (delivered st2))).
    { rewrite map_length. apply map_prefix_of_pointwise; [exact Hlen|]. exact block_events_agree_gap. }
    exists (concat (skipn (length (map F (delivered st1))) (map F (delivered st2)))).
    unfold corder. fold F. rewrite <- (firstn_skipn (length (map F (delivered st1))) (map F (delivered st2))) at 1.
    rewrite concat_app, <- E. reflexivity.
  Qed.

  (* round and Lamport timestamp of a shared event *)
  Theorem obs_agree_gap x : get_event st1 x <> None -> get_event st2 x <> None ->
    option_map (fun e => (ev_round e, ev_lt e)) (get_event st1 x) =
    option_map (fun e => (ev_round e, ev_lt e)) (get_event st2 x).
  Proof.
    intros N1 N2.
    destruct (get_event st1 x) as [e1|] eqn:E1; [|contradiction]. destruct (get_event st2 x) as [e2|] eqn:E2; [|contradiction].
    destruct (gap_consensus_agree all g s1 s2 o1 o2 ops1 ops2 ID SK FF S1 S2 H1 H2 B1 B2 F1 F2) as [A _].
    destruct (A x e1 e2 E1 E2) as [Er _].
    destruct (lamport_agree_any all s1 s2 g g o1 o2 ops1 ops2 x e1 e2 ID H1 H2 F1 F2 E1 E2) as [El _].
    cbn [option_map]. rewrite Er, El. reflexivity.
  Qed.
End OrderD.
