(* C13 / C02 after a reset: the block store and the sequence of commit callbacks of a node that
   fast-forwarded, along every continuation (insertion attempts, ProcessSigPool): the blocks
   delivered after the reset carry the consecutive indexes anchor index + 1, + 2, ... *)
From Coq Require Import ZArith List Bool Lia ZifyBool.
From RecordUpdate Require Import RecordSet.
From V Require Import Model.ZMap Model.Quorum Model.Voting Model.HgImpl Model.HgReset
  Proofs.ZMapFacts Proofs.HgFrames Proofs.HgBlockFrames Proofs.BlockInv Proofs.PeerSetProofs Proofs.ResetProofs.
Import ListNotations RecordSetNotations.
Open Scope Z_scope.

(* [old]: the commit callbacks made before the reset (Reset does not touch that list);
   [base]: the index the next block gets (anchor index + 1) *)
Record binvR (base : Z) (old : list block) (st : hg) : Prop := {
  br_base : 0 <= base;
  br_lb : base - 1 <= last_block st;
  br_idx : forall i b, zget i (blocks st) = Some b -> b_index b = i /\ 0 <= i <= last_block st;
  br_del : exists news, delivered st = old ++ news /\
             Z.of_nat (length news) = last_block st - (base - 1) /\
             forall k d, nth_error news k = Some d ->
               b_index d = base + Z.of_nat k /\
               exists b, zget (base + Z.of_nat k) (blocks st) = Some b /\ b_index b = base + Z.of_nat k
}.

Lemma binvR_bl base old st st' : bl st' = bl st -> binvR base old st -> binvR base old st'.
Proof.
  intros E [H0 H1 H2 H3]. destruct (bl_fields _ _ E) as [Eb [El Ed]].
  constructor; rewrite ?Eb, ?El, ?Ed; auto.
Qed.

(* [st'] is [st] with [b] as the stored block of index [k] *)
Definition stored_at (k : Z) (b : block) (st st' : hg) : Prop :=
  (forall i, zget i (blocks st') = if i =? k then Some b else zget i (blocks st)) /\
  last_block st' = Z.max k (last_block st).

(* a block stored over one that has its index *)
Lemma binvR_restore base old st st' b b0 :
  binvR base old st -> zget (b_index b) (blocks st) = Some b0 -> stored_at (b_index b) b st st' ->
  delivered st' = delivered st -> binvR base old st'.
Proof.
  intros [B0 B1 B2 [news [Dn [Ln Hn]]]] Hb [Gb Gl] Gd. destruct (B2 _ _ Hb) as [_ Hr].
  rewrite Z.max_r in Gl by apply Hr.
  constructor; rewrite ?Gl, ?Gd; [exact B0|exact B1| |].
  - intros i b1. rewrite Gb. destruct (Z.eqb_spec i (b_index b)) as [->|_]; [|apply B2].
    intros [= <-]. split; [reflexivity|exact Hr].
  - exists news. split; [exact Dn|split; [exact Ln|]].
    intros k d Hk. destruct (Hn k d Hk) as [A [b1 [Hb1 Ib1]]]. split; [exact A|].
    rewrite Gb. destruct (Z.eqb_spec (base + Z.of_nat k) (b_index b)) as [E|_]; eauto.
Qed.

(* a block stored under the next index and delivered *)
Lemma binvR_new base old st st' b :
  binvR base old st -> stored_at (last_block st + 1) b st st' -> b_index b = last_block st + 1 ->
  delivered st' = delivered st ++ [b] -> binvR base old st'.
Proof.
  intros [B0 B1 B2 [news [Dn [Ln Hn]]]] [Gb Gl] Hi Gd.
  rewrite Z.max_l in Gl by lia.
  constructor; rewrite ?Gl, ?Gd; [exact B0|lia| |].
  - intros i b0. rewrite Gb. destruct (Z.eqb_spec i (last_block st + 1)) as [->|_].
    + intros [= <-]. split; [exact Hi|lia].
    + intros H. destruct (B2 i b0 H). split; [auto|lia].
  - exists (news ++ [b]). split; [rewrite Dn, app_assoc; reflexivity|]. split; [rewrite app_length; cbn [length]; lia|].
    intros k d0 Hk. destruct (Nat.lt_ge_cases k (length news)) as [Hlt|Hge].
    + rewrite nth_error_app1 in Hk by exact Hlt. destruct (Hn k d0 Hk) as [A [b0 [Hb0 Ib0]]]. split; [exact A|].
      rewrite Gb. destruct (Z.eqb_spec (base + Z.of_nat k) (last_block st + 1)); [lia|eauto].
    + rewrite nth_error_app2 in Hk by exact Hge. destruct (k - length news)%nat as [|j] eqn:Ek; [|destruct j; discriminate].
      injection Hk as <-. assert (Eidx : base + Z.of_nat k = last_block st + 1) by lia.
      split; [lia|]. exists b. rewrite Gb, Eidx, Z.eqb_refl. auto.
Qed.

Lemma process_frame_binvR base old s f : binvR base old s -> binvR base old (process_frame s f).
Proof.
  intros OK. unfold process_frame. destruct (f_events f) as [|fe rest]; [exact OK|].
  cbv zeta. set (s1 := fold_left add_consensus_event (fe :: rest) s).
  assert (OK1 : binvR base old s1) by (eapply binvR_bl; [apply add_consensus_events_bl|exact OK]).
  clearbody s1. set (b := block_of_frame (last_block s1 + 1) f s1).
  destruct (block_of_frame_index (last_block s1 + 1) f s1) as [Hi [Hs _]]. fold b in Hi, Hs.
  assert (H0 : 0 <= b_index b) by (pose proof (br_base _ _ _ OK1); pose proof (br_lb _ _ _ OK1); lia).
  destruct (commit_blocks s1 b H0 Hs) as (bf & Gb & Gl & Gd & Gi & _).
  rewrite Hi in Gb, Gl, Gi.
  pose proof (binvR_new base old s1 _ bf OK1 (conj Gb Gl) Gi Gd) as C.
  destruct (b_txs b), (b_itxs b); auto.
Qed.

Lemma process_sig_binvR base old st s : binvR base old st -> binvR base old (process_sig st s).
Proof.
  intros OK. destruct (process_sig_cases st s) as [->|(b & ps & Hb & _ & _ & _ & ->)]; [exact OK|].
  cbv zeta. set (b' := b <| b_sigs := _ |>).
  destruct (br_idx _ _ _ OK _ _ Hb) as [Hi Hr].
  assert (Hi' : b_index b' = bs_index s) by exact Hi.
  eapply binvR_bl; [|apply (binvR_restore base old st (store_set_block st b') b' b OK)]; [reflexivity|rewrite Hi'; exact Hb| |reflexivity].
  split; [intros i; apply zget_blocks_store; rewrite Hi'; apply Hr|apply last_block_store].
Qed.

Lemma hrun_binvR base old ops st : binvR base old st -> binvR base old (hrun st ops).
Proof.
  apply (hrun_bsteps (fun s s' => binvR base old s -> binvR base old s')); [auto|apply binvR_bl|
    apply process_frame_binvR|apply process_sig_binvR].
Qed.

(* the reset state satisfies [binvR], with no hypothesis on the frame *)
Lemma reset_blocks v b f cores v1 :
  core_fast_forward v b f cores = (true, v1) ->
  blocks v1 = zset (b_index b) b zempty /\ last_block v1 = Z.max (b_index b) (-1) /\ delivered v1 = delivered v.
Proof.
  intros H. destruct (core_fast_forward_inv v b f cores v1 H) as (s1 & s2 & E1 & E2 & ->).
  pose proof (store_reset_cleared v f s1 E1) as C.
  pose proof (insert_frame_events_nodag cores (sorted_frame_events cores f) s1) as N. rewrite E2 in N. cbn [snd] in N.
  pose proof (f_equal (fun s => (blocks s, last_block s, delivered s)) N) as E. injection E as N8 N9 N17.
  unfold reset_finish, store_set_block. cbn [blocks last_block delivered set].
  rewrite N8, N9, N17, (cl_blocks _ _ C), (cl_last_block _ _ C), (cl_delivered _ _ C). auto.
Qed.

Lemma reset_binvR v b f cores v' :
  node_fast_forward v b f cores = (true, v') ->
  binvR (Z.max (b_index b) (-1) + 1) (delivered v) v'.
Proof.
  intros H. destruct (node_fast_forward_inv v b f cores v' H) as (v1 & E & ->).
  destruct (reset_blocks v b f cores v1 E) as [Eb [El Ed]].
  eapply binvR_bl; [apply process_receipts_bl|].
  constructor; rewrite ?Eb, ?El, ?Ed.
  - lia.
  - lia.
  - intros i b0. rewrite zget_zset. destruct (Z.eqb_spec (b_index b) i) as [<-|Hne]; cbn [andb].
    + destruct (Z.leb_spec 0 (b_index b)) as [Hle|Hlt]; [|rewrite zget_empty; discriminate].
      intros Hz; inversion Hz; subst b0. split; [reflexivity|lia].
    + rewrite zget_empty. discriminate.
  - exists []. rewrite app_nil_r. split; [reflexivity|]. split; [cbn; lia|]. intros k d Hk. destruct k; discriminate.
Qed.

(* C02 after a reset: the k-th block delivered after the fast-forward has index anchor + 1 + k,
   whatever the node was before, whatever the frame, along every continuation *)
Theorem deliveries_after_reset_consecutive v b f cores v' ops :
  node_fast_forward v b f cores = (true, v') ->
  exists news, delivered (hrun v' ops) = delivered v ++ news /\
    last_block (hrun v' ops) = Z.max (b_index b) (-1) + Z.of_nat (length news) /\
    forall k d, nth_error news k = Some d ->
      b_index d = Z.max (b_index b) (-1) + 1 + Z.of_nat k /\
      exists sb, zget (b_index d) (blocks (hrun v' ops)) = Some sb /\ b_index sb = b_index d.
Proof.
  intros H. destruct (hrun_binvR _ _ ops v' (reset_binvR v b f cores v' H)) as [_ _ _ [news [Dn [Ln Hn]]]].
  exists news. split; [exact Dn|]. split; [lia|].
  intros k d Hk. destruct (Hn k d Hk) as [A [sb [Hsb Isb]]]. split; [exact A|]. exists sb. rewrite A. auto.
Qed.
