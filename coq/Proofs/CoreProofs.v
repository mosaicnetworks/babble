(* C05 on the combined model of the node core over the hashgraph (Model/CoreModel.v):
   for every operation sequence from the initial state,
   - the hashgraph component is an [hrun] state of the calls the core made (so every theorem
     about [hrun] applies to it);
   - the node's own stored events are exactly the self-events made by addSelfEvent, in order, with
     the payloads captured from the pools (this discharges the hypothesis [from_pools] of
     Proofs/TidyC05.v);
   - conservation: what addTransactions accepted = payloads of the own stored events ++ pool;
   - hence no accepted transaction is committed twice and every transaction committed through an
     own event was accepted.
   Premise: identifiers determine events among the events the node ever hands to the hashgraph
   (SHA-256 collision freedom; it implies that the identifier of a new self-event is fresh), they
   are non-negative, and no event claiming this node as creator verifies unless the node made it
   (signature unforgeability; [e_sigok] is data in the model). *)
From Coq Require Import ZArith List Bool Lia ZifyBool.
From RecordUpdate Require Import RecordSet.
From V Require Import Model.ZMap Model.Quorum Model.HgImpl Model.NodeModel Model.CoreModel Proofs.ZMapFacts
  Proofs.HgDagFrames Proofs.AdmissionProofs Proofs.BlockInv Proofs.OrderProofs Proofs.NodeProofs Proofs.TidyC05
  Proofs.TidyC07.
Import ListNotations RecordSetNotations.
Open Scope Z_scope.

Definition hop_of (h : hcall) : hop := match h with HCInsert e => HInsert e | HCSigPool => HSigPool end.

(* the event stored under an identifier, without the coordinates the passes write *)
Definition ev_at (st : hg) (x : Z) : option event := option_map ev_e (get_event st x).

(* the error insertEventAndRunConsensus returns, and whether it moves head and seq *)
Definition cerr (c : core) (e : event) : bool :=
  negb (is_ok (fst (insert_and_run (c_hg c) e))) || failed (step (c_hg c) e).
Definition cupd (c : core) (e : event) : bool :=
  (negb (cerr c e) ||
   (match ev_at (step (c_hg c) e) (e_id e) with Some _ => true | None => false end && (c_seq c <? e_index e))) &&
  (e_creator e =? c_self c).

Lemma cinsert_eq c e :
  cinsert c e =
  (fst (insert_and_run (c_hg c) e), cerr c e,
   mkCore (step (c_hg c) e) (c_self c) (c_txs c) (c_itxs c)
          (if cupd c e then e_id e else c_head c) (if cupd c e then e_index e else c_seq c)
          (c_accepted c) (c_created c) (c_submitted c) (c_isubmitted c)).
Proof. unfold cinsert, cupd, cerr, step, ev_at. cbv zeta. destruct (get_event _ _); destruct (_ && _); reflexivity. Qed.

Definition created_ids (c : core) : list Z := map fst (c_created c).

(* an event claiming to be ours that is not one of those we made does not verify; one we made is
   not inserted again; in both cases insertEventAndRunConsensus changes nothing *)
Definition not_forged (c : core) (e : event) : Prop :=
  e_creator e = c_self c -> e_sigok e = false \/ In (e_id e) (created_ids c).

(* premises on an operation, read in the state it is applied to: the events handed to the
   hashgraph are in [all] (the list in which identifiers determine events) with identifiers >= 0;
   a synced event that claims this node as creator does not verify unless the node made it *)
Definition cop_ok (all : list event) (c : core) (o : cop) : Prop :=
  match o with
  | CAddSelfEvent id op ts coin sigkey sigs => 0 <= id /\ In (self_event c id op ts coin sigkey sigs) all
  | CSync evs => forall e, In e evs -> In e all /\ 0 <= e_id e /\ not_forged c e
  | _ => True
  end.
Fixpoint run_ok (all : list event) (c : core) (ops : list cop) : Prop :=
  match ops with
  | [] => True
  | o :: rest => cop_ok all c o /\ run_ok all (cstep c o) rest
  end.

Lemma cinsert_hg c e : c_hg (snd (cinsert c e)) = step (c_hg c) e /\ c_self (snd (cinsert c e)) = c_self c.
Proof. rewrite cinsert_eq. split; reflexivity. Qed.

Lemma hrun_inserts st l : hrun st (map hop_of (map HCInsert l)) = fold_left step l st.
Proof. revert st. induction l as [|e l IH]; intros st; cbn; [reflexivity|apply IH]. Qed.

Lemma add_self_event_hg c id op ts coin sigkey sigs c' l :
  add_self_event c id op ts coin sigkey sigs = (c', l) ->
  c_hg c' = fold_left step l (c_hg c) /\ c_self c' = c_self c /\ incl l [self_event c id op ts coin sigkey sigs].
Proof.
  unfold add_self_event. destruct (_ <? _); [intros [= <- <-]; repeat split; intros x []|]. cbv zeta.
  destruct (cinsert_hg c (self_event c id op ts coin sigkey sigs)) as [H S].
  destruct (cinsert c _) as [[r err] c1]. cbn [snd] in H, S.
  destruct (err && _); intros [= <- <-]; cbn [fold_left]; (split; [exact H|split; [exact S|apply incl_refl]]).
Qed.

Lemma sync_loop_hg evs : forall c c' l, sync_loop c evs = (c', l) ->
  c_hg c' = fold_left step l (c_hg c) /\ c_self c' = c_self c /\ incl l evs.
Proof.
  induction evs as [|e rest IH]; intros c c' l; cbn [sync_loop]; [intros [= <- <-]; repeat split; apply incl_refl|].
  destruct (cinsert_hg c e) as [H S]. destruct (cinsert c e) as [[r err] c1]. cbn [snd] in H, S.
  destruct (err && negb (is_normal r)).
  - intros [= <- <-]. cbn [fold_left]. split; [exact H|split; [exact S|]]. intros x [<-|[]]. left; reflexivity.
  - destruct (sync_loop c1 rest) as [c2 l2] eqn:E2. intros [= <- <-].
    destruct (IH c1 c2 l2 E2) as [H2 [S2 I2]]. cbn [fold_left]. rewrite <- H.
    split; [exact H2|split; [congruence|]]. apply incl_cons; [left; reflexivity|apply incl_tl; exact I2].
Qed.

Lemma cstep_h_hg all c o c' l : cstep_h c o = (c', l) ->
  c_hg c' = hrun (c_hg c) (map hop_of l) /\ c_self c' = c_self c /\
  (cop_ok all c o -> Forall (hop_ok all) (map hop_of l)).
Proof.
  assert (Ins : forall c1 l1 evs,
            c_hg c1 = fold_left step l1 (c_hg c) /\ c_self c1 = c_self c /\ incl l1 evs ->
            (c1, map HCInsert l1) = (c', l) ->
            c_hg c' = hrun (c_hg c) (map hop_of l) /\ c_self c' = c_self c /\
            ((forall e, In e evs -> In e all /\ 0 <= e_id e) -> Forall (hop_ok all) (map hop_of l))).
  { intros c1 l1 evs [H [S Hi]] [= <- <-]. rewrite hrun_inserts. split; [exact H|split; [exact S|]].
    intros Hev. rewrite map_map. apply Forall_forall. intros h Hh. apply in_map_iff in Hh.
    destruct Hh as [e [<- He]]. exact (Hev e (Hi e He)). }
  destruct o as [txs|t|id op ts coin sigkey sigs|evs|]; cbn [cstep_h cop_ok].
  - intros [= <- <-]. split; [reflexivity|split; [reflexivity|intros _; constructor]].
  - intros [= <- <-]. split; [reflexivity|split; [reflexivity|intros _; constructor]].
  - destruct (add_self_event c id op ts coin sigkey sigs) as [c1 l1] eqn:E. intros R.
    destruct (Ins c1 l1 _ (add_self_event_hg _ _ _ _ _ _ _ _ _ E) R) as [H [S F]].
    split; [exact H|split; [exact S|]]. intros [Hid Hin]. apply F. intros e [<-|[]]. split; [exact Hin|exact Hid].
  - destruct (sync_loop c evs) as [c1 l1] eqn:E. intros R.
    destruct (Ins c1 l1 evs (sync_loop_hg evs c c1 l1 E) R) as [H [S F]].
    split; [exact H|split; [exact S|]]. intros Ho. apply F. intros e He. destruct (Ho e He) as [A [B _]]. split; assumption.
  - intros [= <- <-]. split; [reflexivity|split; [reflexivity|intros _; repeat constructor]].
Qed.

Theorem crun_h_hg all ops : forall c c' l, crun_h c ops = (c', l) ->
  c_hg c' = hrun (c_hg c) (map hop_of l) /\ c_self c' = c_self c /\
  (run_ok all c ops -> Forall (hop_ok all) (map hop_of l)).
Proof.
  induction ops as [|o rest IH]; intros c c' l; cbn [crun_h]; [intros [= <- <-]; repeat split; constructor|].
  destruct (cstep_h c o) as [c1 l1] eqn:E1. destruct (crun_h c1 rest) as [c2 l2] eqn:E2. intros [= <- <-].
  destruct (cstep_h_hg all c o c1 l1 E1) as [H1 [S1 F1]]. destruct (IH c1 c2 l2 E2) as [H2 [S2 F2]].
  rewrite map_app, hrun_app, <- H1. split; [exact H2|split; [congruence|]].
  intros [Ho Hr]. apply Forall_app. split; [exact (F1 Ho)|apply F2]. unfold cstep in Hr. rewrite E1 in Hr. exact Hr.
Qed.

Lemma cstep_self c o : c_self (cstep c o) = c_self c.
Proof. unfold cstep. destruct (cstep_h c o) as [c' l] eqn:E. exact (proj1 (proj2 (cstep_h_hg [] c o c' l E))). Qed.
Lemma crun_self ops c : c_self (crun c ops) = c_self c.
Proof. unfold crun. destruct (crun_h c ops) as [c' l] eqn:E. exact (proj1 (proj2 (crun_h_hg [] ops c c' l E))). Qed.

Lemma ev_at_get st x ex : get_event st x = Some ex -> ev_at st x = Some (ev_e ex).
Proof. intros H. unfold ev_at. rewrite H. reflexivity. Qed.

Lemma ev_at_some st x e : ev_at st x = Some e -> exists ex, get_event st x = Some ex /\ ev_e ex = e.
Proof. unfold ev_at. destruct (get_event st x) as [ex|]; [intros [= <-]; eauto|discriminate]. Qed.

Lemma ev_at_frame st st' : dag_frame st st' -> forall x, ev_at st' x = ev_at st x.
Proof. intros [F _]. exact (static_body _ _ F). Qed.

(* either the event is stored under its fresh identifier and nothing else changes, or nothing
   changes at all *)
Lemma step_events all st e :
  dag_ok st -> from_attempts st all -> ids_determine all -> In e all -> 0 <= e_id e ->
  (fst (insert_and_run st e) = InsOk /\ ev_at st (e_id e) = None /\
   forall x, ev_at (step st e) x = if x =? e_id e then Some e else ev_at st x) \/
  (fst (insert_and_run st e) <> InsOk /\ step st e = st).
Proof.
  intros OK FA ID Hin Hid. unfold step, insert_and_run.
  destruct (insert_event st e) as [r s] eqn:E.
  destruct (insert_event_inv st e all r s OK FA ID Hin Hid E) as [_ [_ Hns]].
  assert (Hrej : r <> InsOk -> fst (r, s) <> InsOk /\ snd (r, s) = st).
  { intros Hn. split; [exact Hn|]. exact (insert_reject_noop st e r s E Hn Hns). }
  destruct r; try (right; apply Hrej; discriminate). clear Hrej. left. cbn [fst snd].
  destruct (insert_event_ok_shape st e all s OK FA ID Hin Hid E) as [st2 [G2 [Hfresh [DF _]]]]. cbv zeta in G2.
  split; [reflexivity|]. split; [unfold ev_at; rewrite Hfresh; reflexivity|].
  intros x. rewrite (ev_at_frame _ _ (run_consensus_frame s)), (ev_at_frame _ _ DF). unfold ev_at. rewrite G2.
  destruct (x =? e_id e); reflexivity.
Qed.

Record cinv (all : list event) (c : core) : Prop := {
  ci_dag : dag_ok (c_hg c);
  ci_from : from_attempts (c_hg c) all;
  (* the k-th self-event made by addSelfEvent is stored, is ours, has index k and the captured payload *)
  ci_a : forall k id txs itxs, nth_error (c_created c) k = Some (id, (txs, itxs)) ->
         exists e, ev_at (c_hg c) id = Some e /\ e_creator e = c_self c /\
                   e_index e = Z.of_nat k /\ e_txs e = txs /\ e_itxs e = itxs;
  (* every stored event of ours is one of them *)
  ci_b : forall x e, ev_at (c_hg c) x = Some e -> e_creator e = c_self c -> In x (created_ids c);
  ci_seq : c_seq c = Z.of_nat (length (c_created c)) - 1;
  ci_head : c_head c = last (created_ids c) (-1);
  ci_nn : forall x, In x (created_ids c) -> 0 <= x;
  ci_cons : c_submitted c = flat_map (fun p => fst (snd p)) (c_created c) ++ c_txs c;
  ci_icons : c_isubmitted c = flat_map (fun p => snd (snd p)) (c_created c) ++ c_itxs c
}.

Lemma created_position all c x : cinv all c -> In x (created_ids c) ->
  exists k e, (k < length (c_created c))%nat /\ ev_at (c_hg c) x = Some e /\
              e_creator e = c_self c /\ e_index e = Z.of_nat k.
Proof.
  intros I Hx. unfold created_ids in Hx. apply in_map_iff in Hx. destruct Hx as [[id [txs itxs]] [E Hin]]. cbn in E. subst id.
  destruct (In_nth_error _ _ Hin) as [k Hk].
  destruct (ci_a _ _ I k x txs itxs Hk) as [e [H1 [H2 [H3 _]]]].
  exists k, e. split; [apply nth_error_Some; congruence|auto].
Qed.

(* a stored event of ours is the created entry at its index *)
Lemma own_position all c x e : cinv all c -> ev_at (c_hg c) x = Some e -> e_creator e = c_self c ->
  exists txs itxs, nth_error (c_created c) (Z.to_nat (e_index e)) = Some (x, (txs, itxs)) /\
                   e_txs e = txs /\ 0 <= e_index e.
Proof.
  intros I Hx Hown. pose proof (ci_b _ _ I x e Hx Hown) as Hin. unfold created_ids in Hin. apply in_map_iff in Hin.
  destruct Hin as [[id [txs itxs]] [E Hin]]. cbn in E. subst id.
  destruct (In_nth_error _ _ Hin) as [k Hk].
  destruct (ci_a _ _ I k x txs itxs Hk) as [e' [H1 [_ [H3 [H4 _]]]]]. rewrite Hx in H1. injection H1 as <-.
  exists txs, itxs. rewrite H3, Nat2Z.id. split; [exact Hk|split; [exact H4|lia]].
Qed.

Lemma stored_same_id all c e e' : cinv all c -> ids_determine all -> In e all ->
  ev_at (c_hg c) (e_id e) = Some e' -> e' = e.
Proof.
  intros I ID Hin Hx. apply ev_at_some in Hx as [ex [Hx <-]].
  apply ID; [exact (ci_from _ _ I _ _ Hx)|exact Hin|exact (d_id _ (ci_dag _ _ I) _ _ Hx)].
Qed.

Lemma own_above_seq_not_stored all c e : cinv all c -> ids_determine all -> In e all ->
  e_creator e = c_self c -> c_seq c < e_index e -> ev_at (c_hg c) (e_id e) = None.
Proof.
  intros I ID Hin Hc Hs. destruct (ev_at (c_hg c) (e_id e)) as [e'|] eqn:Hx; [exfalso|reflexivity].
  rewrite (stored_same_id all c e e' I ID Hin Hx) in Hx.
  destruct (created_position all c _ I (ci_b _ _ I _ _ Hx Hc)) as [k [e'' [Hk [Hx' [_ Hi]]]]].
  rewrite Hx in Hx'. injection Hx' as <-. pose proof (ci_seq _ _ I). lia.
Qed.

Definition pv (c : core) := (c_self c, c_txs c, c_itxs c, c_head c, c_seq c, c_accepted c, c_created c, c_submitted c, c_isubmitted c).

(* a core that differs in the hashgraph only: the invariant is kept when every identifier keeps
   its event or gains one that is not ours *)
Lemma cinv_hg all c c' :
  cinv all c -> pv c' = pv c -> dag_ok (c_hg c') -> from_attempts (c_hg c') all ->
  (forall x, ev_at (c_hg c') x = ev_at (c_hg c) x \/
             ev_at (c_hg c) x = None /\ forall e, ev_at (c_hg c') x = Some e -> e_creator e <> c_self c) ->
  cinv all c'.
Proof.
  intros [H1 H2 H3 H4 H5 H6 H7 H8 H9] P OK' FA' Hs.
  unfold pv in P. injection P as P1 P2 P3 P4 P5 P6 P7 P8 P9.
  constructor; unfold created_ids in *; rewrite ?P1, ?P2, ?P3, ?P4, ?P5, ?P6, ?P7, ?P8, ?P9; try assumption.
  - intros k id txs itxs Hk. destruct (H3 k id txs itxs Hk) as [e [A1 A2]]. exists e. split; [|exact A2].
    destruct (Hs id) as [->|[N _]]; [exact A1|congruence].
  - intros x e Hx Hown. destruct (Hs x) as [E|[_ N]]; [rewrite E in Hx; exact (H4 x e Hx Hown)|destruct (N e Hx Hown)].
Qed.

(* a rejected insertion is reported as an error and leaves head and seq alone *)
Lemma cinsert_rejected all c e :
  cinv all c -> ids_determine all -> In e all ->
  fst (insert_and_run (c_hg c) e) <> InsOk -> step (c_hg c) e = c_hg c ->
  cinv all (snd (cinsert c e)) /\ pv (snd (cinsert c e)) = pv c /\ snd (fst (cinsert c e)) = true.
Proof.
  intros I ID Hin Hr Hs.
  assert (Er : cerr c e = true).
  { unfold cerr. destruct (fst (insert_and_run (c_hg c) e)); [contradiction| | | | | |]; reflexivity. }
  assert (U : cupd c e = false).
  { unfold cupd. rewrite Er, Hs. cbn [negb orb].
    destruct (Z.eqb_spec (e_creator e) (c_self c)) as [Hc|]; [|apply andb_false_r]. rewrite andb_true_r.
    destruct (Z.ltb_spec (c_seq c) (e_index e)) as [Hlt|]; [|apply andb_false_r]. rewrite andb_true_r.
    rewrite (own_above_seq_not_stored all c e I ID Hin Hc Hlt). reflexivity. }
  rewrite cinsert_eq, U, Er, Hs. cbn [fst snd]. split; [|split; reflexivity].
  apply (cinv_hg all c); [exact I|reflexivity|apply (ci_dag _ _ I)|apply (ci_from _ _ I)|left; reflexivity].
Qed.

Lemma insert_ok_sig st e : fst (insert_and_run st e) = InsOk -> e_sigok e = true.
Proof.
  unfold insert_and_run. destruct (insert_event st e) as [r s] eqn:E. destruct r; cbn [fst]; try discriminate.
  intros _. apply (insert_ok_checks st e s E).
Qed.

(* an event of somebody else (or a forgery / a replay of an own event): the pools, head, seq and
   ghosts are untouched and the invariant is kept *)
Lemma cinsert_other all c e :
  cinv all c -> ids_determine all -> In e all -> 0 <= e_id e -> not_forged c e ->
  cinv all (snd (cinsert c e)) /\ pv (snd (cinsert c e)) = pv c.
Proof.
  intros I ID Hin Hid NF.
  destruct (step_events all (c_hg c) e (ci_dag _ _ I) (ci_from _ _ I) ID Hin Hid) as [[Hr [Hfresh Hev]]|[Hr Hs]].
  2:{ destruct (cinsert_rejected all c e I ID Hin Hr Hs) as [A [B _]]. auto. }
  (* inserted: it is not ours *)
  assert (Hne : e_creator e <> c_self c).
  { intros Hc. destruct (NF Hc) as [Hsig|Hcr].
    - rewrite (insert_ok_sig _ _ Hr) in Hsig. discriminate.
    - destruct (created_position all c _ I Hcr) as [k [e' [_ [Hx _]]]]. congruence. }
  assert (U : cupd c e = false) by (unfold cupd; replace (e_creator e =? c_self c) with false by lia; apply andb_false_r).
  pose proof (step_inv (c_hg c) e all (ci_dag _ _ I) (ci_from _ _ I) ID Hin Hid) as [OK' FA'].
  rewrite cinsert_eq, U. cbn [snd]. split; [|reflexivity].
  apply (cinv_hg all c); [exact I|reflexivity|exact OK'|exact FA'|]. cbn [c_hg].
  intros x. rewrite Hev. destruct (Z.eqb_spec x (e_id e)) as [->|]; [right|left; reflexivity].
  split; [exact Hfresh|]. intros e' [= <-]. exact Hne.
Qed.

Lemma not_forged_pv c c' e : pv c' = pv c -> not_forged c e -> not_forged c' e.
Proof.
  unfold pv, not_forged, created_ids. intros H. injection H as H1 _ _ _ _ _ H7 _ _. rewrite H1, H7. auto.
Qed.

Lemma sync_loop_cinv all evs : forall c,
  cinv all c -> ids_determine all ->
  (forall e, In e evs -> In e all /\ 0 <= e_id e /\ not_forged c e) ->
  cinv all (fst (sync_loop c evs)) /\ pv (fst (sync_loop c evs)) = pv c.
Proof.
  induction evs as [|e rest IH]; intros c I ID H; cbn [sync_loop]; [auto|].
  destruct (H e (or_introl eq_refl)) as [Hin [Hid NF]].
  destruct (cinsert_other all c e I ID Hin Hid NF) as [I1 P1].
  destruct (cinsert c e) as [[r err] c1]. cbn [snd] in I1, P1.
  destruct (err && negb (is_normal r)); cbn [fst]; [auto|].
  assert (H1 : forall e0, In e0 rest -> In e0 all /\ 0 <= e_id e0 /\ not_forged c1 e0).
  { intros e0 He0. destruct (H e0 (or_intror He0)) as [A [B C]]. split; [exact A|split; [exact B|]].
    eapply not_forged_pv; eauto. }
  destruct (IH c1 I1 ID H1) as [I2 P2]. destruct (sync_loop c1 rest) as [c2 l]. cbn [fst] in *.
  split; [exact I2|congruence].
Qed.

Lemma last_In_nonneg (l : list Z) x : last l (-1) = x -> 0 <= x -> In x l.
Proof.
  induction l as [|a l IH]; cbn [last]; [lia|]. destruct l as [|b l]; [intros ->; left; reflexivity|].
  intros H Hx. right. apply IH; assumption.
Qed.

(* a self-event that went in: head and seq move to it, the pools are emptied into it *)
Lemma cinv_self_event all c e st' :
  cinv all c -> dag_ok st' -> from_attempts st' all ->
  e_creator e = c_self c -> e_index e = c_seq c + 1 -> e_txs e = c_txs c -> e_itxs e = c_itxs c -> 0 <= e_id e ->
  ev_at (c_hg c) (e_id e) = None ->
  (forall x, ev_at st' x = if x =? e_id e then Some e else ev_at (c_hg c) x) ->
  cinv all (mkCore st' (c_self c) [] [] (e_id e) (e_index e) (c_accepted c)
                   (c_created c ++ [(e_id e, (c_txs c, c_itxs c))]) (c_submitted c) (c_isubmitted c)).
Proof.
  intros I OK' FA' Ecr Eix Etx Eitx Hid Hfresh Hev.
  pose proof (ci_seq _ _ I) as Hseq.
  constructor; unfold created_ids; cbn [c_hg c_self c_txs c_itxs c_head c_seq c_created c_submitted c_isubmitted];
    rewrite ?map_app; cbn [map fst]; try assumption.
  - intros k id0 txs itxs Hk. rewrite Hev. destruct (Nat.lt_ge_cases k (length (c_created c))) as [Hlt|Hge].
    + rewrite nth_error_app1 in Hk by exact Hlt.
      destruct (ci_a _ _ I k id0 txs itxs Hk) as [e0 [H1 H2]]. exists e0. split; [|exact H2].
      destruct (Z.eqb_spec id0 (e_id e)) as [->|]; [congruence|exact H1].
    + rewrite nth_error_app2 in Hk by exact Hge.
      destruct (k - length (c_created c))%nat as [|m] eqn:Ek; [|destruct m; discriminate]. cbn in Hk. inversion Hk; subst id0 txs itxs.
      exists e. rewrite Z.eqb_refl. repeat split; try assumption. lia.
  - intros x e0 Hx Hown. rewrite Hev in Hx. apply in_or_app.
    destruct (Z.eqb_spec x (e_id e)) as [->|]; [right; left; reflexivity|left; exact (ci_b _ _ I x e0 Hx Hown)].
  - rewrite app_length. cbn [length]. lia.
  - symmetry. apply last_last.
  - intros x Hx. apply in_app_or in Hx. destruct Hx as [Hx|[<-|[]]]; [apply (ci_nn _ _ I); exact Hx|exact Hid].
  - rewrite flat_map_app. cbn [flat_map fst snd]. rewrite !app_nil_r. apply (ci_cons _ _ I).
  - rewrite flat_map_app. cbn [flat_map fst snd]. rewrite !app_nil_r. apply (ci_icons _ _ I).
Qed.

Lemma add_self_event_cinv all c id op ts coin sigkey sigs :
  cinv all c -> ids_determine all ->
  In (self_event c id op ts coin sigkey sigs) all -> 0 <= id ->
  cinv all (fst (add_self_event c id op ts coin sigkey sigs)).
Proof.
  intros I ID Hin Hid. unfold add_self_event. destruct (_ <? _); [exact I|]. cbv zeta.
  set (e := self_event c id op ts coin sigkey sigs) in *.
  assert (Ee : e_id e = id /\ e_creator e = c_self c /\ e_index e = c_seq c + 1 /\ e_txs e = c_txs c /\ e_itxs e = c_itxs c)
    by (subst e; cbn; auto).
  destruct Ee as [Eid [Ecr [Eix [Etx Eitx]]]].
  assert (Hid' : 0 <= e_id e) by lia.
  destruct (step_events all (c_hg c) e (ci_dag _ _ I) (ci_from _ _ I) ID Hin Hid') as [[Hr [Hfresh Hev]]|[Hr Hs]].
  2:{ destruct (cinsert_rejected all c e I ID Hin Hr Hs) as [I1 [P1 Herr]].
      destruct (cinsert c e) as [[r err] c1]. cbn [fst snd] in I1, P1, Herr. subst err.
      assert (Hh : (c_head c1 =? id) = false).
      { unfold pv in P1. injection P1 as _ _ _ -> _ _ _ _ _.
        destruct (Z.eqb_spec (c_head c) id) as [Hh|]; [exfalso|reflexivity].
        rewrite (ci_head _ _ I) in Hh. pose proof (last_In_nonneg _ _ Hh Hid) as HI.
        destruct (created_position all c _ I HI) as [k [e' [_ [Hx _]]]].
        pose proof (own_above_seq_not_stored all c e I ID Hin Ecr ltac:(lia)) as Hn. rewrite Eid in Hn. congruence. }
      rewrite Hh. exact I1. }
  pose proof (step_inv (c_hg c) e all (ci_dag _ _ I) (ci_from _ _ I) ID Hin Hid') as [OK' FA'].
  assert (U : cupd c e = true).
  { unfold cupd. rewrite Hev, Z.eqb_refl, Ecr, Z.eqb_refl, Eix.
    replace (c_seq c <? c_seq c + 1) with true by lia. rewrite orb_true_r. reflexivity. }
  rewrite cinsert_eq, U. cbv beta iota. cbn [c_head]. rewrite Eid at 1. rewrite Z.eqb_refl, andb_false_r. cbn [fst].
  rewrite <- Eid.
  replace (skipn (length (c_txs c)) _) with (@nil Z) by (symmetry; apply skipn_all).
  replace (skipn (length (c_itxs c)) _) with (@nil itx) by (symmetry; apply skipn_all).
  apply (cinv_self_event all c e (step (c_hg c) e)); assumption.
Qed.

Lemma crun_cons c o rest : crun c (o :: rest) = crun (cstep c o) rest.
Proof.
  unfold crun, cstep. cbn [crun_h]. destruct (cstep_h c o) as [c1 l1]. cbn [fst].
  destruct (crun_h c1 rest) as [c2 l2]. reflexivity.
Qed.

Lemma cstep_cinv all c o : cinv all c -> ids_determine all -> cop_ok all c o -> cinv all (cstep c o).
Proof.
  intros I ID Ho. unfold cstep. destruct o as [txs|t|id op ts coin sigkey sigs|evs|]; cbn [cstep_h].
  - cbn [fst]. destruct I as [H1 H2 H3 H4 H5 H6 H7 H8 H9]. constructor; try assumption.
    change (c_submitted c ++ txs = flat_map (fun p => fst (snd p)) (c_created c) ++ (c_txs c ++ txs)).
    rewrite H8, app_assoc. reflexivity.
  - cbn [fst]. destruct I as [H1 H2 H3 H4 H5 H6 H7 H8 H9]. constructor; try assumption.
    change (c_isubmitted c ++ [t] = flat_map (fun p => snd (snd p)) (c_created c) ++ (c_itxs c ++ [t])).
    rewrite H9, app_assoc. reflexivity.
  - destruct Ho as [Hid Hin].
    pose proof (add_self_event_cinv all c id op ts coin sigkey sigs I ID Hin Hid) as I'.
    destruct (add_self_event c id op ts coin sigkey sigs) as [c' l]. exact I'.
  - pose proof (sync_loop_cinv all evs c I ID Ho) as [I' _].
    destruct (sync_loop c evs) as [c' l]. exact I'.
  - cbn [fst]. pose proof (process_sigpool_frame (c_hg c)) as F.
    apply (cinv_hg all c); [exact I|reflexivity| | |]; cbn [c_hg].
    + eapply dag_ok_frame; [apply (ci_dag _ _ I)|exact F].
    + eapply from_attempts_frame; [apply (ci_from _ _ I)|exact F].
    + intros x. left. apply ev_at_frame, F.
Qed.

Theorem crun_cinv all ops : forall c, cinv all c -> ids_determine all -> run_ok all c ops -> cinv all (crun c ops).
Proof.
  induction ops as [|o rest IH]; intros c I ID H; [exact I|]. destruct H as [Ho Hr].
  rewrite crun_cons. apply IH; [apply cstep_cinv; assumption|exact ID|exact Hr].
Qed.

Lemma cinv_init all self_ genesis oracle_ : cinv all (core_init self_ genesis oracle_).
Proof.
  constructor; cbn [core_init c_hg c_self c_created c_seq c_head c_submitted c_isubmitted c_txs c_itxs created_ids map].
  - apply dag_ok_init.
  - apply init_no_event.
  - intros k id txs itxs H. destruct k; discriminate.
  - intros x e H. apply ev_at_some in H as [ex [H _]]. exfalso. exact (init_no_event self_ genesis oracle_ [] x ex H).
  - reflexivity.
  - reflexivity.
  - intros x [].
  - reflexivity.
  - reflexivity.
Qed.

Definition node (self_ : Z) (genesis : peerset) (oracle_ : list Z) (ops : list cop) : core :=
  crun (core_init self_ genesis oracle_) ops.
Definition node_calls (self_ : Z) (genesis : peerset) (oracle_ : list Z) (ops : list cop) : list hop :=
  map hop_of (snd (crun_h (core_init self_ genesis oracle_) ops)).

Lemma node_self self_ genesis oracle_ ops : c_self (node self_ genesis oracle_ ops) = self_.
Proof. apply crun_self. Qed.

Lemma core_init_hg self_ genesis oracle_ : init_hg self_ genesis oracle_ = c_hg (core_init self_ genesis oracle_).
Proof. exact eq_refl. Qed.

Theorem node_cinv all self_ genesis oracle_ ops :
  ids_determine all -> run_ok all (core_init self_ genesis oracle_) ops -> cinv all (node self_ genesis oracle_ ops).
Proof. intros ID H. apply crun_cinv; [apply cinv_init|exact ID|exact H]. Qed.

(* the hashgraph of the node is the hrun state of the calls it made, which satisfy the premises
   of the hashgraph theorems *)
Theorem node_hg all self_ genesis oracle_ ops :
  run_ok all (core_init self_ genesis oracle_) ops ->
  c_hg (node self_ genesis oracle_ ops) = hrun (init_hg self_ genesis oracle_) (node_calls self_ genesis oracle_ ops) /\
  Forall (hop_ok all) (node_calls self_ genesis oracle_ ops).
Proof.
  intros H. unfold node, node_calls, crun. rewrite (core_init_hg self_ genesis oracle_).
  destruct (crun_h (core_init self_ genesis oracle_) ops) as [c l] eqn:E.
  destruct (crun_h_hg all ops _ c l E) as [Eh [_ F]]. exact (conj Eh (F H)).
Qed.

(** (1) the node's own stored events are exactly the self-events made by addSelfEvent, in order,
    with the payloads captured from the pools *)
Theorem own_events_are_created all self_ genesis oracle_ ops :
  ids_determine all -> run_ok all (core_init self_ genesis oracle_) ops ->
  let c := node self_ genesis oracle_ ops in
  (forall k id txs itxs, nth_error (c_created c) k = Some (id, (txs, itxs)) ->
     exists ex, get_event (c_hg c) id = Some ex /\ e_creator (ev_e ex) = self_ /\
                e_index (ev_e ex) = Z.of_nat k /\ e_txs (ev_e ex) = txs /\ e_itxs (ev_e ex) = itxs) /\
  (forall x ex, get_event (c_hg c) x = Some ex -> e_creator (ev_e ex) = self_ ->
     exists txs itxs, nth_error (c_created c) (Z.to_nat (e_index (ev_e ex))) = Some (x, (txs, itxs))) /\
  c_seq c = Z.of_nat (length (c_created c)) - 1 /\ c_head c = last (map fst (c_created c)) (-1).
Proof.
  intros ID H c. pose proof (node_cinv all self_ genesis oracle_ ops ID H) as I. fold c in I.
  pose proof (node_self self_ genesis oracle_ ops) as Es. fold c in Es.
  split; [|split; [|split; [apply (ci_seq _ _ I)|apply (ci_head _ _ I)]]].
  - intros k id txs itxs Hk. destruct (ci_a _ _ I k id txs itxs Hk) as [e [He H2]].
    apply ev_at_some in He as [ex [He <-]]. exists ex. rewrite <- Es. auto.
  - intros x ex Hx Hown. rewrite <- Es in Hown.
    destruct (own_position all c x _ I (ev_at_get _ _ _ Hx) Hown) as [txs [itxs [Hk _]]]. eauto.
Qed.

Lemma created_payload all c k id txs itxs : cinv all c -> nth_error (c_created c) k = Some (id, (txs, itxs)) ->
  etxs (c_hg c) id = txs.
Proof.
  intros I Hk. destruct (ci_a _ _ I k id txs itxs Hk) as [e [H1 [_ [_ [H4 _]]]]].
  apply ev_at_some in H1 as [ex [H1 <-]]. unfold etxs. rewrite H1. exact H4.
Qed.

Lemma created_stream all c : cinv all c ->
  flat_map (etxs (c_hg c)) (created_ids c) = flat_map (fun p => fst (snd p)) (c_created c).
Proof.
  intros I. unfold created_ids. rewrite flat_map_map. apply flat_map_ext_in.
  intros [id [txs itxs]] Hin. destruct (In_nth_error _ _ Hin) as [k Hk]. cbn [fst snd].
  exact (created_payload all c k id txs itxs I Hk).
Qed.

Lemma created_ids_nodup all c : cinv all c -> NoDup (created_ids c).
Proof.
  intros I. apply (proj2 (NoDup_nth_error (created_ids c))). intros i j Hi Hij.
  unfold created_ids in *. rewrite !nth_error_map in Hij.
  destruct (nth_error (c_created c) i) as [[id [txs itxs]]|] eqn:Ei; [|apply nth_error_Some in Hi; rewrite nth_error_map, Ei in Hi; contradiction].
  destruct (nth_error (c_created c) j) as [[id' [txs' itxs']]|] eqn:Ej; [|discriminate].
  cbn in Hij. inversion Hij; subst id'.
  destruct (ci_a _ _ I i id txs itxs Ei) as [ex [H1 [_ [H3 _]]]].
  destruct (ci_a _ _ I j id txs' itxs' Ej) as [ex' [H1' [_ [H3' _]]]].
  rewrite H1 in H1'. injection H1' as <-. lia.
Qed.

(** (2) conservation: what addTransactions accepted = payloads of the own stored events, in
    creation order, followed by the pool; with distinct accepted transactions each is in exactly one
    own stored event or still in the pool, never both *)
Theorem node_conservation all self_ genesis oracle_ ops :
  ids_determine all -> run_ok all (core_init self_ genesis oracle_) ops ->
  let c := node self_ genesis oracle_ ops in
  c_submitted c = flat_map (etxs (c_hg c)) (created_ids c) ++ c_txs c /\
  NoDup (created_ids c) /\
  (forall x, In x (created_ids c) <-> exists ex, get_event (c_hg c) x = Some ex /\ e_creator (ev_e ex) = self_).
Proof.
  intros ID H c. pose proof (node_cinv all self_ genesis oracle_ ops ID H) as I. fold c in I.
  pose proof (node_self self_ genesis oracle_ ops) as Es. fold c in Es.
  split; [rewrite (created_stream all c I); apply (ci_cons _ _ I)|].
  split; [apply (created_ids_nodup all c I)|].
  intros x. split.
  - intros Hx. destruct (created_position all c x I Hx) as [k [e [_ [H1 [H2 _]]]]].
    apply ev_at_some in H1 as [ex [H1 <-]]. exists ex. rewrite <- Es. auto.
  - intros [ex [H1 H2]]. rewrite <- Es in H2. exact (ci_b _ _ I x _ (ev_at_get _ _ _ H1) H2).
Qed.

Theorem node_exactly_one all self_ genesis oracle_ ops t :
  ids_determine all -> run_ok all (core_init self_ genesis oracle_) ops ->
  let c := node self_ genesis oracle_ ops in
  NoDup (c_submitted c) -> In t (c_submitted c) ->
  (In t (c_txs c) /\ forall x, In x (created_ids c) -> ~ In t (etxs (c_hg c) x)) \/
  (~ In t (c_txs c) /\ exists x, In x (created_ids c) /\ In t (etxs (c_hg c) x) /\
                        forall y, In y (created_ids c) -> In t (etxs (c_hg c) y) -> y = x).
Proof.
  intros ID H c N Ht.
  destruct (node_conservation all self_ genesis oracle_ ops ID H) as [E [Nc _]]. fold c in E, Nc.
  rewrite E in N, Ht. apply in_app_or in Ht. destruct Ht as [Ht|Ht].
  - right. split; [intros Hp; exact (NoDup_app_disjoint _ _ t N Ht Hp)|].
    apply in_flat_map in Ht. destruct Ht as [x [Hx Htx]]. exists x. split; [exact Hx|split; [exact Htx|]].
    intros y Hy Hty. exact (NoDup_flat_map_same _ _ y x t (NoDup_app_l _ _ N) Hy Hx Hty Htx).
  - left. split; [exact Ht|]. intros x Hx Htx. apply (NoDup_app_disjoint _ _ t N); [|exact Ht].
    apply in_flat_map. exists x. auto.
Qed.

(** (3) commit side.  The transactions this node committed through its OWN events *)
Definition own_committed_events (c : core) : list Z :=
  filter (fun x => creator_of (c_hg c) x =? c_self c) (committed_events (c_hg c)).
Definition own_committed_txs (c : core) : list Z := flat_map (etxs (c_hg c)) (own_committed_events c).

Theorem node_commit_side all self_ genesis oracle_ ops :
  ids_determine all -> run_ok all (core_init self_ genesis oracle_) ops ->
  let c := node self_ genesis oracle_ ops in
  (* committed own events are self-events of addSelfEvent, none twice *)
  NoDup (own_committed_events c) /\ incl (own_committed_events c) (created_ids c) /\
  (* a transaction committed through an own event was accepted by addTransactions and has left the pool *)
  incl (own_committed_txs c) (c_submitted c) /\
  (NoDup (c_submitted c) ->
     NoDup (own_committed_txs c) /\ forall t, In t (own_committed_txs c) -> ~ In t (c_txs c)).
Proof.
  intros ID H c. pose proof (node_cinv all self_ genesis oracle_ ops ID H) as I. fold c in I.
  destruct (node_hg all self_ genesis oracle_ ops H) as [Eh Hc]. fold c in Eh.
  destruct (node_conservation all self_ genesis oracle_ ops ID H) as [E [Nc _]]. fold c in E, Nc.
  assert (Nce : NoDup (committed_events (c_hg c))) by (rewrite Eh; apply (committed_events_nodup all); assumption).
  assert (G : ginv all (c_hg c)) by (rewrite Eh; apply hrun_ginv; assumption).
  assert (Hincl : incl (own_committed_events c) (created_ids c)).
  { intros x Hx. unfold own_committed_events in Hx. apply filter_In in Hx. destruct Hx as [Hx Hcr].
    destruct (committed_event_stored all _ x G Hx) as [ex Hex]. unfold creator_of in Hcr. rewrite Hex in Hcr.
    apply (ci_b _ _ I x _ (ev_at_get _ _ _ Hex)). lia. }
  assert (Hsub : incl (own_committed_txs c) (flat_map (etxs (c_hg c)) (created_ids c))).
  { intros t Ht. unfold own_committed_txs in Ht. apply in_flat_map in Ht. destruct Ht as [x [Hx Htx]].
    apply in_flat_map. exists x. split; [apply Hincl; exact Hx|exact Htx]. }
  split; [apply NoDup_filter; exact Nce|]. split; [exact Hincl|].
  split; [intros t Ht; rewrite E; apply in_or_app; left; apply Hsub; exact Ht|].
  intros N. rewrite E in N. split.
  - unfold own_committed_txs. apply NoDup_flat_map_disjoint; [apply NoDup_filter; exact Nce| |].
    + intros x Hx. exact (NoDup_flat_map_piece _ _ x (NoDup_app_l _ _ N) (Hincl x Hx)).
    + intros x y t Hx Hy. exact (NoDup_flat_map_same _ _ x y t (NoDup_app_l _ _ N) (Hincl x Hx) (Hincl y Hy)).
  - intros t Ht Hp. exact (NoDup_app_disjoint _ _ t N (Hsub t Ht) Hp).
Qed.

Lemma map_flat_map {A B C} (f : B -> C) (g : A -> list B) l : map f (flat_map g l) = flat_map (fun a => map f (g a)) l.
Proof. induction l as [|a l IH]; cbn [flat_map map]; [reflexivity|]. rewrite map_app, IH. reflexivity. Qed.

(* the pools of Model/NodeModel.v seen in a core obey the conservation law [conserved] of
   Proofs/NodeProofs.v *)
Lemma pools_of_conserved all c : cinv all c -> conserved (pools_of c).
Proof.
  intros I. unfold conserved, pools_of. cbn [p_submitted p_isubmitted p_created p_txs p_itxs]. split.
  - rewrite flat_map_map. cbn [fst]. apply (ci_cons _ _ I).
  - rewrite flat_map_map. cbn [snd]. rewrite (ci_icons _ _ I), map_app, map_flat_map. reflexivity.
Qed.

Section Network.
  (* the nodes of the network: node k has key ordinal k, its own genesis view, application and life *)
  Variables (all : list event) (creators : list Z) (G : Z -> peerset) (Or : Z -> list Z) (Ops : Z -> list cop).
  Definition nd (k : Z) : core := node k (G k) (Or k) (Ops k).
  Hypothesis ID : ids_determine all.
  Hypothesis Hn : forall k, In k creators -> run_ok all (core_init k (G k) (Or k)) (Ops k).

  Lemma nd_cinv k : In k creators -> cinv all (nd k).
  Proof. intros Hk. exact (node_cinv all k (G k) (Or k) (Ops k) ID (Hn k Hk)). Qed.
  Lemma nd_self k : c_self (nd k) = k.
  Proof. exact (node_self k (G k) (Or k) (Ops k)). Qed.

  (* an event of [all] that is stored at its creator's node is one of that node's self-events, at
     the position given by its index, with its payload *)
  Lemma stored_at_creator e :
    In e all -> In (e_creator e) creators -> get_event (c_hg (nd (e_creator e))) (e_id e) <> None ->
    nth_error (map fst (p_created (pools_of (nd (e_creator e))))) (Z.to_nat (e_index e)) = Some (e_txs e) /\
    0 <= e_index e.
  Proof.
    intros He Hc Hs. set (k := e_creator e) in *. pose proof (nd_cinv k Hc) as I.
    destruct (get_event (c_hg (nd k)) (e_id e)) as [ex|] eqn:Hx; [|contradiction].
    pose proof (stored_same_id all (nd k) e _ I ID He (ev_at_get _ _ _ Hx)) as Ee.
    destruct (own_position all (nd k) _ _ I (ev_at_get _ _ _ Hx)) as [txs [itxs [Hpos [Ht Hi]]]]; [rewrite Ee, nd_self; reflexivity|].
    rewrite Ee in Hpos, Ht, Hi. split; [|exact Hi]. unfold pools_of. cbn [p_created].
    rewrite map_map, nth_error_map, Hpos. cbn. rewrite Ht. reflexivity.
  Qed.

  (* [from_pools] holds for every list of events of [all] that are stored at their creators' nodes
     (what a creator does with an event of its own when it makes it) *)
  Theorem nodes_from_pools evs :
    (forall e, In e evs -> In e all /\ In (e_creator e) creators /\
                           get_event (c_hg (nd (e_creator e))) (e_id e) <> None) ->
    from_pools evs creators (fun k => pools_of (nd k)) (fun e => Z.to_nat (e_index e)).
  Proof.
    intros H. split.
    - intros e He. destruct (H e He) as [A [B C]]. split; [exact B|]. apply (stored_at_creator e A B C).
    - intros e e' He He' Ec Es. destruct (H e He) as [A [B C]]. destruct (H e' He') as [A' [B' C']].
      destruct (stored_at_creator e A B C) as [_ H0]. destruct (stored_at_creator e' A' B' C') as [_ H0'].
      assert (Ei : e_index e = e_index e') by lia.
      pose proof (nd_cinv _ B) as I.
      destruct (get_event (c_hg (nd (e_creator e))) (e_id e)) as [ex|] eqn:Hx; [|contradiction].
      rewrite <- Ec in C'. destruct (get_event (c_hg (nd (e_creator e))) (e_id e')) as [ex'|] eqn:Hx'; [|contradiction].
      pose proof (stored_same_id all _ e _ I ID A (ev_at_get _ _ _ Hx)) as Ee.
      pose proof (stored_same_id all _ e' _ I ID A' (ev_at_get _ _ _ Hx')) as Ee'.
      assert (Eid : e_id e = e_id e').
      { apply (dag_ok_no_fork _ _ _ ex ex' (ci_dag _ _ I) Hx Hx'); rewrite Ee, Ee'; assumption. }
      apply ID; assumption.
  Qed.

  (* END TO END, without a hypothesis on the pools: an observer (any node, any operation
     sequence) that admits only events made by their creators' cores -- i.e. stored at the
     creator's node -- never commits a transaction twice, provided the transactions accepted by the nodes are
     pairwise distinct within and across nodes *)
  Theorem network_committed_at_most_once self_ genesis oracle_ hops :
    Forall (hop_ok all) hops ->
    let R := hrun (init_hg self_ genesis oracle_) hops in
    NoDup creators ->
    (forall x ex, get_event R x = Some ex ->
       In (e_creator (ev_e ex)) creators /\ get_event (c_hg (nd (e_creator (ev_e ex)))) x <> None) ->
    NoDup (flat_map (fun k => c_submitted (nd k)) creators) ->
    NoDup (committed_txs R).
  Proof.
    intros Hops R Nc Hst Ns.
    pose proof (hrun_ginv all self_ genesis oracle_ hops ID Hops) as Gi. fold R in Gi.
    set (evs := fun e => exists x ex, get_event R x = Some ex /\ ev_e ex = e).
    assert (Hev : forall x ex, get_event R x = Some ex ->
              In (ev_e ex) all /\ In (e_creator (ev_e ex)) creators /\
              get_event (c_hg (nd (e_creator (ev_e ex)))) (e_id (ev_e ex)) <> None).
    { intros x ex Hx. destruct Gi as [[D FA _ _] _ _ _]. destruct (Hst x ex Hx) as [A B].
      split; [exact (FA _ _ Hx)|]. split; [exact A|]. rewrite (d_id _ D _ _ Hx). exact B. }
    assert (Cv : forall k, In k creators -> conserved (pools_of (nd k))).
    { intros k Hk. apply (pools_of_conserved all). apply nd_cinv; exact Hk. }
    assert (Ns' : NoDup (flat_map (fun k => p_submitted (pools_of (nd k))) creators)) by exact Ns.
    apply (no_transaction_committed_twice all); [exact ID|exact Hops|]. fold R.
    split.
    - intros x ex Hx. destruct (Hev x ex Hx) as [A [B C]].
      destruct (pools_payloads_disjoint_gen [ev_e ex] creators (fun k => pools_of (nd k)) (fun e => Z.to_nat (e_index e)) Cv) as [P1 _];
        [apply nodes_from_pools; intros e [<-|[]]; auto|exact Nc|exact Ns'|].
      apply P1. left; reflexivity.
    - intros x y ex ey t Hx Hy Ht Hty. destruct (Hev x ex Hx) as [A [B C]]. destruct (Hev y ey Hy) as [A' [B' C']].
      destruct (pools_payloads_disjoint_gen [ev_e ex; ev_e ey] creators (fun k => pools_of (nd k)) (fun e => Z.to_nat (e_index e)) Cv) as [_ P2];
        [apply nodes_from_pools; intros e [<-|[<-|[]]]; auto|exact Nc|exact Ns'|].
      assert (E : ev_e ex = ev_e ey) by (apply (P2 _ _ t); cbn; auto).
      destruct Gi as [[D _ _ _] _ _ _]. rewrite <- (d_id _ D _ _ Hx), <- (d_id _ D _ _ Hy), E. reflexivity.
  Qed.
End Network.

Lemma run_ok_of_checks all ops : forall c,
  incl (run_evs c ops) all -> (forall e, In e all -> 0 <= e_id e) -> sync_foreignb (c_self c) ops = true ->
  run_ok all c ops.
Proof.
  induction ops as [|o rest IH]; intros c Hi Hp Hf; cbn [run_ok]; [exact I|].
  cbn [run_evs] in Hi. cbn [sync_foreignb forallb] in Hf. apply andb_prop in Hf. destruct Hf as [Hf1 Hf2].
  split.
  - destruct o as [txs|t|id op ts coin sigkey sigs|evs|]; cbn [cop_ok]; try exact I.
    + assert (Hin : In (self_event c id op ts coin sigkey sigs) all) by (apply Hi; apply in_or_app; left; left; reflexivity).
      split; [exact (Hp _ Hin)|exact Hin].
    + intros e He. assert (Hin : In e all) by (apply Hi; apply in_or_app; left; exact He).
      split; [exact Hin|]. split; [exact (Hp _ Hin)|].
      intros Hc. exfalso. rewrite forallb_forall in Hf1. specialize (Hf1 e He). lia.
  - apply IH; [intros e He; apply Hi; apply in_or_app; right; exact He|exact Hp|rewrite cstep_self; exact Hf2].
Qed.
