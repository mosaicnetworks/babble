(* A height function on the stored DAG (parents strictly lower), obtained from the Lamport
   timestamps of a state in which no pass failed. *)
From Coq Require Import ZArith List Bool Lia ZifyBool.
From V Require Import Model.ZMap Model.Quorum Model.HgImpl Proofs.OrderProofs.
Import ListNotations.
Open Scope Z_scope.

Definition hmeasure (st : hg) (h : Z -> Z) : Prop :=
  forall x ex p, get_event st x = Some ex -> p <> -1 -> (e_sp (ev_e ex) = p \/ e_op (ev_e ex) = p) ->
    0 <= h p < h x.

Lemma linv_hmeasure st : linv st -> all_lt st ->
  hmeasure st (fun x => match zget x (lt_memo st) with Some t => t | None => 0 end).
Proof.
  intros L AL x ex p Hx Hn Hp.
  destruct (ev_lt ex) as [t|] eqn:Et; [|exfalso; apply (AL x ex Hx Et)].
  pose proof (l_ev _ L x ex t Hx Et) as Hm. rewrite Hm.
  destruct (l_memo _ L x t Hm) as [ex' [a [b [Hx' [Ha [Hb [Ga [Gb Et']]]]]]]].
  rewrite Hx in Hx'. inversion Hx'; subst ex'.
  destruct (l_par _ L x ex t p Hx Et ltac:(destruct Hp; auto) Hn) as [ep [tp [Hep Htp]]].
  pose proof (l_ev _ L p ep tp Hep Htp) as Hmp. rewrite Hmp.
  pose proof (memo_consistent_nonneg st p tp (l_memo _ L) Hmp) as Hnn.
  unfold parent_lt in Ha, Hb.
  destruct Hp as [Hp|Hp]; rewrite Hp in *.
  - destruct (Z.eqb_spec p (-1)); [contradiction|]. rewrite Hmp in Ha. inversion Ha. lia.
  - destruct (Z.eqb_spec p (-1)); [contradiction|]. rewrite Hmp in Hb. inversion Hb. lia.
Qed.

Lemma ginv_hmeasure all st : ginv all st -> failed st = false ->
  hmeasure st (fun x => match zget x (lt_memo st) with Some t => t | None => 0 end).
Proof. intros Gi Hf. exact (linv_hmeasure st (g_l _ _ (gi_core _ _ Gi)) (gi_all _ _ Gi Hf)). Qed.
