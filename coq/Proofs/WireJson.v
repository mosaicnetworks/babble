(* C15: what a Go value looks like after one trip through JSON (normal forms n_X), the round trip
   lemmas  decode (encode x) = Some (n x)  for every type that travels, and the fact that the
   normal form of a value whose strings are valid UTF-8 is the value itself (up to the private
   fields, which are not serialized, and the order in which maps are listed). *)
From Coq Require Import ZArith List Bool String Ascii Lia.
From V Require Import Model.Wire Proofs.WireSort.
Import ListNotations.
Open Scope Z_scope.

(* decoding what an encoder wrote: unfold decoder [d] and encoder [e] and look the fields up, in one
   step (a goal that shows the field names is slow to check) *)
Ltac fields d e := lazy [d e j_itxbody j_wbody fld find fst snd String.eqb Ascii.eqb Bool.eqb].

Definition n_list {A} (n : A -> A) (l : option (list A)) : option (list A) :=
  match l with None => None | Some x => Some (map n x) end.
Definition n_ptr {A} (n : A -> A) (o : option A) : option A :=
  match o with None => None | Some a => Some (n a) end.
Definition n_smap {A} (n : A -> A) (m : option (list (gostr * A))) : option (list (gostr * A)) :=
  match m with
  | None => None
  | Some l => Some (map (fun kv => (unescape (fst kv), n (snd kv)))
                        (isort lex_ltb (map (fun kv => (escape (fst kv), snd kv)) l)))
  end.
Definition n_imap {A} (n : A -> A) (m : option (list (Z * A))) : option (list (Z * A)) :=
  match m with
  | None => None
  | Some l => Some (map (fun kv => (fst kv, n (snd kv))) (isort Z.ltb l))
  end.

Definition n_peer (p : peer) : peer :=
  {| p_addr := sanitize (p_addr p); p_pub := sanitize (p_pub p); p_moniker := sanitize (p_moniker p) |}.
Definition n_itx (t : itx) : itx :=
  {| it_type := it_type t; it_peer := n_peer (it_peer t); it_sig := sanitize (it_sig t) |}.
Definition n_receipt (r : receipt) : receipt := {| rc_itx := n_itx (rc_itx r); rc_accepted := rc_accepted r |}.
Definition n_bsig (b : bsig) : bsig :=
  {| bs_validator := bs_validator b; bs_index := bs_index b; bs_sig := sanitize (bs_sig b) |}.
Definition n_wbsig (b : wbsig) : wbsig := {| wbs_index := wbs_index b; wbs_sig := sanitize (wbs_sig b) |}.
Definition n_body (b : ebody) : ebody :=
  {| b_txs := b_txs b; b_itxs := n_list n_itx (b_itxs b); b_parents := n_list sanitize (b_parents b);
     b_creator := b_creator b; b_index := b_index b; b_bsigs := n_list n_bsig (b_bsigs b); b_ts := b_ts b;
     b_cid := 0; b_opcid := 0; b_spi := 0; b_opi := 0 |}.
Definition n_event (e : event) : event := mk_event (n_body (e_body e)) (sanitize (e_sig e)).
Definition n_coord (c : gostr * Z) : gostr * Z := (sanitize (fst c), snd c).
(* the database form keeps the wire fields, the topological index and the two coordinate maps *)
Definition n_db (e : event) : event :=
  {| e_body := with_wire (n_body (e_body e)) (b_cid (e_body e)) (b_opcid (e_body e)) (b_spi (e_body e)) (b_opi (e_body e));
     e_sig := sanitize (e_sig e); e_topo := e_topo e;
     e_round := None; e_lamport := None; e_rr := None;
     e_last := n_smap n_coord (e_last e); e_first := n_smap n_coord (e_first e); e_hexc := None |}.
Definition n_wevent (w : wevent) : wevent :=
  {| w_txs := w_txs w; w_itxs := n_list n_itx (w_itxs w); w_bsigs := n_list n_wbsig (w_bsigs w);
     w_cid := w_cid w; w_opcid := w_opcid w; w_index := w_index w; w_spi := w_spi w; w_opi := w_opi w;
     w_ts := w_ts w; w_sig := sanitize (w_sig w) |}.
Definition n_fevent (fe : fevent) : fevent :=
  {| fe_core := n_ptr n_event (fe_core fe); fe_round := fe_round fe; fe_lamport := fe_lamport fe;
     fe_witness := fe_witness fe |}.
Definition n_root (r : root) : root := {| r_events := n_list (n_ptr n_fevent) (r_events r) |}.
Definition n_rootptr (ug : bool) (o : option root) : option root :=
  match o with
  | None => if ug then Some zero_root else None
  | Some r => Some (n_root r)
  end.
Definition n_peers (l : option (list (option peer))) := n_list (n_ptr n_peer) l.
Definition n_frame (ug : bool) (f : frame) : frame :=
  {| f_round := f_round f; f_peers := n_peers (f_peers f); f_roots := n_smap (n_rootptr ug) (f_roots f);
     f_events := n_list (n_ptr n_fevent) (f_events f); f_psets := n_imap n_peers (f_psets f); f_ts := f_ts f |}.
Definition n_blockbody (b : blockbody) : blockbody :=
  {| bb_index := bb_index b; bb_rr := bb_rr b; bb_ts := bb_ts b; bb_state := bb_state b; bb_frame := bb_frame b;
     bb_peers := bb_peers b; bb_txs := bb_txs b; bb_itxs := n_list n_itx (bb_itxs b);
     bb_receipts := n_list n_receipt (bb_receipts b) |}.
Definition n_block (b : block) : block :=
  {| bl_body := n_blockbody (bl_body b); bl_sigs := n_smap sanitize (bl_sigs b) |}.

(* [rt d e n]: decoding what [e] writes gives the normal form [n] *)
Definition rt {A} (d : json -> option A) (e : A -> json) (n : A -> A) : Prop :=
  forall a, d (e a) = Some (n a).

Lemma rt_str : rt d_str (j_str escape) sanitize.
Proof. intros s. reflexivity. Qed.

Lemma rt_bytes : forall b, d_bytes (j_bytes b) = Some b.
Proof. intros [b|]; reflexivity. Qed.

Lemma traverse_map : forall {A} (d : json -> option A) e n (l : list A),
  rt d e n -> traverse d (map e l) = Some (map n l).
Proof.
  intros A d e n l H. induction l as [|a l IH]; cbn [map traverse]; [reflexivity|].
  rewrite H, IH. reflexivity.
Qed.

Lemma rt_list : forall {A} {d : json -> option A} {e n}, rt d e n -> rt (d_list d) (j_list e) (n_list n).
Proof.
  intros A d e n H [l|]; cbn [j_list d_list n_list]; [|reflexivity].
  rewrite (traverse_map d e n l H). reflexivity.
Qed.

Lemma rt_txs : forall l, d_list d_bytes (j_list j_bytes l) = Some l.
Proof.
  intros l. rewrite (rt_list rt_bytes). destruct l as [l|]; [|reflexivity].
  cbn [n_list]. rewrite map_id. reflexivity.
Qed.

(* a pointer to a struct: the struct is never written as null *)
Lemma rt_ptr : forall {A} {d : json -> option A} {e n},
  rt d e n -> (forall a, e a <> JNull) -> rt (d_ptr d) (j_ptr e) (n_ptr n).
Proof.
  intros A d e n H Hobj [a|]; cbn [j_ptr d_ptr n_ptr]; [|reflexivity].
  pose proof (H a) as Ha. pose proof (Hobj a) as Hn. unfold d_ptr.
  destruct (e a); [contradiction | rewrite Ha; reflexivity ..].
Qed.

Lemma traverse_kv_map : forall {K A} (d : json -> option A) e n (l : list (K * A)),
  rt d e n ->
  traverse_kv d (map (fun kv => (fst kv, e (snd kv))) l) = Some (map (fun kv => (fst kv, n (snd kv))) l).
Proof.
  intros K A d e n l H. induction l as [|[k a] l IH]; cbn [map traverse_kv fst snd]; [reflexivity|].
  rewrite H, IH. reflexivity.
Qed.

Lemma rt_smap : forall {A} {d : json -> option A} {e n}, rt d e n -> rt (d_smap d) (j_smap escape e) (n_smap n).
Proof.
  intros A d e n H [l|]; cbn [j_smap d_smap n_smap]; [|reflexivity].
  rewrite <- (map_map (fun kv => (escape (fst kv), snd kv)) (fun kv => (fst kv, e (snd kv)))).
  rewrite isort_map_val, (traverse_kv_map d e n _ H), map_map. reflexivity.
Qed.

Lemma rt_imap : forall {A} {d : json -> option A} {e n}, rt d e n -> rt (d_imap d) (j_imap e) (n_imap n).
Proof.
  intros A d e n H [l|]; cbn [j_imap d_imap n_imap]; [|reflexivity].
  rewrite isort_map_val, (traverse_kv_map d e n _ H). reflexivity.
Qed.

Lemma rt_peer : rt d_peer (j_peer escape) n_peer.
Proof. intros p. reflexivity. Qed.

Lemma rt_itx : rt d_itx (j_itx escape) n_itx.
Proof. intros t. fields d_itx j_itx. rewrite rt_peer. reflexivity. Qed.

Lemma rt_receipt : rt d_receipt (j_receipt escape) n_receipt.
Proof. intros r. fields d_receipt j_receipt. rewrite rt_itx. reflexivity. Qed.

Lemma rt_bsig : rt d_bsig (j_bsig escape) n_bsig.
Proof. intros b. fields d_bsig j_bsig. rewrite rt_bytes. reflexivity. Qed.

Lemma rt_wbsig : rt d_wbsig (j_wbsig escape) n_wbsig.
Proof. intros b. reflexivity. Qed.

Lemma rt_body : rt d_body (j_body escape) n_body.
Proof.
  intros b. fields d_body j_body.
  rewrite rt_txs, (rt_list rt_itx), (rt_list rt_str), rt_bytes, (rt_list rt_bsig). reflexivity.
Qed.

Lemma rt_event : rt d_event (j_event escape) n_event.
Proof. intros e. fields d_event j_event. rewrite rt_body. reflexivity. Qed.

Lemma rt_coord : rt d_coord (j_coord escape) n_coord.
Proof. intros c. reflexivity. Qed.

Lemma rt_wrapper : forall e, d_wrapper (j_wrapper escape e) = Some (n_db e).
Proof.
  intros e. fields d_wrapper j_wrapper. rewrite rt_body, !(rt_smap rt_coord). reflexivity.
Qed.

Lemma rt_wevent : rt d_wevent (j_wevent escape) n_wevent.
Proof.
  intros w. fields d_wevent j_wevent.
  rewrite rt_txs, (rt_list rt_itx), (rt_list rt_wbsig). reflexivity.
Qed.

Lemma rt_fevent : rt d_fevent (j_fevent escape) n_fevent.
Proof.
  intros fe. fields d_fevent j_fevent.
  rewrite (rt_ptr rt_event (fun e => ltac:(discriminate))). reflexivity.
Qed.

Lemma rt_fevents : rt (d_list (d_ptr d_fevent)) (j_list (j_ptr (j_fevent escape))) (n_list (n_ptr n_fevent)).
Proof. exact (rt_list (rt_ptr rt_fevent (fun fe => ltac:(discriminate)))). Qed.

Lemma rt_root : rt d_root (j_root escape) n_root.
Proof. intros r. fields d_root j_root. rewrite rt_fevents. reflexivity. Qed.

Lemma rt_rootptr : forall ug, rt (d_rootptr ug) (j_ptr (j_root escape)) (n_rootptr ug).
Proof.
  intros ug [r|]; [|destruct ug; reflexivity].
  destruct ug; exact (rt_ptr rt_root (fun r => ltac:(discriminate)) (Some r)).
Qed.

Lemma rt_peers : rt d_peers (j_peers escape) n_peers.
Proof. exact (rt_list (rt_ptr rt_peer (fun p => ltac:(discriminate)))). Qed.

Lemma rt_frame : forall ug, rt (d_frame ug) (j_frame escape) (n_frame ug).
Proof.
  intros ug f. fields d_frame j_frame.
  rewrite rt_peers, (rt_smap (rt_rootptr ug)), rt_fevents, (rt_imap rt_peers). reflexivity.
Qed.

Lemma rt_blockbody : rt d_blockbody (j_blockbody escape) n_blockbody.
Proof.
  intros b. fields d_blockbody j_blockbody.
  rewrite !rt_bytes, rt_txs, (rt_list rt_itx), (rt_list rt_receipt). reflexivity.
Qed.

Lemma rt_block : rt d_block (j_block escape) n_block.
Proof.
  intros b. fields d_block j_block. rewrite rt_blockbody, (rt_smap rt_str). reflexivity.
Qed.

Lemma forallb_in : forall {A} (f : A -> bool) (l : list A) a, forallb f l = true -> In a l -> f a = true.
Proof. intros A f l a H. apply forallb_forall. exact H. Qed.

Lemma map_ext_forallb : forall {A B} (f : A -> bool) (h k : A -> B) (l : list A),
  (forall a, f a = true -> h a = k a) -> forallb f l = true -> map h l = map k l.
Proof. intros A B f h k l H Hl. apply map_ext_in. intros a Ha. apply H, (forallb_in f l a Hl Ha). Qed.

Lemma map_fix_forallb : forall {A} (f : A -> bool) (n : A -> A) (l : list A),
  (forall a, f a = true -> n a = a) -> forallb f l = true -> map n l = l.
Proof. intros A f n l H Hl. rewrite <- (map_id l) at 2. exact (map_ext_forallb f n _ l H Hl). Qed.

(* both writers and the reader leave a valid code point alone *)
Lemma cp_valid : forall x c, 0 <=? c = true -> (if c <? 0 then x else c) = c.
Proof. intros x c H. destruct (Z.ltb_spec c 0); [lia | reflexivity]. Qed.

Lemma escape_valid : forall s, valid_str s = true -> escape s = s.
Proof. intros s. exact (map_fix_forallb _ escape_cp s (cp_valid ESC)). Qed.

Lemma unescape_valid : forall s, valid_str s = true -> unescape s = s.
Proof. intros s. exact (map_fix_forallb _ unescape_cp s (cp_valid UFFFD)). Qed.

Lemma sanitize_valid : forall s, valid_str s = true -> sanitize s = s.
Proof.
  intros s H. unfold sanitize. rewrite escape_valid by exact H. apply unescape_valid. exact H.
Qed.

Definition opt_all {A} (f : A -> bool) (o : option A) : bool := match o with None => true | Some a => f a end.
Definition list_all {A} (f : A -> bool) (l : option (list A)) : bool := opt_all (forallb f) l.

Definition peer_valid (p : peer) : bool := valid_str (p_addr p) && valid_str (p_pub p) && valid_str (p_moniker p).
Definition itx_valid (t : itx) : bool := peer_valid (it_peer t) && valid_str (it_sig t).
Definition receipt_valid (r : receipt) : bool := itx_valid (rc_itx r).
Definition bsig_valid (b : bsig) : bool := valid_str (bs_sig b).
Definition body_valid (b : ebody) : bool :=
  list_all itx_valid (b_itxs b) && list_all valid_str (b_parents b) && list_all bsig_valid (b_bsigs b).
Definition event_valid (e : event) : bool := body_valid (e_body e) && valid_str (e_sig e).
Definition coords_valid (m : coordmap) : bool :=
  list_all (fun kv => valid_str (fst kv) && valid_str (fst (snd kv))) m.
Definition fevent_valid (fe : fevent) : bool := opt_all event_valid (fe_core fe).
Definition root_valid (r : root) : bool := list_all (opt_all fevent_valid) (r_events r).
Definition peers_valid (l : option (list (option peer))) : bool := list_all (opt_all peer_valid) l.
Definition frame_valid (f : frame) : bool :=
  peers_valid (f_peers f) && list_all (fun kv => valid_str (fst kv) && opt_all root_valid (snd kv)) (f_roots f) &&
  list_all (opt_all fevent_valid) (f_events f) && list_all (fun kv => peers_valid (snd kv)) (f_psets f).
Definition block_valid (b : block) : bool :=
  list_all itx_valid (bb_itxs (bl_body b)) && list_all receipt_valid (bb_receipts (bl_body b)) &&
  list_all (fun kv => valid_str (fst kv) && valid_str (snd kv)) (bl_sigs b).

Lemma n_list_valid : forall {A} {f : A -> bool} {n : A -> A},
  (forall a, f a = true -> n a = a) -> forall l, list_all f l = true -> n_list n l = l.
Proof.
  intros A f n H [l|] Hl; [|reflexivity]. cbn [n_list]. rewrite (map_fix_forallb f n l H Hl). reflexivity.
Qed.

Lemma n_ptr_valid : forall {A} (f : A -> bool) (n : A -> A) (o : option A),
  (forall a, f a = true -> n a = a) -> opt_all f o = true -> n_ptr n o = o.
Proof. intros A f n [a|] H Ho; [|reflexivity]. cbn [n_ptr]. cbn [opt_all] in Ho. rewrite H by exact Ho. reflexivity. Qed.

Ltac split_and :=
  repeat match goal with
         | H : _ && _ = true |- _ => apply andb_true_iff in H; destruct H
         end.

Lemma j_body_with_wire : forall sf b c o s p, j_body sf (with_wire b c o s p) = j_body sf b.
Proof. reflexivity. Qed.

Lemma n_peer_valid : forall p, peer_valid p = true -> n_peer p = p.
Proof.
  intros p H. unfold peer_valid in H. split_and.
  unfold n_peer. rewrite !sanitize_valid by assumption. destruct p; reflexivity.
Qed.

Lemma n_itx_valid : forall t, itx_valid t = true -> n_itx t = t.
Proof.
  intros t H. unfold itx_valid in H. split_and.
  unfold n_itx. rewrite n_peer_valid, sanitize_valid by assumption. destruct t; reflexivity.
Qed.

Lemma n_receipt_valid : forall r, receipt_valid r = true -> n_receipt r = r.
Proof. intros r H. unfold n_receipt. rewrite n_itx_valid by exact H. destruct r; reflexivity. Qed.

Lemma n_bsig_valid : forall b, bsig_valid b = true -> n_bsig b = b.
Proof. intros b H. unfold n_bsig. rewrite sanitize_valid by exact H. destruct b; reflexivity. Qed.

Lemma n_body_valid : forall b, body_valid b = true -> n_body b = with_wire b 0 0 0 0.
Proof.
  intros b H. unfold body_valid in H. split_and. unfold n_body, with_wire.
  rewrite (n_list_valid n_itx_valid), (n_list_valid sanitize_valid), (n_list_valid n_bsig_valid)
    by assumption.
  reflexivity.
Qed.

(* an event as it arrives through JSON: public part only *)
Definition event_clear (e : event) : event := mk_event (with_wire (e_body e) 0 0 0 0) (e_sig e).

Lemma n_event_valid : forall e, event_valid e = true -> n_event e = event_clear e.
Proof.
  intros e H. unfold event_valid in H. split_and. unfold n_event, event_clear.
  rewrite n_body_valid, sanitize_valid by assumption. reflexivity.
Qed.

Lemma n_wevent_to_wire : forall e, event_valid e = true -> n_wevent (to_wire e) = to_wire e.
Proof.
  intros e H. unfold event_valid, body_valid in H. split_and.
  unfold n_wevent, to_wire. cbv zeta. cbn [w_txs w_itxs w_bsigs w_cid w_opcid w_index w_spi w_opi w_ts w_sig].
  rewrite (n_list_valid n_itx_valid), sanitize_valid by assumption. do 2 f_equal.
  destruct (b_bsigs (e_body e)) as [l|]; [|reflexivity]. cbn [wire_bsigs n_list]. f_equal.
  rewrite map_map. apply (map_ext_forallb bsig_valid); [|assumption].
  intros b Hb. unfold n_wbsig. cbn [wbs_index wbs_sig]. rewrite sanitize_valid by exact Hb. reflexivity.
Qed.

Lemma n_blockbody_valid : forall b,
  list_all itx_valid (bb_itxs b) = true -> list_all receipt_valid (bb_receipts b) = true ->
  n_blockbody b = b.
Proof.
  intros b H1 H2. unfold n_blockbody.
  rewrite (n_list_valid n_itx_valid), (n_list_valid n_receipt_valid) by assumption.
  destruct b; reflexivity.
Qed.

(* maps with valid keys: both writers list them by the keys as they are *)

Definition sf_ok (sf : gostr -> gostr) : Prop := forall s, valid_str s = true -> sf s = s.
Lemma sf_ok_escape : sf_ok escape.
Proof. exact escape_valid. Qed.
Lemma sf_ok_raw : sf_ok raw.
Proof. intros s _. reflexivity. Qed.

Definition keys_valid {A} (l : list (gostr * A)) : Prop := forall kv, In kv l -> valid_str (fst kv) = true.

Lemma keys_valid_isort : forall {A} (l : list (gostr * A)), keys_valid l -> keys_valid (isort lex_ltb l).
Proof. intros A l H kv Hin. apply H. apply in_isort in Hin. exact Hin. Qed.

Lemma isort_valid_keys : forall {A B} sf (g : A -> B) (l : list (gostr * A)), sf_ok sf -> keys_valid l ->
  isort lex_ltb (map (fun kv => (sf (fst kv), g (snd kv))) l) = map (fun kv => (fst kv, g (snd kv))) (isort lex_ltb l).
Proof. intros A B sf g l Hsf Hk. apply isort_map_key. intros kv Hin. apply Hsf, Hk, Hin. Qed.

Lemma n_smap_valid_keys : forall {A} (n : A -> A) (l : list (gostr * A)), keys_valid l ->
  n_smap n (Some l) = Some (map (fun kv => (fst kv, n (snd kv))) (isort lex_ltb l)).
Proof.
  intros A n l Hk. cbn [n_smap]. f_equal.
  rewrite (isort_valid_keys escape (fun a => a) l sf_ok_escape Hk), map_map. cbn [fst snd].
  apply map_ext_in. intros kv Hin. apply in_isort in Hin. rewrite unescape_valid by exact (Hk kv Hin). reflexivity.
Qed.

(* values that [n] leaves alone as well: the map comes back listed by key *)
Lemma n_smap_valid : forall {A} (f : A -> bool) (n : A -> A) (m : option (list (gostr * A))),
  (forall a, f a = true -> n a = a) -> list_all (fun kv => valid_str (fst kv) && f (snd kv)) m = true ->
  n_smap n m = match m with None => None | Some l => Some (isort lex_ltb l) end.
Proof.
  intros A f n [l|] Hn H; [|reflexivity]. cbn [list_all opt_all] in H.
  assert (forall kv, In kv l -> valid_str (fst kv) = true /\ f (snd kv) = true) as Hl
    by (intros kv Hin; apply andb_true_iff, (forallb_in _ _ _ H Hin)).
  rewrite n_smap_valid_keys by (intros kv Hin; apply Hl, Hin). f_equal.
  rewrite <- (map_id (isort lex_ltb l)) at 2. apply map_ext_in. intros [k v] Hin. cbn [fst snd].
  rewrite Hn; [reflexivity|]. apply in_isort in Hin. apply (Hl _ Hin).
Qed.

Lemma j_smap_isort : forall {A} sf (g : A -> json) (l : list (gostr * A)), sf_ok sf -> keys_valid l ->
  j_smap sf g (Some (isort lex_ltb l)) = j_smap sf g (Some l).
Proof.
  intros A sf g l Hsf Hk. cbn [j_smap].
  rewrite !isort_valid_keys, isort_lex_idem by (try apply keys_valid_isort; assumption). reflexivity.
Qed.

Lemma j_imap_isort : forall {A} (g : A -> json) (l : list (Z * A)), j_imap g (Some (isort Z.ltb l)) = j_imap g (Some l).
Proof. intros A g l. cbn [j_imap]. rewrite !isort_map_val, isort_z_idem. reflexivity. Qed.

(* valid strings: the normal form has the same encoding (for the real writer [escape] and for the
   look at the original strings [raw]).  [same_json ok g n]: [n] does not change what [g] writes
   of a value that satisfies [ok]. *)

Definition same_json {A} (ok : A -> bool) (g : A -> json) (n : A -> A) : Prop :=
  forall a, ok a = true -> g (n a) = g a.

Lemma jn_fix : forall {A} (ok : A -> bool) (g : A -> json) (n : A -> A),
  (forall a, ok a = true -> n a = a) -> same_json ok g n.
Proof. intros A ok g n H a Ha. rewrite (H a Ha). reflexivity. Qed.

Lemma jn_list : forall {A} {ok : A -> bool} {g n}, same_json ok g n -> same_json (list_all ok) (j_list g) (n_list n).
Proof.
  intros A ok g n H [l|] Hl; [|reflexivity]. cbn [n_list j_list]. rewrite map_map. f_equal.
  exact (map_ext_forallb ok _ _ l H Hl).
Qed.

Lemma jn_ptr : forall {A} {ok : A -> bool} {g n}, same_json ok g n -> same_json (opt_all ok) (j_ptr g) (n_ptr n).
Proof. intros A ok g n H [a|] Ho; [|reflexivity]. exact (H a Ho). Qed.

(* for the two kinds of maps the values are taken one by one: the frame's roots need it *)
Lemma jn_smap : forall {A} sf (g : A -> json) (n : A -> A) (l : list (gostr * A)),
  sf_ok sf -> (forall kv, In kv l -> valid_str (fst kv) = true /\ g (n (snd kv)) = g (snd kv)) ->
  j_smap sf g (n_smap n (Some l)) = j_smap sf g (Some l).
Proof.
  intros A sf g n l Hsf H. assert (keys_valid l) as Hk by (intros kv Hin; apply H, Hin).
  rewrite (n_smap_valid_keys n l Hk), <- (j_smap_isort sf g l Hsf Hk). cbn [j_smap]. rewrite map_map.
  do 2 f_equal. apply map_ext_in. intros kv Hin. cbn [fst snd]. apply in_isort in Hin.
  f_equal. exact (proj2 (H kv Hin)).
Qed.

Lemma jn_imap : forall {A} (g : A -> json) (n : A -> A) (l : list (Z * A)),
  (forall kv, In kv l -> g (n (snd kv)) = g (snd kv)) ->
  j_imap g (n_imap n (Some l)) = j_imap g (Some l).
Proof.
  intros A g n l H. rewrite <- (j_imap_isort g l). cbn [n_imap j_imap]. rewrite map_map.
  do 2 f_equal. apply map_ext_in. intros kv Hin. cbn [fst snd]. apply in_isort in Hin.
  f_equal. exact (H kv Hin).
Qed.

Lemma jn_event : forall sf, same_json event_valid (j_event sf) n_event.
Proof. intros sf e H. rewrite n_event_valid by exact H. reflexivity. Qed.

Lemma jn_fevent : forall sf, same_json fevent_valid (j_fevent sf) n_fevent.
Proof.
  intros sf fe H. unfold n_fevent, j_fevent. cbn [fe_core fe_round fe_lamport fe_witness].
  rewrite (jn_ptr (jn_event sf) _ H). reflexivity.
Qed.

Lemma jn_fevents : forall sf,
  same_json (list_all (opt_all fevent_valid)) (j_list (j_ptr (j_fevent sf))) (n_list (n_ptr n_fevent)).
Proof. intros sf. exact (jn_list (jn_ptr (jn_fevent sf))). Qed.

Lemma jn_root : forall sf, same_json root_valid (j_root sf) n_root.
Proof. intros sf r H. unfold n_root, j_root. cbn [r_events]. rewrite (jn_fevents sf _ H). reflexivity. Qed.

Lemma jn_peers : forall sf, same_json peers_valid (j_peers sf) n_peers.
Proof. intros sf. exact (jn_list (jn_ptr (jn_fix _ _ _ n_peer_valid))). Qed.

Lemma jn_psets : forall sf m, list_all (fun kv => peers_valid (snd kv)) m = true ->
  j_imap (j_peers sf) (n_imap n_peers m) = j_imap (j_peers sf) m.
Proof.
  intros sf [l|] H; [|reflexivity]. apply jn_imap. intros kv Hin. apply jn_peers, (forallb_in _ _ _ H Hin).
Qed.

(* ugorji allocates nil map values: the frame must not have a nil Root *)
Definition no_nil_root (f : frame) : bool :=
  list_all (fun kv : gostr * option root => match snd kv with Some _ => true | None => false end) (f_roots f).

Lemma jn_roots : forall sf ug m,
  sf_ok sf -> list_all (fun kv => valid_str (fst kv) && opt_all root_valid (snd kv)) m = true ->
  (ug = true -> list_all (fun kv : gostr * option root => match snd kv with Some _ => true | None => false end) m = true) ->
  j_smap sf (j_ptr (j_root sf)) (n_smap (n_rootptr ug) m) = j_smap sf (j_ptr (j_root sf)) m.
Proof.
  intros sf ug [l|] Hsf H Hug; [|reflexivity]. apply jn_smap; [exact Hsf|]. intros [k v] Hin.
  pose proof (forallb_in _ _ _ H Hin) as Hkv. cbn [fst snd] in *.
  apply andb_true_iff in Hkv. destruct Hkv as [Hk Hv]. split; [exact Hk|].
  destruct v as [r|]; cbn [n_rootptr j_ptr].
  - apply jn_root. exact Hv.
  - destruct ug; [|reflexivity]. pose proof (forallb_in _ _ _ (Hug eq_refl) Hin). discriminate.
Qed.

Lemma j_frame_ext : forall sf f g,
  f_round f = f_round g -> j_peers sf (f_peers f) = j_peers sf (f_peers g) ->
  j_smap sf (j_ptr (j_root sf)) (f_roots f) = j_smap sf (j_ptr (j_root sf)) (f_roots g) ->
  j_list (j_ptr (j_fevent sf)) (f_events f) = j_list (j_ptr (j_fevent sf)) (f_events g) ->
  j_imap (j_peers sf) (f_psets f) = j_imap (j_peers sf) (f_psets g) -> f_ts f = f_ts g ->
  j_frame sf f = j_frame sf g.
Proof. intros sf f g H1 H2 H3 H4 H5 H6. unfold j_frame. rewrite H1, H2, H3, H4, H5, H6. reflexivity. Qed.

Lemma jn_frame : forall sf ug f,
  sf_ok sf -> frame_valid f = true -> (ug = true -> no_nil_root f = true) ->
  j_frame sf (n_frame ug f) = j_frame sf f.
Proof.
  intros sf ug f Hsf H Hug. unfold frame_valid in H. split_and. apply j_frame_ext; try reflexivity.
  - apply jn_peers. assumption.
  - apply jn_roots; assumption.
  - apply jn_fevents. assumption.
  - apply jn_psets. assumption.
Qed.
