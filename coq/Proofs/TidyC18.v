(* C18 end to end: the timestamp of every delivered block is the median (Model/Median.v) of the
   timestamps of the famous witnesses of its round-received -- as the round table and the event
   store of the CURRENT state report them, i.e. the famous-witness set of a processed round and
   the bodies of its members never change afterwards -- hence (Proofs/MedianProofs.v) it lies
   within the range of the honest witnesses' timestamps when fewer than half of them are
   Byzantine (for an even number of famous witnesses: provided the honest timestamps are in the
   no-wrap range -2^62 .. 2^62-1).  Invariant over [hrun]; uses the DAG / order invariant
   (Proofs/OrderProofs.v, for "a stored event keeps its body") and the queue invariant
   (Proofs/RoundOrder.v, for "a round at or below the last consensus round is no longer in the
   fame queue"). *)
From Coq Require Import ZArith List Bool Lia ZifyBool Sorted Permutation.
From RecordUpdate Require Import RecordSet.
From V Require Import Model.ZMap Model.Quorum Model.Median Model.MedianAux Model.HgImpl Proofs.ZMapFacts
  Proofs.HgFrames Proofs.HgDagFrames Proofs.HgBlockFrames Proofs.AdmissionProofs Proofs.BlockInv Proofs.Static
  Proofs.RoundOrder Proofs.OrderFrames Proofs.OrderProofs Proofs.MedianProofs.
From V Require Import Proofs.FameInv.
Import ListNotations RecordSetNotations.
Open Scope Z_scope.

(* Body.Timestamp of a stored event (0 when absent, as get_frame reads it) *)
Definition ets (st : hg) (w : Z) : Z :=
  match get_event st w with Some e => e_ts (ev_e e) | None => 0 end.
(* the famous witnesses of round r, as the round table reports them *)
Definition fws (st : hg) (r : Z) : list Z :=
  match get_round st r with Some ri => famous_witnesses ri | None => [] end.
Definition fw_ts (st : hg) (r : Z) : list Z := map (ets st) (fws st r).
(* the events listed in round r (CreatedEvents) *)
Definition ckeys (st : hg) (r : Z) : list Z :=
  match get_round st r with Some ri => map fst (ri_created ri) | None => [] end.
Definition stored (st : hg) (x : Z) : Prop := get_event st x <> None.
(* every event listed in a round is a stored event *)
Definition cs (st : hg) : Prop := forall r x, In x (ckeys st r) -> stored st x.

Lemma fws_ckeys st r x : In x (fws st r) -> In x (ckeys st r).
Proof.
  unfold fws, ckeys. destruct (get_round st r) as [ri|]; [|intros []].
  unfold famous_witnesses. intros H. apply in_map_iff in H. destruct H as [p [<- Hp]].
  apply filter_In in Hp. apply in_map. apply Hp.
Qed.

Lemma fws_rounds st st' : rounds st' = rounds st -> forall q, fws st' q = fws st q.
Proof. intros E q. unfold fws, get_round. rewrite E. reflexivity. Qed.
Lemma ckeys_rounds st st' : rounds st' = rounds st -> forall q, ckeys st' q = ckeys st q.
Proof. intros E q. unfold ckeys, get_round. rewrite E. reflexivity. Qed.

Lemma fws_zset st st' i ri q : rounds st' = zset i ri (rounds st) ->
  fws st' q = if (i =? q) && (0 <=? i) then famous_witnesses ri else fws st q.
Proof. intros E. unfold fws, get_round. rewrite E, zget_zset. destruct (_ && _); reflexivity. Qed.
Lemma ckeys_zset st st' i ri q : rounds st' = zset i ri (rounds st) ->
  ckeys st' q = if (i =? q) && (0 <=? i) then map fst (ri_created ri) else ckeys st q.
Proof. intros E. unfold ckeys, get_round. rewrite E, zget_zset. destruct (_ && _); reflexivity. Qed.

Lemma ets_frame st st' : dag_frame st st' -> forall w, ets st' w = ets st w.
Proof.
  intros [F _] w. pose proof (static_body _ _ F w) as B. unfold ets, get_event.
  destruct (zget w (events st')), (zget w (events st)); cbn in B; congruence.
Qed.

(* what a step may do to the round table: the famous witnesses of the rounds in Q stay, a new
   key is a stored event, stored events stay stored *)
Record fwkeep (Q : Z -> Prop) (st st' : hg) : Prop := {
  fk_fws : forall r, Q r -> fws st' r = fws st r;
  fk_keys : forall r x, In x (ckeys st' r) -> In x (ckeys st r) \/ stored st' x;
  fk_st : forall x, stored st x -> stored st' x
}.

Lemma fwkeep_refl Q st : fwkeep Q st st.
Proof. constructor; auto. Qed.
Lemma fwkeep_trans Q a b c : fwkeep Q a b -> fwkeep Q b c -> fwkeep Q a c.
Proof.
  intros [A1 A2 A3] [B1 B2 B3]. constructor.
  - intros r Hr. rewrite (B1 r Hr). apply A1; exact Hr.
  - intros r x Hx. destruct (B2 r x Hx) as [H|H]; [|right; exact H].
    destruct (A2 r x H) as [H'|H']; [left; exact H'|right; apply B3; exact H'].
  - auto.
Qed.
Lemma fwkeep_weaken (Q Q' : Z -> Prop) st st' : (forall r, Q' r -> Q r) -> fwkeep Q st st' -> fwkeep Q' st st'.
Proof. intros H [A1 A2 A3]. constructor; auto. Qed.
Lemma fwkeep_same Q st st' :
  rounds st' = rounds st -> (forall x, stored st x -> stored st' x) -> fwkeep Q st st'.
Proof.
  intros E S. constructor; [intros r _; apply fws_rounds; exact E| |exact S].
  intros r x. rewrite (ckeys_rounds _ _ E). auto.
Qed.
Lemma fwkeep_cs Q st st' : fwkeep Q st st' -> cs st -> cs st'.
Proof.
  intros [_ K S] C r x Hx. destruct (K r x Hx) as [H|H]; [apply S, (C r x H)|exact H].
Qed.

Lemma fwkeep_frame_same Q st st' : rounds st' = rounds st -> dag_frame st st' -> fwkeep Q st st'.
Proof. intros E F. apply fwkeep_same; [exact E|]. intros x. apply (stored_frame _ _ x F). Qed.

(* one entry of the round table is rewritten: its famous witnesses stay (if the round is in Q), its new
   keys are stored events *)
Lemma fwkeep_zset (Q : Z -> Prop) st st' i ri :
  rounds st' = zset i ri (rounds st) -> (forall x, stored st x -> stored st' x) ->
  (Q i -> famous_witnesses ri = fws st i) ->
  (forall y, In y (map fst (ri_created ri)) -> In y (ckeys st i) \/ stored st' y) ->
  fwkeep Q st st'.
Proof.
  intros E S Hf Hk. constructor; [| |exact S].
  - intros q Hq. rewrite (fws_zset _ _ _ _ q E). destruct ((i =? q) && (0 <=? i)) eqn:C; [|reflexivity].
    assert (q = i) by lia. subst q. apply Hf, Hq.
  - intros q y. rewrite (ckeys_zset _ _ _ _ q E). destruct ((i =? q) && (0 <=? i)) eqn:C; [|auto].
    assert (q = i) by lia. subst q. apply Hk.
Qed.

Lemma rounds_fail st : rounds (fail st) = rounds st.
Proof. reflexivity. Qed.

Lemma add_created_fws ri x w : famous_witnesses (add_created ri x w) = famous_witnesses ri.
Proof.
  unfold add_created. destruct (aget x (ri_created ri)); [reflexivity|].
  unfold famous_witnesses. replace (ri_created (ri <| ri_created := ri_created ri ++ [(x, (w, Undefined))] |>))
    with (ri_created ri ++ [(x, (w, Undefined))]) by reflexivity.
  rewrite filter_app, map_app. cbn [filter snd]. destruct w; cbn [map]; apply app_nil_r.
Qed.
Lemma add_created_keys ri x w y :
  In y (map fst (ri_created (add_created ri x w))) -> In y (map fst (ri_created ri)) \/ y = x.
Proof.
  unfold add_created. destruct (aget x (ri_created ri)); [auto|].
  replace (ri_created (ri <| ri_created := ri_created ri ++ [(x, (w, Undefined))] |>))
    with (ri_created ri ++ [(x, (w, Undefined))]) by reflexivity.
  rewrite map_app, in_app_iff. cbn. intuition.
Qed.

Lemma divide_round_fwkeep st x : stored st x -> fwkeep (fun _ => True) st (divide_round st x).
Proof.
  intros Sx. pose proof (divide_round_frame st x) as DF.
  assert (S : forall y, stored st y -> stored (divide_round st x) y) by (intros y; apply (stored_frame _ _ y DF)).
  revert DF S. unfold divide_round.
  pose proof (nomemo_eq_rounds _ _ (round_f_nomemo (fuel_of st) st x)) as Fr.
  destruct (round_f (fuel_of st) st x) as [[r|] s]; cbn [snd] in Fr; intros DF S.
  2:{ apply fwkeep_same; [rewrite rounds_fail; exact Fr|exact S]. }
  cbv zeta in *.
  set (s1 := set_event_round s x r) in *. set (ri := round_or_new s1 r) in *. set (s2 := maybe_queue s1 r ri) in *.
  assert (F1 : rounds s1 = rounds s).
  { subst s1; unfold set_event_round; destruct (get_event s x); [apply rounds_set_evst|reflexivity]. }
  assert (F2 : rounds s2 = rounds s1) by apply rounds_maybe_queue.
  pose proof (nomemo_eq_rounds _ _ (witness_f_nomemo (fuel_of s2) s2 x)) as Fw.
  destruct (witness_f (fuel_of s2) s2 x) as [[w|] s']; cbn [snd] in Fw.
  2:{ apply fwkeep_same; [rewrite rounds_fail; congruence|exact S]. }
  assert (E' : rounds s' = rounds st) by congruence.
  assert (Eri : famous_witnesses ri = fws st r /\ map fst (ri_created ri) = ckeys st r).
  { subst ri. unfold round_or_new, fws, ckeys, get_round. rewrite F1, Fr.
    destruct (zget r (rounds st)); split; reflexivity. }
  destruct Eri as [Ef Ek].
  apply (fwkeep_zset _ st _ r (add_created ri x w)); [rewrite <- E'; reflexivity|exact S| |].
  - intros _. rewrite add_created_fws. exact Ef.
  - intros y Hy. apply add_created_keys in Hy. destruct Hy as [Hy| ->]; [left; rewrite <- Ek; exact Hy|right; apply S, Sx].
Qed.

Lemma divide_one_fwkeep st x : fwkeep (fun _ => True) st (divide_one st x).
Proof.
  unfold divide_one.
  destruct (failed st); [apply fwkeep_refl|].
  destruct (get_event st x) as [ev|] eqn:Ex; [|apply fwkeep_frame_same; [apply rounds_fail|apply fail_frame]].
  cbv zeta.
  set (st1 := match ev_round ev with Some _ => st | None => divide_round st x end).
  assert (K1 : fwkeep (fun _ => True) st st1).
  { subst st1; destruct (ev_round ev); [apply fwkeep_refl|apply divide_round_fwkeep]. unfold stored. congruence. }
  destruct (failed st1); [exact K1|].
  destruct (get_event st1 x) as [ev1|];
    [|eapply fwkeep_trans; [exact K1|apply fwkeep_frame_same; [apply rounds_fail|apply fail_frame]]].
  destruct (ev_lt ev1); [exact K1|].
  eapply fwkeep_trans; [exact K1|apply fwkeep_frame_same; [apply rounds_divide_lt|apply divide_lt_frame]].
Qed.

Lemma divide_rounds_fwkeep st : fwkeep (fun _ => True) st (divide_rounds st).
Proof.
  apply (fold_left_preorder (fwkeep (fun _ => True))); [apply fwkeep_refl|apply fwkeep_trans|apply divide_one_fwkeep].
Qed.

Lemma aset_keys {A} k (v : A) l y : In y (map fst (aset k v l)) -> In y (map fst l) \/ y = k.
Proof.
  induction l as [|[k' v'] r IH]; cbn [aset map fst In]; [intuition|].
  destruct (Z.eqb k' k) eqn:E; cbn [map fst In].
  - intros [H|H]; [right; auto|left; right; exact H].
  - intros [H|H]; [left; left; exact H|]. destruct (IH H) as [H'|H']; [left; right; exact H'|right; exact H'].
Qed.

Lemma set_fame_keys ri x f y :
  In y (map fst (ri_created (set_fame ri x f))) -> In y (map fst (ri_created ri)) \/ y = x.
Proof.
  unfold set_fame. destruct (aget x (ri_created ri)) as [[w t]|].
  - replace (ri_created (ri <| ri_created := aset x (w, if f then TTrue else TFalse) (ri_created ri) |>))
      with (aset x (w, if f then TTrue else TFalse) (ri_created ri)) by reflexivity.
    apply aset_keys.
  - replace (ri_created (ri <| ri_created := ri_created ri ++ [(x, (true, if f then TTrue else TFalse))] |>))
      with (ri_created ri ++ [(x, (true, if f then TTrue else TFalse))]) by reflexivity.
    rewrite map_app, in_app_iff. cbn. intuition.
Qed.

Lemma witnesses_keys ri x : In x (witnesses ri) -> In x (map fst (ri_created ri)).
Proof.
  unfold witnesses. intros H. apply in_map_iff in H. destruct H as [p [<- Hp]].
  apply filter_In in Hp. apply in_map. apply Hp.
Qed.

Lemma fame_fold_keys s r ws : forall ri0 ri',
  fold_left (fun (a : option rinfo) x =>
     match a with
     | None => None
     | Some ri' => if is_decided ri' x then Some ri'
                   else match fame_of s x r with
                        | None => None
                        | Some None => Some ri'
                        | Some (Some v) => Some (set_fame ri' x v)
                        end
     end) ws (Some ri0) = Some ri' ->
  forall y, In y (map fst (ri_created ri')) -> In y (map fst (ri_created ri0)) \/ In y ws.
Proof.
  induction ws as [|x ws IH]; intros ri0 ri' H y Hy; cbn [fold_left] in H.
  - inversion H; subst. left; exact Hy.
  - destruct (is_decided ri0 x).
    + destruct (IH _ _ H y Hy) as [H'|H']; [left; exact H'|right; right; exact H'].
    + destruct (fame_of s x r) as [[v|]|].
      * destruct (IH _ _ H y Hy) as [H'|H']; [|right; right; exact H'].
        apply set_fame_keys in H'. destruct H' as [H'| ->]; [left; exact H'|right; left; reflexivity].
      * destruct (IH _ _ H y Hy) as [H'|H']; [left; exact H'|right; right; exact H'].
      * exfalso. clear -H. induction ws as [|z ws IHw]; cbn [fold_left] in H; [discriminate|auto].
Qed.

Lemma decide_fame_round_fwkeep s dec pr :
  fwkeep (fun q => q <> fst pr) s (fst (decide_fame_round (s, dec) pr)).
Proof.
  pose proof (decide_fame_round_frame s dec pr) as DF. revert DF. unfold decide_fame_round.
  destruct (failed s); [intros; apply fwkeep_refl|].
  destruct (get_round s (fst pr)) as [ri|] eqn:Hri; [|intros DF; apply fwkeep_frame_same; [apply rounds_fail|exact DF]].
  destruct (get_peerset s (fst pr)) as [rps|]; [|intros DF; apply fwkeep_frame_same; [apply rounds_fail|exact DF]].
  match goal with |- context [fold_left ?f ?l ?a] => destruct (fold_left f l a) as [ri'|] eqn:Ef end;
    [|intros DF; apply fwkeep_frame_same; [apply rounds_fail|exact DF]].
  pose proof (created_witnesses_decided ri' rps) as Wc.
  destruct (witnesses_decided ri' rps) as [d ri'']. cbn [fst snd] in *. intros DF.
  apply (fwkeep_zset _ s _ (fst pr) ri''); [reflexivity|intros x; apply (stored_frame _ _ x DF)| |].
  - intros C. contradiction C. reflexivity.
  - intros y Hy. left. rewrite Wc in Hy. unfold ckeys. rewrite Hri.
    destruct (fame_fold_keys s (fst pr) (witnesses ri) ri ri' Ef y Hy) as [H|H]; [exact H|apply witnesses_keys; exact H].
Qed.

Lemma decide_fame_fold_fwkeep l : forall s dec,
  fwkeep (fun q => ~ In q (map fst l)) s (fst (fold_left decide_fame_round l (s, dec))).
Proof.
  induction l as [|pr l IH]; intros s dec; cbn [fold_left]; [apply fwkeep_refl|].
  pose proof (decide_fame_round_fwkeep s dec pr) as K1.
  destruct (decide_fame_round (s, dec) pr) as [s1 dec1]. cbn [fst] in K1.
  eapply fwkeep_trans.
  - eapply fwkeep_weaken; [|exact K1]. intros q Hq E. apply Hq. left. symmetry; exact E.
  - eapply fwkeep_weaken; [|apply IH]. intros q Hq E. apply Hq. right. exact E.
Qed.

Lemma decide_fame_fwkeep st : fwkeep (fun q => ~ In q (prounds st)) st (decide_fame st).
Proof.
  unfold decide_fame, prounds.
  pose proof (decide_fame_fold_fwkeep (pending st) st []) as K.
  destruct (fold_left decide_fame_round (pending st) (st, [])) as [s decided]. cbn [fst] in K.
  destruct (failed s); [exact K|].
  eapply fwkeep_trans; [exact K|]. apply fwkeep_frame_same; [reflexivity|apply dag_frame_set_pending].
Qed.

Lemma crt_fws_ckeys st st' r : crt st' r = crt st r -> fws st' r = fws st r /\ ckeys st' r = ckeys st r.
Proof.
  unfold crt, fws, ckeys, famous_witnesses.
  destruct (get_round st' r), (get_round st r); cbn [option_map]; intros E; try discriminate E;
    try injection E as ->; split; reflexivity.
Qed.

Lemma decide_round_received_fwkeep st : fwkeep (fun _ => True) st (decide_round_received st).
Proof.
  constructor.
  - intros r _. apply (crt_fws_ckeys _ _ r (decide_round_received_crt st r)).
  - intros r x. rewrite (proj2 (crt_fws_ckeys _ _ r (decide_round_received_crt st r))). auto.
  - intros x. apply (stored_frame _ _ x (decide_round_received_frame st)).
Qed.

Lemma get_frame_ts_shape st rr f s : get_frame st rr = (Some f, s) ->
  last_consensus s = last_consensus st /\ delivered s = delivered st /\
  (zget rr (frames st) = Some f /\ frames s = frames st \/
   zget rr (frames st) = None /\ frames s = zset rr f (frames st) /\ f_ts f = median (fw_ts st rr)).
Proof.
  unfold get_frame. destruct (zget rr (frames st)) as [g|] eqn:Hg.
  { intros H; inversion H; subst. auto. }
  destruct (get_round st rr) as [ri|] eqn:Hri; [|discriminate].
  destruct (get_peerset st rr); [|discriminate].
  match goal with |- context [fold_left ?f ?l ?a] => destruct (fold_left f l a) end; [|discriminate].
  match goal with |- context [fold_left ?f (repertoire st) ?a] => destruct (fold_left f (repertoire st) a) end;
    [|discriminate].
  intros H; inversion H; subst; clear H. split; [reflexivity|]. split; [reflexivity|]. right. split; [reflexivity|].
  split; [reflexivity|]. cbn [f_ts]. unfold fw_ts, fws. rewrite Hri. reflexivity.
Qed.

Lemma process_frame_delivered_tf s f :
  delivered (process_frame s f) = delivered s \/
  exists bf, delivered (process_frame s f) = delivered s ++ [bf] /\ b_ts bf = f_ts f /\ b_frame bf = f.
Proof.
  destruct (process_frame_delivers s f) as [E|[bf [E M]]]; [left; exact E|right; exists bf; split; [exact E|]].
  exact (conj (f_equal (fun '(_, _, ts, _, _, _, _) => ts) M) (f_equal (fun '(_, _, _, _, _, fr, _) => fr) M)).
Qed.

(* every cached frame is at or below the last consensus round and carries the median of the
   timestamps of its round's famous witnesses, as the state reports them now *)
Definition T1 (st : hg) : Prop :=
  forall rr f, zget rr (frames st) = Some f ->
    (exists l, last_consensus st = Some l /\ rr <= l) /\ f_ts f = median (fw_ts st rr).
(* a delivered block carries its frame's timestamp *)
Definition T2 (st : hg) : Prop := forall d, In d (delivered st) -> b_ts d = f_ts (b_frame d).

Lemma fw_ts_frame st st' : rounds st' = rounds st -> dag_frame st st' -> forall q, fw_ts st' q = fw_ts st q.
Proof.
  intros E F q. unfold fw_ts. rewrite (fws_rounds _ _ E). apply map_ext. apply ets_frame. exact F.
Qed.

Lemma T1_transfer st st' :
  frames st' = frames st -> last_consensus st' = last_consensus st ->
  (forall rr f, zget rr (frames st) = Some f -> fw_ts st' rr = fw_ts st rr) -> T1 st -> T1 st'.
Proof. intros Ef El Hw H rr f. rewrite Ef, El. intros Hf. rewrite (Hw rr f Hf). apply H. exact Hf. Qed.

Lemma T2_transfer st st' : delivered st' = delivered st -> T2 st -> T2 st'.
Proof. intros E H d. rewrite E. apply H. Qed.

Lemma T_fail st : T1 st -> T2 st -> T1 (fail st) /\ T2 (fail st).
Proof.
  intros H1 H2. split.
  - apply (T1_transfer st (fail st)); [reflexivity|reflexivity| |exact H1].
    intros rr f _. apply fw_ts_frame; [apply rounds_fail|apply fail_frame].
  - apply (T2_transfer st (fail st)); [reflexivity|exact H2].
Qed.

Lemma process_round_T s p stop pr :
  rinvA s -> lc_lt s (fst pr) -> T1 s -> T2 s ->
  T1 (fst (fst (process_round (s, p, stop) pr))) /\ T2 (fst (fst (process_round (s, p, stop) pr))).
Proof.
  intros A Hlt H1 H2.
  destruct (process_round_spec s p stop pr A Hlt) as [_ [[Kr _] _]].
  pose proof (process_round_frame s p stop pr) as DF.
  pose proof (fw_ts_frame _ _ Kr DF) as Hw. clear Kr DF.
  revert Hw. unfold process_round.
  destruct (stop || failed s); [auto|].
  destruct (snd pr); cbn [negb]; [|auto].
  destruct (get_round s (fst pr)) as [ri0|]; [|intros _; apply T_fail; assumption].
  destruct (get_frame s (fst pr)) as [[f|] s1] eqn:Hgf.
  2:{ apply get_frame_none in Hgf. subst s1. intros _. apply T_fail; assumption. }
  cbn [fst snd]. set (r := fst pr) in *. set (s2 := process_frame s1 f). intros Hw.
  pose proof (process_frame_cv s1 f) as C2. fold s2 in C2.
  pose proof (f_equal (fun v => snd (fst v)) C2) as Fr2. pose proof (f_equal (fun v => snd (fst (fst (fst v)))) C2) as Lc2.
  cbn [cv fst snd] in Fr2, Lc2.
  destruct (bump_keep s2 r) as [_ [Fr3 Dl3]].
  destruct (get_frame_ts_shape s r f s1 Hgf) as [Lc1 [Dl1 Hsh]].
  assert (Lc3 : last_consensus (bump_last_consensus s2 r) = Some r).
  { apply bump_lc. unfold lc_lt in *. rewrite Lc2, Lc1. exact Hlt. }
  assert (Old : forall q g, zget q (frames s) = Some g ->
            (exists l, last_consensus (bump_last_consensus s2 r) = Some l /\ q <= l) /\
            f_ts g = median (fw_ts (bump_last_consensus s2 r) q)).
  { intros q g Hq. destruct (H1 q g Hq) as [[l [Hl Hle]] Hts]. split; [|rewrite Hw; exact Hts].
    exists r. split; [exact Lc3|]. unfold lc_lt in Hlt. rewrite Hl in Hlt. lia. }
  split.
  - intros q g. rewrite Fr3, Fr2. destruct Hsh as [[Hc E1]|[Hn [E1 Hts]]]; rewrite E1.
    + apply Old.
    + rewrite zget_zset. destruct ((r =? q) && (0 <=? r)) eqn:C; [|apply Old].
      intros Hg; inversion Hg; subst g. assert (q = r) by lia. subst q.
      split; [exists r; split; [exact Lc3|lia]|rewrite Hw; exact Hts].
  - intros d. rewrite Dl3. destruct (process_frame_delivered_tf s1 f) as [E|[bf [E [Hb1 Hb2]]]]; fold s2 in E; rewrite E, Dl1.
    + apply H2.
    + intros Hin. apply in_app_or in Hin. destruct Hin as [Hin|[<-|[]]]; [apply H2; exact Hin|]. rewrite Hb2. exact Hb1.
Qed.

Lemma process_fold_T l : forall s p stop,
  rinvA s -> StronglySorted Z.lt (map fst l) -> (forall r, In r (map fst l) -> lc_lt s r) ->
  T1 s -> T2 s ->
  let res := fold_left process_round l (s, p, stop) in T1 (fst (fst res)) /\ T2 (fst (fst res)).
Proof.
  induction l as [|pr l IH]; intros s p stop A S Hab H1 H2; cbn [fold_left]; [split; assumption|].
  cbv zeta. inversion S as [|a b S' Fa]; subst.
  assert (Hpr : lc_lt s (fst pr)) by (apply Hab; left; reflexivity).
  destruct (process_round_spec s p stop pr A Hpr) as [A1 [K1 C]].
  destruct (process_round_T s p stop pr A Hpr H1 H2) as [H1' H2'].
  destruct (process_round (s, p, stop) pr) as [[s1 p1] stop1] eqn:E. cbn [fst snd] in *.
  destruct C as [[-> [Hlc Hs]]|[-> [Hd Hlc]]].
  - rewrite (process_fold_stopped l s1 p stop1 Hs). cbn [fst]. split; assumption.
  - apply IH; auto. intros r Hr. unfold lc_lt. rewrite Hlc. rewrite Forall_forall in Fa. apply Fa. exact Hr.
Qed.

Lemma process_decided_rounds_T st : rinv st -> T1 st -> T2 st ->
  T1 (process_decided_rounds st) /\ T2 (process_decided_rounds st).
Proof.
  intros [A B] H1 H2. unfold process_decided_rounds.
  pose proof (process_fold_T (pending st) st [] false A (r_sorted st A) (r_above st B) H1 H2) as G. cbv zeta in G.
  destruct (fold_left process_round (pending st) (st, [], false)) as [[s processed] stop]. cbn [fst] in G.
  destruct G as [G1 G2]. split.
  - apply (T1_transfer s); [reflexivity|reflexivity| |exact G1].
    intros rr f _. apply fw_ts_frame; [reflexivity|apply dag_frame_set_pending].
  - apply (T2_transfer s); [reflexivity|exact G2].
Qed.

Record tinv (st : hg) : Prop := { t_cs : cs st; t_1 : T1 st; t_2 : T2 st }.

Lemma bview_fields st st' : bview st' = bview st ->
  frames st' = frames st /\ last_consensus st' = last_consensus st /\ delivered st' = delivered st.
Proof.
  intros H. exact (conj (f_equal (fun v => snd (fst v)) H) (conj (f_equal snd H) (f_equal (fun v => snd (fst (fst (fst (fst (fst (fst (fst (fst v))))))))) H))).
Qed.

(* a step that keeps frames, last consensus round and deliveries, keeps the famous witnesses of
   the rounds Q (which include every round with a cached frame) and the bodies of stored events *)
Lemma tinv_keep (Q : Z -> Prop) st st' :
  fwkeep Q st st' -> bview st' = bview st ->
  (forall w, stored st w -> ets st' w = ets st w) ->
  (forall rr f, zget rr (frames st) = Some f -> Q rr) ->
  tinv st -> tinv st'.
Proof.
  intros K B He HQ [C H1 H2]. destruct (bview_fields _ _ B) as [Ef [El Ed]].
  constructor.
  - eapply fwkeep_cs; eauto.
  - apply (T1_transfer st); [exact Ef|exact El| |exact H1].
    intros rr f Hf. unfold fw_ts. rewrite (fk_fws _ _ _ K rr (HQ rr f Hf)).
    apply map_ext_in. intros w Hw. apply He. apply (C rr). apply fws_ckeys. exact Hw.
  - apply (T2_transfer st); [exact Ed|exact H2].
Qed.

Lemma tinv_keep_frame (Q : Z -> Prop) st st' :
  fwkeep Q st st' -> bview st' = bview st -> dag_frame st st' ->
  (forall rr f, zget rr (frames st) = Some f -> Q rr) -> tinv st -> tinv st'.
Proof. intros K B F HQ T. apply (tinv_keep Q st st' K B); [intros w _; apply ets_frame; exact F|exact HQ|exact T]. Qed.

Lemma run_consensus_tinv st : rtop st -> tinv st -> tinv (run_consensus st).
Proof.
  intros [Hs Hi] T. unfold run_consensus.
  destruct (failed st) eqn:Hf.
  { rewrite (divide_rounds_failed st Hf), Hf. exact T. }
  specialize (Hi eq_refl).
  pose proof (divide_rounds_rinv st (or_intror Hi)) as I1.
  assert (T1' : tinv (divide_rounds st)).
  { apply (tinv_keep_frame (fun _ => True) st); [apply divide_rounds_fwkeep|apply divide_rounds_bview|apply divide_rounds_frame|auto|exact T]. }
  destruct (failed (divide_rounds st)) eqn:Hf1; [exact T1'|].
  destruct I1 as [I1|I1]; [congruence|].
  pose proof (decide_fame_rinv _ I1) as I2.
  assert (T2' : tinv (decide_fame (divide_rounds st))).
  { apply (tinv_keep_frame (fun q => ~ In q (prounds (divide_rounds st))) (divide_rounds st));
      [apply decide_fame_fwkeep|apply decide_fame_bview|apply decide_fame_frame| |exact T1'].
    intros rr f Hfr Hin. destruct (t_1 _ T1' rr f Hfr) as [[l [Hl Hle]] _].
    pose proof (r_above _ (proj2 I1) rr Hin) as Hab. unfold lc_lt in Hab. rewrite Hl in Hab. lia. }
  destruct (failed (decide_fame (divide_rounds st))); [exact T2'|].
  assert (I3 : rinv (decide_round_received (decide_fame (divide_rounds st)))).
  { eapply rinv_rstep; [exact I2|]. apply decide_round_received_rstep. apply (rinv_bounded _ I2). }
  assert (T3' : tinv (decide_round_received (decide_fame (divide_rounds st)))).
  { apply (tinv_keep_frame (fun _ => True) (decide_fame (divide_rounds st)));
      [apply decide_round_received_fwkeep|apply decide_round_received_bview|apply decide_round_received_frame|auto|exact T2']. }
  destruct (failed (decide_round_received _)); [exact T3'|].
  set (s3 := decide_round_received (decide_fame (divide_rounds st))) in *.
  destruct (process_decided_rounds_T s3 I3 (t_1 _ T3') (t_2 _ T3')) as [G1 G2].
  constructor; [|exact G1|exact G2].
  eapply (fwkeep_cs (fun _ => True)); [|exact (t_cs _ T3')].
  apply fwkeep_frame_same; [|apply process_decided_rounds_frame].
  exact (f_equal (fun v => snd (fst (fst (fst (fst (fst (fst (fst (fst v))))))))) (process_decided_rounds_blk_rest s3)).
Qed.

Lemma step_tinv all st e :
  ids_determine all -> In e all -> 0 <= e_id e -> ginv all st -> rtop st -> tinv st -> tinv (step st e).
Proof.
  intros ID Hin Hid G R T. destruct G as [C _ _ _]. unfold step, insert_and_run.
  pose proof (insert_event_rstep st e) as S. pose proof (insert_event_failed st e) as Ff.
  pose proof (insert_event_keeps_rounds st e) as Er. pose proof (insert_event_bview st e) as Eb.
  destruct (insert_event st e) as [r s] eqn:E. cbn [snd] in *.
  destruct (insert_event_inv st e all r s (g_dag _ _ C) (g_from _ _ C) ID Hin Hid E) as [_ [_ Hns]].
  assert (Hrej : r <> InsOk -> tinv (snd (r, s))).
  { intros Hn. rewrite (insert_reject_noop st e r s E Hn Hns). exact T. }
  destruct r; try (apply Hrej; discriminate). clear Hrej Hns. cbn [snd].
  destruct (insert_event_ok_shape st e all s (g_dag _ _ C) (g_from _ _ C) ID Hin Hid E)
    as [st2 [G2 [Hfresh [DF _]]]]. cbv zeta in G2.
  assert (Hst : forall w, stored st w -> stored s w /\ ets s w = ets st w).
  { intros w Hw. assert (Hne : (w =? e_id e) = false).
    { destruct (Z.eqb_spec w (e_id e)) as [->|]; [contradiction|reflexivity]. }
    split.
    - apply (stored_frame _ _ w DF). unfold stored. rewrite G2, Hne. exact Hw.
    - rewrite (ets_frame _ _ DF). unfold ets. rewrite G2, Hne. reflexivity. }
  assert (Ts : tinv s).
  { apply (tinv_keep (fun _ => True) st); [|exact Eb|intros w Hw; apply Hst; exact Hw|auto|exact T].
    apply fwkeep_same; [exact Er|intros w Hw; apply Hst; exact Hw]. }
  apply run_consensus_tinv; [|exact Ts]. eapply rtop_rstep; eauto.
Qed.

Lemma tinv_ext st st' :
  events st' = events st -> rounds st' = rounds st -> frames st' = frames st ->
  last_consensus st' = last_consensus st -> delivered st' = delivered st -> tinv st -> tinv st'.
Proof.
  intros Ee Er Ef El Ed [C H1 H2].
  assert (Gs : forall x, stored st' x <-> stored st x) by (intros x; unfold stored, get_event; rewrite Ee; reflexivity).
  assert (Gw : forall q, fw_ts st' q = fw_ts st q).
  { intros q. unfold fw_ts. rewrite (fws_rounds _ _ Er). apply map_ext. intros w. unfold ets, get_event. rewrite Ee. reflexivity. }
  constructor.
  - intros r x. rewrite (ckeys_rounds _ _ Er), Gs. apply C.
  - apply (T1_transfer st); auto.
  - apply (T2_transfer st); auto.
Qed.

Lemma process_sigpool_tinv st : tinv st -> tinv (process_sigpool st).
Proof.
  intros T. pose proof (process_sigpool_ov st) as O. unfold ov in O.
  pose proof (proj1 (process_sigpool_rv st)) as V.
  apply (tinv_ext st); [exact (f_equal (fun v => snd (fst (fst (fst (fst v))))) O)|exact (f_equal (fun v => snd (fst (fst (fst v)))) O)
                       |exact (f_equal snd O)|exact (f_equal (fun v => snd (fst (fst (fst (fst v))))) V)|exact (f_equal snd V)|exact T].
Qed.

Lemma tinv_init self_ genesis oracle_ : tinv (init_hg self_ genesis oracle_).
Proof.
  assert (E : rv (init_hg self_ genesis oracle_) = rv (empty_hg self_)).
  { unfold init_hg. destruct (set_peerset (empty_hg self_) 0 genesis) as [st|] eqn:S; [|reflexivity].
    pose proof (cv_set_peerset _ _ _ _ S) as C. pose proof (delivered_bl _ _ (set_peerset_bl _ _ _ _ S)) as D.
    unfold rv. rewrite <- C, <- D. reflexivity. }
  unfold rv, cv in E.
  assert (Er : rounds (init_hg self_ genesis oracle_) = zempty) by (apply (f_equal (fun t => fst (fst (fst (fst (fst (fst (fst t)))))))) in E; exact E).
  assert (Ef : frames (init_hg self_ genesis oracle_) = zempty) by (apply (f_equal (fun t => snd (fst (fst t)))) in E; exact E).
  assert (Ed : delivered (init_hg self_ genesis oracle_) = []) by (apply (f_equal snd) in E; exact E).
  constructor.
  - intros r x. unfold ckeys, get_round. rewrite Er, zget_empty. intros [].
  - intros rr f. rewrite Ef, zget_empty. discriminate.
  - intros d. rewrite Ed. intros [].
Qed.

Lemma hstep_tinv all st o :
  ids_determine all -> hop_ok all o -> ginv all st -> rtop st -> tinv st -> tinv (hstep st o).
Proof.
  intros ID Ho G R T. destruct o as [e|]; cbn [hstep].
  - destruct Ho as [Hin Hid]. apply (step_tinv all); assumption.
  - apply process_sigpool_tinv; exact T.
Qed.

Theorem hrun_tinv all self_ genesis oracle_ ops :
  ids_determine all -> Forall (hop_ok all) ops -> tinv (hrun (init_hg self_ genesis oracle_) ops).
Proof.
  intros ID H.
  assert (G : forall st, ginv all st -> rtop st -> tinv st -> tinv (hrun st ops)).
  { induction H as [|o ops Ho Hops IH]; intros st G R T; cbn [hrun fold_left]; [exact T|].
    apply IH.
    - apply (hstep_ginv all st o ID Ho G).
    - apply hstep_rtop; exact R.
    - apply (hstep_tinv all); assumption. }
  apply G; [apply ginv_init|apply rinv_rtop, rinv_init|apply tinv_init].
Qed.

(* the timestamp of a delivered block is the median of the timestamps of the famous witnesses of
   its round-received, read in the state at hand (at delivery or at any later time); these
   witnesses are stored events *)
Theorem block_timestamp_is_median all self_ genesis oracle_ ops d :
  ids_determine all -> Forall (hop_ok all) ops ->
  let st := hrun (init_hg self_ genesis oracle_) ops in
  In d (delivered st) ->
  b_ts d = median (map (ets st) (fws st (b_rr d))) /\
  b_ts d = f_ts (b_frame d) /\
  (forall w, In w (fws st (b_rr d)) -> exists ex, get_event st w = Some ex /\ ets st w = e_ts (ev_e ex)).
Proof.
  intros ID Hops st Hd.
  pose proof (hrun_tinv all self_ genesis oracle_ ops ID Hops) as T. fold st in T.
  pose proof (hrun_ginv all self_ genesis oracle_ ops ID Hops) as G. fold st in G.
  destruct (delivered_block_payload all st d G Hd) as [Hf _].
  destruct (t_1 _ T _ _ Hf) as [_ Hts]. pose proof (t_2 _ T d Hd) as Hb.
  split; [rewrite Hb; exact Hts|]. split; [exact Hb|].
  intros w Hw. pose proof (t_cs _ T _ _ (fws_ckeys _ _ _ Hw)) as Sw. unfold stored in Sw.
  unfold ets. destruct (get_event st w) as [ex|]; [eauto|contradiction].
Qed.

Lemma fws_round st r ri : get_round st r = Some ri -> fws st r = famous_witnesses ri.
Proof. intros H. unfold fws. rewrite H. reflexivity. Qed.

(* in a state without store error the round of a delivered block is in the round table *)
Lemma delivered_round_present all self_ genesis oracle_ ops d :
  ids_determine all -> Forall (hop_ok all) ops ->
  let st := hrun (init_hg self_ genesis oracle_) ops in
  failed st = false -> In d (delivered st) -> exists ri, get_round st (b_rr d) = Some ri.
Proof.
  intros ID Hops st Hf Hd. destruct (hrun_rtop self_ genesis oracle_ ops) as [_ Hi]. fold st in Hi.
  destruct (Hi Hf) as [A _]. destruct (r_del_lc st A d Hd) as [l [Hl Hle]].
  pose proof (r_lc st A l Hl) as Hlr.
  pose proof (hrun_ginv all self_ genesis oracle_ ops ID Hops) as G. fold st in G.
  destruct (delivered_block_payload all st d G Hd) as [Hfr _].
  pose proof (zget_some_nonneg _ _ _ Hfr) as H0.
  destruct (get_round st (b_rr d)) as [ri|] eqn:E; [eauto|]. exfalso.
  apply (proj2 (r_contig st A (b_rr d))); [lia|exact E].
Qed.

Lemma filter_partition_perm {A} (p : A -> bool) l :
  Permutation l (filter (fun x => negb (p x)) l ++ filter p l).
Proof.
  induction l as [|a l IH]; cbn [filter app]; [constructor|].
  destruct (p a); cbn [negb app].
  - apply Permutation_cons_app. exact IH.
  - constructor. exact IH.
Qed.

Lemma honest_byz_split (f : Z -> Z) (is_byz : Z -> bool) fw :
  let hon := map f (filter (fun w => negb (is_byz w)) fw) in
  let byz := map f (filter is_byz fw) in
  Permutation (map f fw) (hon ++ byz) /\
  ((2 * length (filter is_byz fw) < length fw)%nat -> (2 * length byz < length hon + length byz)%nat) /\
  forall h, In h hon -> list_min hon <= h <= list_max hon.
Proof.
  intros hon byz.
  assert (HP : Permutation (map f fw) (hon ++ byz)).
  { subst hon byz. rewrite <- map_app. apply Permutation_map. apply filter_partition_perm. }
  split; [exact HP|]. split.
  - pose proof (Permutation_length HP) as HL. rewrite app_length, map_length in HL.
    subst byz. rewrite map_length in *. lia.
  - intros h Hh. split; [apply list_min_le|apply list_max_ge]; exact Hh.
Qed.

(* [is_byz] marks the Byzantine famous witnesses of the block's round (their timestamps are
   arbitrary); the others are honest.  If the Byzantine ones are fewer than half and the honest
   timestamps are in the no-wrap range, the block timestamp lies between the smallest and the
   largest honest timestamp. *)
Theorem block_timestamp_in_honest_range all self_ genesis oracle_ ops d (is_byz : Z -> bool) :
  ids_determine all -> Forall (hop_ok all) ops ->
  let st := hrun (init_hg self_ genesis oracle_) ops in
  In d (delivered st) ->
  let fw := fws st (b_rr d) in
  let hon := map (ets st) (filter (fun w => negb (is_byz w)) fw) in
  (2 * length (filter is_byz fw) < length fw)%nat ->
  (forall h, In h hon -> - 2 ^ 62 <= h <= 2 ^ 62 - 1) ->
  list_min hon <= b_ts d <= list_max hon.
Proof.
  intros ID Hops st Hd fw hon Hmaj Hrange.
  destruct (block_timestamp_is_median all self_ genesis oracle_ ops d ID Hops Hd) as [Hm _]. fold st in Hm. fold fw in Hm.
  rewrite Hm. destruct (honest_byz_split (ets st) is_byz fw) as [HP [HL Hmm]].
  apply (median_bft _ _ _ HP (HL Hmaj) Hrange _ _ Hmm).
Qed.

(* for an odd number of famous witnesses no range premise is needed *)
Theorem block_timestamp_in_honest_range_odd all self_ genesis oracle_ ops d (is_byz : Z -> bool) m :
  ids_determine all -> Forall (hop_ok all) ops ->
  let st := hrun (init_hg self_ genesis oracle_) ops in
  In d (delivered st) ->
  let fw := fws st (b_rr d) in
  let hon := map (ets st) (filter (fun w => negb (is_byz w)) fw) in
  length fw = (2 * m + 1)%nat ->
  (2 * length (filter is_byz fw) < length fw)%nat ->
  list_min hon <= b_ts d <= list_max hon.
Proof.
  intros ID Hops st Hd fw hon Hodd Hmaj.
  destruct (block_timestamp_is_median all self_ genesis oracle_ ops d ID Hops Hd) as [Hm _]. fold st in Hm. fold fw in Hm.
  rewrite Hm. destruct (honest_byz_split (ets st) is_byz fw) as [HP [HL Hmm]].
  apply (median_bft_odd _ _ _ m HP); [rewrite map_length; exact Hodd|exact (HL Hmaj)|exact Hmm].
Qed.

(* a fortiori with fewer than a third Byzantine *)
Corollary block_timestamp_in_honest_range_third all self_ genesis oracle_ ops d (is_byz : Z -> bool) :
  ids_determine all -> Forall (hop_ok all) ops ->
  let st := hrun (init_hg self_ genesis oracle_) ops in
  In d (delivered st) ->
  let fw := fws st (b_rr d) in
  let hon := map (ets st) (filter (fun w => negb (is_byz w)) fw) in
  (3 * length (filter is_byz fw) < length fw)%nat ->
  (forall h, In h hon -> - 2 ^ 62 <= h <= 2 ^ 62 - 1) ->
  list_min hon <= b_ts d <= list_max hon.
Proof.
  intros ID Hops st Hd fw hon Hthird Hrange.
  apply (block_timestamp_in_honest_range all self_ genesis oracle_ ops d is_byz ID Hops Hd); [|exact Hrange].
  fold st. fold fw. lia.
Qed.
