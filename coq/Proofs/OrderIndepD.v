(* Dynamic membership: the observations of a stored event that do not depend on the order of insertion.
   Lamport timestamps never read a validator set: they agree between ANY two nodes over one universe (no membership
   premise, no distance bound).  Rounds, witness flags, strongly-see and round-received: Proofs/RoundAgreeD.v,
   Proofs/RoundReceivedD.v (two nodes that respect the distance bound and whose tables agree). *)
From Coq Require Import ZArith List Bool Lia.
From V Require Import Model.ZMap Model.Quorum Model.HgImpl Model.Window Proofs.AdmissionProofs Proofs.BlockInv
  Proofs.OrderProofs Proofs.RoundFunD Proofs.Agreement Proofs.GapWindow Proofs.CInvRunD Proofs.RoundAgreeD.
Import ListNotations.
Open Scope Z_scope.

Lemma ginv_same_bodies all sa sb : ids_determine all -> ginv all sa -> ginv all sb -> same_bodies sa sb.
Proof.
  intros ID Ga Gb y a b Ha Hb.
  apply ID; [eapply (g_from _ _ (gi_core _ _ Ga)); eauto|eapply (g_from _ _ (gi_core _ _ Gb)); eauto|].
  rewrite (d_id _ (g_dag _ _ (gi_core _ _ Ga)) _ _ Ha), (d_id _ (g_dag _ _ (gi_core _ _ Gb)) _ _ Hb). reflexivity.
Qed.

Theorem lamport_agree_any all s1 s2 g1 g2 o1 o2 ops1 ops2 x e1 e2 :
  ids_determine all -> Forall (hop_ok all) ops1 -> Forall (hop_ok all) ops2 ->
  failed (hrun (init_hg s1 g1 o1) ops1) = false -> failed (hrun (init_hg s2 g2 o2) ops2) = false ->
  get_event (hrun (init_hg s1 g1 o1) ops1) x = Some e1 -> get_event (hrun (init_hg s2 g2 o2) ops2) x = Some e2 ->
  ev_lt e1 = ev_lt e2 /\ ev_lt e1 <> None.
Proof.
  intros ID H1 H2 F1 F2 E1 E2.
  pose proof (hrun_ginv all s1 g1 o1 ops1 ID H1) as Gi1. pose proof (hrun_ginv all s2 g2 o2 ops2 ID H2) as Gi2.
  pose proof (ginv_same_bodies all _ _ ID Gi1 Gi2) as SB.
  destruct (ev_lt e1) as [t1|] eqn:Ht1; [|exfalso; apply (gi_all _ _ Gi1 F1 x e1 E1 Ht1)].
  split; [|discriminate]. symmetry.
  apply (lt_agree_nat all _ _ Gi1 Gi2 F1 F2 SB (S (Z.to_nat t1)) x e1 e2 t1 E1 E2 Ht1). lia.
Qed.
