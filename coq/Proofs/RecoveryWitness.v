(* C11: a concrete history on which Bootstrap with the ProcessSigPool of before fix d90db55 does NOT
   re-deliver the blocks it had delivered (database block lookup during Bootstrap), and the same
   history with the code as it stands.  One validator; event 1 carries a signature of block 105 (a
   block that the replay creates only after the first batch of 100 events). *)
From Coq Require Import ZArith List Bool Lia.
From V Require Import Model.ZMap Model.Quorum Model.HgImpl Model.Recovery Proofs.AdmissionProofs Proofs.RecoveryProofs.
Import ListNotations.
Open Scope Z_scope.

Definition w_genesis : peerset := [mkPeer 100 0].
Definition w_ev (i : Z) : event :=
  mkEvent i 0 i (i - 1) (-1) i true i [i + 1] [] (if i =? 1 then [mkBsig 0 105 105] else []) true.
Definition w_ops (n : nat) : list nop := map (fun i => NInsert (w_ev i)) (zseq 0 n).
Definition w_oracle : list Z := zseq 0 200.

Lemma zseq_in n : forall lo x, In x (zseq lo n) -> lo <= x.
Proof. induction n as [|n IH]; intros lo x H; cbn in H; [contradiction|]. destruct H as [<-|H]; [lia|]. apply IH in H. lia. Qed.

Lemma w_op_events n : op_events (w_ops n) = map w_ev (zseq 0 n).
Proof.
  unfold w_ops, op_events. generalize 0. induction n as [|n IH]; intros lo; cbn; [reflexivity|]. rewrite IH. reflexivity.
Qed.

Lemma w_wf n : wf (op_events (w_ops n)).
Proof.
  rewrite w_op_events. split.
  - intros e e' H H' E. apply in_map_iff in H, H'. destruct H as [i [<- _]], H' as [j [<- _]].
    cbn in E. subst j. reflexivity.
  - intros e H. apply in_map_iff in H. destruct H as [i [<- Hi]]. cbn. apply zseq_in in Hi. exact Hi.
Qed.

(* [recovered], [recovered_unguarded], [ops_started] and [pre_state] each run the node to obtain its
   per-operation logs, [op_logs] runs every operation twice (in [op_log] for what it writes, in [nstep]
   for the next state) and [pre_state] runs them once more.  [op_trace] runs each operation once and
   keeps both.  The evaluations below unfold the four down to [op_logs], pass to the trace and bind it
   once, so that checking a statement about several of them runs the node once. *)
Definition op_step (st : hg) (o : nop) : list wr * hg :=
  match o with
  | NInsert e =>
    let p := insert_and_run st e in
    (match fst p with InsOk => WEvent e st.(topo) :: block_writes st (snd p) | _ => [] end, snd p)
  | NSigPool => let st' := process_sigpool st in (block_writes st st', st')
  end.

Lemma op_step_eq st o : op_step st o = (op_log st o, nstep st o).
Proof.
  destruct o as [e|]; [|reflexivity]. unfold op_step, op_log, nstep, step.
  destruct (insert_and_run st e) as [[] ?]; reflexivity.
Qed.

Fixpoint op_trace (st : hg) (ops : list nop) : list (list wr * hg) :=
  match ops with [] => [] | o :: r => let p := op_step st o in p :: op_trace (snd p) r end.

Lemma op_trace_logs ops : forall st, op_logs st ops = map fst (op_trace st ops).
Proof. induction ops as [|o r IH]; intros st; cbn; [reflexivity|]. rewrite op_step_eq, IH. reflexivity. Qed.

Lemma op_trace_nrun ops : forall st n,
  nrun st (firstn n ops) = fold_left (fun _ p => snd p) (firstn n (op_trace st ops)) st.
Proof. induction ops as [|o r IH]; intros st [|n]; cbn; try reflexivity. rewrite op_step_eq. apply IH. Qed.

(* a clean shutdown (the whole log) *)
Lemma w_shutdown_facts :
  let ru := recovered_unguarded 0 w_genesis w_oracle (w_ops 115) 1000 in
  let r := recovered 0 w_genesis w_oracle (w_ops 115) 1000 in
  let pre := pre_state 0 w_genesis w_oracle (w_ops 115) 1000 in
  (br_ok ru = true /\ br_db_block ru = true /\
   map b_index (skipn 95 (delivered (br_st ru))) =
     [95; 96; 106; 107; 108; 109; 110; 111; 112; 113; 114; 115; 116; 117; 118; 119; 120] /\
   map b_index (skipn 95 (delivered pre)) =
     [95; 96; 97; 98; 99; 100; 101; 102; 103; 104; 105; 106; 107; 108; 109; 110; 111]) /\
  (br_ok r = true /\ br_db_block r = false /\
   map b_index (skipn 95 (delivered (br_st r))) =
     [95; 96; 97; 98; 99; 100; 101; 102; 103; 104; 105; 106; 107; 108; 109; 110; 111] /\
   option_map b_sigs (zget 105 (blocks (br_st r))) = Some [(0, 105)]).
Proof.
  cbv beta delta [recovered_unguarded recovered recovered_g crash_db node_log pre_state ops_started].
  rewrite op_trace_nrun, op_trace_logs. set (tr := op_trace _ _). vm_compute. repeat split.
Qed.

(* REGRESSION WITNESS.  ProcessSigPool before fix d90db55 ([recovered_unguarded]): after a clean
   shutdown the blocks re-delivered by Bootstrap carry other indexes *)
Lemma w_unguarded_detail :
  br_ok (recovered_unguarded 0 w_genesis w_oracle (w_ops 115) 1000) = true /\
  br_db_block (recovered_unguarded 0 w_genesis w_oracle (w_ops 115) 1000) = true /\
  map b_index (skipn 95 (delivered (br_st (recovered_unguarded 0 w_genesis w_oracle (w_ops 115) 1000)))) =
    [95; 96; 106; 107; 108; 109; 110; 111; 112; 113; 114; 115; 116; 117; 118; 119; 120] /\
  map b_index (skipn 95 (delivered (pre_state 0 w_genesis w_oracle (w_ops 115) 1000))) =
    [95; 96; 97; 98; 99; 100; 101; 102; 103; 104; 105; 106; 107; 108; 109; 110; 111].
Proof. exact (proj1 w_shutdown_facts). Qed.

Lemma w_unguarded_shifted :
  map b_index (delivered (br_st (recovered_unguarded 0 w_genesis w_oracle (w_ops 115) 1000))) <>
  map b_index (delivered (pre_state 0 w_genesis w_oracle (w_ops 115) 1000)).
Proof.
  destruct (proj2 (proj2 w_unguarded_detail)) as [Eu Ep]. intros E.
  rewrite <- skipn_map, E, skipn_map, Ep in Eu. discriminate Eu.
Qed.

(* the same history and crash point with the code as it stands: identical re-delivery, the early
   signature of block 105 is attached once the replay has re-created that block *)
Lemma w_guarded_same :
  let r := recovered 0 w_genesis w_oracle (w_ops 115) 1000 in
  br_ok r = true /\ br_db_block r = false /\
  map b_index (skipn 95 (delivered (br_st r))) =
    [95; 96; 97; 98; 99; 100; 101; 102; 103; 104; 105; 106; 107; 108; 109; 110; 111] /\
  option_map b_sigs (zget 105 (blocks (br_st r))) = Some [(0, 105)].
Proof. exact (proj2 w_shutdown_facts). Qed.

(* a crash in the middle of the 52nd operation *)
Lemma w_example :
  let r := recovered 0 w_genesis w_oracle (w_ops 115) 150 in
  ops_started 0 w_genesis w_oracle (w_ops 115) 150 = 52%nat /\
  br_ok r = true /\ br_db_block r = false /\
  length (delivered (br_st r)) = 49%nat /\
  map b_index (delivered (br_st r)) = map b_index (delivered (pre_state 0 w_genesis w_oracle (w_ops 115) 150)) /\
  head_seq (br_st r) = (51, 51) /\ known_events (br_st r) = [(0, 51)].
Proof.
  cbv beta delta [recovered recovered_g crash_db node_log pre_state ops_started].
  rewrite op_trace_nrun, op_trace_logs. set (tr := op_trace _ _). vm_compute. repeat split.
Qed.
