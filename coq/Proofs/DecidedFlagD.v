(* The sticky "witnesses decided" flag of a round, for validator sets that may change per round (model after fix
   05eda0b).  A flag that is set was set in an (earlier or the current) state of the same run in which all known
   witnesses of the round were decided and were a super-majority of the set the table gives for that round
   ([full_decD (P r)]); the famous witnesses of the round have not changed since.  Inside a pass the table is threaded
   through the stages ([passD], [gT]); along a run the argument is made for the runs of Proofs/FameInvD.v [along].
   Two nodes whose round r is flagged decided hold the same famous witnesses of round r; the end of the file states
   this for runs that respect the distance bound and for runs with static membership (the constant assignment). *)
From Coq Require Import ZArith List Bool Lia ZifyBool Permutation.
From RecordUpdate Require Import RecordSet.
From V Require Import Model.ZMap Model.Quorum Model.Voting Model.VotingRef Model.HgImpl Model.PeerSetSpec
  Model.Window Proofs.ZMapFacts Proofs.QuorumProofs Proofs.HgFrames Proofs.HgDagFrames Proofs.AdmissionProofs
  Proofs.Ancestry Proofs.HgBlockFrames Proofs.BlockInv Proofs.RoundOrder Proofs.OrderFrames Proofs.OrderProofs
  Proofs.VotingProofs Proofs.FameBridge Proofs.Static Proofs.FirstDesc Proofs.FdWalk Proofs.DivInv
  Proofs.CInvRun Proofs.Height Proofs.StronglySee Proofs.ViewOk Proofs.SameHistory Proofs.Agreement
  Proofs.NoFail Proofs.FameInv Proofs.FamousSet Proofs.DecidedFlag Proofs.PeerSetProofs Proofs.LrMono
  Proofs.WindowStable Proofs.GapWindow Proofs.FirstDescD Proofs.InsertInvD Proofs.DivInvD Proofs.CInvRunD
  Proofs.StronglySeeD Proofs.RoundFunD Proofs.RoundAgreeD Proofs.ViewOkD Proofs.SameHistoryD Proofs.AgreementD
  Proofs.FameInvD Proofs.LateWitnessD Proofs.FamousSetD.
From V Require Import Proofs.RoundReceived.
Import ListNotations RecordSetNotations.
Open Scope Z_scope.

(* the table answers P on every round the state has *)
Definition tblR (P : Z -> peerset) (st : hg) : Prop := forall i, get_round st i <> None -> get_peerset st i = Some (P i).
Record passD (P : Z -> peerset) (s : hg) : Prop := { pd_i : cinvD P None s; pd_t : tblR P s }.

Lemma passD_step P s s' : passD P s -> ckeepD s s' -> bview s' = bview s -> passD P s'.
Proof.
  intros [I T] K B. constructor; [eapply cinvD_ckeepD; eauto|].
  intros i Hi. rewrite (get_peerset_bview _ _ i B). apply T. intros C. apply Hi, (kd_rd _ _ K i), C.
Qed.

Lemma gT_tblR P s : gT P s -> tblR P s.
Proof. intros G i Hi. apply (gt_t _ _ G). apply (gt_c _ _ G). exact Hi. Qed.

Lemma gT_passD P s : gT P s -> passD P s.
Proof. intros G. constructor; [apply (gt_i _ _ G)|apply gT_tblR, G]. Qed.

Lemma witness_entryD P st r ri y : cinvD P None st -> get_round st r = Some ri -> In y (witnesses ri) ->
  exists f, aget y (ri_created ri) = Some (true, f).
Proof. intros I Hg. apply witness_created, (wl_created_nodup st r ri (cd_tabu _ _ _ I r) Hg). Qed.

Lemma full_dec_of_tableD P g st r ri : cinvD P None st -> get_round st r = Some ri ->
  existsb (fun e : Z * (bool * trilean) => match snd e with (true, Undefined) => true | _ => false end) (ri_created ri) = false ->
  super_majority g <= Z.of_nat (length (witnesses ri)) -> full_decD g st r.
Proof. intros I Hg. apply (full_dec_of_created g st r ri (wl_created_nodup st r ri (cd_tabu _ _ _ I r) Hg) Hg). Qed.

Lemma decide_fame_round_tmonoD P s dec pr : cinvD P None s -> tmono s (fst (decide_fame_round (s, dec) pr)).
Proof.
  intros I. unfold decide_fame_round.
  destruct (failed s); [apply tmono_refl|].
  assert (Tf : tmono s (fail s)) by (apply tmono_rounds; reflexivity).
  destruct (get_round s (fst pr)) as [ri|] eqn:Hri; [|exact Tf].
  destruct (get_peerset s (fst pr)) as [rps|]; [|exact Tf].
  match goal with |- context [fold_left ?f ?l ?a] => destruct (fold_left f l a) as [ri'|] eqn:Hf end; [|exact Tf].
  destruct (fame_fold_mono s (fst pr) (witnesses ri) ri ri' (fun y => witness_entryD P s _ ri y I Hri) Hf) as [M D].
  destruct (witnesses_decided_cases ri' rps) as [Hc [Hs _]].
  destruct (witnesses_decided ri' rps) as [d ri'']. cbn [fst snd] in *.
  apply (tmono_zset s _ (fst pr) ri ri'' Hri); [reflexivity|intros Hd; apply Hs; congruence|].
  rewrite Hc. exact M.
Qed.

Lemma decide_fame_round_passD P s dec pr : passD P s -> passD P (fst (decide_fame_round (s, dec) pr)).
Proof.
  intros G. apply (passD_step P s _ G (ckeep_ckeepD _ _ (decide_fame_round_ckeep s dec pr)) (decide_fame_round_bview s dec pr)).
Qed.

Lemma decide_fame_round_flagD P s dec pr r : passD P s ->
  flag (fst (decide_fame_round (s, dec) pr)) r -> flag s r \/ full_decD (P r) (fst (decide_fame_round (s, dec) pr)) r.
Proof.
  intros G.
  pose proof (decide_fame_round_passD P s dec pr G) as G'.
  revert G'. unfold decide_fame_round.
  destruct (failed s); [auto|].
  assert (Ff : flag (fail s) r -> flag s r) by (apply flag_rounds; reflexivity).
  destruct (get_round s (fst pr)) as [ri|] eqn:Hri; [|auto].
  assert (H0 : 0 <= fst pr) by (eapply get_round_some_nonneg; eauto).
  rewrite (pd_t _ _ G (fst pr)) by (rewrite Hri; discriminate).
  match goal with |- context [fold_left ?f ?l ?a] => destruct (fold_left f l a) as [ri'|] eqn:Hf end; [|auto].
  destruct (fame_fold_mono s (fst pr) (witnesses ri) ri ri' (fun y => witness_entryD P s _ ri y (pd_i _ _ G) Hri) Hf) as [M D].
  destruct (witnesses_decided_cases ri' (P (fst pr))) as [Hc [_ Hn]].
  destruct (witnesses_decided ri' (P (fst pr))) as [d ri'']. cbn [fst snd] in *.
  intros G' [rj [Hg Hd]].
  pose proof (get_round_zset s (set_round s (fst pr) ri'') (fst pr) ri'' r H0 ltac:(reflexivity)) as Eg.
  rewrite Eg in Hg. destruct (Z.eqb_spec (fst pr) r) as [<-|Hne]; [|left; exists rj; auto].
  inversion Hg; subst rj. destruct (Hn Hd) as [Hold|[Ex Hsm]].
  - left. exists ri. split; [exact Hri|congruence].
  - right. apply (full_dec_of_tableD P _ _ (fst pr) ri'' (pd_i _ _ G')).
    + rewrite (get_round_zset s (set_round s (fst pr) ri'') (fst pr) ri'' (fst pr) H0) by (reflexivity).
      rewrite Z.eqb_refl. reflexivity.
    + rewrite Hc. exact Ex.
    + rewrite (witnesses_same_created _ _ Hc). exact Hsm.
Qed.

Lemma full_dec_stepD g s s' r : ckeepD s s' -> tmono s s' -> full_decD g s r -> full_decD g s' r.
Proof.
  intros K T [Hsm Hall]. split; [rewrite (ckeepD_wits s s' r K); exact Hsm|].
  intros x Hx. rewrite (ckeepD_wits s s' r K) in Hx. destruct (Hall x Hx) as [v Hv].
  exists v. eapply tmono_frec; eauto.
Qed.

(* "a flag set in s' was set in s0 already, or the round is fully decided in s'", composed over two stretches of a pass *)
Lemma flag_or_trans g r s0 s s' : ckeepD s s' -> tmono s s' ->
  (flag s r -> flag s0 r \/ full_decD g s r) -> (flag s' r -> flag s r \/ full_decD g s' r) ->
  flag s' r -> flag s0 r \/ full_decD g s' r.
Proof.
  intros K T Q B Hfl. destruct (B Hfl) as [H|H]; [|auto]. destruct (Q H) as [H'|H']; [auto|right].
  exact (full_dec_stepD g s s' r K T H').
Qed.

(* the second stretch leaves the tables alone *)
Lemma flag_or_cw g r s0 s s' : cw s' = cw s ->
  (flag s r -> flag s0 r \/ full_decD g s r) -> flag s' r -> flag s0 r \/ full_decD g s' r.
Proof.
  intros C Q. destruct (cw_fields _ _ C) as [_ [Ro _]].
  apply (flag_or_trans g r s0 s s' (ckeepD_cw _ _ C) (tmono_rounds _ _ Ro) Q).
  intros Hfl. left. exact (flag_rounds _ _ Ro r Hfl).
Qed.

Lemma decide_fame_fold_tmonoD P l : forall s dec, cinvD P None s -> tmono s (fst (fold_left decide_fame_round l (s, dec))).
Proof.
  induction l as [|pr l IH]; intros s dec I; cbn [fold_left]; [apply tmono_refl|].
  pose proof (decide_fame_round_tmonoD P s dec pr I) as T1. pose proof (decide_fame_round_ckeep s dec pr) as K1.
  destruct (decide_fame_round (s, dec) pr) as [s' dec']. cbn [fst] in *.
  eapply tmono_trans; [exact T1|]. apply IH. eapply cinvD_ckeepD; [exact I|apply ckeep_ckeepD; exact K1].
Qed.

Lemma decide_fame_tmonoD P st : cinvD P None st -> tmono st (decide_fame st).
Proof.
  intros I. unfold decide_fame. pose proof (decide_fame_fold_tmonoD P (pending st) st [] I) as T.
  destruct (fold_left decide_fame_round (pending st) (st, [])) as [s decided]. cbn [fst] in T.
  destruct (failed s); [exact T|]. eapply tmono_trans; [exact T|apply tmono_rounds; reflexivity].
Qed.

Lemma decide_fame_flagD P st r : passD P st ->
  flag (decide_fame st) r -> flag st r \/ full_decD (P r) (decide_fame st) r.
Proof.
  intros G. unfold decide_fame.
  assert (H : forall l s dec, passD P s -> (flag s r -> flag st r \/ full_decD (P r) s r) ->
              flag (fst (fold_left decide_fame_round l (s, dec))) r ->
              flag st r \/ full_decD (P r) (fst (fold_left decide_fame_round l (s, dec))) r).
  { induction l as [|pr l IH]; intros s dec Gs Q; cbn [fold_left]; [exact Q|].
    pose proof (decide_fame_round_flagD P s dec pr r Gs) as B1.
    pose proof (decide_fame_round_passD P s dec pr Gs) as G1.
    pose proof (decide_fame_round_tmonoD P s dec pr (pd_i _ _ Gs)) as T1. pose proof (decide_fame_round_ckeep s dec pr) as K1.
    destruct (decide_fame_round (s, dec) pr) as [s' dec']. cbn [fst] in *.
    apply (IH s' dec' G1), (flag_or_trans _ r st s s' (ckeep_ckeepD _ _ K1) T1 Q B1). }
  specialize (H (pending st) st [] G (fun H0 => or_introl H0)).
  destruct (fold_left decide_fame_round (pending st) (st, [])) as [s decided]. cbn [fst] in H.
  destruct (failed s); [exact H|]. exact (flag_or_cw _ r st s _ eq_refl H).
Qed.

(* what the loop of DecideRoundReceived knows of the state st1 in which it goes on after WitnessesDecided has
   answered (d, tr') for round i *)
Record wd_next (st st1 : hg) (i : Z) (d : bool) (tr' : rinfo) : Prop := {
  wn_t : tmono st st1; wn_k : ckeep st st1;
  wn_c : forall j, crt st1 j = crt st j; wn_s : forall w y, see st1 w y = see st w y;
  wn_g : forall j, get_round st1 j = if i =? j then Some tr' else get_round st j;
  wn_f : d = true -> flag st1 i }.

Lemma witnesses_decided_state st i tr g d tr' : get_round st i = Some tr -> witnesses_decided tr g = (d, tr') ->
  wd_next st (st <| rounds := zset i tr' (rounds st) |>) i d tr'.
Proof.
  intros Hg E. destruct (witnesses_decided_cases tr g) as [Hc [Hs _]].
  pose proof (wl_of_witnesses_decided tr g) as Hwl. pose proof (witnesses_decided_true tr g) as Htrue.
  rewrite E in Hc, Hs, Hwl, Htrue. cbn [fst snd] in *.
  assert (Hi : 0 <= i) by (eapply get_round_some_nonneg; eauto).
  constructor.
  - apply (tmono_zset st _ i tr tr' Hg); [reflexivity|exact Hs|rewrite Hc; apply ent_mono_refl].
  - apply (ckeep_set_rounds st i tr tr' Hg Hwl).
  - intros j. apply (crt_set_rounds st i tr tr' j Hg Hc).
  - apply see_events_only. reflexivity.
  - intros j. apply (get_round_zset st _ i tr' j Hi). reflexivity.
  - intros Hd. apply flag_zset; [exact Hi|apply Htrue, Hd].
Qed.

Lemma full_dec_crt g s s' j : crt s' j = crt s j -> full_dec g s j -> full_dec g s' j.
Proof.
  intros C [Hsm Hall].
  assert (W : wits s' j = wits s j).
  { unfold wits, wl, crt in *. destruct (get_round s' j) as [r'|], (get_round s j) as [r|]; cbn in C; try discriminate; [|reflexivity].
    inversion C as [E]. unfold wl_of. rewrite E. reflexivity. }
  split; [rewrite W; exact Hsm|]. intros x Hx. rewrite W in Hx. destruct (Hall x Hx) as [v Hv]. exists v.
  apply frec_crt. apply frec_crt in Hv. rewrite C. exact Hv.
Qed.

Lemma full_decD_iff g st r : full_decD g st r <-> full_dec g st r.
Proof. unfold full_decD, full_dec. reflexivity. Qed.

Lemma full_dec_crtD g s s' j : crt s' j = crt s j -> full_decD g s j -> full_decD g s' j.
Proof. intros C D. apply full_decD_iff. apply (full_dec_crt g s s' j C). apply full_decD_iff. exact D. Qed.

(* the loop leaves the created tables alone, so "fully decided" can be read in the state it starts from *)
Lemma rr_loop_flag0 P x r : forall is_ st, passD P st ->
  flag (fst (rr_loop st x is_)) r -> flag st r \/ full_decD (P r) st r.
Proof.
  induction is_ as [|i rest IH]; intros st G; cbn [rr_loop]; [auto|].
  destruct (get_round st i) as [tr|] eqn:Hg;
    [|destruct (lower_bound st) as [lb0|]; [destruct (i <=? lb0); [apply IH; exact G|auto]|auto]].
  assert (Hi : 0 <= i) by (eapply get_round_some_nonneg; eauto).
  rewrite (pd_t _ _ G i) by (rewrite Hg; discriminate).
  destruct (witnesses_decided_cases tr (P i)) as [_ [_ Hn]].
  destruct (witnesses_decided tr (P i)) as [d tr'] eqn:Ewd. cbn [snd] in *.
  pose proof (witnesses_decided_state st i tr (P i) d tr' Hg Ewd) as W.
  set (st1 := st <| rounds := zset i tr' (rounds st) |>) in *. destruct W as [_ K1 C1 _ Eg1 _].
  assert (G1 : passD P st1) by (apply (passD_step P st st1 G (ckeep_ckeepD _ _ K1)), bview_set_rounds).
  assert (B1 : flag st1 r -> flag st r \/ full_decD (P r) st r).
  { intros [rj [Hgj Hdj]]. rewrite Eg1 in Hgj. destruct (Z.eqb_spec i r) as [<-|Hne]; [|left; exists rj; auto].
    inversion Hgj; subst rj. destruct (Hn Hdj) as [Hold|[Ex Hsm]]; [left; exists tr; auto|right].
    apply (full_dec_of_tableD P _ st i tr (pd_i _ _ G) Hg Ex Hsm). }
  assert (Next : flag (fst (rr_loop st1 x rest)) r -> flag st r \/ full_decD (P r) st r).
  { intros Hfl. destruct (IH st1 G1 Hfl) as [H|H]; [exact (B1 H)|right].
    apply (full_dec_crtD (P r) st1 st r (eq_sym (C1 r)) H). }
  assert (Same : forall s_end, rounds s_end = rounds st1 -> flag s_end r -> flag st r \/ full_decD (P r) st r).
  { intros s_end E H. apply B1. revert H. apply flag_rounds. exact E. }
  destruct d; cbn [negb].
  - match goal with |- context [fold_left ?f ?l ?a] => destruct (fold_left f l a) as [sees|] end;
      [|cbn [fst]; apply Same; reflexivity].
    destruct (_ && _); [|exact Next].
    destruct (get_event st1 x) as [ex|]; cbn [fst]; [|apply Same; reflexivity].
    set (st2 := set_evst st1 x (ex <| ev_rr := Some i |>)). set (tr2 := tr' <| ri_received := ri_received tr' ++ [x] |>).
    intros [rj [Hgj Hdj]]. apply B1.
    rewrite (get_round_zset st2 (set_round st2 i tr2) i tr2 r Hi) in Hgj by (reflexivity).
    destruct (Z.eqb_spec i r) as [<-|Hne].
    + inversion Hgj; subst rj. exists tr'. split; [rewrite Eg1, Z.eqb_refl; reflexivity|exact Hdj].
    + exists rj. split; [exact Hgj|exact Hdj].
  - destruct (lower_bound st1) as [lb|]; [|apply Same; reflexivity].
    destruct (lb <? i); [apply Same; reflexivity|exact Next].
Qed.

Lemma decide_rr_one_failed_stuck s und y : failed s = true -> decide_rr_one (s, und) y = (s, und).
Proof. intros Hf. unfold decide_rr_one. rewrite Hf. reflexivity. Qed.

(* in a state that has not failed: the round of a stored event is memoised, so Round reads it and the state stays *)
Lemma decide_rr_one_eq P s und y : cinvD P None s -> failed s = false ->
  decide_rr_one (s, und) y =
  match rmemo s y with
  | Some r => let '(s', received) := rr_loop s y (zrange (r + 1) (last_round s)) in (s', if received then und else und ++ [y])
  | None => (fail s, und)
  end.
Proof.
  intros I Hf. unfold decide_rr_one. rewrite Hf. unfold fuel_of.
  pose proof (round_f_pureD P (Z.to_nat (topo s)) s y I) as Hp.
  destruct (rmemo s y) as [r|] eqn:E; [rewrite (round_f_memo_hit _ s y r E); reflexivity|].
  destruct (round_f (S (Z.to_nat (topo s))) s y) as [[r|] s1] eqn:Erf; cbn [snd] in Hp; subst s1; [exfalso|reflexivity].
  cbn [round_f] in Erf. unfold rmemo in E. rewrite E in Erf.
  destruct (get_event s y) as [ey|] eqn:Hy; [|discriminate].
  destruct (cd_all _ _ _ I y ey Hy ltac:(discriminate)) as [r' [w [Hr' _]]]. unfold rmemo in Hr'. congruence.
Qed.

Lemma decide_rr_one_flag0 P s und x r : passD P s ->
  flag (fst (decide_rr_one (s, und) x)) r -> flag s r \/ full_decD (P r) s r.
Proof.
  intros G. destruct (failed s) eqn:Hf; [rewrite (decide_rr_one_failed_stuck s und x Hf); auto|].
  rewrite (decide_rr_one_eq P s und x (pd_i _ _ G) Hf). destruct (rmemo s x) as [r0|].
  - pose proof (rr_loop_flag0 P x r (zrange (r0 + 1) (last_round s)) s G) as H.
    destruct (rr_loop s x (zrange (r0 + 1) (last_round s))) as [s' received]. exact H.
  - cbn [fst]. intros H. left. revert H. apply flag_rounds. reflexivity.
Qed.

Lemma decide_rr_one_gT P s und x : gT P s -> gT P (fst (decide_rr_one (s, und) x)).
Proof.
  intros G. apply (gT_step P s _ G); [apply (decide_rr_one_ckeepD P), (gt_i _ _ G)|
    apply decide_rr_one_bview|apply (s_lr _ _ (decide_rr_one_rstep s und x (gT_bounded P s G)))].
Qed.

(* an invariant of the loop over the undetermined events in DecideRoundReceived: Q is read of the events still to
   come, the state and the new undetermined list; st is the state the pass started from *)
Lemma decide_rr_fold P st (Q : list Z -> hg -> list Z -> Prop) :
  (forall y l s und, gT P s -> rinv s -> ckeepD st s -> Q (y :: l) s und ->
     Q l (fst (decide_rr_one (s, und) y)) (snd (decide_rr_one (s, und) y))) ->
  forall l s und, gT P s -> rinv s -> ckeepD st s -> Q l s und ->
    Q [] (fst (fold_left decide_rr_one l (s, und))) (snd (fold_left decide_rr_one l (s, und))).
Proof.
  intros Step. induction l as [|y l IH]; intros s und G R K H; cbn [fold_left]; [exact H|].
  specialize (Step y l s und G R K H).
  pose proof (decide_rr_one_gT P s und y G) as G1. pose proof (decide_rr_one_rinv s und y R) as R1.
  pose proof (decide_rr_one_ckeepD P s und y (gt_i _ _ G)) as K1.
  destruct (decide_rr_one (s, und) y) as [s' und']. cbn [fst snd] in *.
  exact (IH s' und' G1 R1 (ckeepD_trans _ _ _ K K1) Step).
Qed.

(* the same for the whole pass: its result has the tables of the state s the loop ends in, and the list the loop has
   built unless s has failed *)
Lemma decide_round_received_fold P st (Q : list Z -> hg -> list Z -> Prop) :
  (forall y l s und, gT P s -> rinv s -> ckeepD st s -> Q (y :: l) s und ->
     Q l (fst (decide_rr_one (s, und) y)) (snd (decide_rr_one (s, und) y))) ->
  gT P st -> rinv st -> Q (undetermined st) st [] ->
  exists s und, Q [] s und /\ cw (decide_round_received st) = cw s /\
    failed (decide_round_received st) = failed s /\ (failed s = false -> undetermined (decide_round_received st) = und).
Proof.
  intros Step G R H0. pose proof (decide_rr_fold P st Q Step (undetermined st) st [] G R (ckeepD_refl st) H0) as H.
  unfold decide_round_received.
  destruct (fold_left decide_rr_one (undetermined st) (st, [])) as [s und]. cbn [fst snd] in H.
  exists s, und. split; [exact H|].
  destruct (failed s) eqn:Hf; (split; [reflexivity|split; [exact Hf|]]); [discriminate|reflexivity].
Qed.

(* the pass leaves the created tables alone as its loop does *)
Lemma decide_round_received_flag0 P st r : gT P st -> rinv st ->
  flag (decide_round_received st) r -> flag st r \/ full_decD (P r) st r.
Proof.
  intros G R.
  destruct (decide_round_received_fold P st (fun _ s _ => crt s r = crt st r /\ (flag s r -> flag st r \/ full_decD (P r) st r)))
    as [s [und [[_ H] [C _]]]]; [|exact G|exact R|exact (conj eq_refl (fun H0 => or_introl H0))|].
  - intros y l s und Gs _ _ [Cs Q]. split; [rewrite decide_rr_one_crt; exact Cs|].
    intros Hfl. destruct (decide_rr_one_flag0 P s und y r (gT_passD _ _ Gs) Hfl) as [H|H]; [exact (Q H)|right].
    exact (full_dec_crtD (P r) s st r (eq_sym Cs) H).
  - intros Hfl. apply H. exact (flag_rounds _ _ (proj1 (proj2 (cw_fields _ _ C))) r Hfl).
Qed.

Lemma decide_round_received_flagD P st r : gT P st -> rinv st ->
  flag (decide_round_received st) r -> flag st r \/ full_decD (P r) (decide_round_received st) r.
Proof.
  intros G R Hfl. destruct (decide_round_received_flag0 P st r G R Hfl) as [H|H]; [auto|right].
  exact (full_dec_crtD (P r) st _ r (decide_round_received_crt st r) H).
Qed.

Lemma hstep_tmonoD P all st o : stepD P all st o -> tmono st (hstep st o).
Proof.
  intros Sd. destruct (hstep_stagesD P all st o Sd) as [[C _]|[e [s [s1 [s2 [s3 [-> Sg]]]]]]].
  { apply tmono_rounds, (cw_fields _ _ C). }
  destruct Sg as [_ _ _ Rs E1 E2 E3 E4 _ _ G1 _ _ _]. rewrite E4.
  eapply tmono_trans; [apply tmono_rounds; exact Rs|].
  eapply tmono_trans; [apply tmono_divide_rounds|]. rewrite <- E1.
  eapply tmono_trans; [apply (decide_fame_tmonoD P), (gt_i _ _ G1)|]. rewrite <- E2.
  eapply tmono_trans; [apply decide_round_received_tmono|]. rewrite <- E3.
  apply tmono_rounds, (cw_fields _ _ (cw_process_decided_rounds s3)).
Qed.

Lemma hstep_flagD P all st o r : stepD P all st o ->
  flag (hstep st o) r -> flag st r \/ full_decD (P r) (hstep st o) r.
Proof.
  intros Sd. destruct (hstep_stagesD P all st o Sd) as [[C _]|[e [s [s1 [s2 [s3 [-> Sg]]]]]]].
  { intros H. left. revert H. apply flag_rounds, (cw_fields _ _ C). }
  destruct Sg as [_ _ _ Rs E1 E2 E3 E4 _ _ G1 G2 R2 _]. rewrite E4.
  apply (flag_or_cw _ r st s3 _ (cw_process_decided_rounds s3)). rewrite E3.
  apply (flag_or_trans _ r st s2 _ (decide_round_received_ckeepD P s2 (gt_i _ _ G2)) (decide_round_received_tmono s2));
    [|apply (decide_round_received_flagD P s2 r G2 R2)].
  rewrite E2. intros H2. destruct (decide_fame_flagD P s1 r (gT_passD _ _ G1) H2) as [H1|H1]; [left|right; exact H1].
  apply (flag_rounds st s Rs). apply flag_divide_rounds. rewrite <- E1. exact H1.
Qed.

Section AlongFlag.
  Variables (P : Z -> peerset) (all : list event) (self_ : Z) (genesis : peerset) (oracle_ : list Z) (ops : list hop).
  Hypothesis A : along P all self_ genesis oracle_ ops.

  Lemma along_tmono k d : failed (prefix self_ genesis oracle_ ops (k + d)) = false -> tmono (prefix self_ genesis oracle_ ops k) (prefix self_ genesis oracle_ ops (k + d)).
  Proof.
    apply (along_rel P all self_ genesis oracle_ ops A tmono tmono_refl tmono_trans). intros j o. apply hstep_tmonoD.
  Qed.

  Lemma along_stored k d y : failed (prefix self_ genesis oracle_ ops (k + d)) = false -> get_event (prefix self_ genesis oracle_ ops k) y <> None -> get_event (prefix self_ genesis oracle_ ops (k + d)) y <> None.
  Proof.
    apply (along_rel P all self_ genesis oracle_ ops A (fun s s' => get_event s y <> None -> get_event s' y <> None)); [auto|auto|].
    intros j o Sd. apply (hstep_stored all _ o y (sd_id _ _ _ _ Sd) (sd_o _ _ _ _ Sd) (sd_g _ _ _ _ Sd)).
  Qed.

  (* a set flag was set in a state of the run where the round was fully decided *)
  Theorem flag_historyD k r : failed (prefix self_ genesis oracle_ ops k) = false -> flag (prefix self_ genesis oracle_ ops k) r ->
    exists k0, (k0 <= k)%nat /\ full_decD (P r) (prefix self_ genesis oracle_ ops k0) r.
  Proof.
    revert k. apply (along_ind_k P all self_ genesis oracle_ ops A
                       (fun k => flag (prefix self_ genesis oracle_ ops k) r -> exists k0, (k0 <= k)%nat /\ full_decD (P r) (prefix self_ genesis oracle_ ops k0) r)).
    - intros [ri [Hgr _]]. unfold prefix in Hgr. cbn [firstn hrun fold_left] in Hgr. rewrite init_no_round in Hgr. discriminate.
    - intros k E IH Hfl. rewrite E in Hfl. destruct (IH Hfl) as [k0 [Hle D]]. exists k0. split; [lia|exact D].
    - intros k o ES Sd IH Hfl. rewrite ES in Hfl. destruct (hstep_flagD P all _ o r Sd Hfl) as [H0|H0].
      + destruct (IH H0) as [k0 [Hle D]]. exists k0. split; [lia|exact D].
      + exists (S k). split; [lia|]. rewrite ES. exact H0.
  Qed.

  (* the famous witnesses of a round do not change after it has been fully decided *)
  Theorem famous_stableD k d r x : failed (prefix self_ genesis oracle_ ops (k + d)) = false ->
    full_decD (P r) (prefix self_ genesis oracle_ ops k) r -> (frec (prefix self_ genesis oracle_ ops (k + d)) r x true <-> frec (prefix self_ genesis oracle_ ops k) r x true).
  Proof.
    intros Hf D. pose proof (along_failed_mono P all self_ genesis oracle_ ops A k d Hf) as Hfk.
    destruct (along_facts P all self_ genesis oracle_ ops A k Hfk) as [GiT [_ [RT [_ [_ GT]]]]].
    destruct (along_facts P all self_ genesis oracle_ ops A (k + d) Hf) as [Gi [_ [R [_ [_ G]]]]].
    pose proof (along_FI P all self_ genesis oracle_ ops A k Hfk) as FT.
    pose proof (along_FI P all self_ genesis oracle_ ops A (k + d) Hf) as F.
    split; [|apply (tmono_frec (prefix self_ genesis oracle_ ops k) _ r x true (along_tmono k d Hf))].
    intros Hr.
    pose proof (same_bodies_ginv all P _ _ (al_id _ _ _ _ _ _ A) Gi GiT G GT) as SB.
    assert (NFk : no_cross_fork (prefix self_ genesis oracle_ ops (k + d)) (prefix self_ genesis oracle_ ops k)).
    { intros x1 x2 e1 e2 H1 H2 Hc Hi.
      assert (H2' : get_event (prefix self_ genesis oracle_ ops (k + d)) x2 <> None) by (apply (along_stored k d x2 Hf); rewrite H2; discriminate).
      destruct (get_event (prefix self_ genesis oracle_ ops (k + d)) x2) as [e2'|] eqn:E2; [|contradiction].
      apply (dag_ok_no_fork (prefix self_ genesis oracle_ ops (k + d)) x1 x2 e1 e2' (gD_dag _ _ G) H1 E2); rewrite (SB x2 e2' e2 E2 H2); assumption. }
    apply (famous_transferD P (prefix self_ genesis oracle_ ops (k + d)) (prefix self_ genesis oracle_ ops k) G GT (rinv_contig _ R) (rinv_contig _ RT) R RT F FT SB NFk
             (along_tbl P all self_ genesis oracle_ ops A (k + d)) (along_tbl P all self_ genesis oracle_ ops A k) r x Hr D).
  Qed.

  (* in the final state: a flagged round was fully decided at some prefix, and has the famous witnesses it had there *)
  Lemma flag_decided_prefix r : failed (hrun (init_hg self_ genesis oracle_) ops) = false ->
    flag (hrun (init_hg self_ genesis oracle_) ops) r ->
    exists k, failed (prefix self_ genesis oracle_ ops k) = false /\ full_decD (P r) (prefix self_ genesis oracle_ ops k) r /\
      (forall x, frec (hrun (init_hg self_ genesis oracle_) ops) r x true <-> frec (prefix self_ genesis oracle_ ops k) r x true) /\
      (forall y, get_event (prefix self_ genesis oracle_ ops k) y <> None -> get_event (hrun (init_hg self_ genesis oracle_) ops) y <> None).
  Proof.
    rewrite <- prefix_length. intros Hf Hfl.
    destruct (flag_historyD (length ops) r Hf Hfl) as [k [Hk D]]. exists k.
    replace (length ops) with (k + (length ops - k))%nat in * by lia.
    split; [apply (along_failed_mono P all self_ genesis oracle_ ops A k _ Hf)|]. split; [exact D|].
    split; [intros x; apply (famous_stableD k _ r x Hf D)|intros y; apply (along_stored k _ y Hf)].
  Qed.
End AlongFlag.

(* two nodes whose round r is flagged decided hold the same famous witnesses of round r *)
Theorem famous_agree_flags_along P all s1 s2 g1 g2 o1 o2 ops1 ops2 r x :
  along P all s1 g1 o1 ops1 -> along P all s2 g2 o2 ops2 ->
  let st1 := hrun (init_hg s1 g1 o1) ops1 in
  let st2 := hrun (init_hg s2 g2 o2) ops2 in
  failed st1 = false -> failed st2 = false -> no_cross_fork st1 st2 -> flag st1 r -> flag st2 r ->
  (frec st1 r x true <-> frec st2 r x true).
Proof.
  intros A1 A2 st1 st2 F1 F2 NF Fl1 Fl2. pose proof (al_id _ _ _ _ _ _ A1) as ID.
  destruct (flag_decided_prefix P all s1 g1 o1 ops1 A1 r F1 Fl1) as [k1 [Fk1 [D1 [St1 Sub1]]]].
  destruct (flag_decided_prefix P all s2 g2 o2 ops2 A2 r F2 Fl2) as [k2 [Fk2 [D2 [St2 Sub2]]]].
  destruct (along_facts P all s1 g1 o1 ops1 A1 k1 Fk1) as [Gi1 [_ [RT1 [_ [_ GT1]]]]].
  destruct (along_facts P all s2 g2 o2 ops2 A2 k2 Fk2) as [Gi2 [_ [RT2 [_ [_ GT2]]]]].
  destruct (along_final P all s1 g1 o1 ops1 A1 F1) as [GiF1 [_ [_ [_ [_ G1]]]]].
  destruct (along_final P all s2 g2 o2 ops2 A2 F2) as [GiF2 [_ [_ [_ [_ G2]]]]].
  pose proof (along_FI P all s1 g1 o1 ops1 A1 k1 Fk1) as FT1. pose proof (along_FI P all s2 g2 o2 ops2 A2 k2 Fk2) as FT2.
  pose proof (along_tbl P all s1 g1 o1 ops1 A1 k1) as TT1. pose proof (along_tbl P all s2 g2 o2 ops2 A2 k2) as TT2.
  fold st1 in St1, Sub1, GiF1, G1. fold st2 in St2, Sub2, GiF2, G2.
  set (p1 := prefix s1 g1 o1 ops1 k1) in *. set (p2 := prefix s2 g2 o2 ops2 k2) in *.
  pose proof (same_bodies_ginv all P p1 p2 ID Gi1 Gi2 GT1 GT2) as SBT.
  pose proof (same_bodies_ginv all P p1 st1 ID Gi1 GiF1 GT1 G1) as SB1.
  pose proof (same_bodies_ginv all P p2 st2 ID Gi2 GiF2 GT2 G2) as SB2.
  (* the two prefixes hold events of the final states, which do not fork each other *)
  assert (NFT : no_cross_fork p1 p2).
  { intros x1 x2 e1 e2 Hx1 Hx2 Hc Hi.
    assert (B1 : get_event st1 x1 <> None) by (apply Sub1; rewrite Hx1; discriminate).
    assert (B2 : get_event st2 x2 <> None) by (apply Sub2; rewrite Hx2; discriminate).
    destruct (get_event st1 x1) as [e1'|] eqn:Ex1; [|contradiction].
    destruct (get_event st2 x2) as [e2'|] eqn:Ex2; [|contradiction].
    apply (NF x1 x2 e1' e2' Ex1 Ex2); rewrite <- (SB1 x1 e1 e1' Hx1 Ex1), <- (SB2 x2 e2 e2' Hx2 Ex2); assumption. }
  split; intros Hfr.
  - apply St2.
    apply (famous_transferD P p1 p2 GT1 GT2 (rinv_contig _ RT1) (rinv_contig _ RT2) RT1 RT2 FT1 FT2 SBT NFT TT1 TT2 r x (proj1 (St1 x) Hfr) D2).
  - apply St1.
    apply (famous_transferD P p2 p1 GT2 GT1 (rinv_contig _ RT2) (rinv_contig _ RT1) RT2 RT1 FT2 FT1
             (same_bodies_sym _ _ SBT) (no_cross_fork_sym _ _ NFT) TT2 TT1 r x (proj1 (St2 x) Hfr) D1).
Qed.

(* in the vocabulary of the model *)
Theorem famous_witnesses_agree_decided_along P all s1 s2 g1 g2 o1 o2 ops1 ops2 r ri1 ri2 x :
  along P all s1 g1 o1 ops1 -> along P all s2 g2 o2 ops2 ->
  let st1 := hrun (init_hg s1 g1 o1) ops1 in
  let st2 := hrun (init_hg s2 g2 o2) ops2 in
  failed st1 = false -> failed st2 = false -> no_cross_fork st1 st2 ->
  get_round st1 r = Some ri1 -> get_round st2 r = Some ri2 ->
  ri_decided ri1 = true -> ri_decided ri2 = true ->
  (In x (famous_witnesses ri1) <-> In x (famous_witnesses ri2)).
Proof.
  intros A1 A2 st1 st2 F1 F2 NF Hg1 Hg2 Hd1 Hd2.
  destruct (along_final P all s1 g1 o1 ops1 A1 F1) as [_ [_ [_ [_ [_ G1]]]]].
  destruct (along_final P all s2 g2 o2 ops2 A2 F2) as [_ [_ [_ [_ [_ G2]]]]].
  rewrite (famous_witnesses_frecD _ st1 r ri1 x G1 Hg1), (famous_witnesses_frecD _ st2 r ri2 x G2 Hg2).
  apply (famous_agree_flags_along P all s1 s2 g1 g2 o1 o2 ops1 ops2 r x A1 A2 F1 F2 NF); [exists ri1|exists ri2]; auto.
Qed.

(* two such runs whose tables agree are runs along one common assignment *)
Lemma two_runs_along all s1 s2 g1 g2 o1 o2 ops1 ops2 :
  ids_determine all -> s1 <> -1 -> s2 <> -1 ->
  Forall (hop_ok all) ops1 -> Forall (hop_ok all) ops2 ->
  gap_runb (init_hg s1 g1 o1) ops1 = true -> gap_runb (init_hg s2 g2 o2) ops2 = true ->
  let st1 := hrun (init_hg s1 g1 o1) ops1 in
  let st2 := hrun (init_hg s2 g2 o2) ops2 in
  failed st1 = false -> failed st2 = false -> tables_agree st1 st2 ->
  exists P, along P all s1 g1 o1 ops1 /\ along P all s2 g2 o2 ops2.
Proof.
  intros ID S1 S2 H1 H2 B1 B2 st1 st2 F1 F2 T.
  destruct (two_runs_common all s1 s2 g1 g2 o1 o2 ops1 ops2 ID S1 S2 H1 H2 B1 B2 F1 F2 T) as [P [_ [_ [_ [_ [T1 [T2 _]]]]]]].
  exists P. split; apply gap_along; try assumption.
  - intros q Hq. pose proof (T1 q Hq) as E. rewrite (psat_some s1 g1 o1 ops1 q S1) in E. inversion E. reflexivity.
  - intros q Hq. pose proof (T2 q Hq) as E. rewrite (psat_some s2 g2 o2 ops2 q S2) in E. inversion E. reflexivity.
Qed.

Theorem famous_agree_flags_gap :
  forall all s1 s2 g1 g2 o1 o2 ops1 ops2 r x,
  ids_determine all -> s1 <> -1 -> s2 <> -1 ->
  Forall (hop_ok all) ops1 -> Forall (hop_ok all) ops2 ->
  gap_runb (init_hg s1 g1 o1) ops1 = true -> gap_runb (init_hg s2 g2 o2) ops2 = true ->
  let st1 := hrun (init_hg s1 g1 o1) ops1 in
  let st2 := hrun (init_hg s2 g2 o2) ops2 in
  failed st1 = false -> failed st2 = false -> tables_agree st1 st2 -> no_cross_fork st1 st2 ->
  flag st1 r -> flag st2 r ->
  (frec st1 r x true <-> frec st2 r x true).
Proof.
  intros all s1 s2 g1 g2 o1 o2 ops1 ops2 r x ID S1 S2 H1 H2 B1 B2 st1 st2 F1 F2 T.
  destruct (two_runs_along all s1 s2 g1 g2 o1 o2 ops1 ops2 ID S1 S2 H1 H2 B1 B2 F1 F2 T) as [P [A1 A2]].
  apply (famous_agree_flags_along P all s1 s2 g1 g2 o1 o2 ops1 ops2 r x A1 A2 F1 F2).
Qed.

Theorem famous_witnesses_agree_decided_gap :
  forall all s1 s2 g1 g2 o1 o2 ops1 ops2 r ri1 ri2 x,
  ids_determine all -> s1 <> -1 -> s2 <> -1 ->
  Forall (hop_ok all) ops1 -> Forall (hop_ok all) ops2 ->
  gap_runb (init_hg s1 g1 o1) ops1 = true -> gap_runb (init_hg s2 g2 o2) ops2 = true ->
  let st1 := hrun (init_hg s1 g1 o1) ops1 in
  let st2 := hrun (init_hg s2 g2 o2) ops2 in
  failed st1 = false -> failed st2 = false -> tables_agree st1 st2 -> no_cross_fork st1 st2 ->
  get_round st1 r = Some ri1 -> get_round st2 r = Some ri2 ->
  ri_decided ri1 = true -> ri_decided ri2 = true ->
  (In x (famous_witnesses ri1) <-> In x (famous_witnesses ri2)).
Proof.
  intros all s1 s2 g1 g2 o1 o2 ops1 ops2 r ri1 ri2 x ID S1 S2 H1 H2 B1 B2 st1 st2 F1 F2 T.
  destruct (two_runs_along all s1 s2 g1 g2 o1 o2 ops1 ops2 ID S1 S2 H1 H2 B1 B2 F1 F2 T) as [P [A1 A2]].
  apply (famous_witnesses_agree_decided_along P all s1 s2 g1 g2 o1 o2 ops1 ops2 r ri1 ri2 x A1 A2 F1 F2).
Qed.

(* static membership: the constant assignment *)
Lemma good_passD g st : good g st -> passD (fun _ => g) st.
Proof.
  intros G. constructor; [apply cinv_cinvD, (gd_c _ _ G)|].
  intros i _. apply get_peerset_static, (c_static _ _ _ (gd_c _ _ G)).
Qed.

Theorem famous_witnesses_agree_decided_hrun :
  forall genesis all self1 self2 oracle1 oracle2 ops1 ops2 r ri1 ri2 x,
  ids_determine all -> no_accept all -> Forall (hop_ok all) ops1 -> Forall (hop_ok all) ops2 ->
  let st1 := hrun (init_hg self1 genesis oracle1) ops1 in
  let st2 := hrun (init_hg self2 genesis oracle2) ops2 in
  no_cross_fork st1 st2 ->
  get_round st1 r = Some ri1 -> get_round st2 r = Some ri2 ->
  ri_decided ri1 = true -> ri_decided ri2 = true ->
  (In x (famous_witnesses ri1) <-> In x (famous_witnesses ri2)).
Proof.
  intros g all s1 s2 o1 o2 ops1 ops2 r ri1 ri2 x ID NA H1 H2.
  apply (famous_witnesses_agree_decided_along _ all s1 s2 g g o1 o2 ops1 ops2 r ri1 ri2 x
           (static_along g all s1 o1 ops1 ID NA H1) (static_along g all s2 o2 ops2 ID NA H2)
           (static_not_failed g all s1 o1 ops1 ID NA H1) (static_not_failed g all s2 o2 ops2 ID NA H2)).
Qed.
