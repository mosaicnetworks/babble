(* C13, serving side: for every state a full-history node can reach, the frame of a delivered block
   records exactly the validator-set table that the replay of the EARLIER delivered blocks gives
   (C10's specification), and the latest set of that table is core.validators of that moment.
   Hence a node that resets itself from an anchor block + frame and then applies the block's
   receipts ends with the table and the validators a full-history node has right after committing
   the anchor block ([reset_table_is_replay]).  [anchor_answer]: what GetAnchorBlockWithFrame returns
   on a reachable state. *)
From Coq Require Import ZArith List Bool Lia ZifyBool Sorted.
From RecordUpdate Require Import RecordSet.
From V Require Import Model.ZMap Model.Quorum Model.Voting Model.HgImpl Model.HgReset Model.PeerSetSpec
  Proofs.ZMapFacts Proofs.HgFrames Proofs.HgBlockFrames Proofs.AdmissionProofs Proofs.BlockInv Proofs.RoundOrder
  Proofs.OrderFrames Proofs.OrderProofs Proofs.PeerSetProofs Proofs.ResetProofs.
Import ListNotations RecordSetNotations.
Open Scope Z_scope.

(* [ff_validators] (what core.fastForward assigns to core.validators) as a function of a table: the
   peer set of its latest entry.  On a replayed table that is core.validators ([replay_latest]) *)
Definition tbl_validators (t : list (Z * peerset)) (dflt : peerset) : peerset :=
  match latest_peerset t with
  | (lr, Some ps) => if 0 <=? lr then ps else dflt
  | (_, None) => dflt
  end.

Lemma ff_validators_tbl f : ff_validators f = tbl_validators (f_peersets f) (f_peers f).
Proof. reflexivity. Qed.

Definition latest_step (acc : Z * option peerset) (rp : Z * peerset) : Z * option peerset :=
  if fst acc <? fst rp then (fst rp, Some (snd rp)) else acc.

Lemma latest_below t k : (forall k' p, In (k', p) t -> k' < k) ->
  forall acc, fst acc < k -> fst (fold_left latest_step t acc) < k.
Proof.
  induction t as [|[k' p] r IH]; intros H acc Ha; cbn [fold_left]; [exact Ha|].
  apply IH; [intros k0 p0 Hin; apply (H k0 p0); right; exact Hin|].
  unfold latest_step. cbn [fst snd]. destruct (fst acc <? k'); [apply (H k' p); left; reflexivity|exact Ha].
Qed.

Lemma tbl_validators_snoc t k ps dflt :
  0 <= k -> (forall k' p, In (k', p) t -> k' < k) -> tbl_validators (t ++ [(k, ps)]) dflt = ps.
Proof.
  intros Hk Hlt. unfold tbl_validators, latest_peerset. fold latest_step. rewrite fold_left_app. cbn [fold_left].
  pose proof (latest_below t k Hlt (-1, None) ltac:(cbn [fst]; lia)) as Ha.
  unfold latest_step at 1. cbn [fst snd]. apply Z.ltb_lt in Ha. rewrite Ha.
  replace (0 <=? k) with true by lia. reflexivity.
Qed.

(* the replay of blocks with increasing, non-negative round-received: the table ends with the
   current validators *)
Lemma replay_latest genesis ds dflt :
  rr_increasing_list ds -> Forall (fun d => 0 <= b_rr d) ds ->
  tbl_validators (fst (replay_genesis genesis ds)) dflt = snd (replay_genesis genesis ds).
Proof.
  intros S F. induction ds as [|d ds IH] using rev_ind; [reflexivity|].
  unfold rr_increasing_list in S. rewrite map_app in S. cbn [map] in S.
  apply Forall_app in F. destruct F as [F' Fd]. apply Forall_inv in Fd.
  specialize (IH (sorted_app_l _ _ S) F').
  assert (Hkeys : forall k p, In (k, p) (fst (replay_genesis genesis ds)) -> k < b_rr d + 6).
  { intros k p HI. destruct (replay_keys _ _ _ _ _ HI) as [[p0 [E|[]]]|[d' [A ->]]]; [inversion E; lia|].
    pose proof (sorted_snoc_lt _ _ _ S (in_map b_rr _ _ A)). lia. }
  unfold replay_genesis in *. rewrite replay_snoc.
  destruct (replay [(0, genesis)] genesis ds) as [T V]. cbn [fst snd] in *.
  unfold replay_block, replay_step. cbn [fst snd].
  destruct (snd (apply_receipts V (b_itxs d))); [|exact IH].
  rewrite (proj2 (table_has_false _ _)) by (intros p HI; specialize (Hkeys _ _ HI); lia).
  cbn [fst snd]. rewrite insert_above_all by exact Hkeys. apply tbl_validators_snoc; [lia|exact Hkeys].
Qed.

(* a frame is cached only for a processed round *)
Definition flc (st : hg) : Prop :=
  forall rr f, zget rr (frames st) = Some f ->
    match last_consensus st with Some l => rr <= l | None => False end.

(* the frame of a delivered block records the table replayed from the earlier delivered blocks *)
Definition dtab (genesis : peerset) (st : hg) : Prop :=
  forall ds1 d ds2, delivered st = ds1 ++ d :: ds2 ->
    f_peersets (b_frame d) = fst (replay_genesis genesis ds1).

Lemma dtab_snoc g ds bf :
  (forall ds1 d ds2, ds = ds1 ++ d :: ds2 -> f_peersets (b_frame d) = fst (replay_genesis g ds1)) ->
  f_peersets (b_frame bf) = fst (replay_genesis g ds) ->
  forall ds1 d ds2, ds ++ [bf] = ds1 ++ d :: ds2 -> f_peersets (b_frame d) = fst (replay_genesis g ds1).
Proof.
  intros Hold Hnew ds1 d ds2 E.
  induction ds2 as [|x ds2' _] using rev_ind.
  - apply app_inj_tail in E. destruct E as [-> ->]. exact Hnew.
  - rewrite app_comm_cons, app_assoc in E. apply app_inj_tail in E. destruct E as [E _].
    eapply Hold; eauto.
Qed.

(* both read the frame cache, the last consensus round and the delivered list *)
Definition sview (st : hg) := (frames st, last_consensus st, delivered st).

Lemma ft_sview g st st' : sview st' = sview st -> flc st /\ dtab g st -> flc st' /\ dtab g st'.
Proof. unfold sview, flc, dtab. intros E. injection E as -> -> ->. auto. Qed.

Lemma bview_sview st st' : bview st' = bview st -> sview st' = sview st.
Proof. intros E. exact (f_equal (fun v => let '(_, _, d, _, _, _, _, _, _, f, l) := v in (f, l, d)) E). Qed.

Lemma process_round_ft g s p stop pr :
  rinvA s -> lc_lt s (fst pr) -> c10inv g s -> flc s /\ dtab g s ->
  flc (fst (fst (process_round (s, p, stop) pr))) /\ dtab g (fst (fst (process_round (s, p, stop) pr))).
Proof.
  intros A Hlt C [FL DT]. unfold process_round.
  assert (Ffail : forall s0, flc s0 /\ dtab g s0 -> flc (fail s0) /\ dtab g (fail s0)) by (intros s0; apply ft_sview; reflexivity).
  destruct (stop || failed s); [cbn [fst]; auto|].
  destruct (negb (snd pr)); [cbn [fst]; auto|].
  destruct (get_round s (fst pr)) as [ri|]; [|cbn [fst]; auto].
  destruct (get_frame s (fst pr)) as [[f|] s1] eqn:Hgf.
  2:{ apply get_frame_none in Hgf. subst s1. cbn [fst]. auto. }
  cbn [fst].
  set (r := fst pr) in *.
  (* below its last consensus round only: the frame is not cached yet *)
  assert (Old : forall rr f0, zget rr (frames s) = Some f0 -> rr < r).
  { intros rr f0 H0. specialize (FL rr f0 H0). unfold lc_lt in Hlt. destruct (last_consensus s); [lia|contradiction]. }
  assert (Hnone : zget r (frames s) = None).
  { destruct (zget r (frames s)) as [f0|] eqn:Hc; [|reflexivity]. specialize (Old r f0 Hc). lia. }
  destruct (get_frame_fresh s r f s1 Hnone Hgf) as [Hfr [Hps [_ [Hr0 Hfs1]]]].
  destruct (get_frame_spec s r f s1 (r_frames s A) Hgf) as [_ [Hd1 [_ [_ [_ [Hc1 _]]]]]].
  pose proof (f_equal (fun v => let '(_, _, _, lc, _, fr, _) := v in (lc, fr)) (process_frame_cv s1 f)) as C2.
  injection C2 as Lc2 Fr2.
  destruct (bump_keep (process_frame s1 f) r) as [_ [Fr3 Dl3]].
  split.
  - intros rr f0. rewrite Fr3, Fr2, Hfs1, bump_lc by (unfold lc_lt; rewrite Lc2, Hc1; exact Hlt).
    rewrite zget_zset. destruct (Z.eqb_spec r rr) as [<-|Hne]; cbn [andb].
    + destruct (0 <=? r); [intros _; lia|]. intros H0. specialize (Old _ _ H0). lia.
    + intros H0. specialize (Old _ _ H0). lia.
  - intros ds1 d ds2. rewrite Dl3.
    destruct (process_frame_delivered_pv s1 f) as [E|[bf [E Hpv]]]; rewrite E, Hd1; [apply DT|].
    apply dtab_snoc; [exact DT|]. assert (Hbf : b_frame bf = f) by (unfold pv in Hpv; congruence). rewrite Hbf, Hps.
    apply (f_equal fst (c_replay g s C)).
Qed.

Lemma c10_round g s p stop pr :
  binv s -> PeerSetProofs.finv s -> c10inv g s ->
  binv (fst (fst (process_round (s, p, stop) pr))) /\ PeerSetProofs.finv (fst (fst (process_round (s, p, stop) pr))) /\
  c10inv g (fst (fst (process_round (s, p, stop) pr))).
Proof.
  intros B F C. split; [apply process_round_binv; exact B|].
  apply (process_round_lift (c10inv g)); auto.
  - intros st st' E _. apply c10inv_ext; exact E.
  - apply c10inv_commit.
Qed.

Lemma process_fold_ft g l : forall s p stop,
  rinvA s -> StronglySorted Z.lt (map fst l) -> (forall r, In r (map fst l) -> lc_lt s r) ->
  binv s -> PeerSetProofs.finv s -> c10inv g s -> flc s /\ dtab g s ->
  flc (fst (fst (fold_left process_round l (s, p, stop)))) /\ dtab g (fst (fst (fold_left process_round l (s, p, stop)))).
Proof.
  induction l as [|pr l IH]; intros s p stop A S Hab B F C FD; cbn [fold_left]; [exact FD|].
  inversion S as [|a b S' Fa]; subst.
  assert (Hpr : lc_lt s (fst pr)) by (apply Hab; left; reflexivity).
  destruct (process_round_spec s p stop pr A Hpr) as [A1 [_ Cs]].
  pose proof (process_round_ft g s p stop pr A Hpr C FD) as FD1.
  destruct (c10_round g s p stop pr B F C) as [B1 [F1 C1]].
  destruct (process_round (s, p, stop) pr) as [[s1 p1] stop1] eqn:E. cbn [fst snd] in *.
  destruct Cs as [[-> [Hlc Hs]]|[-> [Hd Hlc]]].
  - rewrite (process_fold_stopped l s1 p stop1 Hs). exact FD1.
  - apply IH; auto. intros r Hr. unfold lc_lt. rewrite Hlc. rewrite Forall_forall in Fa. apply Fa. exact Hr.
Qed.

Lemma process_decided_rounds_ft g st :
  rinv st -> binv st -> PeerSetProofs.finv st -> c10inv g st -> flc st /\ dtab g st ->
  flc (process_decided_rounds st) /\ dtab g (process_decided_rounds st).
Proof.
  intros [A B] Bi F C FD. unfold process_decided_rounds.
  pose proof (process_fold_ft g (pending st) st [] false A (r_sorted st A) (r_above st B) Bi F C FD) as G.
  destruct (fold_left process_round (pending st) (st, [], false)) as [[s processed] stop]. cbn [fst] in G.
  revert G. apply ft_sview. reflexivity.
Qed.

(* a consensus pass either leaves the block view alone or ends with ProcessDecidedRounds from a
   state that has the same block view and whatever the three earlier passes establish when they
   do not fail *)
Lemma run_consensus_cases (P : hg -> Prop) st :
  (failed (divide_rounds st) = false -> P (divide_rounds st)) ->
  (forall s, P s -> failed (decide_fame s) = false -> P (decide_fame s)) ->
  (forall s, P s -> failed (decide_round_received s) = false -> P (decide_round_received s)) ->
  bview (run_consensus st) = bview st \/
  exists s3, bview s3 = bview st /\ P s3 /\ run_consensus st = process_decided_rounds s3.
Proof.
  intros H1 H2 H3. unfold run_consensus.
  pose proof (divide_rounds_bview st) as B1.
  destruct (failed (divide_rounds st)); [left; exact B1|]. specialize (H1 eq_refl).
  pose proof (decide_fame_bview (divide_rounds st)) as B2. specialize (H2 _ H1).
  destruct (failed (decide_fame _)); [left; congruence|]. specialize (H2 eq_refl).
  pose proof (decide_round_received_bview (decide_fame (divide_rounds st))) as B3. specialize (H3 _ H2).
  destruct (failed (decide_round_received _)); [left; congruence|].
  right. eexists. split; [|split; [exact (H3 eq_refl)|reflexivity]]. congruence.
Qed.

(* with the queue invariant *)
Lemma run_consensus_cases_rinv st : rtop st ->
  bview (run_consensus st) = bview st \/
  exists s3, bview s3 = bview st /\ rinv s3 /\ run_consensus st = process_decided_rounds s3.
Proof.
  intros [_ Hi]. apply (run_consensus_cases rinv).
  - intros F1. assert (I : rinv_f st) by (unfold rinv_f; destruct (failed st); [left; reflexivity|right; exact (Hi eq_refl)]).
    destruct (divide_rounds_rinv st I) as [F|I1]; [congruence|exact I1].
  - intros s I _. exact (decide_fame_rinv s I).
  - intros s I _. exact (rinv_rstep _ _ I (decide_round_received_rstep _ (proj1 (rinv_bounded _ I)))).
Qed.

(* the combined invariant of reachable full-history states *)
Record sinv (g : peerset) (st : hg) : Prop := {
  si_rtop : rtop st;
  si_binv : binv st;
  si_finv : PeerSetProofs.finv st;
  si_c10 : c10inv g st;
  si_flc : flc st;
  si_dtab : dtab g st
}.

Lemma hstep_sinv g st o : sinv g st -> sinv g (hstep st o).
Proof.
  intros [T B F C FL DT].
  pose proof (hstep_rtop st o T) as T'. pose proof (hstep_binv st o B) as B'.
  destruct (hstep_lift0 (c10inv g) (c10inv_ext g) (c10inv_commit g) (fun st s _ _ => c10inv_sig g st s) st o B F C) as [F' C'].
  assert (FD : flc (hstep st o) /\ dtab g (hstep st o)).
  { destruct o as [e|]; cbn [hstep].
    - unfold step, insert_and_run.
      pose proof (insert_event_bview st e) as Bv. pose proof (insert_event_rstep st e) as S. pose proof (insert_event_failed st e) as Fl.
      destruct (insert_event st e) as [r s]. cbn [snd] in *.
      (* nothing but ProcessDecidedRounds writes the block view *)
      assert (Keep : forall s', bview s' = bview st -> flc s' /\ dtab g s').
      { intros s' E. apply (ft_sview g st); [apply bview_sview; exact E|auto]. }
      destruct r; cbn [snd]; auto.
      destruct (run_consensus_cases_rinv s (rtop_rstep st s T S Fl)) as [E|[s3 [E [I3 ->]]]]; [apply Keep; congruence|].
      rewrite Bv in E.
      apply (process_decided_rounds_ft g s3 I3); [| | |apply Keep; exact E].
      + eapply binv_bview; eauto.
      + eapply finv_frames; [apply bview_frames; exact E|exact F].
      + eapply c10inv_ext; [apply bview_pview; exact E|exact C].
    - unfold process_sigpool. apply (ft_sview g st); [|auto].
      apply (fold_left_view sview). intros s sg. destruct (process_sig_rv s sg) as [E _].
      exact (f_equal (fun v => let '((_, _, _, lc, _, f, _), d) := v in (f, lc, d)) E). }
  destruct FD. constructor; auto.
Qed.

Lemma sinv_init g self_ oracle_ : self_ <> -1 -> sinv g (init_hg self_ g oracle_).
Proof.
  intros Hs.
  destruct (init_hg_spec self_ g oracle_) as (_ & _ & D & _ & _ & _ & _ & _ & _ & _ & Fr).
  constructor.
  - apply rinv_rtop, rinv_init.
  - apply binv_init.
  - apply finv_init.
  - apply c10inv_init; exact Hs.
  - intros rr f. rewrite Fr, zget_empty. discriminate.
  - intros ds1 d ds2. rewrite D. intros H. destruct ds1; discriminate.
Qed.

Theorem hrun_sinv g self_ oracle_ ops : self_ <> -1 -> sinv g (hrun (init_hg self_ g oracle_) ops).
Proof.
  intros Hs. unfold hrun. generalize (sinv_init g self_ oracle_ Hs). generalize (init_hg self_ g oracle_).
  induction ops as [|o ops IH]; intros st I; cbn [fold_left]; [exact I|]. apply IH, hstep_sinv, I.
Qed.

Lemma nth_split_firstn {A} (l : list A) k d : nth_error l k = Some d -> l = firstn k l ++ d :: skipn (S k) l.
Proof.
  revert k. induction l as [|x l IH]; intros k H; [destruct k; discriminate|].
  destruct k as [|k]; cbn in *; [inversion H; reflexivity|]. f_equal. apply IH. exact H.
Qed.

Lemma sorted_firstn k (l : list Z) : StronglySorted Z.lt l -> StronglySorted Z.lt (firstn k l).
Proof.
  intros S. rewrite <- (firstn_skipn k l) in S. eapply sorted_app_l; eauto.
Qed.

(* the reset node's table and validators are those of a full-history node right after the anchor
   block *)
Theorem reset_table_is_replay g ss os ops k d b v cores v' :
  ss <> -1 ->
  nth_error (delivered (hrun (init_hg ss g os) ops)) k = Some d ->
  zget (Z.of_nat k) (blocks (hrun (init_hg ss g os) ops)) = Some b ->
  frame_shape (b_frame b) ->
  node_fast_forward v b (b_frame b) cores = (true, v') ->
  (peersets v', validators v') = replay_genesis g (firstn (S k) (delivered (hrun (init_hg ss g os) ops))).
Proof.
  intros Hs Hd Hb FS H.
  pose proof (hrun_sinv g ss os ops Hs) as [T B _ C _ DT].
  set (st := hrun (init_hg ss g os) ops) in *.
  destruct (b_del st B k d Hd) as [_ [b0 [Hb0 [Hbody _]]]]. rewrite Hb in Hb0. inversion Hb0; subst b0; clear Hb0.
  destruct (body_fields _ _ Hbody) as (_ & Er & _ & _ & Ei & Ef & _).
  rewrite (node_fast_forward_table v b (b_frame b) cores v' FS H).
  pose proof (nth_split_firstn _ _ _ Hd) as Split.
  pose proof (DT _ _ _ Split) as Tb. rewrite <- Ef in Tb.
  assert (S1 : rr_increasing_list (firstn k (delivered st))).
  { unfold rr_increasing_list. rewrite <- firstn_map. apply sorted_firstn. exact (proj1 T). }
  assert (F1 : Forall (fun d => 0 <= b_rr d) (firstn k (delivered st))).
  { pose proof (c10inv_rr_nonneg g st C) as F0. rewrite Forall_forall in *. intros x Hx. apply F0.
    rewrite <- (firstn_skipn k (delivered st)). apply in_or_app. left; exact Hx. }
  rewrite ff_validators_tbl, Tb, (replay_latest g _ (f_peers (b_frame b)) S1 F1), Er, Ei.
  rewrite (firstn_snoc _ _ _ Hd). unfold replay_genesis. rewrite replay_snoc. unfold replay_block.
  destruct (replay [(0, g)] g (firstn k (delivered st))); reflexivity.
Qed.

(* GetAnchorBlockWithFrame on a reachable state: the block stored at the anchor index is the
   delivered block of that index (with the signatures collected since), and the frame is the
   cached frame of its round-received = the frame the block was built from *)
Theorem anchor_answer all ss g os ops b f cores s' :
  ids_determine all -> Forall (hop_ok all) ops -> ss <> -1 ->
  anchor_block_with_frame (hrun (init_hg ss g os) ops) = (Some (b, f, cores), s') ->
  s' = hrun (init_hg ss g os) ops /\ f = b_frame b /\ cores = frame_cores (hrun (init_hg ss g os) ops) f /\
  exists k d, nth_error (delivered (hrun (init_hg ss g os) ops)) k = Some d /\
              zget (Z.of_nat k) (blocks (hrun (init_hg ss g os) ops)) = Some b /\ body b = body d /\ sigs_incl d b.
Proof.
  intros ID Ho Hs. pose proof (hrun_ginv all ss g os ops ID Ho) as G. pose proof (hrun_sinv g ss os ops Hs) as [_ B _ _ _ _].
  set (st := hrun (init_hg ss g os) ops) in *.
  unfold anchor_block_with_frame. destruct (anchor st) as [a|]; [|discriminate].
  destruct (zget a (blocks st)) as [b0|] eqn:Hb; [|discriminate].
  destruct (b_idx st B a b0 Hb) as [Hi [Ha0 Ha1]].
  assert (Hlen : (Z.to_nat a < length (delivered st))%nat) by (pose proof (b_len st B); lia).
  destruct (nth_error (delivered st) (Z.to_nat a)) as [d|] eqn:Hd; [|apply nth_error_None in Hd; lia].
  destruct (b_del st B _ d Hd) as [_ [b1 [Hb1 [Hbody Hincl]]]]. rewrite Z2Nat.id in Hb1 by lia.
  rewrite Hb in Hb1. inversion Hb1; subst b1; clear Hb1.
  destruct (body_fields _ _ Hbody) as (_ & Er & _ & _ & _ & Ef & _).
  assert (Hin : In d (delivered st)) by (eapply nth_error_In; eauto).
  destruct (gi_d all st G d Hin) as [Hc _].
  rewrite Er, (get_frame_cached st _ _ Hc). intros H. injection H as E1 E2 E3 E4.
  subst b f s'. split; [reflexivity|split; [exact (eq_sym Ef)|split; [exact (eq_sym E3)|]]].
  exists (Z.to_nat a), d. rewrite Z2Nat.id by lia. auto.
Qed.
