(* C04: SortedFrameEvents.  fe_sort (insertion sort by fe_less) returns the sorted permutation of
   its input w.r.t. the total preorder "Lamport timestamp, then signature rank"; when the
   (timestamp, rank) pairs are pairwise distinct it is the only sorted permutation, so any correct
   sorting algorithm (Go's unstable sort.Sort) returns the same list. *)
From Coq Require Import ZArith List Bool Lia ZifyBool Sorted Permutation.
From V Require Import Model.ZMap Model.HgImpl.
Import ListNotations.
Open Scope Z_scope.

Definition sigkey_of (st : hg) (x : Z) : Z :=
  match get_event st x with Some e => e_sigkey (ev_e e) | None => 0 end.
Definition fe_key (st : hg) (a : frameev) : Z * Z := (fe_lt a, sigkey_of st (fe_id a)).
(* a is not after b *)
Definition fe_le (st : hg) (a b : frameev) : Prop := fe_less st b a = false.

Lemma fe_less_spec st a b :
  fe_less st a b = true <->
  fe_lt a < fe_lt b \/ (fe_lt a = fe_lt b /\ sigkey_of st (fe_id a) < sigkey_of st (fe_id b)).
Proof.
  unfold fe_less, sigkey_of. destruct (Z.eqb_spec (fe_lt a) (fe_lt b)); cbn [negb]; lia.
Qed.

Lemma fe_le_spec st a b :
  fe_le st a b <->
  fe_lt a < fe_lt b \/ (fe_lt a = fe_lt b /\ sigkey_of st (fe_id a) <= sigkey_of st (fe_id b)).
Proof.
  unfold fe_le. pose proof (fe_less_spec st b a) as H.
  destruct (fe_less st b a).
  - split; [discriminate|]. intros G. exfalso. pose proof (proj1 H eq_refl). lia.
  - split; [intros _|reflexivity].
    assert (N : ~ (fe_lt b < fe_lt a \/ fe_lt b = fe_lt a /\ sigkey_of st (fe_id b) < sigkey_of st (fe_id a))).
    { intros C. apply H in C. discriminate. }
    lia.
Qed.

Lemma fe_le_refl st a : fe_le st a a.
Proof. apply fe_le_spec. lia. Qed.
Lemma fe_le_trans st a b c : fe_le st a b -> fe_le st b c -> fe_le st a c.
Proof. rewrite !fe_le_spec. lia. Qed.
Lemma fe_le_total st a b : fe_le st a b \/ fe_le st b a.
Proof. rewrite !fe_le_spec. lia. Qed.
Lemma fe_less_le st a b : fe_less st a b = true -> fe_le st a b.
Proof. rewrite fe_less_spec, fe_le_spec. lia. Qed.
Lemma fe_le_lt st a b : fe_le st a b -> fe_lt a <= fe_lt b.
Proof. rewrite fe_le_spec. lia. Qed.
Lemma fe_le_antisym_key st a b : fe_le st a b -> fe_le st b a -> fe_key st a = fe_key st b.
Proof. rewrite !fe_le_spec. unfold fe_key. intros H1 H2. f_equal; lia. Qed.

Lemma fe_insert_perm st x l : Permutation (fe_insert st x l) (x :: l).
Proof.
  induction l as [|y r IH]; cbn [fe_insert]; [apply Permutation_refl|].
  destruct (fe_less st y x); [|apply Permutation_refl].
  eapply Permutation_trans; [apply perm_skip; exact IH|apply perm_swap].
Qed.

Lemma fe_insert_sorted st x l :
  StronglySorted (fe_le st) l -> StronglySorted (fe_le st) (fe_insert st x l).
Proof.
  induction l as [|y r IH]; intros S; cbn [fe_insert]; [constructor; constructor|].
  inversion S as [|y' r' S' F]; subst.
  destruct (fe_less st y x) eqn:E.
  - constructor; [apply IH; exact S'|].
    apply Forall_forall. intros z Hz.
    apply (Permutation_in _ (fe_insert_perm st x r)) in Hz. destruct Hz as [<-|Hz].
    + apply fe_less_le. exact E.
    + rewrite Forall_forall in F. apply F. exact Hz.
  - constructor; [exact S|]. constructor; [exact E|].
    apply Forall_forall. intros z Hz. rewrite Forall_forall in F.
    eapply fe_le_trans; [exact E|apply F; exact Hz].
Qed.

Lemma fe_sort_perm st l : Permutation (fe_sort st l) l.
Proof.
  induction l as [|x l IH]; cbn [fe_sort fold_right]; [constructor|].
  eapply Permutation_trans; [apply fe_insert_perm|apply perm_skip; exact IH].
Qed.

Lemma fe_sort_sorted st l : StronglySorted (fe_le st) (fe_sort st l).
Proof.
  induction l as [|x l IH]; cbn [fe_sort fold_right]; [constructor|]. apply fe_insert_sorted. exact IH.
Qed.

Lemma sorted_perm_unique {A} (R : A -> A -> Prop) :
  forall l l', Permutation l l' -> StronglySorted R l -> StronglySorted R l' ->
  (forall a b, In a l -> In b l -> R a b -> R b a -> a = b) -> l = l'.
Proof.
  induction l as [|a l IH]; intros l' P S S' Anti.
  - apply Permutation_nil in P. subst; reflexivity.
  - destruct l' as [|a' l']; [apply Permutation_sym, Permutation_nil in P; discriminate|].
    inversion S as [|x y S1 F1]; subst. inversion S' as [|x y S1' F1']; subst.
    rewrite Forall_forall in F1, F1'.
    assert (Ha : In a (a' :: l')) by (eapply Permutation_in; [exact P|left; reflexivity]).
    assert (Ha' : In a' (a :: l)) by (eapply Permutation_in; [apply Permutation_sym; exact P|left; reflexivity]).
    assert (E : a = a').
    { destruct Ha as [->|Ha]; [reflexivity|]. destruct Ha' as [->|Ha']; [reflexivity|].
      apply Anti; [left; reflexivity|right; exact Ha'|apply F1; exact Ha'|apply F1'; exact Ha]. }
    subst a'. f_equal. apply IH; auto.
    + eapply Permutation_cons_inv; eauto.
    + intros x y Hx Hy. apply Anti; right; assumption.
Qed.

Lemma NoDup_map_inj {A B} (f : A -> B) l a b :
  NoDup (map f l) -> In a l -> In b l -> f a = f b -> a = b.
Proof.
  induction l as [|x l IH]; intros N Ha Hb E; [destruct Ha|].
  cbn [map] in N. inversion N as [|y m Hn N']; subst.
  destruct Ha as [->|Ha], Hb as [->|Hb]; auto.
  - exfalso. apply Hn. rewrite E. apply in_map. exact Hb.
  - exfalso. apply Hn. rewrite <- E. apply in_map. exact Ha.
Qed.

(* fe_sort is THE sorted permutation when no two events tie on (timestamp, signature rank) *)
Theorem fe_sort_unique st l l' :
  NoDup (map (fe_key st) l) -> Permutation l' l -> StronglySorted (fe_le st) l' -> l' = fe_sort st l.
Proof.
  intros N P S.
  apply (sorted_perm_unique (fe_le st)); [|exact S|apply fe_sort_sorted|].
  - eapply Permutation_trans; [exact P|apply Permutation_sym, fe_sort_perm].
  - intros a b Ha Hb H1 H2.
    apply (NoDup_map_inj (fe_key st) l); [exact N| | |apply fe_le_antisym_key; assumption];
      eapply Permutation_in; eauto.
Qed.

Lemma StronglySorted_weaken_in {A} (R R' : A -> A -> Prop) l :
  (forall a b, In a l -> In b l -> R a b -> R' a b) -> StronglySorted R l -> StronglySorted R' l.
Proof.
  intros H S. induction S as [|a l S IH F]; constructor.
  - apply IH. intros x y Hx Hy. apply H; right; assumption.
  - rewrite Forall_forall in *. intros x Hx. apply H; [left; reflexivity|right; exact Hx|apply F, Hx].
Qed.
Lemma StronglySorted_weaken {A} (R R' : A -> A -> Prop) l :
  (forall a b, R a b -> R' a b) -> StronglySorted R l -> StronglySorted R' l.
Proof. intros H. apply StronglySorted_weaken_in. auto. Qed.

Lemma sorted_key_position {A} (key : A -> Z) l i j a b :
  StronglySorted (fun a b => key a <= key b) l -> nth_error l i = Some a -> nth_error l j = Some b ->
  key a < key b -> (i < j)%nat.
Proof.
  intros S. revert i j. induction S as [|x l S IH F]; intros i j Ha Hb Hlt; [destruct i; discriminate|].
  destruct i as [|i], j as [|j]; cbn in Ha, Hb.
  - inversion Ha; inversion Hb; subst. lia.
  - lia.
  - exfalso. inversion Hb; subst b. rewrite Forall_forall in F.
    apply nth_error_In in Ha. apply F in Ha. lia.
  - apply ->Nat.succ_lt_mono. eapply IH; eauto.
Qed.
Lemma sorted_lt_position st l i j a b :
  StronglySorted (fe_le st) l -> nth_error l i = Some a -> nth_error l j = Some b ->
  fe_lt a < fe_lt b -> (i < j)%nat.
Proof.
  intros S. apply (sorted_key_position fe_lt). eapply StronglySorted_weaken; [|exact S]. intros x y. apply fe_le_lt.
Qed.
