(* Lemmas about Model/FastSync.v (C12, C14).

   The checks and the state change of core.fastForward are analysed once, for the rule with one
   switch per repair ([check_ff_gen], [core_ff_gen]); the code before the repairs and the repaired
   code are its two end points ([gen_current_*], [gen_fixed_*]). *)
From Coq Require Import ZArith List Bool Lia ZifyBool Permutation.
From V Require Import Model.Quorum Model.FastSync Proofs.QuorumProofs.
Import ListNotations.
Open Scope Z_scope.

Lemma zlist_eqb_eq a : forall b, zlist_eqb a b = true <-> a = b.
Proof.
  induction a as [|x a IH]; intros [|y b]; simpl; try (split; [discriminate|discriminate]); [tauto|].
  rewrite andb_true_iff, IH, Z.eqb_eq. split; [intros [-> ->]; reflexivity|intros H; inversion H; auto].
Qed.

Lemma dedup_length_le l : (length (dedup l) <= length l)%nat.
Proof.
  induction l as [|x r IH]; simpl; [lia|].
  destruct (mem_key x r); simpl; lia.
Qed.

Lemma dedup_length_incl l l' : incl l l' -> (length (dedup l) <= length (dedup l'))%nat.
Proof.
  intros H. apply NoDup_incl_length; [apply dedup_NoDup|].
  intros x Hx. apply dedup_In, H, dedup_In, Hx.
Qed.

Lemma dedup_length_perm l l' : Permutation l l' -> length (dedup l) = length (dedup l').
Proof.
  intros HP. apply Nat.le_antisymm; apply dedup_length_incl; intros x;
    apply Permutation_in; [|apply Permutation_sym]; exact HP.
Qed.

Lemma fp_dedup_length_le ps : (length (fp_dedup ps) <= length ps)%nat.
Proof.
  induction ps as [|x r IH]; simpl; [lia|].
  destruct (fp_mem x r); simpl; lia.
Qed.

Lemma fp_dedup_nonempty ps : ps <> [] -> fp_dedup ps <> [].
Proof.
  induction ps as [|x r IH]; [congruence|intros _; simpl].
  destruct (fp_mem x r) eqn:E; [|discriminate].
  apply IH; destruct r; [discriminate|discriminate].
Qed.

Lemma fs_len_le_slice ps : fs_len ps <= fs_slice_len ps.
Proof. unfold fs_len, fs_slice_len; pose proof (fp_dedup_length_le ps); lia. Qed.

Lemma fs_len_pos ps : ps <> [] -> 1 <= fs_len ps.
Proof.
  intros H; apply fp_dedup_nonempty in H; unfold fs_len.
  destruct (fp_dedup ps); [congruence|simpl length; lia].
Qed.

Lemma fs_tc_nonneg ps : 0 <= fs_tc ps.
Proof.
  unfold fs_tc, tc, fs_len. destruct (fs_slice_len ps <=? 1); [lia|].
  apply Z.div_pos; lia.
Qed.

(* "more than TrustCount" is more than a third of the distinct keys *)
Lemma fs_tc_lt_third ps k : ps <> [] -> fs_tc ps < k -> 3 * k > fs_len ps.
Proof.
  intros Hne H. apply (trusted_gt_third _ (fs_slice_len ps)).
  - apply fs_len_pos, Hne.
  - apply fs_len_le_slice.
  - apply Z.ltb_lt, H.
Qed.

Lemma member_nonempty ps v : member ps v = true -> ps <> [].
Proof. destruct ps; [discriminate|discriminate]. Qed.

Lemma filter_length_le {A} (p : A -> bool) l : (length (filter p l) <= length l)%nat.
Proof. induction l as [|x r IH]; simpl; [lia|destruct (p x); simpl; lia]. Qed.

Lemma filter_impl_length {A} (p q : A -> bool) l :
  (forall x, p x = true -> q x = true) -> (length (filter p l) <= length (filter q l))%nat.
Proof.
  intros H; induction l as [|x r IH]; simpl; [lia|].
  destruct (p x) eqn:E; [rewrite (H _ E); simpl; lia|destruct (q x); simpl; lia].
Qed.

Lemma filter_map_comm {A B} (g : A -> B) (p : B -> bool) l :
  map g (filter (fun x => p (g x)) l) = filter p (map g l).
Proof.
  induction l as [|x r IH]; simpl; [reflexivity|].
  destruct (p (g x)); simpl; rewrite IH; reflexivity.
Qed.

Lemma existsb_false_forall {A} (p : A -> bool) l : existsb p l = false -> forall x, In x l -> p x = false.
Proof.
  intros H x Hx; destruct (p x) eqn:E; [|reflexivity].
  rewrite <- H. symmetry. apply existsb_exists. eauto.
Qed.

Lemma existsb_ext_in {A} (p q : A -> bool) l :
  (forall x, In x l -> p x = q x) -> existsb p l = existsb q l.
Proof.
  induction l as [|x r IH]; intros H; simpl; [reflexivity|].
  rewrite (H x (or_introl eq_refl)), IH; [reflexivity|]. intros y Hy; apply H; right; auto.
Qed.

Lemma existsb_perm {A} (p : A -> bool) l l' : Permutation l l' -> existsb p l = existsb p l'.
Proof.
  induction 1 as [|x l l' _ IH|x y l|l l' l'' _ IH1 _ IH2]; simpl.
  - reflexivity.
  - rewrite IH; reflexivity.
  - destruct (p x), (p y); reflexivity.
  - congruence.
Qed.

Lemma filter_perm {A} (p : A -> bool) l l' : Permutation l l' -> Permutation (filter p l) (filter p l').
Proof.
  induction 1 as [|x l l' HP IH|x y l|l l' l'' H1 IH1 H2 IH2]; simpl.
  - constructor.
  - destruct (p x); [constructor; auto|auto].
  - destruct (p x), (p y); try apply Permutation_refl; apply perm_swap.
  - eapply Permutation_trans; eauto.
Qed.

Definition pre_reset (r : ffres) : Prop :=
  r = FFWrongPeerSet \/ r = FFNotEnoughSigs \/ r = FFBadFrameHash \/ r = FFPanicCheck.

Lemma is_ok_true r : is_ok r = true <-> r = FFOk.
Proof. destruct r; simpl; split; congruence. Qed.

Lemma reset_result_cases f :
  reset_result f = FFOk /\ ff_reset f = 1 \/ reset_result f = FFPanicReset \/ reset_result f = FFResetError.
Proof.
  unfold reset_result. destruct (Z.eqb_spec (ff_reset f) 1); [left; auto|].
  destruct (ff_reset f =? 2); auto.
Qed.

(* Reset never reports what the checks report *)
Lemma reset_result_not_pre f : ~ pre_reset (reset_result f).
Proof.
  destruct (reset_result_cases f) as [[E _]|[E|E]]; rewrite E; intros [H|[H|[H|H]]]; discriminate.
Qed.

Lemma peers_hash_ok_iff b f :
  peers_hash_ok b f = true <-> fb_peers_hash b = Some (peers_digest (ff_peers f)).
Proof.
  unfold peers_hash_ok. destruct (fb_peers_hash b) as [l|]; [|split; discriminate].
  rewrite zlist_eqb_eq. split; [intros ->; reflexivity|intros H; inversion H; reflexivity].
Qed.

Lemma check_block_gen_res rl known b f :
  check_block_gen rl known b f = FFOk \/ check_block_gen rl known b f = FFWrongPeerSet \/
  check_block_gen rl known b f = FFPanicCheck \/ check_block_gen rl known b f = FFNotEnoughSigs.
Proof.
  unfold check_block_gen.
  destruct (negb (peers_hash_ok b f)); auto.
  destruct (negb (rl_guard rl) && existsb se_short (fb_sigs b)); auto.
  destruct (existsb (panics_gen rl known (ff_peers f)) (fb_sigs b)); auto.
  destruct (count_gen rl known (ff_peers f) (fb_sigs b) <=? fs_tc (ff_peers f)); auto.
Qed.

Lemma check_block_gen_ok rl known b f :
  check_block_gen rl known b f = FFOk <->
  fb_peers_hash b = Some (peers_digest (ff_peers f)) /\
  negb (rl_guard rl) && existsb se_short (fb_sigs b) = false /\
  existsb (panics_gen rl known (ff_peers f)) (fb_sigs b) = false /\
  fs_tc (ff_peers f) < count_gen rl known (ff_peers f) (fb_sigs b).
Proof.
  unfold check_block_gen. rewrite <- peers_hash_ok_iff.
  destruct (peers_hash_ok b f); cbn [negb]; [|split; [discriminate|intros [H _]; discriminate]].
  destruct (negb (rl_guard rl) && existsb se_short (fb_sigs b));
    [split; [discriminate|intros [_ [H _]]; discriminate]|].
  destruct (existsb (panics_gen rl known (ff_peers f)) (fb_sigs b));
    [split; [discriminate|intros [_ [_ [H _]]]; discriminate]|].
  destruct (Z.leb_spec (count_gen rl known (ff_peers f) (fb_sigs b)) (fs_tc (ff_peers f))).
  - split; [discriminate|lia].
  - tauto.
Qed.

Lemma check_ff_gen_res rl known b f :
  check_ff_gen rl known b f = FFOk \/ pre_reset (check_ff_gen rl known b f).
Proof.
  unfold check_ff_gen, pre_reset.
  destruct (check_block_gen_res rl known b f) as [E|[E|[E|E]]]; rewrite E; auto.
  destruct (fb_frame_hash b =? ff_hash f); auto.
Qed.

Lemma check_ff_gen_ok rl known b f :
  check_ff_gen rl known b f = FFOk <->
  check_block_gen rl known b f = FFOk /\ fb_frame_hash b = ff_hash f.
Proof.
  unfold check_ff_gen.
  destruct (check_block_gen_res rl known b f) as [E|[E|[E|E]]]; rewrite E;
    try (split; [discriminate|intros [H _]; discriminate]).
  destruct (Z.eqb_spec (fb_frame_hash b) (ff_hash f)); [tauto|split; [discriminate|tauto]].
Qed.

(* Go iterates the signature map in random order: the checks do not depend on it *)
Lemma check_ff_gen_perm rl known i rr ph fh s s' f :
  Permutation s s' ->
  check_ff_gen rl known (mkBlock i rr ph fh s) f = check_ff_gen rl known (mkBlock i rr ph fh s') f.
Proof.
  intros HP. unfold check_ff_gen, check_block_gen, peers_hash_ok, count_gen.
  cbn [fb_sigs fb_peers_hash fb_frame_hash].
  rewrite (existsb_perm se_short _ _ HP), (existsb_perm (panics_gen rl known (ff_peers f)) _ _ HP).
  pose proof (Permutation_map se_bytes (filter_perm (signer_ok_gen rl known (ff_peers f)) _ _ HP)) as HM.
  destruct (rl_dedupe rl); [rewrite (dedup_length_perm _ _ HM)|rewrite (Permutation_length HM)]; reflexivity.
Qed.

(* a block passes the checks with frames of one hash and one validator key list only *)
Lemma check_ff_gen_pins_frame rl known b f f' :
  check_ff_gen rl known b f = FFOk -> check_ff_gen rl known b f' = FFOk ->
  ~ (ff_hash f' <> ff_hash f \/ peers_digest (ff_peers f') <> peers_digest (ff_peers f)).
Proof.
  intros H H'. apply check_ff_gen_ok in H as [H HF], H' as [H' HF'].
  apply check_block_gen_ok in H as [HP _], H' as [HP' _].
  intros [HD|HD]; apply HD; congruence.
Qed.

(* the decision of core.fastForward: the checks, then Reset *)
Definition ff_decide_gen rl known (b : ffblock) (f : ffframe) : ffres :=
  match check_ff_gen rl known b f with FFOk => reset_result f | r => r end.

Lemma ff_decide_gen_ok rl known b f :
  ff_decide_gen rl known b f = FFOk <-> check_ff_gen rl known b f = FFOk /\ ff_reset f = 1.
Proof.
  unfold ff_decide_gen.
  destruct (check_ff_gen_res rl known b f) as [E|[E|[E|[E|E]]]]; rewrite E;
    try (split; [discriminate|intros [H _]; discriminate]).
  unfold reset_result. destruct (Z.eqb_spec (ff_reset f) 1); [tauto|].
  destruct (ff_reset f =? 2); (split; [discriminate|tauto]).
Qed.

(* the core after a call that answered r *)
Definition core_after (st : core_state) (b : ffblock) (f : ffframe) (r : ffres) : core_state :=
  match r with
  | FFOk => mkCore (HgReset b f) (new_validators f) (ff_peers f) (cs_rest st)
  | FFPanicReset | FFResetError => mkCore (HgBroken b f) (cs_validators st) (cs_peers st) (cs_rest st)
  | _ => st
  end.

Lemma core_ff_gen_eq rl known st b f :
  core_ff_gen rl known st b f =
    (ff_decide_gen rl known b f, core_after st b f (ff_decide_gen rl known b f)).
Proof.
  unfold core_ff_gen, ff_decide_gen.
  destruct (check_ff_gen_res rl known b f) as [E|[E|[E|[E|E]]]]; rewrite E; try reflexivity.
  destruct (reset_result_cases f) as [[E' _]|[E'|E']]; rewrite E'; reflexivity.
Qed.

Lemma core_ff_gen_decision rl known st b f :
  fst (core_ff_gen rl known st b f) = ff_decide_gen rl known b f.
Proof. rewrite core_ff_gen_eq. reflexivity. Qed.

Lemma core_ff_gen_reject_noop rl known st b f r st' :
  core_ff_gen rl known st b f = (r, st') -> pre_reset r -> st' = st.
Proof.
  rewrite core_ff_gen_eq. intros H Hr. injection H as -> <-.
  destruct Hr as [-> | [-> | [-> | ->]]]; reflexivity.
Qed.

Lemma core_ff_gen_accept_state rl known st b f st' :
  core_ff_gen rl known st b f = (FFOk, st') ->
  st' = mkCore (HgReset b f) (new_validators f) (ff_peers f) (cs_rest st).
Proof. rewrite core_ff_gen_eq. intros H. injection H as -> <-. reflexivity. Qed.

Lemma core_ff_gen_rest rl known st b f : cs_rest (snd (core_ff_gen rl known st b f)) = cs_rest st.
Proof. rewrite core_ff_gen_eq. destruct (ff_decide_gen rl known b f); reflexivity. Qed.

Lemma counted_member ps s : counted ps s = true -> member ps (se_bytes s) = true /\ se_verif s = 1.
Proof. unfold counted; rewrite andb_true_iff, Z.eqb_eq; auto. Qed.

Lemma distinct_valid_signers_NoDup ps sigs : NoDup (distinct_valid_signers ps sigs).
Proof. apply dedup_NoDup. Qed.

Lemma distinct_valid_signers_spec ps sigs v :
  In v (distinct_valid_signers ps sigs) <->
  member ps v = true /\ exists s, In s sigs /\ se_bytes s = v /\ se_verif s = 1.
Proof.
  unfold distinct_valid_signers. rewrite dedup_In, in_map_iff. split.
  - intros [s [Hb Hin]]. apply filter_In in Hin as [Hin Hc].
    apply counted_member in Hc as [Hm Hv]. subst v. split; [auto|exists s; auto].
  - intros [Hm [s [Hin [Hb Hv]]]]. exists s; split; [auto|].
    apply filter_In; split; [auto|]. unfold counted. subst v. rewrite Hm, Hv. reflexivity.
Qed.

(* any duplicate-free list of endorsing members is no longer than the computed one *)
Lemma distinct_valid_signers_max ps sigs l :
  NoDup l ->
  (forall v, In v l -> member ps v = true /\ exists s, In s sigs /\ se_bytes s = v /\ se_verif s = 1) ->
  (length l <= length (distinct_valid_signers ps sigs))%nat.
Proof.
  intros ND H. apply NoDup_incl_length; [auto|].
  intros v Hv. apply distinct_valid_signers_spec. auto.
Qed.

Lemma eligible_current known ps s :
  se_short s = false -> eligible_gen rule_current known ps s = member ps (se_bytes s).
Proof. intros E. unfold eligible_gen. rewrite E. cbn. apply andb_true_r. Qed.

Lemma panics_gen_current known ps sigs :
  existsb se_short sigs = false ->
  existsb (panics_gen rule_current known ps) sigs = existsb (verify_panics ps) sigs.
Proof.
  intros ES. apply existsb_ext_in. intros s Hs. unfold panics_gen, verify_panics.
  rewrite (eligible_current _ _ _ (existsb_false_forall _ _ ES s Hs)). reflexivity.
Qed.

Lemma count_gen_current known ps sigs :
  existsb se_short sigs = false -> count_gen rule_current known ps sigs = valid_sigs ps sigs.
Proof.
  intros ES. unfold count_gen, valid_sigs. cbn [rl_dedupe rule_current]. rewrite map_length. do 2 f_equal.
  apply filter_ext_in. intros s Hs. unfold signer_ok_gen, counted.
  rewrite (eligible_current _ _ _ (existsb_false_forall _ _ ES s Hs)). reflexivity.
Qed.

Lemma gen_current_check known b f : check_block_gen rule_current known b f = check_block b f.
Proof.
  unfold check_block_gen, check_block. cbn [rl_guard rule_current negb andb].
  destruct (negb (peers_hash_ok b f)); [reflexivity|].
  destruct (existsb se_short (fb_sigs b)) eqn:ES; [reflexivity|].
  rewrite (panics_gen_current _ _ _ ES), (count_gen_current _ _ _ ES). reflexivity.
Qed.

Lemma gen_current_decide known b f : ff_decide_gen rule_current known b f = ff_decide b f.
Proof.
  unfold ff_decide_gen, check_ff_gen, ff_decide. rewrite gen_current_check.
  destruct (check_block b f); try reflexivity.
  destruct (fb_frame_hash b =? ff_hash f); reflexivity.
Qed.

Lemma gen_current_core known st b f : core_ff_gen rule_current known st b f = core_ff st b f.
Proof.
  unfold core_ff_gen, core_ff, check_ff_gen. rewrite gen_current_check.
  destruct (check_block b f); try reflexivity.
  destruct (fb_frame_hash b =? ff_hash f); reflexivity.
Qed.

Lemma gen_current_node known ns l : node_ff_gen rule_current known ns l = node_ff ns l.
Proof.
  unfold node_ff_gen, node_ff, restore_then_core. cbn [rl_check_first rule_current].
  destruct (best_response l) as [x|]; [|reflexivity].
  rewrite gen_current_core. reflexivity.
Qed.

Lemma ff_decide_ok b f :
  ff_decide b f = FFOk <-> check_ff_gen rule_current [] b f = FFOk /\ ff_reset f = 1.
Proof. rewrite <- (gen_current_decide []). apply ff_decide_gen_ok. Qed.

Lemma check_block_ok b f :
  check_block b f = FFOk <->
  fb_peers_hash b = Some (peers_digest (ff_peers f)) /\
  existsb se_short (fb_sigs b) = false /\
  existsb (verify_panics (ff_peers f)) (fb_sigs b) = false /\
  fs_tc (ff_peers f) < valid_sigs (ff_peers f) (fb_sigs b).
Proof.
  rewrite <- (gen_current_check []), check_block_gen_ok. cbn [rl_guard rule_current negb andb].
  split; intros (HP & HS & H); (split; [exact HP|split; [exact HS|]]);
    rewrite (panics_gen_current _ _ _ HS), (count_gen_current _ _ _ HS) in *; exact H.
Qed.

Lemma valid_sigs_pos_nonempty ps sigs : 0 < valid_sigs ps sigs -> ps <> [].
Proof.
  unfold valid_sigs; intros H.
  destruct (filter (counted ps) sigs) as [|s r] eqn:E; [simpl in H; lia|].
  assert (Hin : In s (filter (counted ps) sigs)) by (rewrite E; left; reflexivity).
  apply filter_In in Hin as [_ Hc]. apply counted_member in Hc as [Hm _].
  eapply member_nonempty; eauto.
Qed.

(* what an accepted response has passed (per map ENTRY) *)
Lemma ff_accept_checks b f :
  ff_decide b f = FFOk ->
  fb_frame_hash b = ff_hash f /\
  fb_peers_hash b = Some (peers_digest (ff_peers f)) /\
  fs_tc (ff_peers f) < valid_sigs (ff_peers f) (fb_sigs b) /\
  3 * valid_sigs (ff_peers f) (fb_sigs b) > fs_len (ff_peers f).
Proof.
  intros H. apply ff_decide_ok in H as [H _]. apply check_ff_gen_ok in H as [HC HF].
  rewrite gen_current_check in HC. apply check_block_ok in HC as (HP & _ & _ & HV).
  repeat split; auto.
  pose proof (fs_tc_nonneg (ff_peers f)) as H0.
  apply fs_tc_lt_third; [apply (valid_sigs_pos_nonempty _ (fb_sigs b)); lia|exact HV].
Qed.

Lemma ff_decide_perm i rr ph fh s s' f :
  Permutation s s' -> ff_decide (mkBlock i rr ph fh s) f = ff_decide (mkBlock i rr ph fh s') f.
Proof.
  intros HP. rewrite <- !(gen_current_decide []). unfold ff_decide_gen.
  rewrite (check_ff_gen_perm _ _ i rr ph fh s s' f HP). reflexivity.
Qed.

Lemma frame_tamper_refused b f f' :
  ff_decide b f = FFOk ->
  ff_hash f' <> ff_hash f \/ peers_digest (ff_peers f') <> peers_digest (ff_peers f) ->
  ff_decide b f' <> FFOk.
Proof.
  intros H HD H'. apply ff_decide_ok in H as [H _], H' as [H' _].
  exact (check_ff_gen_pins_frame _ _ _ _ _ H H' HD).
Qed.

Lemma core_ff_decision st b f : fst (core_ff st b f) = ff_decide b f.
Proof. rewrite <- (gen_current_core []), <- (gen_current_decide []). apply core_ff_gen_decision. Qed.

Lemma core_ff_reject_noop st b f r st' :
  core_ff st b f = (r, st') -> pre_reset r -> st' = st.
Proof. rewrite <- (gen_current_core []). apply core_ff_gen_reject_noop. Qed.

Lemma core_ff_rest st b f : cs_rest (snd (core_ff st b f)) = cs_rest st.
Proof. rewrite <- (gen_current_core []). apply core_ff_gen_rest. Qed.

Lemma core_ff_accept_state st b f st' :
  core_ff st b f = (FFOk, st') ->
  st' = mkCore (HgReset b f) (new_validators f) (ff_peers f) (cs_rest st).
Proof. rewrite <- (gen_current_core []). apply core_ff_gen_accept_state. Qed.

(* the victim's state plays no part in the decision *)
Lemma core_ff_state_blind st1 st2 b f : fst (core_ff st1 b f) = fst (core_ff st2 b f).
Proof. rewrite !core_ff_decision; reflexivity. Qed.

Lemma gen_fixed_check_ff known b f : check_ff_gen rule_fixed known b f = check_ff_fixed known b f.
Proof. reflexivity. Qed.

Lemma gen_fixed_core known st b f : core_ff_gen rule_fixed known st b f = core_ff_fixed known st b f.
Proof. reflexivity. Qed.

Lemma gen_fixed_node known ns l : node_ff_gen rule_fixed known ns l = node_ff_fixed known ns l.
Proof.
  unfold node_ff_gen, node_ff_fixed, restore_then_core. cbn [rl_check_first rule_fixed].
  destruct (best_response l) as [x|]; [|reflexivity].
  rewrite gen_fixed_check_ff, gen_fixed_core. reflexivity.
Qed.

Lemma signer_ok_inv known ps s :
  signer_ok known ps s = true ->
  se_short s = false /\ member ps (se_bytes s) = true /\ in_known known (se_bytes s) = true /\ se_verif s = 1.
Proof.
  unfold signer_ok. rewrite !andb_true_iff, negb_true_iff, Z.eqb_eq. tauto.
Qed.

Lemma signer_ok_counted known ps s : signer_ok known ps s = true -> counted ps s = true.
Proof.
  intros H; apply signer_ok_inv in H as [_ [Hm [_ Hv]]]. unfold counted; rewrite Hm, Hv; reflexivity.
Qed.

Lemma valid_signers_fixed_NoDup known ps sigs : NoDup (valid_signers_fixed known ps sigs).
Proof. apply dedup_NoDup. Qed.

Lemma valid_signers_fixed_spec known ps sigs v :
  In v (valid_signers_fixed known ps sigs) <->
  exists s, In s sigs /\ se_bytes s = v /\ signer_ok known ps s = true.
Proof.
  unfold valid_signers_fixed. rewrite dedup_In, in_map_iff. split.
  - intros [s [Hb Hin]]. apply filter_In in Hin as [Hin Hc]. exists s; auto.
  - intros [s [Hin [Hb Hc]]]. exists s; split; [auto|apply filter_In; auto].
Qed.

Lemma check_ff_fixed_res known b f :
  check_ff_fixed known b f = FFOk \/ pre_reset (check_ff_fixed known b f).
Proof. exact (check_ff_gen_res rule_fixed known b f). Qed.

Lemma check_ff_fixed_ok known b f :
  check_ff_fixed known b f = FFOk <->
  fb_peers_hash b = Some (peers_digest (ff_peers f)) /\
  existsb (verify_panics_fixed known (ff_peers f)) (fb_sigs b) = false /\
  fs_tc (ff_peers f) < Z.of_nat (length (valid_signers_fixed known (ff_peers f) (fb_sigs b))) /\
  fb_frame_hash b = ff_hash f.
Proof.
  rewrite <- gen_fixed_check_ff, check_ff_gen_ok, check_block_gen_ok.
  change (negb (rl_guard rule_fixed) && existsb se_short (fb_sigs b)) with false.
  change (panics_gen rule_fixed known (ff_peers f)) with (verify_panics_fixed known (ff_peers f)).
  change (count_gen rule_fixed known (ff_peers f) (fb_sigs b))
    with (Z.of_nat (length (valid_signers_fixed known (ff_peers f) (fb_sigs b)))).
  tauto.
Qed.

Lemma ff_decide_fixed_ok known b f :
  ff_decide_fixed known b f = FFOk <-> check_ff_fixed known b f = FFOk /\ ff_reset f = 1.
Proof. exact (ff_decide_gen_ok rule_fixed known b f). Qed.

Lemma ff_decide_fixed_checked known b f :
  ff_decide_fixed known b f = FFOk -> check_ff_fixed known b f = FFOk.
Proof. intros H. apply ff_decide_fixed_ok, H. Qed.

(* C14 for the repaired rule.  What a response that passes the checks carries: more than TrustCount
   DISTINCT members of the declared set, each known to the node, each with a verifying entry *)
Lemma check_ff_fixed_quorum known b f :
  check_ff_fixed known b f = FFOk ->
  exists signers, NoDup signers /\
    (forall v, In v signers -> in_known known v = true /\ member (ff_peers f) v = true /\
               exists s, In s (fb_sigs b) /\ se_bytes s = v /\ se_verif s = 1) /\
    fs_tc (ff_peers f) < Z.of_nat (length signers).
Proof.
  intros H. apply check_ff_fixed_ok in H as (_ & _ & HV & _).
  exists (valid_signers_fixed known (ff_peers f) (fb_sigs b)).
  split; [apply valid_signers_fixed_NoDup|split; [|exact HV]].
  intros v Hv. apply valid_signers_fixed_spec in Hv as [s [Hs [Hb Hok]]].
  apply signer_ok_inv in Hok as [_ [Hm [Hk Hvf]]]. subst v. repeat split; eauto.
Qed.

(* ... of which there is at least one, TrustCount being >= 0 *)
Lemma check_ff_fixed_known_signer known b f :
  check_ff_fixed known b f = FFOk ->
  exists s, In s (fb_sigs b) /\ se_verif s = 1 /\ member (ff_peers f) (se_bytes s) = true /\
            in_known known (se_bytes s) = true.
Proof.
  intros H. destruct (check_ff_fixed_quorum _ _ _ H) as (l & _ & Hl & Hn).
  pose proof (fs_tc_nonneg (ff_peers f)) as H0.
  destruct l as [|v l]; [simpl in Hn; lia|].
  destruct (Hl v (or_introl eq_refl)) as (Hk & Hm & s & Hs & <- & Hv). exists s; auto.
Qed.

Lemma check_ff_fixed_third known b f (signers : list Z) :
  check_ff_fixed known b f = FFOk ->
  fs_tc (ff_peers f) < Z.of_nat (length signers) -> 3 * Z.of_nat (length signers) > fs_len (ff_peers f).
Proof.
  intros H. destruct (check_ff_fixed_known_signer _ _ _ H) as (s & _ & _ & Hm & _).
  apply fs_tc_lt_third. exact (member_nonempty _ _ Hm).
Qed.

(* C12 for the repaired rule: DISTINCT members with a verifying signature exceed one third *)
Lemma accept_fixed_sound known b f :
  ff_decide_fixed known b f = FFOk ->
  fb_frame_hash b = ff_hash f /\
  fb_peers_hash b = Some (peers_digest (ff_peers f)) /\
  3 * Z.of_nat (length (distinct_valid_signers (ff_peers f) (fb_sigs b))) > fs_len (ff_peers f).
Proof.
  intros H. apply ff_decide_fixed_checked in H.
  destruct (check_ff_fixed_quorum _ _ _ H) as (l & ND & Hl & Hn).
  pose proof (check_ff_fixed_third _ _ _ l H Hn) as H3.
  apply check_ff_fixed_ok in H as (HP & _ & _ & HF). split; [exact HF|split; [exact HP|]].
  assert (Hle : (length l <= length (distinct_valid_signers (ff_peers f) (fb_sigs b)))%nat).
  { apply distinct_valid_signers_max; [exact ND|]. intros v Hv. destruct (Hl v Hv) as (_ & Hm & He). auto. }
  lia.
Qed.

Lemma check_ff_fixed_strangers known b f :
  (forall s, In s (fb_sigs b) -> se_verif s = 1 -> in_known known (se_bytes s) = false) ->
  check_ff_fixed known b f <> FFOk.
Proof.
  intros HS H. apply check_ff_fixed_known_signer in H as (s & Hin & Hv & _ & Hk).
  rewrite (HS s Hin Hv) in Hk; discriminate.
Qed.

(* tampering: if every entry that verifies on this body was made with one of the adversary's
   keys, and the adversary owns at most a third of the declared set, the response is refused *)
Lemma tamper_refused_fixed known b f adv :
  NoDup adv ->
  (forall s, In s (fb_sigs b) -> se_verif s = 1 -> In (se_bytes s) adv) ->
  3 * Z.of_nat (length adv) <= fs_len (ff_peers f) ->
  ff_decide_fixed known b f <> FFOk.
Proof.
  intros ND HA H3 H. apply ff_decide_fixed_checked in H.
  destruct (check_ff_fixed_quorum _ _ _ H) as (l & NDl & Hl & Hn).
  pose proof (check_ff_fixed_third _ _ _ l H Hn) as H3'.
  assert (Hle : (length l <= length adv)%nat).
  { apply NoDup_incl_length; [exact NDl|].
    intros v Hv. destruct (Hl v Hv) as (_ & _ & s & Hs & <- & Hvf). auto. }
  lia.
Qed.

(* the repaired rule is stricter than the current one, on a response on which the current
   Block.Verify does not panic (no short signature string, no panicking entry) *)
Lemma fixed_implies_current known b f :
  existsb se_short (fb_sigs b) = false ->
  existsb (verify_panics (ff_peers f)) (fb_sigs b) = false ->
  ff_decide_fixed known b f = FFOk -> ff_decide b f = FFOk.
Proof.
  intros HS E1 H. apply ff_decide_fixed_ok in H as [H HR].
  apply check_ff_fixed_ok in H as (HP & _ & HV & HF).
  apply ff_decide_ok. split; [|exact HR]. apply check_ff_gen_ok. split; [|exact HF].
  rewrite gen_current_check. apply check_block_ok. repeat split; try assumption.
  eapply Z.lt_le_trans; [exact HV|]. apply Nat2Z.inj_le.
  eapply Nat.le_trans; [apply dedup_length_le|]. rewrite map_length.
  apply filter_impl_length. intros s; apply signer_ok_counted.
Qed.

Lemma ff_decide_fixed_perm known i rr ph fh s s' f :
  Permutation s s' ->
  ff_decide_fixed known (mkBlock i rr ph fh s) f = ff_decide_fixed known (mkBlock i rr ph fh s') f.
Proof.
  intros HP. unfold ff_decide_fixed.
  rewrite <- !gen_fixed_check_ff, (check_ff_gen_perm _ _ i rr ph fh s s' f HP). reflexivity.
Qed.

Lemma frame_tamper_refused_fixed known b f f' :
  ff_decide_fixed known b f = FFOk ->
  ff_hash f' <> ff_hash f \/ peers_digest (ff_peers f') <> peers_digest (ff_peers f) ->
  ff_decide_fixed known b f' <> FFOk.
Proof.
  intros H HD H'. apply ff_decide_fixed_checked in H, H'.
  exact (check_ff_gen_pins_frame rule_fixed _ _ _ _ H H' HD).
Qed.

(* exactly when the repaired rule adopts (on a response on which Block.Verify does not panic) *)
Lemma ff_decide_fixed_iff known b f :
  existsb (verify_panics_fixed known (ff_peers f)) (fb_sigs b) = false ->
  (ff_decide_fixed known b f = FFOk <->
   fb_peers_hash b = Some (peers_digest (ff_peers f)) /\
   fb_frame_hash b = ff_hash f /\
   ff_reset f = 1 /\
   fs_tc (ff_peers f) < Z.of_nat (length (valid_signers_fixed known (ff_peers f) (fb_sigs b)))).
Proof. intros HNP. rewrite ff_decide_fixed_ok, check_ff_fixed_ok. tauto. Qed.

Lemma core_ff_fixed_decision known st b f : fst (core_ff_fixed known st b f) = ff_decide_fixed known b f.
Proof. exact (core_ff_gen_decision rule_fixed known st b f). Qed.

Lemma core_ff_fixed_rest known st b f : cs_rest (snd (core_ff_fixed known st b f)) = cs_rest st.
Proof. exact (core_ff_gen_rest rule_fixed known st b f). Qed.

(* the outcome of one call is decided by the checks on the chosen response *)
Lemma node_ff_fixed_refused known ns l x :
  best_response l = Some x -> pre_reset (check_ff_fixed known (r_block x) (r_frame x)) ->
  node_ff_fixed known ns l = (Some (check_ff_fixed known (r_block x) (r_frame x)), ns).
Proof.
  intros HB HP. unfold node_ff_fixed. rewrite HB. destruct HP as [E|[E|[E|E]]]; rewrite E; reflexivity.
Qed.

Lemma node_ff_fixed_checked known ns l x :
  best_response l = Some x -> check_ff_fixed known (r_block x) (r_frame x) = FFOk ->
  exists c bab, node_ff_fixed known ns l =
    (Some (reset_result (r_frame x)), mkNode c (r_snapshot x :: ns_app ns) bab).
Proof.
  intros HB E. unfold node_ff_fixed. rewrite HB, E.
  rewrite <- gen_fixed_core, core_ff_gen_eq. unfold ff_decide_gen. rewrite gen_fixed_check_ff, E.
  destruct (reset_result (r_frame x)); eauto.
Qed.

(* a response refused by the checks leaves node AND application untouched *)
Lemma node_ff_fixed_reject_noop known ns l r ns' :
  node_ff_fixed known ns l = (Some r, ns') -> pre_reset r -> ns' = ns.
Proof.
  destruct (best_response l) as [x|] eqn:HB; [|unfold node_ff_fixed; rewrite HB; discriminate].
  destruct (check_ff_fixed_res known (r_block x) (r_frame x)) as [E|E].
  - destruct (node_ff_fixed_checked known ns l x HB E) as (c & bab & ->).
    intros H Hr. inversion H; subst r. destruct (reset_result_not_pre _ Hr).
  - rewrite (node_ff_fixed_refused known ns l x HB E). intros H _. inversion H. reflexivity.
Qed.

(* the repaired node restores the application only for a response that passed every check *)
Lemma node_ff_fixed_restore_checked known ns l r ns' :
  node_ff_fixed known ns l = (r, ns') -> ns_app ns' <> ns_app ns ->
  exists x, best_response l = Some x /\ check_ff_fixed known (r_block x) (r_frame x) = FFOk /\
            ns_app ns' = r_snapshot x :: ns_app ns.
Proof.
  destruct (best_response l) as [x|] eqn:HB.
  2:{ unfold node_ff_fixed; rewrite HB. intros H; inversion H; subst; simpl; congruence. }
  destruct (check_ff_fixed_res known (r_block x) (r_frame x)) as [E|E].
  - destruct (node_ff_fixed_checked known ns l x HB E) as (c & bab & ->).
    intros H _. inversion H. exists x. auto.
  - rewrite (node_ff_fixed_refused known ns l x HB E). intros H; inversion H; subst; congruence.
Qed.

Lemma node_fixed_refuses_strangers known ns l x :
  best_response l = Some x ->
  (forall s, In s (fb_sigs (r_block x)) -> se_verif s = 1 -> in_known known (se_bytes s) = false) ->
  exists r, node_ff_fixed known ns l = (Some r, ns) /\ r <> FFOk.
Proof.
  intros HB HS. pose proof (check_ff_fixed_strangers known (r_block x) (r_frame x) HS) as HN.
  destruct (check_ff_fixed_res known (r_block x) (r_frame x)) as [E|E]; [contradiction|].
  eexists. split; [exact (node_ff_fixed_refused known ns l x HB E)|exact HN].
Qed.

Lemma best_from_in l : forall best maxb x,
  best_from l best maxb = Some x -> best = Some x \/ In (Some x) l.
Proof.
  induction l as [|o r IH]; intros best maxb x; simpl; [auto|].
  destruct o as [y|].
  - destruct (maxb <? fb_index (r_block y)); intros H; apply IH in H as [H|H]; auto.
  - intros H; apply IH in H as [H|H]; auto.
Qed.

Lemma best_from_index l : forall best maxb x,
  0 <= maxb ->
  (forall y, best = Some y -> 0 < fb_index (r_block y)) ->
  best_from l best maxb = Some x -> 0 < fb_index (r_block x).
Proof.
  induction l as [|o r IH]; intros best maxb x Hm Hb; simpl; [intros H; apply Hb; auto|].
  destruct o as [y|]; [|apply IH; auto].
  destruct (maxb <? fb_index (r_block y)) eqn:E.
  - apply IH; [lia|]. intros z Hz; inversion Hz; subst; lia.
  - apply IH; auto.
Qed.

Lemma best_response_in l x : best_response l = Some x -> In (Some x) l /\ 0 < fb_index (r_block x).
Proof.
  unfold best_response. intros H. split.
  - apply best_from_in in H as [H|H]; [discriminate|auto].
  - eapply best_from_index; [| |exact H]; [lia|discriminate].
Qed.

From V Require Import Model.FastSyncWitness.

(* adoption implies: the frame hashes to the block's frame hash, the frame's validator set hashes to
   the block's peer-set hash, and more than one third of the DISTINCT members of that set have a
   verifying signature ([distinct_valid_signers] is exactly that set: distinct_valid_signers_spec) *)
Definition accept_sound_statement (decide : ffblock -> ffframe -> ffres) : Prop :=
  forall b f, decide b f = FFOk ->
    fb_frame_hash b = ff_hash f /\
    fb_peers_hash b = Some (peers_digest (ff_peers f)) /\
    3 * Z.of_nat (length (distinct_valid_signers (ff_peers f) (fb_sigs b))) > fs_len (ff_peers f).

(* a refused response leaves core, application and node state untouched *)
Definition reject_noop_statement
  (nff : node_state -> list (option ffresp) -> option ffres * node_state) : Prop :=
  forall ns l r ns', nff ns l = (Some r, ns') -> r <> FFOk -> ns' = ns.

(* a response whose verifying entries all come from keys outside every known set is not adopted *)
Definition no_strangers_statement (decide : list (list Z) -> ffblock -> ffframe -> ffres) : Prop :=
  forall known b f,
    (forall s, In s (fb_sigs b) -> se_verif s = 1 -> in_known known (se_bytes s) = false) ->
    decide known b f <> FFOk.

(* tampering: every verifying entry was made with an adversary key, the adversary owns at most a third *)
Definition tamper_refused_statement (decide : ffblock -> ffframe -> ffres) : Prop :=
  forall b f adv, NoDup adv ->
    (forall s, In s (fb_sigs b) -> se_verif s = 1 -> In (se_bytes s) adv) ->
    3 * Z.of_nat (length adv) <= fs_len (ff_peers f) ->
    decide b f <> FFOk.

Lemma accept_sound_refuted : ~ accept_sound_statement ff_decide.
Proof.
  intros H. specialize (H w_dup_block w_frame4 eq_refl). destruct H as [_ [_ H]].
  vm_compute in H. discriminate.
Qed.

Lemma distinct_signers_refuted_witness :
  NoDup (map se_key (fb_sigs w_dup_block)) /\ ff_decide w_dup_block w_frame4 = FFOk /\
  distinct_valid_signers (ff_peers w_frame4) (fb_sigs w_dup_block) = [1] /\ fs_len (ff_peers w_frame4) = 4.
Proof.
  split; [|vm_compute; repeat split].
  cbn. constructor; [cbn; intros [H|[H|[]]]; discriminate|].
  constructor; [cbn; intros [H|[]]; discriminate|].
  constructor; [cbn; tauto|constructor].
Qed.

Lemma distinct_signers_refuted : exists b f,
  NoDup (map se_key (fb_sigs b)) /\ ff_decide b f = FFOk /\
  distinct_valid_signers (ff_peers f) (fb_sigs b) = [1] /\ fs_len (ff_peers f) = 4.
Proof. exists w_dup_block, w_frame4. exact distinct_signers_refuted_witness. Qed.

Lemma tamper_refused_refuted : ~ tamper_refused_statement ff_decide.
Proof.
  intros H. apply (H w_dup_block w_frame4 [1]).
  - repeat constructor; cbn; tauto.
  - intros s Hs _. cbn in Hs. destruct Hs as [<-|[<-|[<-|[]]]]; cbn; auto.
  - vm_compute. discriminate.
  - reflexivity.
Qed.

Lemma restore_before_check_refuted : exists ns l ns',
  node_ff ns l = (Some FFNotEnoughSigs, ns') /\ ns_core ns' = ns_core ns /\ ns_app ns' <> ns_app ns.
Proof.
  exists w_ns0, [None; Some w_tampered; None; None]. eexists.
  split; [vm_compute; reflexivity|split; [reflexivity|discriminate]].
Qed.

Lemma reject_noop_refuted : ~ reject_noop_statement node_ff.
Proof.
  destruct restore_before_check_refuted as (ns & l & ns' & E & _ & Happ).
  intros H. apply Happ. rewrite (H _ _ _ _ E); [reflexivity|discriminate].
Qed.

Lemma reset_failure_not_noop_refuted : exists st b f st',
  core_ff st b f = (FFResetError, st') /\ st' <> st.
Proof.
  exists w_core0, w_forged_block, w_forged_frame_bad. eexists.
  split; [vm_compute; reflexivity|discriminate].
Qed.

Lemma strangers_refused_fixed known b f :
  (forall s, In s (fb_sigs b) -> in_known known (se_bytes s) = false) ->
  ff_decide_fixed known b f <> FFOk.
Proof.
  intros HS H. apply ff_decide_fixed_checked in H. revert H.
  apply check_ff_fixed_strangers. intros s Hs _. exact (HS s Hs).
Qed.

Lemma no_strangers_refuted : ~ no_strangers_statement (fun _ => ff_decide).
Proof.
  intros H. apply (H w_known w_forged_block w_forged_frame).
  - intros s Hs _. cbn in Hs. destruct Hs as [<-|[]]. vm_compute. reflexivity.
  - vm_compute. reflexivity.
Qed.

(* the node-level form: a catching-up node configured with {0,1,2,3} whose peers answer honestly,
   except one that ships the forged response with a higher block index: the forged one is chosen,
   the application restored from its snapshot, the validator set replaced by {4} *)
Lemma stranger_adopted_node :
  exists ns',
  node_ff w_ns0 [Some (mkResp w_good_block w_frame4 0); Some w_forged; Some (mkResp w_good_block w_frame4 0)]
    = (Some FFOk, ns') /\
  cs_validators (ns_core ns') = [mkFPeer 4 0] /\ ns_app ns' = [2] /\
  (forall s, In s (fb_sigs w_forged_block) -> in_known w_known (se_bytes s) = false).
Proof.
  eexists. split; [vm_compute; reflexivity|split; [reflexivity|split; [reflexivity|]]].
  intros s Hs. cbn in Hs. destruct Hs as [<-|[]]. vm_compute. reflexivity.
Qed.

(* what the repaired rule does NOT stop (outside C14's quantifier: the signer is known) *)
Lemma fixed_insider_residual :
  ff_decide_fixed w_known w_insider_block w_insider_frame = FFOk /\
  fs_len (ff_peers w_insider_frame) = 1.
Proof. vm_compute. split; reflexivity. Qed.

(* finding F4 (Properties/C12.v, part 3) on the repaired rule: the full no-op statement is still
   false when more than a third of the validators the node knows sign a frame that Reset cannot
   insert *)
Lemma reject_noop_fixed_refuted : ~ reject_noop_statement (node_ff_fixed w_known).
Proof.
  intros H.
  assert (E : node_ff_fixed w_known w_ns0 [None; Some w_byz] =
              (Some FFResetError, mkNode (mkCore (HgBroken w_byz_block w_byz_frame) w_set4 w_set4 0) [8] false))
    by (vm_compute; reflexivity).
  specialize (H _ _ _ _ E). assert (N : FFResetError <> FFOk) by discriminate.
  specialize (H N). discriminate.
Qed.

(* an honest response: digests consistent, Reset succeeds, every entry is a well-formed verifying
   signature of a distinct member of the frame's set *)
Definition honest_response (b : ffblock) (f : ffframe) : Prop :=
  fb_peers_hash b = Some (peers_digest (ff_peers f)) /\
  fb_frame_hash b = ff_hash f /\ ff_reset f = 1 /\
  NoDup (map se_bytes (fb_sigs b)) /\
  forall s, In s (fb_sigs b) -> se_short s = false /\ se_verif s = 1 /\ member (ff_peers f) (se_bytes s) = true.

(* exactly: an honest response is adopted iff more than TrustCount of its signers belong to a set the
   node already knows *)
Lemma honest_accept_iff known b f :
  honest_response b f ->
  (ff_decide_fixed known b f = FFOk <->
   fs_tc (ff_peers f) < Z.of_nat (length (filter (in_known known) (map se_bytes (fb_sigs b))))).
Proof.
  intros [HP [HF [HR [ND HS]]]].
  assert (HNP : existsb (verify_panics_fixed known (ff_peers f)) (fb_sigs b) = false).
  { destruct (existsb (verify_panics_fixed known (ff_peers f)) (fb_sigs b)) eqn:E; [|reflexivity].
    apply existsb_exists in E as [s [Hs Hp]]. destruct (HS s Hs) as [_ [Hv _]].
    unfold verify_panics_fixed in Hp. rewrite Hv in Hp. rewrite andb_false_r in Hp. discriminate. }
  assert (EV : valid_signers_fixed known (ff_peers f) (fb_sigs b) =
               filter (in_known known) (map se_bytes (fb_sigs b))).
  { unfold valid_signers_fixed.
    assert (EF : filter (signer_ok known (ff_peers f)) (fb_sigs b) =
                 filter (fun s => in_known known (se_bytes s)) (fb_sigs b)).
    { apply filter_ext_in. intros s Hs. destruct (HS s Hs) as [Hsh [Hv Hm]].
      unfold signer_ok. rewrite Hsh, Hv, Hm. cbn. rewrite andb_true_r. reflexivity. }
    rewrite EF, (filter_map_comm se_bytes (in_known known)).
    apply dedup_id. apply NoDup_filter. exact ND. }
  rewrite (ff_decide_fixed_iff known b f HNP), EV. tauto.
Qed.

(* ... in particular it is adopted by a node that knows every signer *)
Lemma honest_accept_all_known known b f :
  honest_response b f ->
  (forall s, In s (fb_sigs b) -> in_known known (se_bytes s) = true) ->
  fs_tc (ff_peers f) < Z.of_nat (length (fb_sigs b)) ->
  ff_decide_fixed known b f = FFOk.
Proof.
  intros HH HK HL. apply (honest_accept_iff known b f HH).
  assert (E : filter (in_known known) (map se_bytes (fb_sigs b)) = map se_bytes (fb_sigs b)).
  { clear HL HH. induction (fb_sigs b) as [|s r IH]; simpl; [reflexivity|].
    rewrite (HK s (or_introl eq_refl)). f_equal. apply IH. intros x Hx; apply HK; right; auto. }
  rewrite E, map_length. exact HL.
Qed.

Lemma liveness_example :
  honest_response w_block5 w_frame5 /\
  ff_decide_fixed [[0; 1; 2; 3]] w_block5 w_frame5 = FFNotEnoughSigs /\
  ff_decide_fixed [[0; 1; 2; 3; 4]; [0; 1; 2; 3]] w_block5 w_frame5 = FFOk /\
  cs_validators (snd (core_ff_fixed [[0; 1; 2; 3; 4]] w_core0 w_block5 w_frame5)) = w_set5.
Proof.
  split; [|vm_compute; repeat split; reflexivity].
  unfold honest_response. split; [reflexivity|split; [reflexivity|split; [reflexivity|split]]].
  - exact (dedup_NoDup [2; 3; 4]).
  - intros s Hs. cbn in Hs. destruct Hs as [<-|[<-|[<-|[]]]]; vm_compute; repeat split; reflexivity.
Qed.

(* outcomes after which the node must be exactly as before: Restore failed after a successful check,
   or the response was refused by the checks *)
Definition quiet (r : nres) : Prop := r = NRestoreFailed \/ exists x, r = NRes x /\ pre_reset x.

Lemma quiet_not_adopted r : quiet r -> nres_adopted r = false.
Proof.
  intros [H|[x [H Hp]]]; subst; [reflexivity|].
  destruct Hp as [Hp|[Hp|[Hp|Hp]]]; subst; reflexivity.
Qed.

(* with a succeeding Restore the one-call function is Node.fastForward *)
Lemma node_step_gen_true rl known ns l :
  node_step_gen rl known ns l true =
    match node_ff_gen rl known ns l with
    | (Some r, ns') => (NRes r, ns')
    | (None, ns') => (NNone, ns')
    end.
Proof.
  unfold node_step_gen, node_ff_gen.
  destruct (best_response l) as [x|]; [|reflexivity].
  destruct (rl_check_first rl); [|reflexivity].
  destruct (check_ff_gen rl known (r_block x) (r_frame x)); reflexivity.
Qed.

Lemma node_step_is_node_ff_fixed known ns l :
  node_step known ns l true =
    match node_ff_fixed known ns l with
    | (Some r, ns') => (NRes r, ns')
    | (None, ns') => (NNone, ns')
    end.
Proof. unfold node_step. rewrite node_step_gen_true, gen_fixed_node. reflexivity. Qed.

Lemma node_step_quiet_noop known ns l ok r ns' :
  node_step known ns l ok = (r, ns') -> quiet r -> ns' = ns.
Proof.
  destruct ok.
  - rewrite node_step_is_node_ff_fixed.
    destruct (node_ff_fixed known ns l) as [[r0|] ns0] eqn:E; intros H Hq; inversion H; subst.
    + destruct Hq as [Hq|[y [Hq Hp]]]; [discriminate|]. inversion Hq; subst y.
      exact (node_ff_fixed_reject_noop _ _ _ _ _ E Hp).
    + destruct Hq as [Hq|[y [Hq _]]]; discriminate.
  - unfold node_step, node_step_gen. cbn [rl_check_first rule_fixed].
    destruct (best_response l) as [x|].
    + destruct (check_ff_gen rule_fixed known (r_block x) (r_frame x)); intros H _; inversion H; reflexivity.
    + intros H [Hq|[y [Hq _]]]; inversion H; subst; discriminate.
Qed.

Lemma node_seq_app genesis l1 : forall known ns l2,
  node_seq genesis known ns (l1 ++ l2) =
    (let '(rs1, n1, k1) := node_seq genesis known ns l1 in
     let '(rs2, n2, k2) := node_seq genesis k1 n1 l2 in (rs1 ++ rs2, n2, k2)).
Proof.
  induction l1 as [|s t IH]; intros known ns l2; cbn [node_seq app].
  - destruct (node_seq genesis known ns l2) as [[rs2 n2] k2]. reflexivity.
  - destruct (node_step known ns (st_answers s) (st_restore_ok s)) as [r ns1]. rewrite IH.
    destruct (node_seq genesis _ ns1 t) as [[rs1 n1] k1].
    destruct (node_seq genesis k1 n1 l2) as [[rs2 n2] k2]. reflexivity.
Qed.

(* a sequence of quiet outcomes leaves the node and what it knows exactly as they were *)
Lemma node_seq_quiet genesis l : forall known ns rs nsf kf,
  node_seq genesis known ns l = (rs, nsf, kf) -> Forall quiet rs -> nsf = ns /\ kf = known.
Proof.
  induction l as [|s t IH]; intros known ns rs nsf kf H HQ; cbn [node_seq] in H.
  - injection H as _ <- <-. split; reflexivity.
  - destruct (node_step known ns (st_answers s) (st_restore_ok s)) as [r ns1] eqn:ES.
    destruct (node_seq genesis _ ns1 t) as [[rs1 n1] k1] eqn:ET.
    injection H as <- <- <-. inversion HQ as [|? ? Hq HQ']; subst.
    rewrite (quiet_not_adopted _ Hq), (node_step_quiet_noop _ _ _ _ _ _ ES Hq) in ET.
    exact (IH _ _ _ _ _ ET HQ').
Qed.

(* ... so that the rest of the sequence runs as if the prefix had never happened; in particular the
   call that follows answers exactly as it would on the untouched node *)
Lemma node_seq_quiet_prefix genesis known ns prefix rest rs nsf kf :
  node_seq genesis known ns prefix = (rs, nsf, kf) ->
  Forall quiet rs ->
  node_seq genesis known ns (prefix ++ rest) =
    (let '(rs', n', k') := node_seq genesis known ns rest in (rs ++ rs', n', k')).
Proof.
  intros H HQ. rewrite node_seq_app, H. destruct (node_seq_quiet _ _ _ _ _ _ _ H HQ) as [-> ->]. reflexivity.
Qed.

Lemma node_decision_independent_of_history genesis known ns prefix s rs nsf kf :
  node_seq genesis known ns prefix = (rs, nsf, kf) ->
  Forall quiet rs ->
  fst (fst (node_seq genesis known ns (prefix ++ [s]))) =
    rs ++ [fst (node_step known ns (st_answers s) (st_restore_ok s))] /\
  snd (fst (node_seq genesis known ns (prefix ++ [s]))) =
    snd (node_step known ns (st_answers s) (st_restore_ok s)).
Proof.
  intros H HQ. rewrite (node_seq_quiet_prefix _ _ _ _ [s] _ _ _ H HQ). cbn [node_seq].
  destruct (node_step known ns (st_answers s) (st_restore_ok s)) as [r ns1]. split; reflexivity.
Qed.

(* core level: the decisions of a sequence and the known sets at its end do not depend on the core
   state, each decision being [ff_decide_fixed] on what is known then *)
Lemma core_seq_state_blind genesis known st1 st2 l :
  fst (fst (core_seq genesis known st1 l)) = fst (fst (core_seq genesis known st2 l)) /\
  snd (core_seq genesis known st1 l) = snd (core_seq genesis known st2 l).
Proof.
  revert known st1 st2. induction l as [|[b f] t IH]; intros known st1 st2; [simpl; auto|].
  cbn [core_seq].
  pose proof (core_ff_fixed_decision known st1 b f) as H1.
  pose proof (core_ff_fixed_decision known st2 b f) as H2.
  destruct (core_ff_fixed known st1 b f) as [r1 s1], (core_ff_fixed known st2 b f) as [r2 s2].
  simpl in H1, H2. subst r1 r2.
  specialize (IH (if is_ok (ff_decide_fixed known b f) then known_after genesis f else known) s1 s2).
  destruct (core_seq genesis _ s1 t) as [[rs1 f1] k1], (core_seq genesis _ s2 t) as [[rs2 f2] k2].
  simpl in *. destruct IH as [-> ->]. auto.
Qed.

(* the genesis peers stay known whatever is adopted; so do the adopted frame's own validators *)
Lemma known_after_genesis genesis f v : mem_key v genesis = true -> in_known (known_after genesis f) v = true.
Proof.
  intros H. unfold in_known, known_after. cbn [existsb]. rewrite H. apply orb_true_r.
Qed.

Lemma known_after_peers genesis f v :
  mem_key v (peers_digest (ff_peers f)) = true -> in_known (known_after genesis f) v = true.
Proof. intros H. unfold in_known, known_after. cbn [existsb]. rewrite H. reflexivity. Qed.
