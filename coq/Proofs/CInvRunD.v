(* [cinvD P None] holds in every state of a run whose validator-set lookups return P
   (Proofs/GapWindow.v: under the distance bound, P = the final table).  Dynamic membership. *)
From Coq Require Import ZArith List Bool Lia ZifyBool.
From RecordUpdate Require Import RecordSet.
From V Require Import Model.ZMap Model.Quorum Model.Voting Model.HgImpl Model.PeerSetSpec Model.Window
  Proofs.ZMapFacts Proofs.HgFrames Proofs.HgDagFrames Proofs.AdmissionProofs Proofs.Ancestry
  Proofs.HgBlockFrames Proofs.BlockInv Proofs.RoundOrder Proofs.OrderFrames Proofs.OrderProofs Proofs.Static
  Proofs.FirstDesc Proofs.FdWalk Proofs.DivInv Proofs.CInvRun Proofs.PeerSetProofs Proofs.TidyRR Proofs.LrMono
  Proofs.WindowStable Proofs.GapWindow Proofs.FirstDescD Proofs.InsertInvD Proofs.DivInvD.
Import ListNotations RecordSetNotations.
Open Scope Z_scope.

Lemma divide_round_le_divide_one s y ev : get_event s y = Some ev -> ev_round ev = None -> failed s = false ->
  last_round (divide_round s y) <= last_round (divide_one s y).
Proof.
  intros Hy Hr Hf. unfold divide_one. rewrite Hf, Hy, Hr. cbv zeta.
  destruct (failed (divide_round s y)); [lia|].
  destruct (get_event (divide_round s y) y) as [ev1|]; [|pose proof (lrq_fail (divide_round s y)) as L; unfold lrq in L; lia].
  destruct (ev_lt ev1); [lia|]. pose proof (divide_lt_lrq_le (divide_round s y) y) as L. unfold lrq in L. lia.
Qed.

(* the rounds in the table after a division lie below the bound the lookups are known for *)
Lemma divide_round_rounds_le P s y L :
  cinvD P (Some y) s -> failed s = false -> rinv s -> peersets s <> [] -> last_round (divide_one s y) <= L ->
  forall q, get_round (divide_round s y) q <> None -> 0 <= q <= L.
Proof.
  intros I Hf R Hne HL q Hq.
  destruct (cd_exc _ _ _ I y eq_refl) as [_ [_ [ev [Hy [Hr _]]]]].
  pose proof (divide_round_failedD P s y I Hne) as F'. rewrite Hf in F'.
  destruct (divide_round_rinv s y R) as [Ff|R']; [congruence|].
  destruct (rinv_bounded _ R') as [[_ B] _].
  pose proof (divide_round_le_divide_one s y ev Hy Hr Hf) as Hle. specialize (B q Hq). lia.
Qed.

Lemma get_peerset_bview s s' q : bview s' = bview s -> get_peerset s' q = get_peerset s q.
Proof. intros B. unfold get_peerset. rewrite (bview_peersets _ _ B). reflexivity. Qed.

Lemma divide_rounds_cinvD P L l : forall s E,
  dag_ok s -> failed s = true \/ cinvD P E s -> rinv_f s -> peersets s <> [] ->
  (forall q, 0 <= q <= L -> get_peerset s q = Some (P q)) -> last_round (fold_left divide_one l s) <= L ->
  match E with Some x => In x l | None => True end ->
  failed (fold_left divide_one l s) = true \/ cinvD P None (fold_left divide_one l s).
Proof.
  induction l as [|y l IH]; intros s E OK H R Hne Hps HL HE; cbn [fold_left] in *.
  - destruct E; [destruct HE|exact H].
  - pose proof (divide_one_bview s y) as B1.
    assert (Hne1 : peersets (divide_one s y) <> []) by (rewrite (bview_peersets _ _ B1); exact Hne).
    assert (Hps1 : forall q, 0 <= q <= L -> get_peerset (divide_one s y) q = Some (P q))
      by (intros q Hq; rewrite (get_peerset_bview _ _ q B1); apply Hps; exact Hq).
    destruct (failed s) eqn:Hf.
    + rewrite (divide_one_failed s y Hf) in *. apply (IH s None OK); auto.
    + destruct H as [H|I]; [congruence|]. destruct R as [R|R]; [congruence|].
      assert (HL1 : last_round (divide_one s y) <= L).
      { pose proof (fold_lrq_le divide_one l divide_one_lrq_le (divide_one s y)) as M. unfold lrq in M. lia. }
      apply (IH (divide_one s y) (after_div E y)); auto.
      * eapply dag_ok_frame; [exact OK|apply divide_one_frame].
      * apply (divide_one_cinvD P E s y I Hf Hne). intros -> q Hq.
        apply Hps, (divide_round_rounds_le P s y L I Hf R Hne HL1 q Hq).
      * apply divide_one_rinv. right. exact R.
      * destruct E as [x|]; cbn [after_div]; [|exact Logic.I].
        destruct (Z.eqb_spec x y) as [->|Hnxy]; [exact Logic.I|].
        destruct HE as [E0|HE]; [congruence|exact HE].
Qed.

Lemma run_consensus_cinvD P st x :
  dag_ok st -> rinv st -> peersets st <> [] ->
  (forall q, 0 <= q <= last_round (run_consensus st) -> get_peerset st q = Some (P q)) ->
  cinvD P (Some x) st -> In x (undetermined st) ->
  failed (run_consensus st) = true \/ cinvD P None (run_consensus st).
Proof.
  intros OK R Hne Hps I Hin.
  assert (HL1 : last_round (divide_rounds st) <= last_round (run_consensus st)).
  { unfold run_consensus. set (s1 := divide_rounds st). destruct (failed s1); [lia|]. cbv zeta.
    pose proof (decide_fame_lrq_le s1) as L2. unfold lrq in L2. set (s2 := decide_fame s1) in *.
    destruct (failed s2); [lia|].
    pose proof (decide_round_received_lrq_le s2) as L3. unfold lrq in L3. set (s3 := decide_round_received s2) in *.
    destruct (failed s3); [lia|]. pose proof (lrv_process_decided_rounds s3) as L4. unfold lrv in L4. lia. }
  apply run_consensus_cinvD_divided.
  exact (divide_rounds_cinvD P _ (undetermined st) st (Some x) OK (or_intror I) (or_intror R) Hne Hps HL1 Hin).
Qed.

Lemma step_cinvD P all st e :
  dag_ok st -> la_ok st -> from_attempts st all -> ids_determine all -> In e all -> 0 <= e_id e ->
  rinv st -> peersets st <> [] ->
  (forall q, 0 <= q <= last_round (step st e) -> get_peerset st q = Some (P q)) ->
  cinvD P None st ->
  failed (step st e) = true \/ cinvD P None (step st e).
Proof.
  intros OK LA FA ID Hin Hid R Hne Hps I. unfold step, insert_and_run in *.
  pose proof (insert_event_bview st e) as B. pose proof (insert_event_rstep st e) as S.
  destruct (insert_event st e) as [r s] eqn:E. cbn [snd] in B, S.
  destruct (insert_event_inv st e all r s OK FA ID Hin Hid E) as [OK' [FA' Hns]].
  assert (Hrej : r <> InsOk -> failed (snd (r, s)) = true \/ cinvD P None (snd (r, s))).
  { intros Hn. rewrite (insert_reject_noop st e r s E Hn Hns). right. exact I. }
  destruct r; try (apply Hrej; discriminate). clear Hrej. cbn [snd] in *.
  destruct (insert_cinvD P all st e s OK LA FA ID Hin Hid I E) as [I' Hund].
  apply (run_consensus_cinvD P s (e_id e)); auto.
  - eapply rinv_rstep; eauto.
  - rewrite (bview_peersets _ _ B). exact Hne.
  - intros q Hq. rewrite (get_peerset_bview _ _ q B). apply Hps. exact Hq.
Qed.

Lemma hrun_la_ok all ops : ids_determine all -> Forall (hop_ok all) ops ->
  forall st, ginv all st -> la_ok st -> la_ok (hrun st ops).
Proof.
  intros ID. induction 1 as [|o ops Ho Hops IH]; intros st G LA; cbn [hrun fold_left]; [exact LA|].
  apply IH; [apply (hstep_ginv all st o ID Ho G)|].
  pose proof (g_dag _ _ (gi_core _ _ G)) as OK. pose proof (g_from _ _ (gi_core _ _ G)) as FA.
  destruct o as [e|]; cbn [hstep].
  - destruct Ho as [Hin Hid]. apply (step_la_inv st e all OK LA FA ID Hin Hid).
  - eapply la_ok_frame; [exact LA|apply process_sigpool_frame].
Qed.

Definition psat (st : hg) (q : Z) : peerset := match get_peerset st q with Some ps => ps | None => [] end.

Theorem hrun_cinvD self_ genesis oracle_ all ops :
  self_ <> -1 -> ids_determine all -> Forall (hop_ok all) ops ->
  gap_runb (init_hg self_ genesis oracle_) ops = true ->
  forall k, failed (hrun (init_hg self_ genesis oracle_) (firstn k ops)) = false ->
  cinvD (psat (hrun (init_hg self_ genesis oracle_) ops)) None (hrun (init_hg self_ genesis oracle_) (firstn k ops)).
Proof.
  intros Hs ID H Hg.
  set (init := init_hg self_ genesis oracle_). set (P := psat (hrun init ops)).
  pose proof (gap_run_window self_ genesis oracle_ Hs ops [] Hg) as Hw. cbn [reach hrun fold_left] in Hw. unfold reach in Hw. cbn in Hw. fold init in Hw.
  induction k as [|k IH]; intros Hf.
  - cbn [firstn hrun fold_left]. apply cinvD_init.
  - destruct (nth_error ops k) as [o|] eqn:Eo.
    2:{ apply nth_error_None in Eo. rewrite firstn_all2 in Hf |- * by lia.
        rewrite <- (firstn_all2 (n := k) ops) by lia. apply IH. rewrite firstn_all2 by lia. exact Hf. }
    assert (Hk : (k < length ops)%nat) by (apply nth_error_Some; rewrite Eo; discriminate).
    assert (E1 : firstn (S k) ops = firstn k ops ++ [o]).
    { clear - Eo. revert k Eo. induction ops as [|a l IHl]; intros k Eo; [destruct k; discriminate|].
      destruct k as [|k]; [cbn in Eo; inversion Eo; reflexivity|]. cbn [nth_error] in Eo.
      change (a :: firstn (S k) l = a :: (firstn k l ++ [o])). f_equal. apply IHl. exact Eo. }
    assert (ES : hrun init (firstn (S k) ops) = hstep (hrun init (firstn k ops)) o).
    { rewrite E1, hrun_app. reflexivity. }
    set (Sk := hrun init (firstn k ops)) in *.
    assert (Hfk : failed Sk = false).
    { destruct (failed Sk) eqn:E; [|reflexivity]. rewrite ES, (hstep_failed_mono Sk o E) in Hf. discriminate. }
    specialize (IH Hfk).
    assert (Hpre : Forall (hop_ok all) (firstn k ops)).
    { rewrite Forall_forall in *. intros o' Ho'. apply H. clear - Ho'. revert k Ho'. induction ops as [|a l IHl]; intros k Ho'; destruct k; cbn in *; try contradiction.
      destruct Ho'; [left; assumption|right; eapply IHl; eauto]. }
    assert (Ho : hop_ok all o) by (rewrite Forall_forall in H; apply H; eapply nth_error_In; exact Eo).
    pose proof (hrun_ginv all self_ genesis oracle_ (firstn k ops) ID Hpre) as G. fold init in G. fold Sk in G.
    pose proof (g_dag _ _ (gi_core _ _ G)) as OK. pose proof (g_from _ _ (gi_core _ _ G)) as FA.
    assert (LA : la_ok Sk).
    { apply (hrun_la_ok all (firstn k ops) ID Hpre init); [apply ginv_init|].
      apply la_ok_no_events. intros x. destruct (cw_fields _ _ (cw_init self_ genesis oracle_)) as [Ev _].
      unfold get_event, init. rewrite Ev. cbn. apply zget_empty. }
    assert (R : rinv Sk) by (apply (proj2 (hrun_rtop self_ genesis oracle_ (firstn k ops)) Hfk)).
    destruct (hrun_c10inv self_ genesis oracle_ (firstn k ops) Hs) as [_ C10]. fold init in C10. fold Sk in C10.
    assert (Hne : peersets Sk <> []) by (apply table_wf_nonempty, (c_wf _ _ C10)).
    (* the crux: under the distance bound a lookup made during step k, for a round that exists after it, already
       returns what the final table returns; this is why P is fixed to the final table and the induction runs over
       the prefixes of one run *)
    assert (Hps : forall q, 0 <= q <= last_round (hstep Sk o) -> get_peerset Sk q = Some (P q)).
    { intros q Hq. rewrite <- ES in Hq.
      destruct (window_lookup_final_step self_ genesis oracle_ Hs ops k q Hw Hk) as [A _]; [unfold reach; fold init; lia|].
      unfold reach in A. fold init in A. fold Sk in A. rewrite A. unfold P, psat.
      destruct (hrun_c10inv self_ genesis oracle_ ops Hs) as [_ C10f]. fold init in C10f.
      destruct (get_nonempty q (peersets (hrun init ops)) (table_wf_nonempty _ (c_wf _ _ C10f))) as [ps Hps].
      unfold get_peerset. rewrite Hps. reflexivity. }
    rewrite ES in Hf |- *. destruct o as [e|]; cbn [hstep] in *.
    + destruct Ho as [Hin Hid].
      destruct (step_cinvD P all Sk e OK LA FA ID Hin Hid R Hne Hps IH) as [Hx|Hx]; [congruence|exact Hx].
    + eapply cinvD_ckeepD; [exact IH|]. apply ckeepD_cw, cw_process_sigpool.
Qed.

Theorem hrun_cinvD_final self_ genesis oracle_ all ops :
  self_ <> -1 -> ids_determine all -> Forall (hop_ok all) ops ->
  gap_runb (init_hg self_ genesis oracle_) ops = true ->
  failed (hrun (init_hg self_ genesis oracle_) ops) = false ->
  cinvD (psat (hrun (init_hg self_ genesis oracle_) ops)) None (hrun (init_hg self_ genesis oracle_) ops).
Proof.
  intros Hs ID H Hg Hf.
  pose proof (hrun_cinvD self_ genesis oracle_ all ops Hs ID H Hg (length ops)) as Q.
  rewrite firstn_all in Q. exact (Q Hf).
Qed.

(* the two membership gates of DivideRounds, read with the final table *)
Theorem gates_round_final self_ genesis oracle_ all ops x r :
  self_ <> -1 -> ids_determine all -> Forall (hop_ok all) ops ->
  gap_runb (init_hg self_ genesis oracle_) ops = true ->
  failed (hrun (init_hg self_ genesis oracle_) ops) = false ->
  rmemo (hrun (init_hg self_ genesis oracle_) ops) x = Some r ->
  0 <= r /\ exists ex, get_event (hrun (init_hg self_ genesis oracle_) ops) x = Some ex /\
    reqD (psat (hrun (init_hg self_ genesis oracle_) ops)) (hrun (init_hg self_ genesis oracle_) ops) x ex r.
Proof. intros Hs ID H Hg Hf. apply (cd_rdom _ _ _ (hrun_cinvD_final self_ genesis oracle_ all ops Hs ID H Hg Hf)). Qed.

Theorem gates_witness_final self_ genesis oracle_ all ops x w :
  self_ <> -1 -> ids_determine all -> Forall (hop_ok all) ops ->
  gap_runb (init_hg self_ genesis oracle_) ops = true ->
  failed (hrun (init_hg self_ genesis oracle_) ops) = false ->
  wmemo (hrun (init_hg self_ genesis oracle_) ops) x = Some w ->
  exists ex r, get_event (hrun (init_hg self_ genesis oracle_) ops) x = Some ex /\
    rmemo (hrun (init_hg self_ genesis oracle_) ops) x = Some r /\
    weq (psat (hrun (init_hg self_ genesis oracle_) ops) r) (hrun (init_hg self_ genesis oracle_) ops) ex r w.
Proof. intros Hs ID H Hg Hf. apply (cd_wdom _ _ _ (hrun_cinvD_final self_ genesis oracle_ all ops Hs ID H Hg Hf)). Qed.
