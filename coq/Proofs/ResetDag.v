(* C13 / C07 after a fast-forward: [dag_okR F], the admission invariant [dag_ok] relative to a set F
   of exempt events, for the states a node reaches after Hashgraph.Reset.  The events inserted by the
   reset (the frame's root events and frame events, set F) are NOT checked by InsertFrameEvent (no
   signature check, parents possibly absent, a creator's RollingIndex starts at the index of its
   first root event), so they are exempt; every event admitted AFTERWARDS is signed, its self-parent
   is a stored event of the same creator with the preceding index (or it is the creator's first
   event, index 0), its other-parent is stored, and it is listed in its creator's index at position
   (index - first index of the window). *)
From Coq Require Import ZArith List Bool Lia ZifyBool.
From RecordUpdate Require Import RecordSet.
From V Require Import Model.ZMap Model.Quorum Model.HgImpl Model.HgReset
  Proofs.ZMapFacts Proofs.HgFrames Proofs.HgDagFrames Proofs.AdmissionProofs Proofs.BlockInv Proofs.OrderProofs
  Proofs.ResetProofs.
Import ListNotations RecordSetNotations.
Open Scope Z_scope.

(* index of the oldest item of a RollingIndex window *)
Definition firstix (p : pidx) : Z := pi_last p - Z.of_nat (length (pi_items p)) + 1.

Record dag_okR (F : Z -> Prop) (st : hg) : Prop := {
  r_id : forall x es, get_event st x = Some es -> e_id (ev_e es) = x;
  r_F : forall x, F x -> get_event st x <> None;
  r_sig : forall x es, get_event st x = Some es -> ~ F x -> e_sigok (ev_e es) = true;
  r_sp : forall x es, get_event st x = Some es -> ~ F x ->
         (e_sp (ev_e es) = -1 /\ e_index (ev_e es) = 0) \/
         exists ps, get_event st (e_sp (ev_e es)) = Some ps /\
                    e_creator (ev_e ps) = e_creator (ev_e es) /\
                    e_index (ev_e es) = e_index (ev_e ps) + 1;
  r_op : forall x es, get_event st x = Some es -> ~ F x ->
         e_op (ev_e es) = -1 \/ exists po, get_event st (e_op (ev_e es)) = Some po;
  r_chain : forall c p, zget c (pevents st) = Some p ->
         (pi_items p = [] -> pi_last p = -1) /\ 0 <= firstix p /\
         forall i x, nth_error (pi_items p) i = Some x ->
           exists es, get_event st x = Some es /\ e_creator (ev_e es) = c /\
                      e_index (ev_e es) = firstix p + Z.of_nat i;
  r_listed : forall x es, get_event st x = Some es -> ~ F x ->
         exists p, zget (e_creator (ev_e es)) (pevents st) = Some p /\
                   firstix p <= e_index (ev_e es) /\
                   nth_error (pi_items p) (Z.to_nat (e_index (ev_e es) - firstix p)) = Some x
}.

(* the chain clause alone (what the reset establishes) *)
Definition chainR (st : hg) : Prop :=
  forall c p, zget c (pevents st) = Some p ->
    (pi_items p = [] -> pi_last p = -1) /\ 0 <= firstix p /\ window_ok st c (firstix p) (pi_items p).

(* the invariant passes to a state with the same event bodies and, up to new empty participants, the
   same indexes *)
Lemma chainR_static st st' : chainR st -> keeps st st' -> pev_ext (pevents st) (pevents st') -> chainR st'.
Proof.
  intros C K Fp c p' Hp'. destruct (Fp c) as [E|[N S]].
  - rewrite E in Hp'. destruct (C _ _ Hp') as [Hnil [Hfirst Hnth]].
    split; [exact Hnil|]. split; [exact Hfirst|exact (window_ok_keeps st st' c _ _ K Hnth)].
  - rewrite S in Hp'. injection Hp' as <-. split; [reflexivity|]. split; [discriminate|]. intros [|i] x Hi; discriminate.
Qed.

Lemma dag_okR_static F st st' :
  dag_okR F st -> body_eq (events st) (events st') -> pev_ext (pevents st) (pevents st') -> dag_okR F st'.
Proof.
  intros OK B Fp.
  pose proof (body_keeps st st' B) as Kf. pose proof (body_keeps st' st (body_eq_sym _ _ B)) as Kb.
  constructor.
  - intros x es' H. destruct (Kb _ _ H) as [es [H0 E]]. rewrite <- E. exact (r_id F st OK _ _ H0).
  - intros x Hx C. destruct (get_event st x) as [es|] eqn:G; [|exact (r_F F st OK x Hx G)].
    destruct (Kf _ _ G) as [es' [G' _]]. congruence.
  - intros x es' H NF. destruct (Kb _ _ H) as [es [H0 E]]. rewrite <- E. exact (r_sig F st OK _ _ H0 NF).
  - intros x es' H NF. destruct (Kb _ _ H) as [es [H0 E]]. rewrite <- E.
    exact (sp_ok_keeps st st' _ Kf (r_sp F st OK _ _ H0 NF)).
  - intros x es' H NF. destruct (Kb _ _ H) as [es [H0 E]]. rewrite <- E.
    exact (op_ok_keeps st st' _ Kf (r_op F st OK _ _ H0 NF)).
  - exact (chainR_static st st' (r_chain F st OK) Kf Fp).
  - intros x es' H NF. destruct (Kb _ _ H) as [es [H0 E]]. rewrite <- E.
    destruct (r_listed F st OK _ _ H0 NF) as [p [Hp R]]. exists p. split; [|exact R].
    destruct (Fp (e_creator (ev_e es))) as [E2|[N _]]; congruence.
Qed.

Lemma dag_okR_frame F st st' : dag_okR F st -> dag_frame st st' -> dag_okR F st'.
Proof. intros OK [A [B _]]. exact (dag_okR_static F st st' OK (static_body _ _ A) B). Qed.

(* the per-creator windows only grow at the end *)
Definition grows (s s' : hg) : Prop :=
  forall c p0, zget c (pevents s) = Some p0 ->
    exists p more, zget c (pevents s') = Some p /\ pi_items p = pi_items p0 ++ more /\
                   (pi_items p0 <> [] -> firstix p = firstix p0).

Lemma grows_refl s : grows s s.
Proof. intros c p0 H. exists p0, []. rewrite app_nil_r. auto. Qed.

Lemma grows_trans a b c : grows a b -> grows b c -> grows a c.
Proof.
  intros G1 G2 k p0 H0. destruct (G1 k p0 H0) as [p1 [m1 [H1 [I1 F1]]]].
  destruct (G2 k p1 H1) as [p2 [m2 [H2 [I2 F2]]]].
  exists p2, (m1 ++ m2). split; [exact H2|]. split; [rewrite I2, I1, app_assoc; reflexivity|].
  intros Hne. rewrite F2, F1; auto. rewrite I1. destruct (pi_items p0); [congruence|discriminate].
Qed.

Lemma grows_ext s s' : pev_ext (pevents s) (pevents s') -> grows s s'.
Proof.
  intros E c p0 H. exists p0, []. rewrite app_nil_r. split; [|auto].
  destruct (E c) as [Eq|[N _]]; congruence.
Qed.

Lemma grows_frame s s' : dag_frame s s' -> grows s s'.
Proof. intros [_ [B _]]. apply grows_ext. exact B. Qed.

(* a frame step keeps what the insertions establish *)
Lemma invR_frame F all s st st' :
  dag_okR F st /\ from_attempts st all /\ grows s st -> dag_frame st st' ->
  dag_okR F st' /\ from_attempts st' all /\ grows s st'.
Proof.
  intros [OK [FA G]] Fr. split; [exact (dag_okR_frame F _ _ OK Fr)|].
  split; [exact (from_attempts_frame _ _ all FA Fr)|exact (grows_trans _ _ _ G (grows_frame _ _ Fr))].
Qed.

(* under the invariant a checked event always extends its creator's RollingIndex *)
Lemma checked_extendsR F st e p :
  dag_okR F st -> check_self_parent st e = InsOk -> zget (e_creator e) (pevents st) = Some p ->
  pidx_set p (e_id e) (e_index e) = Some (mkPidx (pi_items p ++ [e_id e]) (e_index e)) /\
  e_index e = firstix p + Z.of_nat (length (pi_items p)) /\
  ((e_sp e = -1 /\ pi_items p = [] /\ e_index e = 0) \/
   exists front spe, pi_items p = front ++ [e_sp e] /\ get_event st (e_sp e) = Some spe /\
                     e_creator (ev_e spe) = e_creator e /\ e_index e = e_index (ev_e spe) + 1).
Proof.
  intros OK Hc Hp. destruct (r_chain F st OK _ _ Hp) as [Hnil [_ Hnth]].
  apply (checked_extends_from st e p (firstix p) Hc Hp); [unfold firstix; lia| |exact Hnth].
  intros Hi. unfold firstix. rewrite (Hnil Hi), Hi. reflexivity.
Qed.

(* Store.SetEvent of a checked event that is not stored yet *)
Lemma dag_okR_store F st es :
  let e := ev_e es in
  dag_okR F st -> 0 <= e_id e ->
  e_sigok e = true -> check_self_parent st e = InsOk -> check_other_parent st e = InsOk ->
  get_event st (e_id e) = None ->
  exists st2, store_set_event st es = Some st2 /\ dag_okR F st2 /\ grows st st2.
Proof.
  intros e OK Hid Hsig Hsp Hop Hfresh.
  destruct (check_self_parent_ok st e Hsp) as [p [Hp _]].
  destruct (checked_extendsR F st e p OK Hsp Hp) as [Hset [Hidx Hpar]].
  destruct (r_chain F st OK _ _ Hp) as [Hnil [Hfirst Hnth]].
  destruct (store_fresh st es p _ Hfresh Hp Hset) as [st2 [Hst GP]]. exists st2. split; [exact Hst|].
  pose proof (store_set_event_get st es st2 Hst Hid) as GE. fold e in GE, GP.
  pose proof (stored_keeps st st2 es GE Hfresh) as K.
  assert (Hnew : get_event st2 (e_id e) = Some es) by (rewrite GE, Z.eqb_refl; reflexivity).
  set (p' := mkPidx (pi_items p ++ [e_id e]) (e_index e)) in GP.
  assert (Hf' : firstix p' = firstix p).
  { unfold firstix in *. cbn [p' pi_items pi_last]. rewrite app_length. cbn [length]. lia. }
  split.
  2: { intros c p0 H0. rewrite GP. destruct (Z.eqb_spec c (e_creator e)) as [->|Hne].
       - rewrite Hp in H0. injection H0 as <-. exists p', [e_id e]. auto.
       - exists p0, []. rewrite app_nil_r. auto. }
  constructor.
  - intros x es0 H. destruct (stored_cases st st2 es GE x es0 H) as [[-> ->]|H0]; [reflexivity|exact (r_id F st OK _ _ H0)].
  - intros x Hx C. apply (r_F F st OK x Hx). destruct (get_event st x) as [ex|] eqn:G; [|reflexivity].
    rewrite (stored_old st st2 es GE Hfresh x ex G) in C. discriminate.
  - intros x es0 H. destruct (stored_cases st st2 es GE x es0 H) as [[-> ->]|H0]; [intros _; exact Hsig|exact (r_sig F st OK _ _ H0)].
  - intros x es0 H NF. apply (sp_ok_keeps st st2 _ K).
    destruct (stored_cases st st2 es GE x es0 H) as [[-> ->]|H0]; [|exact (r_sp F st OK _ _ H0 NF)].
    destruct Hpar as [[Hs [_ Hz]]|[front [spe [_ R]]]]; [left; auto|right; exists spe; exact R].
  - intros x es0 H NF. apply (op_ok_keeps st st2 _ K).
    destruct (stored_cases st st2 es GE x es0 H) as [[-> ->]|H0]; [exact (check_other_parent_ok st e Hop)|exact (r_op F st OK _ _ H0 NF)].
  - intros c q H. rewrite GP in H. destruct (Z.eqb_spec c (e_creator e)) as [->|Hne].
    + injection H as <-. rewrite Hf'. split; [intros C; destruct (pi_items p); discriminate|]. split; [exact Hfirst|].
      exact (window_ok_app st2 _ _ _ _ es (window_ok_keeps st st2 _ _ _ K Hnth) Hnew eq_refl Hidx).
    + destruct (r_chain F st OK _ _ H) as [Hn [Hf Hw]].
      split; [exact Hn|]. split; [exact Hf|exact (window_ok_keeps st st2 c _ _ K Hw)].
  - intros x es0 H NF. rewrite GP. destruct (stored_cases st st2 es GE x es0 H) as [[-> ->]|H0].
    + fold e. rewrite Z.eqb_refl. exists p'. split; [reflexivity|]. rewrite Hf'. split; [lia|].
      cbn [p' pi_items]. replace (Z.to_nat (e_index e - firstix p)) with (length (pi_items p)) by lia.
      rewrite nth_error_app2, Nat.sub_diag by lia. reflexivity.
    + destruct (r_listed F st OK _ _ H0 NF) as [q [Hq [Hge Hn]]].
      destruct (Z.eqb_spec (e_creator (ev_e es0)) (e_creator e)) as [Ec|_]; [|eauto].
      rewrite Ec, Hp in Hq. injection Hq as <-. exists p'. rewrite Hf'. split; [reflexivity|]. split; [exact Hge|].
      apply nth_error_app1_some. exact Hn.
Qed.

(* Store.SetEvent of an event that is already stored with the same body (only possible for an event
   of F that is no longer listed): the index is not touched, the body does not change *)
Lemma dag_okR_overwrite F st es es0 :
  dag_okR F st -> get_event st (e_id (ev_e es)) = Some es0 -> ev_e es0 = ev_e es -> 0 <= e_id (ev_e es) ->
  exists st2, store_set_event st es = Some st2 /\ dag_okR F st2 /\ grows st st2.
Proof.
  intros OK G E Hid.
  assert (Hst : store_set_event st es = Some (set_evst st (e_id (ev_e es)) es))
    by (unfold store_set_event; rewrite G; reflexivity).
  eexists. split; [exact Hst|]. split; [|apply grows_ext, pev_ext_refl].
  apply (dag_okR_static F st _ OK); [|apply pev_ext_refl].
  intros x. pose proof (store_set_event_get st es _ Hst Hid x) as GE. unfold get_event in *. rewrite GE.
  destruct (Z.eqb_spec x (e_id (ev_e es))) as [E1|_]; [rewrite E1, G; cbn; congruence|reflexivity].
Qed.

Lemma insert_event_invR F st e all r st' :
  dag_okR F st -> from_attempts st all -> ids_determine all -> In e all -> 0 <= e_id e ->
  insert_event st e = (r, st') ->
  dag_okR F st' /\ from_attempts st' all /\ grows st st'.
Proof.
  intros OK FA ID Hin Hid H.
  destruct (insert_event_cases st e r st' H) as [[-> _]|[Hsig [Hsp [Hop A]]]]; [auto using grows_refl|].
  rewrite insert_admitted_eq in A. cbv zeta in A.
  match type of A with context [store_set_event ?s ?x] => set (es := x) in *; set (st1 := s) in * end.
  (* the counter is no part of the invariant *)
  assert (OK1 : dag_okR F st1) by exact (dag_okR_static F st st1 OK (fun _ => eq_refl) (pev_ext_refl _)).
  assert (S : exists st2, store_set_event st1 es = Some st2 /\ dag_okR F st2 /\ grows st1 st2).
  { destruct (get_event st (e_id e)) as [es0|] eqn:Hfresh; [|exact (dag_okR_store F st1 es OK1 Hid Hsig Hsp Hop Hfresh)].
    apply (dag_okR_overwrite F st1 es es0 OK1 Hfresh); [|exact Hid].
    apply ID; [exact (FA _ _ Hfresh)|exact Hin|exact (r_id F st OK _ _ Hfresh)]. }
  destruct S as [st2 [Hst [OK2 G2]]]. rewrite Hst in A. injection A as <- <-.
  apply (invR_frame F all st st2); [|apply dag_frame_after_store].
  split; [exact OK2|]. split; [exact (from_attempts_store st1 es st2 all Hst Hid FA Hin)|exact G2].
Qed.

Lemma hstep_invR F st o all :
  ids_determine all -> hop_ok all o -> dag_okR F st -> from_attempts st all ->
  dag_okR F (hstep st o) /\ from_attempts (hstep st o) all /\ grows st (hstep st o).
Proof.
  intros ID Ho OK FA. destruct o as [e|]; cbn [hstep].
  - destruct Ho as [Hin Hid]. unfold step, insert_and_run. destruct (insert_event st e) as [r s] eqn:E.
    pose proof (insert_event_invR F st e all r s OK FA ID Hin Hid E) as I.
    destruct r; cbn [snd]; try exact I. exact (invR_frame F all st s _ I (run_consensus_frame s)).
  - exact (invR_frame F all st st _ (conj OK (conj FA (grows_refl st))) (process_sigpool_frame st)).
Qed.

Lemma hrun_invR F all : ids_determine all -> forall ops st,
  Forall (hop_ok all) ops -> dag_okR F st -> from_attempts st all ->
  dag_okR F (hrun st ops) /\ from_attempts (hrun st ops) all /\ grows st (hrun st ops).
Proof.
  intros ID. induction ops as [|o ops IH]; intros st Ho OK FA; [auto using grows_refl|].
  apply Forall_cons_iff in Ho. destruct Ho as [Ho Hops].
  destruct (hstep_invR F st o all ID Ho OK FA) as [OK1 [FA1 G1]].
  unfold hrun. cbn [fold_left]. destruct (IH (hstep st o) Hops OK1 FA1) as [OK2 [FA2 G2]].
  split; [exact OK2|]. split; [exact FA2|exact (grows_trans _ _ _ G1 G2)].
Qed.

(* InmemStore.Reset leaves every participant with an empty RollingIndex *)
Lemma store_reset_chainR st f s : store_reset st f = (true, s) -> chainR s.
Proof.
  unfold store_reset. destruct (set_peersets (store_clear st) (f_peersets f)) as [[|] s1] eqn:E; [|discriminate].
  intros [= <-]. change (chainR s1). revert E.
  assert (C : chainR (store_clear st)) by (intros c p Hp; cbn in Hp; rewrite zget_empty in Hp; discriminate).
  revert C. generalize (store_clear st). induction (f_peersets f) as [|[r ps] rest IH]; intros s0 C H; cbn [set_peersets] in H.
  - injection H as <-. exact C.
  - destruct (set_peerset s0 r ps) as [s2|] eqn:E; [|discriminate]. apply (IH s2); [|exact H].
    destruct (set_peerset_frame _ _ _ _ E) as [A [B _]]. exact (chainR_static s0 s2 C (body_keeps _ _ (static_body _ _ A)) B).
Qed.

Lemma replace_nth_length {A} (v : A) : forall l n, length (replace_nth n v l) = length l.
Proof. induction l as [|a r IH]; intros n; [destruct n; reflexivity|]. destruct n; cbn; [reflexivity|rewrite IH; reflexivity]. Qed.

Lemma replace_nth_nth {A} (v : A) : forall l n i x, nth_error (replace_nth n v l) i = Some x ->
  (i = n /\ x = v) \/ nth_error l i = Some x.
Proof.
  induction l as [|a r IH]; intros n i x H; [destruct n, i; discriminate|].
  destruct n as [|n]; cbn [replace_nth] in H.
  - destruct i; cbn in *; [inversion H; left; auto|right; exact H].
  - destruct i; cbn in *; [right; exact H|]. destruct (IH _ _ _ H) as [[-> ->]|R]; [left; auto|right; exact R].
Qed.

(* one InsertFrameEvent of a fresh event with a non-negative index *)
Lemma chainR_ife st fe e s' :
  chainR st -> ife_post st fe e s' -> 0 <= e_index e -> get_event st (e_id e) = None -> chainR s'.
Proof.
  intros C P Hix Fresh.
  destruct (ip_pev _ _ _ _ P) as [p [p' [Hp [Hset Hpev]]]].
  assert (Hcr : 0 <= e_creator e) by (eapply zget_some_nonneg; eauto).
  assert (Gnew : exists es, get_event s' (e_id e) = Some es /\ ev_e es = e).
  { pose proof (ip_events _ _ _ _ P (e_id e)) as H. rewrite Z.eqb_refl in H. unfold evinfo in H.
    destruct (get_event s' (e_id e)) as [es|]; [|discriminate]. cbn in H. exists es. split; [reflexivity|].
    unfold ev_nofd in H. congruence. }
  assert (K : keeps st s').
  { intros y es0 Hy. pose proof (ip_events _ _ _ _ P y) as H.
    destruct (Z.eqb_spec y (e_id e)) as [->|Hne]; [congruence|].
    unfold evinfo in H. rewrite Hy in H. destruct (get_event s' y) as [es1|]; [|discriminate]. cbn in H.
    exists es1. split; [reflexivity|]. unfold ev_nofd in H. congruence. }
  intros c q Hq. rewrite Hpev, zget_zset in Hq.
  destruct (Z.eqb_spec (e_creator e) c) as [<-|Hne]; cbn [andb] in Hq.
  2: { destruct (C _ _ Hq) as [A [B D]]. split; [exact A|]. split; [exact B|exact (window_ok_keeps st s' c _ _ K D)]. }
  replace (0 <=? e_creator e) with true in Hq by lia. injection Hq as <-.
  destruct (C _ _ Hp) as [Hnil [Hfirst Hnth]]. apply (window_ok_keeps st s' _ _ _ K) in Hnth.
  destruct Gnew as [es [Ges Ee]].
  unfold pidx_set in Hset.
  destruct ((0 <=? pi_last p) && (pi_last p + 1 <? e_index e)) eqn:E1; [discriminate|].
  destruct ((pi_last p <? 0) || (e_index e =? pi_last p + 1)) eqn:E2.
  - (* the item is appended: to an empty window, which then starts at its index, or to the last one *)
    injection Hset as <-. set (p' := mkPidx _ _).
    assert (Hb : firstix p' = firstix p \/ (pi_items p = [] /\ firstix p' = e_index e)).
    { unfold firstix in *. cbn [p' pi_items pi_last]. rewrite app_length.
      destruct (pi_items p); cbn [length] in *; [right; split; [reflexivity|lia]|left; lia]. }
    split; [cbn [p' pi_items]; intros Cn; destruct (pi_items p); discriminate|].
    split; [destruct Hb as [->|[_ ->]]; assumption|].
    apply (window_ok_app s' _ _ _ _ es); [|exact Ges|exact (f_equal e_creator Ee)|].
    + destruct Hb as [->|[-> _]]; [exact Hnth|intros [|i] x Hi; discriminate].
    + rewrite Ee. unfold firstix. cbn [p' pi_items pi_last]. rewrite app_length. cbn [length]. lia.
  - (* an index inside the window: the item at that position is replaced *)
    apply orb_false_iff in E2. destruct E2 as [E3 E4].
    destruct (e_index e <? pi_last p - Z.of_nat (length (pi_items p)) + 1) eqn:E5; [discriminate|].
    injection Hset as <-. fold (firstix p) in *.
    assert (Hf' : firstix (mkPidx (replace_nth (Z.to_nat (e_index e - firstix p)) (e_id e) (pi_items p)) (pi_last p)) = firstix p)
      by (unfold firstix; cbn [pi_items pi_last]; rewrite replace_nth_length; reflexivity).
    rewrite Hf'. cbn [pi_items pi_last].
    split.
    { intros Cn. apply Hnil. apply (f_equal (@length Z)) in Cn. rewrite replace_nth_length in Cn.
      destruct (pi_items p); [reflexivity|discriminate]. }
    split; [exact Hfirst|].
    intros i x Hi. apply replace_nth_nth in Hi. destruct Hi as [[-> ->]|Hi]; [|exact (Hnth i x Hi)].
    exists es. rewrite Ee. split; [exact Ges|split; [reflexivity|lia]].
Qed.

(* the bodies shipped with the frame: non-negative indexes, and part of the universe the later
   insertion attempts are drawn from (so that identifiers determine bodies across both) *)
Definition cores_ok (all cores : list event) (f : frame) : Prop :=
  forall fe e, In fe (all_frame_events f) -> core_of cores (fe_id fe) = Some e -> 0 <= e_index e /\ In e all.

Definition frame_ids (f : frame) (x : Z) : Prop := In x (map fe_id (all_frame_events f)).

Theorem reset_dag_okR v b f cores v' all :
  frame_shape f -> cores_ok all cores f -> node_fast_forward v b f cores = (true, v') ->
  dag_okR (frame_ids f) v' /\ from_attempts v' all.
Proof.
  intros FS CO FF. destruct (node_fast_forward_inv v b f cores v' FF) as (v1 & E & ->).
  pose proof (rp_dag _ _ _ _ _ (reset_hg_post v b f cores v1 FS E)) as L.
  assert (C : chainR v1).
  { destruct (core_fast_forward_inv v b f cores v1 E) as (s1 & s2 & E1 & E2 & ->).
    destruct (sorted_frame_events_shape cores f FS) as [ND' Pos'].
    change (chainR s2).
    apply (insert_frame_events_inv cores v chainR _ [] s1 s2 (loop_inv_start cores v s1 (store_reset_cleared v f s1 E1))
             (store_reset_chainR _ _ _ E1) ND' Pos'); [|exact E2].
    intros s fe e s' Hin Hc C Fresh P. apply (chainR_ife s fe e s' C P); [|exact Fresh].
    apply (CO fe e); [apply sorted_frame_events_in in Hin; exact Hin|exact Hc]. }
  pose proof (rfe_sort_perm cores (all_frame_events f)) as Perm. fold (sorted_frame_events cores f) in Perm.
  assert (Dom : forall y, get_event v1 y <> None <-> frame_ids f y).
  { intros y. rewrite (li_dom _ _ _ _ L y). unfold frame_ids. split; intros Hin.
    - eapply Permutation.Permutation_in; [apply Permutation.Permutation_map; exact Perm|exact Hin].
    - eapply Permutation.Permutation_in; [apply Permutation.Permutation_map, Permutation.Permutation_sym; exact Perm|exact Hin]. }
  assert (Rec : forall y es, get_event v1 y = Some es -> e_id (ev_e es) = y /\ In (ev_e es) all).
  { intros y es Hy. assert (Hin : In y (map fe_id (sorted_frame_events cores f))) by (apply (li_dom _ _ _ _ L); congruence).
    apply in_map_iff in Hin. destruct Hin as [fe [<- Hfe]].
    destruct (li_rec _ _ _ _ L fe Hfe) as [e [la [t [Hc Hi]]]].
    unfold evinfo in Hi. rewrite Hy in Hi. cbn in Hi. unfold ev_nofd in Hi.
    assert (Ee : ev_e es = e) by congruence. rewrite Ee.
    split; [apply (core_of_id _ _ _ Hc)|].
    apply (CO fe e); [eapply Permutation.Permutation_in; eauto|exact Hc]. }
  assert (OK1 : dag_okR (frame_ids f) v1).
  { constructor.
    - intros x es H. apply (Rec x es H).
    - intros x Hx. apply Dom. exact Hx.
    - intros x es H NF. exfalso. apply NF, Dom. congruence.
    - intros x es H NF. exfalso. apply NF, Dom. congruence.
    - intros x es H NF. exfalso. apply NF, Dom. congruence.
    - exact C.
    - intros x es H NF. exfalso. apply NF, Dom. congruence. }
  assert (FA1 : from_attempts v1 all) by (intros x es H; apply (Rec x es H)).
  pose proof (process_receipts_frame v1 (b_rr b) (b_itxs b)) as Fr.
  split; [eapply dag_okR_frame; eauto|eapply from_attempts_frame; eauto].
Qed.

Theorem admitted_after_reset v b f cores v' all ops :
  frame_shape f -> cores_ok all cores f -> ids_determine all -> Forall (hop_ok all) ops ->
  node_fast_forward v b f cores = (true, v') ->
  dag_okR (frame_ids f) (hrun v' ops) /\ from_attempts (hrun v' ops) all /\ grows v' (hrun v' ops).
Proof.
  intros FS CO ID Ho FF. destruct (reset_dag_okR v b f cores v' all FS CO FF) as [OK FA].
  apply (hrun_invR (frame_ids f) all ID ops v' Ho OK FA).
Qed.

(* the bodies a serving node attaches to a frame ([frame_cores]) satisfy [cores_ok] *)
Lemma served_cores_ok all st f : dag_ok st -> from_attempts st all -> cores_ok all (frame_cores st f) f.
Proof.
  intros OK FA fe e _ Hc. unfold core_of in Hc. apply find_some in Hc. destruct Hc as [Hin _].
  unfold frame_cores in Hin. apply in_flat_map in Hin. destruct Hin as [fe' [_ Hin]].
  destruct (get_event st (fe_id fe')) as [es|] eqn:G; [|destruct Hin].
  destruct Hin as [<-|[]].
  destruct (d_listed st OK _ _ G) as [p [_ [Hge _]]]. split; [exact Hge|]. apply (FA _ _ G).
Qed.

Lemma dag_okR_event F st x es : dag_okR F st -> get_event st x = Some es -> ~ F x ->
  e_id (ev_e es) = x /\ e_sigok (ev_e es) = true /\
  ((e_sp (ev_e es) = -1 /\ e_index (ev_e es) = 0) \/
   exists ps, get_event st (e_sp (ev_e es)) = Some ps /\ e_creator (ev_e ps) = e_creator (ev_e es) /\
              e_index (ev_e es) = e_index (ev_e ps) + 1) /\
  (e_op (ev_e es) = -1 \/ exists po, get_event st (e_op (ev_e es)) = Some po) /\
  exists p, zget (e_creator (ev_e es)) (pevents st) = Some p /\ 0 <= firstix p <= e_index (ev_e es) /\
            nth_error (pi_items p) (Z.to_nat (e_index (ev_e es) - firstix p)) = Some x.
Proof.
  intros OK H NF. split; [apply (r_id F st OK _ _ H)|]. split; [apply (r_sig F st OK _ _ H NF)|].
  split; [apply (r_sp F st OK _ _ H NF)|]. split; [apply (r_op F st OK _ _ H NF)|].
  destruct (r_listed F st OK _ _ H NF) as [p [Hp [Hge Hn]]]. exists p. split; [exact Hp|]. split; [|exact Hn].
  destruct (r_chain F st OK _ _ Hp) as [_ [Hf _]]. lia.
Qed.

(* no fork and no gap among the events admitted after the reset: two of them by one creator with one
   index are the same event; below each of them every index down to the window's first is occupied by
   a stored event of that creator *)
Lemma dag_okR_no_fork F st x y ex ey : dag_okR F st ->
  get_event st x = Some ex -> get_event st y = Some ey -> ~ F x -> ~ F y ->
  e_creator (ev_e ex) = e_creator (ev_e ey) -> e_index (ev_e ex) = e_index (ev_e ey) -> x = y.
Proof.
  intros OK Hx Hy Nx Ny Ec Ei.
  destruct (r_listed F st OK _ _ Hx Nx) as [p [Hp [_ Hn]]].
  destruct (r_listed F st OK _ _ Hy Ny) as [q [Hq [_ Hm]]].
  rewrite Ec in Hp. rewrite Hp in Hq. inversion Hq; subst q. rewrite Ei in Hn. congruence.
Qed.

Lemma dag_okR_gap_free F st x ex i : dag_okR F st -> get_event st x = Some ex -> ~ F x ->
  forall p, zget (e_creator (ev_e ex)) (pevents st) = Some p -> firstix p <= i <= e_index (ev_e ex) ->
  exists y ey, get_event st y = Some ey /\ e_creator (ev_e ey) = e_creator (ev_e ex) /\ e_index (ev_e ey) = i.
Proof.
  intros OK Hx Nx p Hp Hi.
  destruct (r_listed F st OK _ _ Hx Nx) as [q [Hq [Hge Hn]]]. rewrite Hp in Hq. inversion Hq; subst q.
  assert (Hlt : (Z.to_nat (i - firstix p) < length (pi_items p))%nat).
  { assert ((Z.to_nat (e_index (ev_e ex) - firstix p) < length (pi_items p))%nat) by (apply nth_error_Some; congruence). lia. }
  destruct (nth_error (pi_items p) (Z.to_nat (i - firstix p))) as [y|] eqn:Hy; [|apply nth_error_None in Hy; lia].
  destruct (r_chain F st OK _ _ Hp) as [_ [_ Hnth]]. destruct (Hnth _ _ Hy) as [ey [Hey [Hc Hix]]].
  exists y, ey. split; [exact Hey|split; [exact Hc|lia]].
Qed.

Theorem admitted_after_reset_event v b f cores v' all ops :
  frame_shape f -> cores_ok all cores f -> ids_determine all -> Forall (hop_ok all) ops ->
  node_fast_forward v b f cores = (true, v') ->
  forall x es, get_event (hrun v' ops) x = Some es -> ~ In x (map fe_id (all_frame_events f)) ->
    In (ev_e es) all /\ e_id (ev_e es) = x /\ e_sigok (ev_e es) = true /\
    ((e_sp (ev_e es) = -1 /\ e_index (ev_e es) = 0) \/
     exists ps, get_event (hrun v' ops) (e_sp (ev_e es)) = Some ps /\ e_creator (ev_e ps) = e_creator (ev_e es) /\
                e_index (ev_e es) = e_index (ev_e ps) + 1) /\
    (e_op (ev_e es) = -1 \/ exists po, get_event (hrun v' ops) (e_op (ev_e es)) = Some po) /\
    exists p, zget (e_creator (ev_e es)) (pevents (hrun v' ops)) = Some p /\ 0 <= firstix p <= e_index (ev_e es) /\
              nth_error (pi_items p) (Z.to_nat (e_index (ev_e es) - firstix p)) = Some x.
Proof.
  intros FS CO ID Ho FF x es Hx NF.
  destruct (admitted_after_reset v b f cores v' all ops FS CO ID Ho FF) as [OK [FA _]].
  split; [apply (FA _ _ Hx)|]. apply (dag_okR_event (frame_ids f) _ x es OK Hx NF).
Qed.

Theorem admitted_after_reset_windows v b f cores v' all ops :
  frame_shape f -> cores_ok all cores f -> ids_determine all -> Forall (hop_ok all) ops ->
  node_fast_forward v b f cores = (true, v') ->
  (forall c p, zget c (pevents (hrun v' ops)) = Some p ->
     (pi_items p = [] -> pi_last p = -1) /\ 0 <= firstix p /\
     forall i x, nth_error (pi_items p) i = Some x ->
       exists es, get_event (hrun v' ops) x = Some es /\ e_creator (ev_e es) = c /\
                  e_index (ev_e es) = firstix p + Z.of_nat i) /\
  (forall c p0, zget c (pevents v') = Some p0 ->
     exists p more, zget c (pevents (hrun v' ops)) = Some p /\ pi_items p = pi_items p0 ++ more /\
                    (pi_items p0 <> [] -> firstix p = firstix p0)).
Proof.
  intros FS CO ID Ho FF.
  destruct (admitted_after_reset v b f cores v' all ops FS CO ID Ho FF) as [OK [_ G]].
  split; [apply (r_chain _ _ OK)|exact G].
Qed.

Theorem admitted_after_reset_no_fork v b f cores v' all ops :
  frame_shape f -> cores_ok all cores f -> ids_determine all -> Forall (hop_ok all) ops ->
  node_fast_forward v b f cores = (true, v') ->
  forall x y ex ey, get_event (hrun v' ops) x = Some ex -> get_event (hrun v' ops) y = Some ey ->
    ~ In x (map fe_id (all_frame_events f)) -> ~ In y (map fe_id (all_frame_events f)) ->
    e_creator (ev_e ex) = e_creator (ev_e ey) -> e_index (ev_e ex) = e_index (ev_e ey) -> x = y.
Proof.
  intros FS CO ID Ho FF x y ex ey Hx Hy Nx Ny.
  destruct (admitted_after_reset v b f cores v' all ops FS CO ID Ho FF) as [OK _].
  apply (dag_okR_no_fork (frame_ids f) _ x y ex ey OK Hx Hy Nx Ny).
Qed.
