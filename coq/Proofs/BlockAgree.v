(* Block level: two runs over one fork-free universe of events, each a run along one common assignment P of validator sets
   to rounds, deliver equal blocks at equal positions and build equal frames (Sections AlongTo, AlongBoth;
   blocks_agree_along, frames_agree_along, blocks_agree_frames_along).  Static membership is the instance P = fun _ => g
   (Section Static); the instance for nodes that respect the distance bound is in Proofs/BlockAgreeD.v, BlockPeersD.v,
   FrameAgreeD.v. *)
From Coq Require Import ZArith List Bool Lia Permutation Sorted.
From RecordUpdate Require Import RecordSet.
From V Require Import Model.ZMap Model.Quorum Model.Median Model.HgImpl Proofs.ZMapFacts Proofs.QuorumProofs
  Proofs.MedianProofs Proofs.AdmissionProofs Proofs.BlockInv Proofs.RoundOrder Proofs.OrderSort Proofs.OrderProofs
  Proofs.VotingProofs Proofs.Static Proofs.FirstDesc Proofs.DivInv Proofs.RoundFunD Proofs.ViewOk Proofs.SameHistory
  Proofs.Agreement Proofs.NoFail Proofs.FameInv Proofs.FamousSet Proofs.RoundReceived Proofs.UndeterminedD
  Proofs.Committed Proofs.FsvFrames Proofs.FrameFn Proofs.FrameInv Proofs.BlockShape.
From V Require Import Proofs.FirstDescD Proofs.CommittedD.
From V Require Import Proofs.FameInvD Proofs.DecidedFlagD Proofs.RoundReceivedD.
From V Require Import Proofs.StronglySeeD.
From V Require Import Proofs.OrderIndepD Proofs.TidyC18.
Import ListNotations RecordSetNotations.
Open Scope Z_scope.

(* signatures (their R component) are not reused: the tie-break of the consensus order *)
Definition sigkeys_determine (all : list event) : Prop :=
  forall e e', In e all -> In e' all -> e_sigkey e = e_sigkey e' -> e = e'.

Lemma sigkeys_determine_distinct all : distinctb (map e_sigkey all) = true -> sigkeys_determine all.
Proof. intros H e e' He He' E. eapply NoDup_map_inj; eauto. apply distinctb_NoDup. exact H. Qed.

(* a node that has not failed has memoised the Lamport timestamp of every stored event *)
Lemma ginv_lt_memo all st x ex : ginv all st -> failed st = false -> get_event st x = Some ex ->
  exists t, ev_lt ex = Some t /\ zget x (lt_memo st) = Some t.
Proof.
  intros Gi Hf Hx. destruct (ev_lt ex) as [t|] eqn:Et; [|exfalso; apply (gi_all _ _ Gi Hf x ex Hx Et)].
  exists t. split; [reflexivity|exact (l_ev _ (g_l _ _ (gi_core _ _ Gi)) x ex t Hx Et)].
Qed.

Lemma nf_fready g all st : nf_inv g all st -> fready g st.
Proof.
  intros [Gi LA I R Hf Lce]. pose proof (gi_core _ _ Gi) as C. constructor.
  - apply (g_dag _ _ C).
  - exact I.
  - intros x ex Hx. destruct (ginv_lt_memo all st x ex Gi Hf Hx) as [t [_ Ht]]. rewrite Ht. discriminate.
  - intros r x Hx. destruct (c_in _ (g_o _ _ C) r x Hx) as [ex [Hex _]]. rewrite Hex. discriminate.
  - exact Lce.
Qed.

(* the attributes of a frame event are the memoised round and witness flag and the Lamport timestamp *)
Lemma cfe_attrs P all st x fe : cinvD P None st -> ginv all st -> failed st = false -> create_frame_event st x = Some fe ->
  fe_id fe = x /\ zget x (round_memo st) = Some (fe_round fe) /\ zget x (witness_memo st) = Some (fe_wit fe) /\
  exists ex, get_event st x = Some ex /\ ev_lt ex = Some (fe_lt fe).
Proof.
  intros I Gi Hf. unfold create_frame_event.
  destruct (get_event st x) as [ex|] eqn:Hx; [|discriminate].
  destruct (zget x (round_memo st)) as [r|] eqn:Hr; [|discriminate].
  destruct (get_round st r) as [ri|] eqn:Hri; [|discriminate].
  destruct (aget x (ri_created ri)) as [[w t0]|] eqn:Ha; [|discriminate].
  destruct (zget x (lt_memo st)) as [t|] eqn:Ht; [|discriminate].
  intros H; inversion H; subst; clear H. cbn [fe_id fe_round fe_wit fe_lt].
  split; [reflexivity|]. split; [reflexivity|]. split.
  - assert (Hin : In (x, w) (wl st r)).
    { unfold wl. rewrite Hri. unfold wl_of. apply in_map_iff. exists (x, (w, t0)). split; [reflexivity|].
      apply aget_In. exact Ha. }
    destruct (cd_tab _ _ _ I r x w Hin) as [_ Hw]. exact Hw.
  - exists ex. split; [reflexivity|]. destruct (ginv_lt_memo all st x ex Gi Hf Hx) as [t' [Et Hm]]. congruence.
Qed.

(** * Two states that hold the same bodies and compute the same frame events *)
Section Cross.
  Variables sa sb : hg.
  Hypothesis OKa : dag_ok sa.
  Hypothesis OKb : dag_ok sb.
  Hypothesis SB : same_bodies sa sb.

  Lemma sp_of_cross x ea eb : get_event sa x = Some ea -> get_event sb x = Some eb ->
    sp_of sa x = sp_of sb x /\ creator_of sa x = creator_of sb x /\ ts_of sa x = ts_of sb x /\
    sigkey_of sa x = sigkey_of sb x /\
    (sp_of sa x = -1 \/ (get_event sa (sp_of sa x) <> None /\ get_event sb (sp_of sa x) <> None)).
  Proof.
    intros Ha Hb. pose proof (SB x ea eb Ha Hb) as E.
    unfold sp_of, creator_of, ts_of, sigkey_of. rewrite Ha, Hb, E. repeat split; try reflexivity.
    destruct (d_sp sb OKb x eb Hb) as [[Hs _]|[ps [Hps _]]]; [left; exact Hs|right].
    destruct (d_sp sa OKa x ea Ha) as [[Hs _]|[pa [Hpa _]]].
    - rewrite E in Hs. rewrite Hs in Hps. apply stored_nonneg in Hps. clear - Hps. lia.
    - rewrite E in Hpa. rewrite Hpa, Hps. split; discriminate.
  Qed.

  Lemma sp_chain_cross : forall n h, get_event sa h <> None -> get_event sb h <> None ->
    sp_chain sa h n = sp_chain sb h n /\
    forall x, In x (sp_chain sa h n) -> get_event sa x <> None /\ get_event sb x <> None.
  Proof.
    induction n as [|n IH]; intros h Ha Hb; cbn [sp_chain]; [split; [reflexivity|intros x []]|].
    destruct (get_event sa h) as [ea|] eqn:Ea; [|contradiction]. destruct (get_event sb h) as [eb|] eqn:Eb; [|contradiction].
    destruct (sp_of_cross h ea eb Ea Eb) as [Es [_ [_ [_ Hs]]]]. rewrite <- Es.
    destruct (Z.eqb_spec (sp_of sa h) (-1)) as [E|E]; [split; [reflexivity|intros x []]|].
    destruct Hs as [?|[Sa Sb]]; [contradiction|].
    destruct (IH (sp_of sa h) Sa Sb) as [Ec Hc]. rewrite Ec. split; [reflexivity|].
    intros x [<-|Hx]; [auto|]. rewrite <- Ec in Hx. apply Hc. exact Hx.
  Qed.

  Hypothesis CFa : forall x, get_event sa x <> None -> create_frame_event sa x <> None.
  Hypothesis CFb : forall x, get_event sb x <> None -> create_frame_event sb x <> None.
  Hypothesis CX : forall x fa fb, create_frame_event sa x = Some fa -> create_frame_event sb x = Some fb -> fa = fb.

  Lemma fe_of_cross x : get_event sa x <> None -> get_event sb x <> None -> fe_of sa x = fe_of sb x.
  Proof.
    intros Ha Hb. unfold fe_of. pose proof (CFa x Ha) as Sa. pose proof (CFb x Hb) as Sb.
    destruct (create_frame_event sa x) as [fa|] eqn:Ea; [|contradiction].
    destruct (create_frame_event sb x) as [fb|] eqn:Eb; [|contradiction].
    apply (CX x fa fb Ea Eb).
  Qed.

  Lemma root_fn_cross h : (h = -1 \/ (get_event sa h <> None /\ get_event sb h <> None)) -> root_fn sa h = root_fn sb h.
  Proof.
    intros Hh. unfold root_fn. destruct (Z.eqb_spec h (-1)) as [E|E]; [reflexivity|].
    destruct Hh as [?|[Ha Hb]]; [contradiction|].
    destruct (sp_chain_cross ROOT_DEPTH h Ha Hb) as [Ec Hc]. rewrite <- Ec. f_equal.
    apply map_ext_in. intros x [<-|Hx]; [apply fe_of_cross; assumption|].
    destruct (Hc x Hx) as [A B]. apply fe_of_cross; assumption.
  Qed.

  (* two frames with the same events, over the same last consensus events of the lower rounds, have the same roots *)
  Lemma FE0_roots_cross rep frs R fa fb : 0 <= R -> FE0 rep frs sa R fa -> FE0 rep frs sb R fb -> f_events fa = f_events fb ->
    (forall fe, In fe (f_events fa) -> get_event sa (fe_id fe) <> None /\ get_event sb (fe_id fe) <> None) ->
    (forall R0 f0 fe, 0 <= R0 < R -> zget R0 (frames sa) = Some f0 -> In fe (f_events f0) ->
       get_event sa (fe_id fe) <> None /\ get_event sb (fe_id fe) <> None) ->
    lce_fn (creator_of sa) (frames sa) (Z.to_nat R) = lce_fn (creator_of sb) (frames sb) (Z.to_nat R) ->
    f_roots fa = f_roots fb.
  Proof.
    intros HR0 [_ Ra] [_ Rb] Eev Hst Hlow Elce. rewrite Ra, Rb, <- Eev, <- Elce. unfold roots_fn.
    rewrite (roots1_fn_ext (creator_of sa) (creator_of sb) (sp_of sa) (sp_of sb) (fun _ h => root_fn sa h) (fun _ h => root_fn sb h)).
    2:{ intros fe Hfe. destruct (Hst fe Hfe) as [A1 A2].
        destruct (get_event sa (fe_id fe)) as [ea|] eqn:Ea; [|contradiction].
        destruct (get_event sb (fe_id fe)) as [eb|] eqn:Eb; [|contradiction].
        destruct (sp_of_cross _ ea eb Ea Eb) as [K1 [K2 [_ [_ K3]]]].
        split; [exact K2|]. rewrite <- K1. apply root_fn_cross. exact K3. }
    apply roots2_fn_ext. intros p _. apply root_fn_cross.
    unfold lce_head. destruct (aget (pkey p) (lce_fn (creator_of sa) (frames sa) (Z.to_nat R))) as [h|] eqn:Eh; [right|left; reflexivity].
    destruct (lce_fn_creator _ _ _ _ _ Eh) as [_ [R0 [f0 [HR0' [Hz0 Hin0]]]]].
    rewrite Z2Nat.id in HR0' by exact HR0.
    apply in_map_iff in Hin0. destruct Hin0 as [fe [<- Hfe]]. apply (Hlow R0 f0 fe HR0' Hz0 Hfe).
  Qed.
End Cross.

(** * A run along an assignment P of validator sets to rounds: its final state and its prefixes *)
Lemma along_pinv P all s g o ops : along P all s g o ops ->
  failed (hrun (init_hg s g o) ops) = false -> pinv (hrun (init_hg s g o) ops).
Proof. intros A F. rewrite <- prefix_length in F |- *. exact (pinv_along P all s g o ops _ A F). Qed.

Lemma along_uinv P all s g o ops : along P all s g o ops ->
  failed (hrun (init_hg s g o) ops) = false -> uinvD P (hrun (init_hg s g o) ops).
Proof. intros A F. rewrite <- prefix_length in F |- *. exact (uinv_along P all s g o ops _ A F). Qed.

Lemma along_freadyD P all s g o ops : along P all s g o ops ->
  failed (hrun (init_hg s g o) ops) = false -> freadyD P (hrun (init_hg s g o) ops).
Proof.
  intros A F. destruct (along_final P all s g o ops A F) as [Gi [_ [_ [_ [I G]]]]].
  constructor; [exact (gD_dag _ _ G)|exact I|].
  intros x ex Hx. destruct (ginv_lt_memo all _ x ex Gi F Hx) as [t [_ Ht]]. rewrite Ht. discriminate.
Qed.

Lemma prefix_lr_mono P all s g o ops k d : along P all s g o ops ->
  last_round (prefix s g o ops k) <= last_round (prefix s g o ops (k + d)).
Proof.
  intros A. induction d as [|d IH]; [rewrite Nat.add_0_r; lia|].
  rewrite Nat.add_succ_r. pose proof (prefix_lr_S P all s g o ops A (k + d)). lia.
Qed.

(* a prefix of a run along P is a run along P *)
Lemma along_prefix P all s g o ops j : along P all s g o ops -> along P all s g o (firstn j ops).
Proof.
  intros A. constructor.
  - exact (al_id _ _ _ _ _ _ A).
  - exact (Forall_firstn _ j ops (al_ops _ _ _ _ _ _ A)).
  - intros k. rewrite firstn_firstn. apply (al_inv _ _ _ _ _ _ A).
  - intros k q. rewrite !firstn_firstn. intros Hq.
    destruct (Nat.lt_ge_cases k j) as [Hk|Hk]; [|rewrite Nat.min_r by lia; reflexivity].
    rewrite Nat.min_l in Hq |- * by lia.
    pose proof (prefix_lr_mono P all s g o ops (S k) (j - k) A) as M. unfold prefix in M.
    replace (S k + (j - k))%nat with (S j) in M by lia.
    rewrite (al_look _ _ _ _ _ _ A k q Hq), (al_look _ _ _ _ _ _ A j q) by lia. reflexivity.
  - exact (along_tbl P all s g o ops A j).
Qed.

Lemma map_eq_pointwise {A B C} (k : A -> C) (f f' : A -> B) : forall l l', map k l = map k l' ->
  (forall a a', In a l -> In a' l' -> k a = k a' -> f a = f' a') -> map f l = map f' l'.
Proof.
  induction l as [|a l IH]; intros [|a' l'] K H; try discriminate; [reflexivity|].
  cbn [map] in *. injection K as K0 K. f_equal; [apply H; [left; reflexivity|left; reflexivity|exact K0]|].
  apply IH; [exact K|]. intros b b' Hb Hb'. apply H; right; assumption.
Qed.

Lemma frame_ext (f1 f2 : frame) :
  f_round f1 = f_round f2 -> f_peers f1 = f_peers f2 -> f_roots f1 = f_roots f2 -> f_events f1 = f_events f2 ->
  f_peersets f1 = f_peersets f2 -> f_ts f1 = f_ts f2 -> f1 = f2.
Proof. destruct f1, f2. cbn. intros. congruence. Qed.

Lemma StronglySorted_impl_in {A} (R R' : A -> A -> Prop) l :
  (forall a b, In a l -> In b l -> R a b -> R' a b) -> StronglySorted R l -> StronglySorted R' l.
Proof.
  induction l as [|x l IH]; intros H S; [constructor|]. inversion S as [|? ? S1 F1]; subst. constructor.
  - apply IH; [|exact S1]. intros a b Ha Hb. apply H; right; assumption.
  - rewrite Forall_forall in *. intros y Hy. apply H; [left; reflexivity|right; exact Hy|apply F1; exact Hy].
Qed.

Lemma StronglySorted_map_intro {A B} (f : A -> B) (R : B -> B -> Prop) l :
  StronglySorted (fun a b => R (f a) (f b)) l -> StronglySorted R (map f l).
Proof.
  induction 1 as [|a l S IH F]; cbn [map]; constructor; [exact IH|].
  rewrite Forall_forall in *. intros y Hy. apply in_map_iff in Hy. destruct Hy as [x [<- Hx]]. apply F. exact Hx.
Qed.

Lemma flat_map_nonempty {A B} (f : A -> list B) l : flat_map f l <> [] -> exists a, In a l /\ f a <> [].
Proof.
  induction l as [|a l IH]; cbn [flat_map]; [intros H; contradiction|].
  intros H. destruct (f a) as [|b r] eqn:E.
  - destruct (IH H) as [a' [Hi Hn]]. exists a'. split; [right; exact Hi|exact Hn].
  - exists a. split; [left; reflexivity|rewrite E; discriminate].
Qed.

(* a delivered block: its round received is a round of the table, already processed and present *)
Lemma along_delivered P all s g o ops d : along P all s g o ops ->
  let st := hrun (init_hg s g o) ops in failed st = false -> In d (delivered st) ->
  0 <= b_rr d <= last_round st /\ lcle st (b_rr d) /\ exists ri, get_round st (b_rr d) = Some ri.
Proof.
  intros A st F Hd. destruct (along_final P all s g o ops A F) as [_ [_ [R _]]]. fold st in R.
  destruct (delivered_round_present all s g o ops d (al_id _ _ _ _ _ _ A) (al_ops _ _ _ _ _ _ A) F Hd) as [ri Hr]. fold st in Hr.
  split; [apply (rinv_contig _ R (b_rr d)); congruence|]. split; [apply (r_del_lc _ (proj1 R) d Hd)|eauto].
Qed.

(** * Two runs along one assignment P, over one fork-free universe of events: what the first run has, the second
      has as soon as it has processed the round *)
Section AlongTo.
  Variables (P : Z -> peerset) (all : list event) (s1 s2 : Z) (g1 g2 : peerset) (o1 o2 : list Z) (ops1 ops2 : list hop).
  Hypothesis A1 : along P all s1 g1 o1 ops1.
  Hypothesis A2 : along P all s2 g2 o2 ops2.
  Let st1 := hrun (init_hg s1 g1 o1) ops1.
  Let st2 := hrun (init_hg s2 g2 o2) ops2.
  Hypothesis F1 : failed st1 = false.
  Hypothesis F2 : failed st2 = false.
  Hypothesis FF : fork_free all.

  Lemma along_ncf : no_cross_fork st1 st2.
  Proof.
    destruct (along_final P all s1 g1 o1 ops1 A1 F1) as [Gi1 _]. destruct (along_final P all s2 g2 o2 ops2 A2 F2) as [Gi2 _].
    exact (no_cross_fork_of_universe all _ _ FF (g_dag _ _ (gi_core _ _ Gi1)) (g_dag _ _ (gi_core _ _ Gi2))
             (g_from _ _ (gi_core _ _ Gi1)) (g_from _ _ (gi_core _ _ Gi2))).
  Qed.

  (* an event received in round R by the first node is received in round R by the second *)
  Lemma rr_cross_along x R : rr_of st1 x = Some R -> lcle st2 R -> rr_of st2 x = Some R.
  Proof.
    intros Hx Hlc. pose proof along_ncf as NF. pose proof (along_uinv P all s2 g2 o2 ops2 A2 F2) as UI.
    destruct (two_good P all s1 s2 g1 g2 o1 o2 ops1 ops2 A1 A2 F1 F2) as [G1 [G2 SB]].
    destruct (along_final P all s2 g2 o2 ops2 A2 F2) as [_ [_ [R2 _]]].
    destruct (rr_spec_final P all s1 g1 o1 ops1 A1 F1 x R Hx) as [r [Hrm [Hlt [Hfl [_ Hrc]]]]].
    destruct (cd_rdom _ _ _ (gD_c _ _ G1) x r Hrm) as [Hr0 _].
    assert (HR0 : 0 <= R) by exact (Z.le_trans _ _ _ Hr0 (Z.lt_le_incl _ _ Hlt)).
    pose proof (Hfl R (conj Hlt (Z.le_refl R))) as Fl1. pose proof (flag_below_lc _ R R2 Hlc HR0) as Fl2.
    unfold rr_of in Hx |- *.
    destruct (get_event st1 x) as [e1|] eqn:He1; [|discriminate].
    (* x is stored in the second node: it is below a famous witness of round R *)
    assert (Hx2 : exists e2, get_event st2 x = Some e2).
    { destruct Hrc as [Hsee Hsm]. fold st1 in Hsee, Hsm. pose proof (super_majority_pos (P R)) as Hp.
      destruct (fam st1 R) as [|w l] eqn:Ef; [exfalso; clear - Hsm Hp; cbn [length] in Hsm; lia|].
      pose proof (Hsee w (or_introl eq_refl)) as Hs.
      assert (Hw1 : frec st1 R w true) by (apply (fam_frecD P _ R w G1); fold st1; rewrite Ef; left; reflexivity).
      pose proof (proj1 (famous_agree_flags_along P all s1 s2 g1 g2 o1 o2 ops1 ops2 R w A1 A2 F1 F2 NF Fl1 Fl2) Hw1) as Hw2.
      destruct (wits_storedD P _ G1 R w (frec_in_wits _ R w true Hw1)) as [ew1 Hew1].
      destruct (wits_storedD P _ G2 R w (frec_in_wits _ R w true Hw2)) as [ew2 Hew2].
      apply (see_true_ancD P _ w x ew1 e1 G1 Hew1 He1) in Hs.
      exact (proj2 (anc_commonD P P _ _ G1 G2 SB w ew1 ew2 x Hew1 Hew2 Hs)). }
    destruct Hx2 as [e2 He2]. fold st2. rewrite He2.
    destruct (ev_rr e2) as [R'|] eqn:Hr2.
    - f_equal. symmetry.
      exact (rr_agreement_along P all s1 s2 g1 g2 o1 o2 ops1 ops2 A1 A2 F1 F2 NF x e1 e2 R R' He1 He2 Hx Hr2).
    - exfalso.
      assert (Hu : ustopD P st2 x) by (apply (uD_u _ _ UI x); [fold st2; rewrite He2; discriminate|unfold rr_of; fold st2; rewrite He2; exact Hr2]).
      destruct Hu as [r' [j0 [Hr' [Hlt' [Hnf [_ Hall]]]]]].
      destruct (memo_agreeD P P _ _ G1 G2 SB (fun q _ _ => eq_refl) x e1 e2 He1 He2) as [Er _].
      assert (Er' : Some r = Some r') by (rewrite <- Hrm, <- Hr'; exact Er). injection Er' as <-.
      (* the loop of the second node did not stop at or below R, which it has processed *)
      assert (Hj0 : R < j0).
      { destruct (Z.lt_ge_cases R j0) as [Hj|Hge]; [exact Hj|exfalso]. apply Hnf.
        apply (flag_below_lc _ j0 R2); [|exact (Z.le_trans _ _ _ Hr0 (Z.lt_le_incl _ _ Hlt'))].
        destruct Hlc as [l [Hl Hle]]. exists l. split; [exact Hl|exact (Z.le_trans _ _ _ Hge Hle)]. }
      apply (proj2 (Hall R (conj Hlt Hj0))).
      exact (proj1 (rcond_cross_along P all s1 s2 g1 g2 o1 o2 ops1 ops2 A1 A2 F1 F2 NF R x e1 e2 Fl1 Fl2 He1 He2) Hrc).
  Qed.

  (* every (event, Lamport timestamp) of the first node's frame of round R is in the second node's frame of round R *)
  Lemma kl_incl_along R f1 f2 : zget R (frames st1) = Some f1 -> zget R (frames st2) = Some f2 ->
    incl (map (fun fe => (fe_id fe, fe_lt fe)) (f_events f1)) (map (fun fe => (fe_id fe, fe_lt fe)) (f_events f2)).
  Proof.
    intros Hz1 Hz2 p Hp. apply in_map_iff in Hp. destruct Hp as [fe1 [<- Hfe1]].
    destruct (along_final P all s1 g1 o1 ops1 A1 F1) as [Gi1 _]. destruct (along_final P all s2 g2 o2 ops2 A2 F2) as [Gi2 _].
    fold st1 in Gi1. fold st2 in Gi2.
    destruct (frame_events_received all st1 R f1 fe1 Gi1 Hz1 Hfe1) as [_ [_ [ex1 [Hex1 [Hrr1 Hlt1]]]]].
    destruct (along_pinv P all s2 g2 o2 ops2 A2 F2) as [_ Fr2 Db2]. fold st2 in Fr2, Db2.
    pose proof (Fr2 R f2 Hz2) as Hlc2.
    assert (Rx1 : rr_of st1 (fe_id fe1) = Some R) by (unfold rr_of; rewrite Hex1; exact Hrr1).
    pose proof (rr_cross_along (fe_id fe1) R Rx1 Hlc2) as Rx2.
    unfold rr_of in Rx2. destruct (get_event st2 (fe_id fe1)) as [ex2|] eqn:Hex2; [|discriminate].
    destruct (Db2 (fe_id fe1) ex2 R Hex2 Rx2 Hlc2) as [f [Hzf [Hin _]]]. rewrite Hz2 in Hzf. inversion Hzf; subst f.
    apply in_map_iff in Hin. destruct Hin as [fe2 [Eid Hfe2]].
    destruct (frame_events_received all st2 R f2 fe2 Gi2 Hz2 Hfe2) as [_ [_ [ex2' [Hex2' [_ Hlt2]]]]].
    rewrite Eid, Hex2 in Hex2'. inversion Hex2'; subst ex2'.
    destruct (lamport_agree_any all s1 s2 g1 g2 o1 o2 ops1 ops2 (fe_id fe1) ex1 ex2 (al_id _ _ _ _ _ _ A1)
                (al_ops _ _ _ _ _ _ A1) (al_ops _ _ _ _ _ _ A2) F1 F2 Hex1 Hex2) as [El _].
    rewrite (Hlt1 F1), (Hlt2 F2) in El. inversion El as [El'].
    apply in_map_iff. exists fe2. split; [rewrite Eid, El'; reflexivity|exact Hfe2].
  Qed.

  (* a block of the first node for a round that the second has processed exists in the second as well *)
  Lemma block_transfer_along d1 : In d1 (delivered st1) -> lcle st2 (b_rr d1) ->
    exists d2, In d2 (delivered st2) /\ b_rr d2 = b_rr d1.
  Proof.
    intros Hd1 Hlc.
    destruct (along_final P all s1 g1 o1 ops1 A1 F1) as [Gi1 _]. fold st1 in Gi1.
    destruct (delivered_block_payload all st1 d1 Gi1 Hd1) as [Hz1 [Tx1 Ix1]].
    assert (Hfe : exists fe, In fe (f_events (b_frame d1)) /\ (txs_of st1 fe <> [] \/ itxs_of st1 fe <> [])).
    { destruct (hrun_payload s1 g1 o1 ops1 d1 Hd1) as [Hp|Hp]; [rewrite Tx1 in Hp|rewrite Ix1 in Hp];
        destruct (flat_map_nonempty _ _ Hp) as [fe [A B]]; exists fe; auto. }
    destruct Hfe as [fe [Hfe Hpay]].
    destruct (frame_events_received all st1 _ _ fe Gi1 Hz1 Hfe) as [_ [_ [ex1 [Hex1 [Hrr1 _]]]]].
    assert (Rx1 : rr_of st1 (fe_id fe) = Some (b_rr d1)) by (unfold rr_of; rewrite Hex1; exact Hrr1).
    pose proof (rr_cross_along (fe_id fe) (b_rr d1) Rx1 Hlc) as Rx2.
    unfold rr_of in Rx2. destruct (get_event st2 (fe_id fe)) as [ex2|] eqn:Hex2; [|discriminate].
    destruct (along_pinv P all s2 g2 o2 ops2 A2 F2) as [_ _ Db2]. fold st2 in Db2.
    destruct (Db2 (fe_id fe) ex2 (b_rr d1) Hex2 Rx2 Hlc) as [f [_ [_ Hp2]]].
    destruct (two_good P all s1 s2 g1 g2 o1 o2 ops1 ops2 A1 A2 F1 F2) as [_ [_ SB]]. fold st1 st2 in SB.
    assert (Hpay2 : payload ex2).
    { unfold payload. rewrite <- (SB _ ex1 ex2 Hex1 Hex2). unfold txs_of, itxs_of in Hpay. rewrite Hex1 in Hpay. exact Hpay. }
    destruct (Hp2 Hpay2) as [d2 [Hd2 [Er _]]]. exists d2. auto.
  Qed.
End AlongTo.

Lemma sorted_prefix_nth : forall l1 l2, StronglySorted Z.lt l1 -> StronglySorted Z.lt l2 ->
  (forall x, In x l1 -> In x l2) -> (forall x y, In x l2 -> In y l1 -> x < y -> In x l1) ->
  forall k a b, nth_error l1 k = Some a -> nth_error l2 k = Some b -> a = b.
Proof.
  induction l1 as [|a0 l1 IH]; intros l2 S1 S2 Hin Hcl k a b Ha Hb; [destruct k; discriminate|].
  destruct l2 as [|b0 l2]; [destruct (Hin a0 (or_introl eq_refl))|].
  apply StronglySorted_inv in S1 as [S1' F1]. apply StronglySorted_inv in S2 as [S2' F2]. rewrite Forall_forall in F1, F2.
  assert (E0 : a0 = b0).
  { destruct (Hin a0 (or_introl eq_refl)) as [E|Hi]; [auto|]. pose proof (F2 a0 Hi) as Hlt.
    destruct (Hcl b0 a0 (or_introl eq_refl) (or_introl eq_refl) Hlt) as [E|Hi']; [auto|].
    destruct (Z.lt_asymm _ _ Hlt (F1 b0 Hi')). }
  subst b0. destruct k as [|k]; cbn [nth_error] in Ha, Hb; [congruence|].
  refine (IH l2 S1' S2' _ _ k a b Ha Hb).
  - intros x Hx. destruct (Hin x (or_intror Hx)) as [<-|Hi]; [destruct (Z.lt_irrefl _ (F1 _ Hx))|exact Hi].
  - intros x y Hx Hy Hlt. destruct (Hcl x y (or_intror Hx) (or_intror Hy) Hlt) as [<-|Hi]; [destruct (Z.lt_irrefl _ (F2 _ Hx))|exact Hi].
Qed.

Lemma map_prefix_of_pointwise {A B} (f : A -> B) : forall l1 l2 : list A, (length l1 <= length l2)%nat ->
  (forall k a b, nth_error l1 k = Some a -> nth_error l2 k = Some b -> f a = f b) ->
  map f l1 = firstn (length l1) (map f l2).
Proof.
  induction l1 as [|x l1 IH]; intros l2 Hlen H; [reflexivity|].
  destruct l2 as [|y l2]; [cbn [length] in Hlen; lia|]. cbn [length firstn map] in *.
  rewrite (H O x y eq_refl eq_refl). f_equal. apply IH; [lia|].
  intros k a b Ha Hb. apply (H (S k) a b Ha Hb).
Qed.

(* the k-th blocks of two delivered lists have the same round received when every block of one list that lies at or
   below the last consensus round of the other list occurs there *)
Lemma nth_rr_agree (ds1 ds2 : list block) l1 l2 k d1 d2 :
  StronglySorted Z.lt (map b_rr ds1) -> StronglySorted Z.lt (map b_rr ds2) ->
  (forall d, In d ds1 -> b_rr d <= l1) -> (forall d, In d ds2 -> b_rr d <= l2) ->
  (forall d, In d ds1 -> b_rr d <= l2 -> In (b_rr d) (map b_rr ds2)) ->
  (forall d, In d ds2 -> b_rr d <= l1 -> In (b_rr d) (map b_rr ds1)) ->
  nth_error ds1 k = Some d1 -> nth_error ds2 k = Some d2 -> b_rr d1 = b_rr d2.
Proof.
  assert (W : forall ds1 ds2 l1 l2 d1 d2, l1 <= l2 ->
    StronglySorted Z.lt (map b_rr ds1) -> StronglySorted Z.lt (map b_rr ds2) -> (forall d, In d ds1 -> b_rr d <= l1) ->
    (forall d, In d ds1 -> b_rr d <= l2 -> In (b_rr d) (map b_rr ds2)) ->
    (forall d, In d ds2 -> b_rr d <= l1 -> In (b_rr d) (map b_rr ds1)) ->
    nth_error ds1 k = Some d1 -> nth_error ds2 k = Some d2 -> b_rr d1 = b_rr d2).
  { clear. intros ds1 ds2 l1 l2 d1 d2 Hl S1 S2 B1 T12 T21 Hk1 Hk2.
    apply (sorted_prefix_nth (map b_rr ds1) (map b_rr ds2) S1 S2) with (k := k).
    - intros x Hx. apply in_map_iff in Hx. destruct Hx as [d [<- Hd]]. apply T12; [exact Hd|]. specialize (B1 d Hd). lia.
    - intros x y Hx Hy Hlt. apply in_map_iff in Hx. destruct Hx as [d [<- Hd]].
      apply in_map_iff in Hy. destruct Hy as [d' [<- Hd']]. apply T21; [exact Hd|]. specialize (B1 d' Hd'). lia.
    - apply map_nth_error. exact Hk1.
    - apply map_nth_error. exact Hk2. }
  intros S1 S2 B1 B2 T12 T21 Hk1 Hk2. destruct (Z.le_ge_cases l1 l2) as [Hl|Hl].
  - apply (W ds1 ds2 l1 l2 d1 d2 Hl S1 S2 B1 T12 T21 Hk1 Hk2).
  - symmetry. apply (W ds2 ds1 l2 l1 d2 d1 ltac:(lia) S2 S1 B2 T21 T12 Hk2 Hk1).
Qed.

Lemma sigkey_of_inj all st x y ex ey : sigkeys_determine all -> ginv all st ->
  get_event st x = Some ex -> get_event st y = Some ey -> sigkey_of st x = sigkey_of st y -> x = y.
Proof.
  intros SK Gi Hx Hy Ks. unfold sigkey_of in Ks. rewrite Hx, Hy in Ks.
  pose proof (g_from _ _ (gi_core _ _ Gi)) as FA. pose proof (g_dag _ _ (gi_core _ _ Gi)) as OK.
  rewrite <- (d_id _ OK _ _ Hx), <- (d_id _ OK _ _ Hy), (SK _ _ (FA _ _ Hx) (FA _ _ Hy) Ks). reflexivity.
Qed.

Definition cbody (d : block) := (b_index d, b_rr d, b_ts d, b_txs d, b_itxs d, b_frame d, b_peers d).

(** * ... and what the two runs therefore have in common *)
Section AlongBoth.
  Variables (P : Z -> peerset) (all : list event) (s1 s2 : Z) (g1 g2 : peerset) (o1 o2 : list Z) (ops1 ops2 : list hop).
  Hypothesis A1 : along P all s1 g1 o1 ops1.
  Hypothesis A2 : along P all s2 g2 o2 ops2.
  Let st1 := hrun (init_hg s1 g1 o1) ops1.
  Let st2 := hrun (init_hg s2 g2 o2) ops2.
  Hypothesis F1 : failed st1 = false.
  Hypothesis F2 : failed st2 = false.
  Hypothesis FF : fork_free all.
  Hypothesis SK : sigkeys_determine all.

  Lemma along_both : ginv all st1 /\ ginv all st2 /\ goodD P st1 /\ goodD P st2 /\ rinv st1 /\ rinv st2 /\ same_bodies st1 st2.
  Proof.
    destruct (along_final P all s1 g1 o1 ops1 A1 F1) as [Gi1 [_ [R1 _]]]. destruct (along_final P all s2 g2 o2 ops2 A2 F2) as [Gi2 [_ [R2 _]]].
    destruct (two_good P all s1 s2 g1 g2 o1 o2 ops1 ops2 A1 A2 F1 F2) as [G1 [G2 SB]].
    exact (conj Gi1 (conj Gi2 (conj G1 (conj G2 (conj R1 (conj R2 SB)))))).
  Qed.

  (* the frames of a round cached by both nodes list the same events with the same timestamps, in the same order *)
  Theorem frames_kl_agree_along R f1 f2 : zget R (frames st1) = Some f1 -> zget R (frames st2) = Some f2 ->
    map (fun fe => (fe_id fe, fe_lt fe)) (f_events f1) = map (fun fe => (fe_id fe, fe_lt fe)) (f_events f2).
  Proof.
    intros Hz1 Hz2. destruct along_both as [Gi1 [Gi2 [_ [_ [_ [_ SB]]]]]].
    pose proof (kl_incl_along P all s1 s2 g1 g2 o1 o2 ops1 ops2 A1 A2 F1 F2 FF R f1 f2 Hz1 Hz2) as I12.
    pose proof (kl_incl_along P all s2 s1 g2 g1 o2 o1 ops2 ops1 A2 A1 F2 F1 FF R f2 f1 Hz2 Hz1) as I21.
    destruct (gi_f _ _ Gi1 R f1 Hz1) as [_ [_ [ND1 [_ [St1 So1]]]]].
    destruct (gi_f _ _ Gi2 R f2 Hz2) as [_ [_ [ND2 [_ [St2 So2]]]]].
    pose proof (g_dag _ _ (gi_core _ _ Gi1)) as OK1. pose proof (g_dag _ _ (gi_core _ _ Gi2)) as OK2.
    set (kl := fun f => map (fun fe => (fe_id fe, fe_lt fe)) (f_events f)).
    set (RK := fun a b : Z * Z => snd a < snd b \/ (snd a = snd b /\ sigkey_of st1 (fst a) <= sigkey_of st1 (fst b))).
    assert (ND1' : NoDup (kl f1)) by (apply (NoDup_map_inv fst); unfold kl; rewrite map_map; exact ND1).
    assert (ND2' : NoDup (kl f2)) by (apply (NoDup_map_inv fst); unfold kl; rewrite map_map; exact ND2).
    apply (sorted_perm_unique RK).
    - apply NoDup_Permutation; [exact ND1'|exact ND2'|]. intros p. split; [apply I12|apply I21].
    - apply StronglySorted_map_intro. apply (StronglySorted_impl_in (fe_le st1)); [|exact So1].
      intros a b _ _ L. rewrite fe_le_spec in L. exact L.
    - apply StronglySorted_map_intro. apply (StronglySorted_impl_in (fe_le st2)); [|exact So2].
      intros a b Ha Hb L. rewrite fe_le_spec in L. unfold RK. cbn [fst snd].
      assert (Ks : forall fe, In fe (f_events f2) -> sigkey_of st2 (fe_id fe) = sigkey_of st1 (fe_id fe)).
      { intros fe Hfe. destruct (St2 fe Hfe) as [e2 He2].
        assert (Hin : In (fe_id fe, fe_lt fe) (kl f1)) by (apply I21; apply in_map_iff; exists fe; auto).
        apply in_map_iff in Hin. destruct Hin as [fe' [Eq Hfe']]. injection Eq as Eid Elt.
        destruct (St1 fe' Hfe') as [e1 He1]. rewrite Eid in He1. symmetry.
        exact (proj1 (proj2 (proj2 (proj2 (sp_of_cross st1 st2 OK1 OK2 SB _ e1 e2 He1 He2))))). }
      rewrite <- (Ks a Ha), <- (Ks b Hb). exact L.
    - intros a b Ha Hb L1 L2. unfold RK in L1, L2.
      apply in_map_iff in Ha. apply in_map_iff in Hb.
      destruct Ha as [fa [<- Hfa]]. destruct Hb as [fb [<- Hfb]]. cbn [fst snd] in *.
      destruct (St1 fa Hfa) as [ea Hea]. destruct (St1 fb Hfb) as [eb Heb].
      assert (Ks : fe_lt fa = fe_lt fb /\ sigkey_of st1 (fe_id fa) = sigkey_of st1 (fe_id fb)) by (clear - L1 L2; lia).
      destruct Ks as [Elt Ks]. f_equal; [exact (sigkey_of_inj all st1 _ _ ea eb SK Gi1 Hea Heb Ks)|exact Elt].
  Qed.

  (* blocks of one round-received carry the same transactions and internal transactions *)
  Lemma block_data_agree_along d1 d2 : In d1 (delivered st1) -> In d2 (delivered st2) -> b_rr d1 = b_rr d2 ->
    b_txs d1 = b_txs d2 /\ b_itxs d1 = b_itxs d2.
  Proof.
    intros Hd1 Hd2 Er. destruct along_both as [Gi1 [Gi2 [_ [_ [_ [_ SB]]]]]].
    destruct (delivered_block_payload all st1 d1 Gi1 Hd1) as [Hz1 [Tx1 Ix1]].
    destruct (delivered_block_payload all st2 d2 Gi2 Hd2) as [Hz2 [Tx2 Ix2]]. rewrite <- Er in Hz2.
    pose proof (frames_kl_agree_along _ _ _ Hz1 Hz2) as K.
    destruct (gi_f _ _ Gi1 _ _ Hz1) as [_ [_ [_ [_ [St1 _]]]]]. destruct (gi_f _ _ Gi2 _ _ Hz2) as [_ [_ [_ [_ [St2 _]]]]].
    assert (Hb : forall fa fb, In fa (f_events (b_frame d1)) -> In fb (f_events (b_frame d2)) ->
              (fe_id fa, fe_lt fa) = (fe_id fb, fe_lt fb) -> txs_of st1 fa = txs_of st2 fb /\ itxs_of st1 fa = itxs_of st2 fb).
    { intros fa fb Hfa Hfb Eq. injection Eq as Eid _.
      destruct (St1 fa Hfa) as [e1 He1]. destruct (St2 fb Hfb) as [e2 He2].
      unfold txs_of, itxs_of. rewrite He1, He2. rewrite Eid in He1. rewrite (SB _ e1 e2 He1 He2). auto. }
    rewrite Tx1, Tx2, Ix1, Ix2, !flat_map_concat_map.
    split; f_equal; apply (map_eq_pointwise _ _ _ _ _ K); intros fa fb Hfa Hfb Eq; apply (Hb fa fb Hfa Hfb Eq).
  Qed.

  (* the median over the timestamps of the famous witnesses of a round both have processed *)
  Lemma fw_median_along R ri1 ri2 : 0 <= R -> lcle st1 R -> lcle st2 R ->
    get_round st1 R = Some ri1 -> get_round st2 R = Some ri2 ->
    median (map (ts_of st1) (famous_witnesses ri1)) = median (map (ts_of st2) (famous_witnesses ri2)).
  Proof.
    intros HR0 L1 L2 Hr1 Hr2. destruct along_both as [_ [_ [G1 [G2 [R1 [R2 SB]]]]]].
    destruct (flag_below_lc st1 R R1 L1 HR0) as [ri1' [Hr1' D1]]. rewrite Hr1 in Hr1'. injection Hr1' as <-.
    destruct (flag_below_lc st2 R R2 L2 HR0) as [ri2' [Hr2' D2]]. rewrite Hr2 in Hr2'. injection Hr2' as <-.
    assert (FX : forall w, In w (famous_witnesses ri1) <-> In w (famous_witnesses ri2)).
    { intros w. apply (famous_witnesses_agree_decided_along P all s1 s2 g1 g2 o1 o2 ops1 ops2 R ri1 ri2 w A1 A2 F1 F2
                         (along_ncf P all s1 s2 g1 g2 o1 o2 ops1 ops2 A1 A2 F1 F2 FF) Hr1 Hr2 D1 D2). }
    pose proof (fam_nodupD P st1 R G1) as N1. rewrite (fam_get_round st1 R ri1 Hr1) in N1.
    pose proof (fam_nodupD P st2 R G2) as N2. rewrite (fam_get_round st2 R ri2 Hr2) in N2.
    apply median_perm_invariant. rewrite (map_ext_in (ts_of st1) (ts_of st2)).
    - apply Permutation_map, NoDup_Permutation; assumption.
    - intros w Hw. pose proof (proj1 (FX w) Hw) as Hw2.
      rewrite <- (fam_get_round st1 R ri1 Hr1) in Hw. rewrite <- (fam_get_round st2 R ri2 Hr2) in Hw2.
      apply (fam_frecD P st1 R w G1) in Hw. apply (fam_frecD P st2 R w G2) in Hw2.
      destruct (wits_storedD P st1 G1 R w (frec_in_wits st1 R w true Hw)) as [e1 He1].
      destruct (wits_storedD P st2 G2 R w (frec_in_wits st2 R w true Hw2)) as [e2 He2].
      unfold ts_of. rewrite He1, He2, (SB w e1 e2 He1 He2). reflexivity.
  Qed.

  Lemma block_ts_agree_along d1 d2 : In d1 (delivered st1) -> In d2 (delivered st2) -> b_rr d1 = b_rr d2 -> b_ts d1 = b_ts d2.
  Proof.
    intros Hd1 Hd2 Er.
    destruct (block_timestamp_is_median all s1 g1 o1 ops1 d1 (al_id _ _ _ _ _ _ A1) (al_ops _ _ _ _ _ _ A1) Hd1) as [M1 _].
    destruct (block_timestamp_is_median all s2 g2 o2 ops2 d2 (al_id _ _ _ _ _ _ A2) (al_ops _ _ _ _ _ _ A2) Hd2) as [M2 _].
    destruct (along_delivered P all s1 g1 o1 ops1 d1 A1 F1 Hd1) as [[H0 _] [L1 [ri1 Hr1]]].
    destruct (along_delivered P all s2 g2 o2 ops2 d2 A2 F2 Hd2) as [_ [L2 [ri2 Hr2]]].
    fold st1 in M1, Hr1. fold st2 in M2, Hr2. rewrite <- Er in M2, Hr2, L2.
    unfold fws in M1, M2. rewrite Hr1 in M1. rewrite Hr2 in M2. rewrite M1, M2.
    exact (fw_median_along (b_rr d1) ri1 ri2 H0 L1 L2 Hr1 Hr2).
  Qed.

  Lemma blocks_rr_agree_along k d1 d2 :
    nth_error (delivered st1) k = Some d1 -> nth_error (delivered st2) k = Some d2 -> b_rr d1 = b_rr d2.
  Proof.
    intros Hk1 Hk2. destruct along_both as [_ [_ [_ [_ [[R1 _] [[R2 _] _]]]]]].
    pose proof (nth_error_In _ _ Hk1) as Hd1. pose proof (nth_error_In _ _ Hk2) as Hd2.
    destruct (r_del_lc _ R1 d1 Hd1) as [l1 [Hl1 _]]. destruct (r_del_lc _ R2 d2 Hd2) as [l2 [Hl2 _]].
    apply (nth_rr_agree (delivered st1) (delivered st2) l1 l2 k d1 d2 (r_del_sorted _ R1) (r_del_sorted _ R2)); [| | | |exact Hk1|exact Hk2].
    - intros d Hd. destruct (r_del_lc _ R1 d Hd) as [l [Hl Hle]]. congruence.
    - intros d Hd. destruct (r_del_lc _ R2 d Hd) as [l [Hl Hle]]. congruence.
    - intros d Hd Hle. destruct (block_transfer_along P all s1 s2 g1 g2 o1 o2 ops1 ops2 A1 A2 F1 F2 FF d Hd ltac:(exists l2; auto)) as [d' [A B]].
      rewrite <- B. apply in_map. exact A.
    - intros d Hd Hle. destruct (block_transfer_along P all s2 s1 g2 g1 o2 o1 ops2 ops1 A2 A1 F2 F1 FF d Hd ltac:(exists l1; auto)) as [d' [A B]].
      rewrite <- B. apply in_map. exact A.
  Qed.

  (* THE BLOCKS AT EQUAL POSITIONS: index, round received, timestamp, transactions, internal transactions *)
  Theorem blocks_agree_along k d1 d2 :
    nth_error (delivered st1) k = Some d1 -> nth_error (delivered st2) k = Some d2 ->
    (b_index d1, b_rr d1, b_ts d1, b_txs d1, b_itxs d1) = (b_index d2, b_rr d2, b_ts d2, b_txs d2, b_itxs d2).
  Proof.
    intros Hk1 Hk2. pose proof (nth_error_In _ _ Hk1) as Hd1. pose proof (nth_error_In _ _ Hk2) as Hd2.
    pose proof (blocks_rr_agree_along k d1 d2 Hk1 Hk2) as Er.
    destruct (block_data_agree_along d1 d2 Hd1 Hd2 Er) as [Et Ei].
    rewrite (binv_consecutive _ (hrun_binv s1 g1 o1 ops1) k d1 Hk1), (binv_consecutive _ (hrun_binv s2 g2 o2 ops2) k d2 Hk2),
      Er, (block_ts_agree_along d1 d2 Hd1 Hd2 Er), Et, Ei. reflexivity.
  Qed.

  (* the peers field, when it is the set the node's table gives for the round received *)
  Lemma block_peers_agree_along d1 d2 : In d1 (delivered st1) -> In d2 (delivered st2) -> b_rr d1 = b_rr d2 ->
    get_peerset st1 (b_rr d1) = Some (b_peers d1) -> get_peerset st2 (b_rr d2) = Some (b_peers d2) -> b_peers d1 = b_peers d2.
  Proof.
    intros Hd1 Hd2 Er P1 P2.
    destruct (along_delivered P all s1 g1 o1 ops1 d1 A1 F1 Hd1) as [B1 _].
    destruct (along_delivered P all s2 g2 o2 ops2 d2 A2 F2 Hd2) as [B2 _].
    pose proof (al_fin _ _ _ _ _ _ A1 _ B1) as Q1. pose proof (al_fin _ _ _ _ _ _ A2 _ B2) as Q2.
    fold st1 in Q1. fold st2 in Q2. rewrite P1 in Q1. rewrite P2, <- Er in Q2. congruence.
  Qed.

  Lemma cfe_cross_along x fa fb : create_frame_event st1 x = Some fa -> create_frame_event st2 x = Some fb -> fa = fb.
  Proof.
    intros Ha Hb. destruct along_both as [Gi1 [Gi2 [G1 [G2 [_ [_ SB]]]]]].
    destruct (cfe_attrs P all st1 x fa (gD_c _ _ G1) Gi1 F1 Ha) as [I1 [I2 [I3 [ea [I4 I5]]]]].
    destruct (cfe_attrs P all st2 x fb (gD_c _ _ G2) Gi2 F2 Hb) as [E1 [E2 [E3 [eb [E4 E5]]]]].
    destruct (round_agreeD P P st1 st2 G1 G2 SB (fun q _ _ => eq_refl) x ea eb I4 E4) as [_ [_ [Er Ew]]].
    destruct (lamport_agree_any all s1 s2 g1 g2 o1 o2 ops1 ops2 x ea eb (al_id _ _ _ _ _ _ A1)
                (al_ops _ _ _ _ _ _ A1) (al_ops _ _ _ _ _ _ A2) F1 F2 I4 E4) as [El _].
    destruct fa as [i1 r1 t1 w1], fb as [i2 r2 t2 w2]. cbn in *. f_equal; congruence.
  Qed.

  (* frame equations in the two states, over one repertoire and first-round table => the same events and the same roots *)
  Lemma FE_agree_along rep frs R fa fb :
    zget R (frames st1) = Some fa -> zget R (frames st2) = Some fb -> FE0 rep frs st1 R fa -> FE0 rep frs st2 R fb ->
    (forall R', 0 <= R' < R -> zget R' (frames st1) <> None /\ zget R' (frames st2) <> None) ->
    f_events fa = f_events fb /\ f_roots fa = f_roots fb.
  Proof.
    intros Hza Hzb Qa Qb Hlow. pose proof (fe0_evs _ _ _ _ _ Qa) as Ea. pose proof (fe0_evs _ _ _ _ _ Qb) as Eb.
    destruct along_both as [Gi1 [Gi2 [_ [_ [_ [_ SB]]]]]].
    pose proof (along_freadyD P all s1 g1 o1 ops1 A1 F1) as Fr1. pose proof (along_freadyD P all s2 g2 o2 ops2 A2 F2) as Fr2.
    fold st1 in Fr1. fold st2 in Fr2.
    pose proof (sp_of_cross st1 st2 (frd_dag _ _ Fr1) (frd_dag _ _ Fr2) SB) as SPX.
    rewrite Forall_forall in Ea, Eb.
    pose proof (zget_some_nonneg _ _ _ Hza) as HR0.
    assert (Eev : f_events fa = f_events fb).
    { rewrite <- (map_id (f_events fa)), <- (map_id (f_events fb)).
      apply (map_eq_pointwise _ _ _ _ _ (frames_kl_agree_along R fa fb Hza Hzb)). intros a b Ha Hb Eq. injection Eq as Eid _.
      apply (cfe_cross_along (fe_id a)); [apply Ea, Ha|rewrite Eid; apply Eb, Hb]. }
    split; [exact Eev|].
    assert (Hstored : forall R' f fe, zget R' (frames st1) = Some f -> In fe (f_events f) -> exists ea, get_event st1 (fe_id fe) = Some ea).
    { intros R' f fe Hz Hfe. destruct (gi_f _ _ Gi1 R' f Hz) as [_ [_ [_ [_ [St _]]]]]. apply St. exact Hfe. }
    assert (Hstored2 : forall R' f fe, zget R' (frames st2) = Some f -> In fe (f_events f) -> exists eb, get_event st2 (fe_id fe) = Some eb).
    { intros R' f fe Hz Hfe. destruct (gi_f _ _ Gi2 R' f Hz) as [_ [_ [_ [_ [St _]]]]]. apply St. exact Hfe. }
    (* the cached frames of the lower rounds list the same events *)
    assert (Low : forall R', 0 <= R' < R -> exists f1 f2, zget R' (frames st1) = Some f1 /\ zget R' (frames st2) = Some f2 /\
              map (fun fe => (fe_id fe, fe_lt fe)) (f_events f1) = map (fun fe => (fe_id fe, fe_lt fe)) (f_events f2)).
    { intros R' HR'. destruct (Hlow R' HR') as [A B].
      destruct (zget R' (frames st1)) as [f1|] eqn:Z1; [|contradiction]. destruct (zget R' (frames st2)) as [f2|] eqn:Z2; [|contradiction].
      exists f1, f2. split; [reflexivity|]. split; [reflexivity|]. apply (frames_kl_agree_along R' f1 f2 Z1 Z2). }
    assert (Both : forall R0 f0 fe, 0 <= R0 < R -> zget R0 (frames st1) = Some f0 -> In fe (f_events f0) ->
              exists ea eb, get_event st1 (fe_id fe) = Some ea /\ get_event st2 (fe_id fe) = Some eb).
    { intros R0 f0 fe HR0' Hz0 Hfe. destruct (Hstored R0 f0 fe Hz0 Hfe) as [ea Hea].
      destruct (Low R0 HR0') as [f1 [f2 [Z1 [Z2 K]]]]. rewrite Hz0 in Z1. injection Z1 as <-.
      assert (Hk : In (fe_id fe, fe_lt fe) (map (fun fe => (fe_id fe, fe_lt fe)) (f_events f0))) by (apply in_map_iff; exists fe; auto).
      rewrite K in Hk. apply in_map_iff in Hk. destruct Hk as [fe2 [Eq Hfe2]]. injection Eq as Eid _.
      destruct (Hstored2 R0 f2 fe2 Z2 Hfe2) as [eb Heb]. rewrite Eid in Heb. eauto. }
    apply (FE0_roots_cross st1 st2 (frd_dag _ _ Fr1) (frd_dag _ _ Fr2) SB
             (fun x => create_frame_event_someD P st1 x Fr1) (fun x => create_frame_event_someD P st2 x Fr2) cfe_cross_along
             _ _ R fa fb HR0 Qa Qb Eev).
    - intros fe Hfe. destruct (Hstored R fa fe Hza Hfe) as [ea A]. rewrite Eev in Hfe. destruct (Hstored2 R fb fe Hzb Hfe) as [eb B].
      rewrite A, B. split; discriminate.
    - intros R0 f0 fe HR0' Hz0 Hfe. destruct (Both R0 f0 fe HR0' Hz0 Hfe) as [ea [eb [A B]]]. rewrite A, B. split; discriminate.
    - rewrite <- (Z2Nat.id R HR0) in Low, Both. apply lce_fn_ext_ids.
      + intros R' HR'. destruct (Low R' HR') as [f1 [f2 [Z1 [Z2 K]]]]. rewrite Z1, Z2. cbn [option_map]. f_equal.
        apply (f_equal (map fst)) in K. rewrite !map_map in K. exact K.
      + intros R' f fe HR' Hz Hfe. destruct (Both R' f fe HR' Hz Hfe) as [ea [eb [A B]]]. exact (proj1 (proj2 (SPX _ ea eb A B))).
  Qed.
End AlongBoth.

(** * Frames.  The cached frame of a round was built by a prefix of the run, in whose final state it satisfies the
      equations over a repertoire and a first-round table; which ones is a matter of the membership regime *)
Definition built (rep : list peer) (frs : list (Z * Z)) s g o ops (R : Z) (f : frame) : Prop :=
  exists j, failed (prefix s g o ops j) = false /\ zget R (frames (prefix s g o ops j)) = Some f /\
    FE0 rep frs (prefix s g o ops j) R f /\ forall R', 0 <= R' < R -> zget R' (frames (prefix s g o ops j)) <> None.

Theorem frames_agree_along P all s1 s2 g1 g2 o1 o2 ops1 ops2 rep frs R f1 f2 :
  along P all s1 g1 o1 ops1 -> along P all s2 g2 o2 ops2 -> fork_free all -> sigkeys_determine all ->
  built rep frs s1 g1 o1 ops1 R f1 -> built rep frs s2 g2 o2 ops2 R f2 ->
  f_events f1 = f_events f2 /\ f_roots f1 = f_roots f2.
Proof.
  intros A1 A2 FF SK [j1 [Fj1 [Z1 [E1 L1]]]] [j2 [Fj2 [Z2 [E2 L2]]]].
  apply (FE_agree_along P all s1 s2 g1 g2 o1 o2 _ _ (along_prefix P all s1 g1 o1 ops1 j1 A1) (along_prefix P all s2 g2 o2 ops2 j2 A2) Fj1 Fj2 FF SK
           rep frs R f1 f2 Z1 Z2 E1 E2).
  intros R' HR'. split; [apply L1|apply L2]; exact HR'.
Qed.

(* THE BLOCKS AT EQUAL POSITIONS, ALL FIELDS: the peers field is the set the node's table gives for the round
   received, the table snapshots recorded in the two frames are equal, and the frames are built over one repertoire
   and first-round table *)
Theorem blocks_agree_frames_along P all s1 s2 g1 g2 o1 o2 ops1 ops2 rep frs k d1 d2 :
  along P all s1 g1 o1 ops1 -> along P all s2 g2 o2 ops2 ->
  let st1 := hrun (init_hg s1 g1 o1) ops1 in
  let st2 := hrun (init_hg s2 g2 o2) ops2 in
  failed st1 = false -> failed st2 = false -> fork_free all -> sigkeys_determine all ->
  nth_error (delivered st1) k = Some d1 -> nth_error (delivered st2) k = Some d2 ->
  get_peerset st1 (b_rr d1) = Some (b_peers d1) -> get_peerset st2 (b_rr d2) = Some (b_peers d2) ->
  f_peersets (b_frame d1) = f_peersets (b_frame d2) ->
  built rep frs s1 g1 o1 ops1 (b_rr d1) (b_frame d1) -> built rep frs s2 g2 o2 ops2 (b_rr d2) (b_frame d2) ->
  cbody d1 = cbody d2.
Proof.
  intros A1 A2 st1 st2 F1 F2 FF SK Hk1 Hk2 P1 P2 Ept B1 B2.
  pose proof (blocks_agree_along P all s1 s2 g1 g2 o1 o2 ops1 ops2 A1 A2 F1 F2 FF SK k d1 d2 Hk1 Hk2) as E. injection E as Ei Er Ets Etx Eitx.
  pose proof (nth_error_In _ _ Hk1) as Hd1. pose proof (nth_error_In _ _ Hk2) as Hd2.
  pose proof (block_peers_agree_along P all s1 s2 g1 g2 o1 o2 ops1 ops2 A1 A2 F1 F2 d1 d2 Hd1 Hd2 Er P1 P2) as Ep.
  rewrite <- Er in B2. destruct (frames_agree_along P all s1 s2 g1 g2 o1 o2 ops1 ops2 rep frs _ _ _ A1 A2 FF SK B1 B2) as [Eev Ero].
  destruct (BlockShape.hrun_tinv s1 g1 o1 ops1 d1 Hd1) as [T1 Q1]. destruct (BlockShape.hrun_tinv s2 g2 o2 ops2 d2 Hd2) as [T2 Q2].
  destruct (along_final P all s1 g1 o1 ops1 A1 F1) as [Gi1 _]. destruct (along_final P all s2 g2 o2 ops2 A2 F2) as [Gi2 _].
  destruct (gi_f _ _ Gi1 _ _ (proj1 (delivered_block_payload all _ d1 Gi1 Hd1))) as [Hr1 _].
  destruct (gi_f _ _ Gi2 _ _ (proj1 (delivered_block_payload all _ d2 Gi2 Hd2))) as [Hr2 _].
  assert (Ef : b_frame d1 = b_frame d2) by (apply frame_ext; congruence).
  unfold cbody. rewrite Ei, Er, Ets, Etx, Eitx, Ep, Ef. reflexivity.
Qed.

(** * Static membership: runs along the constant assignment *)
Section Static.
  Variables (g : peerset) (all : list event).
  Hypothesis ID : ids_determine all.
  Hypothesis SK : sigkeys_determine all.
  Hypothesis NA : no_accept all.
  Hypothesis FF : fork_free all.

  (* the equations hold over the repertoire and the first-round table of an initial state, which never change *)
  Lemma static_frame s o ops R f : Forall (hop_ok all) ops -> zget R (frames (hrun (init_hg s g o) ops)) = Some f ->
    exists j, Forall (hop_ok all) (firstn j ops) /\ zget R (frames (prefix s g o ops j)) = Some f /\
      FEg g (fst (fsv (init_hg 0 g []))) (snd (fsv (init_hg 0 g []))) (prefix s g o ops j) R f /\
      forall R', 0 <= R' < R -> zget R' (frames (prefix s g o ops j)) <> None.
  Proof.
    intros H Hz. destruct (f2_fe _ _ _ _ (hrun_finv2 g all ID NA s o ops H) R f Hz) as [j [_ [Fe C]]].
    pose proof (Forall_firstn _ j _ H) as Hj. exists j. split; [exact Hj|]. split; [exact C|]. split.
    - pose proof (hrun_fsv g all ID NA s o (firstn j ops) Hj) as Fv. rewrite (init_fsv s g o) in Fv. rewrite <- Fv. exact Fe.
    - intros R' HR'. destruct (hrun_pinv g all ID NA s o (firstn j ops) Hj) as [_ FRj _]. destruct (FRj R f C) as [l [Hl Hle]].
      apply (f2_fc _ _ _ _ (hrun_finv2 g all ID NA s o (firstn j ops) Hj) R' ltac:(lia)). exists l. split; [exact Hl|lia].
  Qed.

  Theorem frames_agree s1 s2 o1 o2 ops1 ops2 :
    Forall (hop_ok all) ops1 -> Forall (hop_ok all) ops2 ->
    let st1 := hrun (init_hg s1 g o1) ops1 in
    let st2 := hrun (init_hg s2 g o2) ops2 in
    forall R f1 f2, zget R (frames st1) = Some f1 -> zget R (frames st2) = Some f2 -> f1 = f2.
  Proof.
    intros H1 H2 st1 st2 R f1 f2 Hz1 Hz2.
    destruct (static_frame s1 o1 ops1 R f1 H1 Hz1) as [j1 [Hj1 [Z1 [[Pa Qa [ria [Hria Tsa]] Ca] L1]]]].
    destruct (static_frame s2 o2 ops2 R f2 H2 Hz2) as [j2 [Hj2 [Z2 [[Pb Qb [rib [Hrib Tsb]] Cb] L2]]]].
    pose proof (static_along g all s1 o1 _ ID NA Hj1) as A1. pose proof (static_along g all s2 o2 _ ID NA Hj2) as A2.
    pose proof (static_not_failed g all s1 o1 _ ID NA Hj1) as F1. pose proof (static_not_failed g all s2 o2 _ ID NA Hj2) as F2.
    destruct (FE_agree_along _ all s1 s2 g g o1 o2 _ _ A1 A2 F1 F2 FF SK _ _ R f1 f2 Z1 Z2 Ca Cb (fun R' HR' => conj (L1 R' HR') (L2 R' HR'))) as [Eev Ero].
    destruct (gi_f _ _ (proj1 (along_final _ all s1 g o1 _ A1 F1)) R f1 Z1) as [Hr1 _].
    destruct (gi_f _ _ (proj1 (along_final _ all s2 g o2 _ A2 F2)) R f2 Z2) as [Hr2 _].
    apply frame_ext; [congruence|congruence|exact Ero|exact Eev|congruence|]. rewrite Tsa, Tsb.
    exact (fw_median_along _ all s1 s2 g g o1 o2 _ _ A1 A2 F1 F2 FF R ria rib (zget_some_nonneg _ _ _ Z1) (pi_fr _ (along_pinv _ all s1 g o1 _ A1 F1) R f1 Z1)
             (pi_fr _ (along_pinv _ all s2 g o2 _ A2 F2) R f2 Z2) Hria Hrib).
  Qed.

  (* a block of one node is a block of the other as soon as the other has processed its round *)
  Lemma block_transfer s1 s2 o1 o2 ops1 ops2 d1 :
    Forall (hop_ok all) ops1 -> Forall (hop_ok all) ops2 ->
    let st1 := hrun (init_hg s1 g o1) ops1 in
    let st2 := hrun (init_hg s2 g o2) ops2 in
    In d1 (delivered st1) -> lcle st2 (b_rr d1) ->
    exists d2, In d2 (delivered st2) /\ b_rr d2 = b_rr d1 /\ b_frame d2 = b_frame d1.
  Proof.
    intros H1 H2 st1 st2 Hd1 Hlc.
    destruct (block_transfer_along _ all s1 s2 g g o1 o2 ops1 ops2 (static_along g all s1 o1 ops1 ID NA H1) (static_along g all s2 o2 ops2 ID NA H2)
                (static_not_failed g all s1 o1 ops1 ID NA H1) (static_not_failed g all s2 o2 ops2 ID NA H2) FF d1 Hd1 Hlc) as [d2 [Hd2 Er]].
    exists d2. split; [exact Hd2|]. split; [exact Er|].
    destruct (delivered_block_payload all st1 d1 (hrun_ginv all s1 g o1 ops1 ID H1) Hd1) as [Hz1 _].
    destruct (delivered_block_payload all st2 d2 (hrun_ginv all s2 g o2 ops2 ID H2) Hd2) as [Hz2 _]. rewrite Er in Hz2.
    symmetry. exact (frames_agree s1 s2 o1 o2 ops1 ops2 H1 H2 _ _ _ Hz1 Hz2).
  Qed.

  Theorem blocks_agree s1 s2 o1 o2 ops1 ops2 k d1 d2 :
    Forall (hop_ok all) ops1 -> Forall (hop_ok all) ops2 ->
    let st1 := hrun (init_hg s1 g o1) ops1 in
    let st2 := hrun (init_hg s2 g o2) ops2 in
    nth_error (delivered st1) k = Some d1 -> nth_error (delivered st2) k = Some d2 -> cbody d1 = cbody d2.
  Proof.
    intros H1 H2 st1 st2 Hk1 Hk2.
    pose proof (nth_error_In _ _ Hk1) as Hd1. pose proof (nth_error_In _ _ Hk2) as Hd2.
    destruct (delivered_block_payload all _ d1 (hrun_ginv all s1 g o1 ops1 ID H1) Hd1) as [Hz1 _].
    destruct (delivered_block_payload all _ d2 (hrun_ginv all s2 g o2 ops2 ID H2) Hd2) as [Hz2 _].
    destruct (static_frame s1 o1 ops1 _ _ H1 Hz1) as [j1 [Hj1 [Z1 [E1 L1]]]].
    destruct (static_frame s2 o2 ops2 _ _ H2 Hz2) as [j2 [Hj2 [Z2 [E2 L2]]]].
    assert (Pe : forall s o ops d, Forall (hop_ok all) ops -> In d (delivered (hrun (init_hg s g o) ops)) -> f_peers (b_frame d) = g ->
              get_peerset (hrun (init_hg s g o) ops) (b_rr d) = Some (b_peers d)).
    { intros s o ops d H Hd Ef. rewrite (proj2 (BlockShape.hrun_tinv s g o ops d Hd)), Ef.
      apply get_peerset_static, (c_static _ _ _ (nf_c _ _ _ (hrun_nf g all s o ops ID NA H))). }
    apply (blocks_agree_frames_along _ all s1 s2 g g o1 o2 ops1 ops2 (fst (fsv (init_hg 0 g []))) (snd (fsv (init_hg 0 g []))) k d1 d2
             (static_along g all s1 o1 ops1 ID NA H1) (static_along g all s2 o2 ops2 ID NA H2)
             (static_not_failed g all s1 o1 ops1 ID NA H1) (static_not_failed g all s2 o2 ops2 ID NA H2) FF SK Hk1 Hk2).
    - exact (Pe s1 o1 ops1 d1 H1 Hd1 (fg_peers _ _ _ _ _ _ E1)).
    - exact (Pe s2 o2 ops2 d2 H2 Hd2 (fg_peers _ _ _ _ _ _ E2)).
    - exact (eq_trans (fg_psets _ _ _ _ _ _ E1) (eq_sym (fg_psets _ _ _ _ _ _ E2))).
    - exists j1. split; [exact (static_not_failed g all s1 o1 _ ID NA Hj1)|]. split; [exact Z1|]. split; [exact (fg_core _ _ _ _ _ _ E1)|exact L1].
    - exists j2. split; [exact (static_not_failed g all s2 o2 _ ID NA Hj2)|]. split; [exact Z2|]. split; [exact (fg_core _ _ _ _ _ _ E2)|exact L2].
  Qed.

  (* prefix form *)
  Corollary blocks_prefix s1 s2 o1 o2 ops1 ops2 :
    Forall (hop_ok all) ops1 -> Forall (hop_ok all) ops2 ->
    let st1 := hrun (init_hg s1 g o1) ops1 in
    let st2 := hrun (init_hg s2 g o2) ops2 in
    (length (delivered st1) <= length (delivered st2))%nat ->
    map cbody (delivered st1) = firstn (length (delivered st1)) (map cbody (delivered st2)).
  Proof.
    intros H1 H2 st1 st2 Hlen. apply map_prefix_of_pointwise; [exact Hlen|].
    intros k d1 d2. apply (blocks_agree s1 s2 o1 o2 ops1 ops2 k d1 d2 H1 H2).
  Qed.
End Static.
