(* The fame values recorded in the round tables are the values of DecideFame's voting loop read in the current
   state, for validator sets that may change per round (model after fix 05eda0b).  The run-level argument is made
   once, for runs all of whose prefixes satisfy the division invariant for an assignment P of sets to rounds that the
   table lookups made along the run answer ([along]); runs that respect the distance bound are of this kind for the
   final table (Proofs/CInvRunD.v hrun_cinvD, Proofs/GapWindow.v), and so are runs with static membership for the
   constant assignment.  Hence (with gap_fame_agreement of Proofs/RoundAgreeD.v) two nodes whose tables agree never
   RECORD different fame for one witness. *)
From Coq Require Import ZArith List Bool Lia ZifyBool Permutation.
From RecordUpdate Require Import RecordSet.
From V Require Import Model.ZMap Model.Quorum Model.Voting Model.HgImpl Proofs.ZMapFacts Proofs.HgFrames
  Proofs.AdmissionProofs Proofs.HgBlockFrames Proofs.BlockInv Proofs.RoundOrder Proofs.OrderProofs Proofs.Ancestry
  Proofs.VotingProofs Proofs.FameBridge Proofs.Static Proofs.FirstDesc Proofs.CInvRun Proofs.Height Proofs.ViewOk
  Proofs.SameHistory Proofs.Agreement Proofs.NoFail Proofs.FameInv Proofs.PeerSetProofs Proofs.LrMono
  Proofs.WindowStable Proofs.GapWindow Proofs.FirstDescD Proofs.InsertInvD Proofs.CInvRunD Proofs.StronglySeeD
  Proofs.RoundFunD Proofs.RoundAgreeD Proofs.AgreementD.
Import ListNotations RecordSetNotations.
Open Scope Z_scope.

(* the voting loop only reads its parameters at the rounds it visits *)
Lemma ss_witnesses_ext_at P Q j y prev : (forall w, vp_ss P j y w = vp_ss Q j y w) ->
  ss_witnesses P j y prev = ss_witnesses Q j y prev.
Proof.
  intros Hss. unfold ss_witnesses. generalize (Some (@nil Z)).
  induction prev as [|w l IH]; intros acc; cbn [fold_left]; [reflexivity|]. rewrite Hss. apply IH.
Qed.

Lemma fame_round_j_ext_at P Q r j :
  (forall y, vp_sees P y = vp_sees Q y) -> (forall y, vp_coin P y = vp_coin Q y) ->
  vp_prev P j = vp_prev Q j -> (forall y w, vp_ss P j y w = vp_ss Q j y w) -> vp_sm P j = vp_sm Q j ->
  forall ys votes, fame_round_j P r j ys votes = fame_round_j Q r j ys votes.
Proof.
  intros Hs Hc Hp Hss Hsm.
  induction ys as [|y ys IH]; intros votes; cbn [fame_round_j]; [reflexivity|].
  destruct (j - r =? 1).
  - rewrite Hs. destruct (vp_sees Q y); [apply IH|reflexivity].
  - rewrite Hp, Hsm. destruct (vp_prev Q j) as [prev|]; [|reflexivity]. destruct (vp_sm Q j) as [smj|]; [|reflexivity].
    rewrite (ss_witnesses_ext_at P Q j y prev (Hss y)). destruct (ss_witnesses Q j y prev) as [ssw|]; [|reflexivity].
    destruct (tally votes ssw) as [v t]. rewrite Hc.
    destruct (0 <? (j - r) mod 4); destruct (smj <=? t); try reflexivity; apply IH.
Qed.

Lemma fame_loop_ext_on P Q rw r :
  (forall y, vp_sees P y = vp_sees Q y) -> (forall y, vp_coin P y = vp_coin Q y) ->
  forall js, (forall j, In j js -> vp_prev P j = vp_prev Q j /\ (forall y w, vp_ss P j y w = vp_ss Q j y w) /\ vp_sm P j = vp_sm Q j) ->
  forall votes, fame_loop P rw r js votes = fame_loop Q rw r js votes.
Proof.
  intros Hs Hc. induction js as [|j js IH]; intros H votes; cbn [fame_loop]; [reflexivity|].
  destruct (rw j) as [ws|]; [|reflexivity].
  destruct (H j (or_introl eq_refl)) as [Hp [Hss Hsm]].
  rewrite (fame_round_j_ext_at P Q r j Hs Hc Hp Hss Hsm).
  destruct (fame_round_j Q r j ws votes) as [[votes' [v|]]|]; try reflexivity.
  apply IH. intros j' Hj'. apply H. right. exact Hj'.
Qed.

(* states that agree on what DecideFame reads: the table only up to the last round *)
Record fkeepD (s s' : hg) : Prop := {
  fD_c : ckeepD s s';
  fD_lr : last_round s' = last_round s;
  fD_ps : forall q, q <= last_round s -> get_peerset s' q = get_peerset s q
}.

Lemma fkeepD_refl s : fkeepD s s.
Proof. constructor; [apply ckeepD_refl|reflexivity|reflexivity]. Qed.
Lemma fkeepD_trans a b c : fkeepD a b -> fkeepD b c -> fkeepD a c.
Proof.
  intros [A1 A2 A3] [B1 B2 B3]. constructor; [eapply ckeepD_trans; eauto|congruence|].
  intros q Hq. rewrite B3 by (rewrite A2; exact Hq). apply A3. exact Hq.
Qed.

Lemma ckeepD_get_event_e s s' x : ckeepD s s' ->
  option_map (fun e => (ev_e e, ev_la e)) (get_event s' x) = option_map (fun e => (ev_e e, ev_la e)) (get_event s x).
Proof.
  intros K. pose proof (kd_ev _ _ K x) as E.
  destruct (get_event s' x), (get_event s x); cbn in *; try discriminate; [|reflexivity].
  unfold FirstDescD.ev_c in E. inversion E. reflexivity.
Qed.

Lemma ckeepD_see s s' y x : ckeepD s s' -> see s' y x = see s y x.
Proof.
  intros K. unfold see, ancestor. destruct (y =? x); [reflexivity|].
  pose proof (ckeepD_get_event_e s s' y K) as Ey. pose proof (ckeepD_get_event_e s s' x K) as Ex.
  destruct (get_event s' y), (get_event s y); cbn in Ey; try discriminate; [|reflexivity].
  destruct (get_event s' x), (get_event s x); cbn in Ex; try discriminate; [|reflexivity].
  inversion Ey. inversion Ex. congruence.
Qed.

Lemma ckeepD_round_lists s s' j : ckeepD s s' ->
  match get_round s' j with Some ri => Some (witnesses ri) | None => None end =
  match get_round s j with Some ri => Some (witnesses ri) | None => None end.
Proof.
  intros K. pose proof (kd_wl _ _ K j) as Hw. pose proof (kd_rd _ _ K j) as Hd. unfold wl in Hw.
  destruct (get_round s' j) as [ri'|] eqn:E', (get_round s j) as [ri|] eqn:E.
  - rewrite !witnesses_wl, Hw. reflexivity.
  - exfalso. assert (C : Some ri' = None) by (apply Hd; reflexivity). discriminate.
  - exfalso. assert (C : Some ri = None) by (apply Hd; reflexivity). discriminate.
  - reflexivity.
Qed.

Lemma fame_of_fkeepD s s' x r : fkeepD s s' -> fame_of s' x r = fame_of s x r.
Proof.
  intros [K L Tq]. unfold fame_of. rewrite L.
  assert (E : fame_loop (vparams_of s' x) (round_witnesses s') r (zrange (r + 1) (last_round s)) [] =
              fame_loop (vparams_of s x) (round_witnesses s') r (zrange (r + 1) (last_round s)) []).
  { apply fame_loop_ext_on.
    - intros y. unfold vparams_of. cbn [vp_sees]. apply ckeepD_see. exact K.
    - intros y. unfold vparams_of. cbn [vp_coin]. unfold coin_of. pose proof (ckeepD_get_event_e s s' y K) as Ey.
      destruct (get_event s' y), (get_event s y); cbn in Ey; try discriminate; [|reflexivity].
      inversion Ey. congruence.
    - intros j Hj. apply In_zrange in Hj. unfold vparams_of. cbn [vp_prev vp_ss vp_sm].
      split; [apply ckeepD_round_lists; exact K|]. rewrite (Tq (j - 1)) by lia. split; [|reflexivity].
      intros y w. destruct (get_peerset s (j - 1)); [apply ckeepD_strongly_see; exact K|reflexivity]. }
  rewrite E. apply fame_loop_ext. intros j Hj. apply In_zrange in Hj.
  unfold round_witnesses. pose proof (ckeepD_round_lists s s' j K) as H. rewrite (Tq j) by lia.
  destruct (get_round s' j), (get_round s j); try discriminate; [|reflexivity].
  destruct (get_peerset s j); [exact H|reflexivity].
Qed.

(* states that agree on the whole table *)
Lemma fkeep_fkeepD s s' : fkeep s s' -> fkeepD s s'.
Proof.
  intros [K L]. constructor; [apply ckeep_ckeepD, K|exact L|].
  intros q _. unfold get_peerset. rewrite (ck_ps _ _ K). reflexivity.
Qed.

(* a record made by DecideFame is the value of the voting loop after the pass *)
Lemma frec_decide_fame st r x v : contig st ->
  frec (decide_fame st) r x v -> frec st r x v \/ fame_of (decide_fame st) x r = Some (Some v).
Proof.
  intros C. destruct (decide_fame_fkeep st C) as [Kall _]. unfold decide_fame in *.
  assert (G : forall l s dec, contig s ->
              frec (fst (fold_left decide_fame_round l (s, dec))) r x v ->
              frec s r x v \/ fame_of (fst (fold_left decide_fame_round l (s, dec))) x r = Some (Some v)).
  { induction l as [|pr l IH]; intros s dec Cs; cbn [fold_left]; [auto|].
    pose proof (decide_fame_round_fkeep s dec pr Cs) as K1. pose proof (decide_fame_round_contig s dec pr Cs) as C1.
    pose proof (frec_decide_fame_round s dec pr r x v) as B1.
    destruct (decide_fame_round (s, dec) pr) as [s' dec']. cbn [fst] in *.
    intros H. destruct (IH s' dec' C1 H) as [H'|H']; [|auto].
    destruct (B1 H') as [H''|H'']; [auto|]. right.
    destruct (decide_fame_fold_fkeep l s' dec' C1) as [K2 _].
    rewrite (fame_of_fkeepD s _ x r (fkeep_fkeepD _ _ (fkeep_trans _ _ _ K1 K2))). exact H''. }
  specialize (G (pending st) st [] C).
  destruct (fold_left decide_fame_round (pending st) (st, [])) as [s decided]. cbn [fst] in *.
  destruct (failed s); [exact G|].
  intros H. assert (H0 : frec s r x v) by (revert H; apply (frec_rounds s); reflexivity).
  destruct (G H0) as [H1|H1]; [auto|]. right.
  rewrite (fame_of_fkeepD s _ x r); [exact H1|]. apply fkeep_fkeepD. constructor; [apply ckeep_set_pending|reflexivity].
Qed.

(* the stages of one consensus pass that did not fail *)
Lemma run_consensus_stagesD P st x :
  dag_ok st -> rinv st -> peersets st <> [] ->
  (forall q, 0 <= q <= last_round (run_consensus st) -> get_peerset st q = Some (P q)) ->
  cinvD P (Some x) st -> In x (undetermined st) ->
  failed (run_consensus st) = false ->
  let s1 := divide_rounds st in let s2 := decide_fame s1 in let s3 := decide_round_received s2 in
  failed s1 = false /\ failed s2 = false /\ failed s3 = false /\
  run_consensus st = process_decided_rounds s3 /\
  cinvD P None s1 /\ cinvD P None s2 /\ cinvD P None s3 /\ rinv s1 /\ rinv s2.
Proof.
  intros OK R Hne Hps I Hin Hf.
  pose proof (run_consensus_lrq_le st) as Mall. unfold lrq in Mall.
  unfold run_consensus in *. cbv zeta.
  set (s1 := divide_rounds st) in *.
  assert (HL1 : last_round s1 <= last_round (if failed s1 then s1 else
            let s := decide_fame s1 in if failed s then s else
            let s0 := decide_round_received s in if failed s0 then s0 else process_decided_rounds s0)).
  { destruct (failed s1); [lia|]. cbv zeta.
    pose proof (decide_fame_lrq_le s1) as L2. unfold lrq in L2. set (s2 := decide_fame s1) in *.
    destruct (failed s2); [lia|].
    pose proof (decide_round_received_lrq_le s2) as L3. unfold lrq in L3. set (s3 := decide_round_received s2) in *.
    destruct (failed s3); [lia|]. pose proof (lrv_process_decided_rounds s3) as L4. unfold lrv in L4. lia. }
  pose proof (divide_rounds_cinvD P _ (undetermined st) st (Some x) OK (or_intror I) (or_intror R) Hne
                (fun q Hq => Hps q Hq) HL1 Hin) as H1.
  fold (divide_rounds st) in H1. fold s1 in H1.
  pose proof (divide_rounds_rinv st (or_intror R)) as R1. fold s1 in R1.
  destruct (failed s1) eqn:Hf1; [congruence|]. destruct H1 as [H1|I1]; [congruence|].
  destruct R1 as [R1|R1]; [congruence|].
  pose proof (decide_fame_ckeep s1) as K2. pose proof (decide_fame_rinv s1 R1) as R2.
  cbv zeta in Hf. set (s2 := decide_fame s1) in *.
  assert (I2 : cinvD P None s2) by (eapply cinvD_ckeepD; [exact I1|apply ckeep_ckeepD; exact K2]).
  destruct (failed s2) eqn:Hf2; [congruence|].
  pose proof (decide_round_received_ckeepD P s2 I2) as K3. set (s3 := decide_round_received s2) in *.
  assert (I3 : cinvD P None s3) by (eapply cinvD_ckeepD; eauto).
  destruct (failed s3) eqn:Hf3; [congruence|].
  refine (conj eq_refl (conj eq_refl (conj eq_refl (conj eq_refl (conj I1 (conj I2 (conj I3 (conj R1 R2)))))))).
Qed.

Definition tblD (P : Z -> peerset) (s : hg) : Prop := forall q, 0 <= q <= last_round s -> get_peerset s q = Some (P q).

(* inside a pass: the division invariant, contiguous rounds, and a table that answers P up to the last round *)
Record gT (P : Z -> peerset) (s : hg) : Prop := {
  gt_i : cinvD P None s; gt_c : contig s; gt_lr : -1 <= last_round s; gt_t : tblD P s }.

Lemma gT_bounded P s : gT P s -> rounds_bounded s.
Proof. intros [_ C L _]. split; [exact L|]. intros r Hr. apply C. exact Hr. Qed.

Lemma gT_step P s s' : gT P s -> ckeepD s s' -> bview s' = bview s -> last_round s' = last_round s -> gT P s'.
Proof.
  intros [I C L T] K B E. constructor.
  - eapply cinvD_ckeepD; eauto.
  - intros r. rewrite E. rewrite <- (C r). split; intros H0 D; apply H0; apply (kd_rd _ _ K r); exact D.
  - rewrite E. exact L.
  - intros q Hq. rewrite (get_peerset_bview _ _ q B). apply T. rewrite <- E. exact Hq.
Qed.

Lemma hstep_insert_cases all st e : ids_determine all -> In e all -> 0 <= e_id e -> ginv all st ->
  hstep st (HInsert e) = st \/
  exists s, insert_event st e = (InsOk, s) /\ dag_ok s /\ hstep st (HInsert e) = run_consensus s.
Proof.
  intros ID Hin Hid Gi. cbn [hstep]. unfold step, insert_and_run. destruct (insert_event st e) as [r0 s] eqn:E.
  destruct (insert_event_inv st e all r0 s (g_dag _ _ (gi_core _ _ Gi)) (g_from _ _ (gi_core _ _ Gi)) ID Hin Hid E) as [OK' [_ Hns]].
  destruct r0; try (left; apply (insert_reject_noop st e _ s E ltac:(discriminate) Hns)).
  right. exists s. auto.
Qed.

Lemma hstep_stored all st o y : ids_determine all -> hop_ok all o -> ginv all st ->
  get_event st y <> None -> get_event (hstep st o) y <> None.
Proof.
  intros ID Ho Gi Hy. destruct (get_event st y) as [ey|] eqn:E; [|contradiction].
  destruct (m_e _ _ (proj2 (hstep_ginv all st o ID Ho Gi)) y ey E) as [ey' [E' _]]. rewrite E'. discriminate.
Qed.

Lemma same_bodies_ginv all P st st' : ids_determine all -> ginv all st -> ginv all st' -> goodD P st -> goodD P st' ->
  same_bodies st st'.
Proof.
  intros ID Gi Gi' G G'.
  apply (same_bodies_of_universeD all P P st st' ID G G'); [apply (g_from _ _ (gi_core _ _ Gi))|apply (g_from _ _ (gi_core _ _ Gi'))].
Qed.

(* what the invariants of the later stages assume of a step st -> hstep st o *)
Record stepD (P : Z -> peerset) (all : list event) (st : hg) (o : hop) : Prop := {
  sd_id : ids_determine all;
  sd_o : hop_ok all o;
  sd_g : ginv all st;
  sd_la : la_ok st;
  sd_r : rinv st;
  sd_ne : peersets st <> [];
  sd_i : cinvD P None st;
  sd_f : failed (hstep st o) = false;
  sd_tq : forall q, 0 <= q <= last_round (hstep st o) -> get_peerset st q = Some (P q)
}.

(* an accepted insertion of e: s after InsertEvent, s1 s2 s3 after the first three passes *)
Record stagesD (P : Z -> peerset) (st : hg) (e : event) (s s1 s2 s3 : hg) : Prop := {
  sg_ins : insert_event st e = (InsOk, s);
  sg_new : get_event st (e_id e) = None;
  sg_id : 0 <= e_id e;
  sg_rs : rounds s = rounds st;
  sg_1 : s1 = divide_rounds s;
  sg_2 : s2 = decide_fame s1;
  sg_3 : s3 = decide_round_received s2;
  sg_4 : hstep st (HInsert e) = process_decided_rounds s3;
  sg_lr : last_round (hstep st (HInsert e)) = last_round s2;
  sg_bv : bview s2 = bview st;
  sg_g1 : gT P s1;
  sg_g2 : gT P s2;
  sg_r2 : rinv s2;
  sg_f3 : failed s3 = false
}.

(* a step either keeps events, round tables, memos and the undetermined list, or is an accepted insertion followed
   by a pass none of whose stages failed *)
Lemma hstep_stagesD P all st o : stepD P all st o ->
  (cw (hstep st o) = cw st /\ undetermined (hstep st o) = undetermined st) \/
  exists e s s1 s2 s3, o = HInsert e /\ stagesD P st e s s1 s2 s3.
Proof.
  intros [ID Ho Gi LA R Hne I Hf' Tq].
  destruct o as [e|]; [|left; split; [apply cw_process_sigpool|apply undv_process_sigpool]].
  destruct Ho as [Hin Hid].
  destruct (hstep_insert_cases all st e ID Hin Hid Gi) as [E|[s [E [OK' Es]]]]; [left; rewrite E; auto|right].
  pose proof (g_dag _ _ (gi_core _ _ Gi)) as OK. pose proof (g_from _ _ (gi_core _ _ Gi)) as FA.
  pose proof (insert_event_bview st e) as Bv. pose proof (insert_event_rstep st e) as Sr.
  pose proof (insert_event_keeps_rounds st e) as Rs. rewrite E in Bv, Sr, Rs. cbn [snd] in Bv, Sr, Rs.
  destruct (insert_cinvD P all st e s OK LA FA ID Hin Hid I E) as [Is Hund].
  rewrite Es in Hf', Tq.
  assert (Hpss : forall q, 0 <= q <= last_round (run_consensus s) -> get_peerset s q = Some (P q))
    by (intros q Hq; rewrite (get_peerset_bview _ _ q Bv); apply Tq; exact Hq).
  destruct (run_consensus_stagesD P s (e_id e) OK' (rinv_rstep st s R Sr) ltac:(rewrite (bview_peersets _ _ Bv); exact Hne)
              Hpss Is Hund Hf') as [_ [_ [Hf3 [Eq [I1 [I2 [_ [R1 R2]]]]]]]].
  cbv zeta in *. rewrite Eq in Es, Hpss. clear Eq Tq Hf'.
  set (s1 := divide_rounds s) in *. set (s2 := decide_fame s1) in *. set (s3 := decide_round_received s2) in *.
  assert (L2 : last_round s2 = last_round s1) by (apply (fk_lr _ _ (proj1 (decide_fame_fkeep s1 (rinv_contig _ R1))))).
  assert (L3 : last_round s3 = last_round s2) by (apply (s_lr _ _ (decide_round_received_rstep s2 (proj1 (rinv_bounded _ R2))))).
  pose proof (lrv_process_decided_rounds s3) as L4. unfold lrv in L4.
  assert (B1 : bview s1 = bview s) by apply divide_rounds_bview.
  assert (B2 : bview s2 = bview s1) by apply decide_fame_bview.
  assert (G1 : gT P s1).
  { constructor; [exact I1|apply rinv_contig; exact R1|apply (r_lr _ (proj1 R1))|].
    intros q Hq. rewrite (get_peerset_bview _ _ q B1). apply Hpss. lia. }
  exists e, s, s1, s2, s3. split; [reflexivity|].
  constructor; try assumption; try reflexivity.
  - apply (checked_fresh st e all OK FA ID Hin), (insert_ok_checks st e s E).
  - rewrite Es. lia.
  - rewrite B2, B1. exact Bv.
  - constructor; [exact I2|apply rinv_contig; exact R2|apply (r_lr _ (proj1 R2))|].
    intros q Hq. rewrite (get_peerset_bview _ _ q B2). apply (gt_t _ _ G1). lia.
Qed.

Lemma hstep_FI_D P all st o : stepD P all st o ->
  goodD P (hstep st o) -> rinv (hstep st o) ->
  (forall q, q <= last_round (hstep st o) -> get_peerset (hstep st o) q = get_peerset st q) ->
  FI st -> FI (hstep st o).
Proof.
  intros S G' R' Wq Fi. pose proof S as [ID Ho Gi LA R Hne I Hf' Tq].
  assert (Hf : failed st = false).
  { destruct (failed st) eqn:E; [|reflexivity]. rewrite (hstep_failed_mono st o E) in Hf'. discriminate. }
  destruct (hstep_ginv all st o ID Ho Gi) as [Gi' _].
  assert (G : goodD P st).
  { constructor; [exact (g_dag _ _ (gi_core _ _ Gi))|exact LA|exact I|]. eexists. apply (ginv_hmeasure all st Gi Hf). }
  pose proof (hstep_lrq_le st o) as Lle.
  assert (Tst : forall q, 0 <= q <= last_round st -> get_peerset st q = Some (P q)) by (intros q Hq; apply Tq; lia).
  assert (Tst' : forall q, 0 <= q <= last_round (hstep st o) -> get_peerset (hstep st o) q = Some (P q))
    by (intros q Hq; rewrite Wq by lia; apply Tq; exact Hq).
  pose proof (fun y => hstep_stored all st o y ID Ho Gi) as Sub.
  (* every record of the new state is an old one or was produced by this step's DecideFame *)
  assert (B : forall r x v, frec (hstep st o) r x v -> frec st r x v \/ fame_of (hstep st o) x r = Some (Some v)).
  { intros r x v. destruct (hstep_stagesD P all st o S) as [[C _]|[e [s [s1 [s2 [s3 [-> Sg]]]]]]].
    { intros H. left. revert H. apply (frec_rounds st), (cw_fields _ _ C). }
    destruct Sg as [_ _ _ Rs E1 E2 E3 E4 L4 Bv G1 G2 _ _].
    rewrite E4. intros H4.
    assert (H3 : frec s3 r x v).
    { revert H4. apply (frec_rounds s3). apply (cw_fields _ _ (cw_process_decided_rounds s3)). }
    assert (H2 : frec s2 r x v).
    { apply frec_crt in H3. apply frec_crt. rewrite E3, decide_round_received_crt in H3. exact H3. }
    rewrite E2 in H2. destruct (frec_decide_fame s1 r x v (gt_c _ _ G1) H2) as [H1|H1].
    - left. apply (frec_rounds st s Rs). apply frec_divide_rounds. rewrite <- E1. exact H1.
    - right. rewrite <- E2 in H1.
      assert (K : fkeepD s2 (process_decided_rounds s3)).
      { constructor; [|rewrite <- E4; exact L4|].
        - apply (ckeepD_trans _ s3); [rewrite E3; apply (decide_round_received_ckeepD P s2 (gt_i _ _ G2))|apply ckeepD_cw, cw_process_decided_rounds].
        - intros q Hq. rewrite <- E4, Wq by (rewrite L4; exact Hq). symmetry. apply (get_peerset_bview _ _ q Bv). }
      rewrite (fame_of_fkeepD s2 _ x r K). exact H1. }
  intros r x v H. destruct (B r x v H) as [H0|H0]; [|exact H0].
  pose proof (same_bodies_ginv all P st (hstep st o) ID Gi Gi' G G') as SB.
  apply (fame_stable_statesD P st (hstep st o) x r v G R Tst G' R' Tst' SB); [| |apply Fi; exact H0].
  - intros x1 x2 e1 e2 H1 H2 Hc Hi.
    assert (H1' : get_event (hstep st o) x1 <> None) by (apply Sub; rewrite H1; discriminate).
    destruct (get_event (hstep st o) x1) as [e1'|] eqn:E1; [|contradiction].
    apply (dag_ok_no_fork (hstep st o) x1 x2 e1' e2 (gD_dag _ _ G') E1 H2); rewrite <- (SB x1 e1 e1' H1 E1); assumption.
  - intros y e Hy. apply Sub. rewrite Hy. discriminate.
Qed.

(* What the run-level arguments need of a run: every prefix that did not fail has a non-empty table and satisfies
   the division invariant for P; a lookup for a round up to the last round of the NEXT prefix already returns what
   the final table returns; the final table answers P on its rounds. *)
Record along (P : Z -> peerset) (all : list event) (self_ : Z) (genesis : peerset) (oracle_ : list Z) (ops : list hop) : Prop := {
  al_id : ids_determine all;
  al_ops : Forall (hop_ok all) ops;
  al_inv : forall k, failed (hrun (init_hg self_ genesis oracle_) (firstn k ops)) = false ->
    peersets (hrun (init_hg self_ genesis oracle_) (firstn k ops)) <> [] /\
    cinvD P None (hrun (init_hg self_ genesis oracle_) (firstn k ops));
  al_look : forall k q, q <= last_round (hrun (init_hg self_ genesis oracle_) (firstn (S k) ops)) ->
    get_peerset (hrun (init_hg self_ genesis oracle_) (firstn k ops)) q = get_peerset (hrun (init_hg self_ genesis oracle_) ops) q;
  al_fin : tblD P (hrun (init_hg self_ genesis oracle_) ops)
}.

Lemma Forall_firstn {A} (Q : A -> Prop) k l : Forall Q l -> Forall Q (firstn k l).
Proof. intros H. apply Forall_forall. intros x Hx. rewrite Forall_forall in H. apply H. eapply In_firstn; eauto. Qed.

Lemma firstn_S_nth {A} (l : list A) : forall k, (k < length l)%nat -> exists a, In a l /\ firstn (S k) l = firstn k l ++ [a].
Proof.
  induction l as [|b l IH]; intros k Hk; [cbn in Hk; lia|].
  destruct k as [|k]; [exists b; split; [left|]; reflexivity|].
  destruct (IH k ltac:(cbn in Hk; lia)) as [a [Ha E]]. exists a. split; [right; exact Ha|].
  change (b :: firstn (S k) l = b :: (firstn k l ++ [a])). rewrite E. reflexivity.
Qed.

Lemma init_no_round self_ genesis oracle_ r : get_round (init_hg self_ genesis oracle_) r = None.
Proof.
  unfold get_round. destruct (cw_fields _ _ (cw_init self_ genesis oracle_)) as [_ [Ro _]]. rewrite Ro. apply zget_empty.
Qed.

Lemma stepD_nf P all st o : stepD P all st o -> failed st = false.
Proof.
  intros S. destruct (failed st) eqn:E; [|reflexivity]. rewrite <- (sd_f _ _ _ _ S). symmetry. apply hstep_failed_mono, E.
Qed.

Definition prefix (self_ : Z) (genesis : peerset) (oracle_ : list Z) (ops : list hop) (k : nat) : hg :=
  hrun (init_hg self_ genesis oracle_) (firstn k ops).

Lemma prefix_length self_ genesis oracle_ ops :
  prefix self_ genesis oracle_ ops (length ops) = hrun (init_hg self_ genesis oracle_) ops.
Proof. unfold prefix. rewrite firstn_all. reflexivity. Qed.

Section Along.
  Variables (P : Z -> peerset) (all : list event) (self_ : Z) (genesis : peerset) (oracle_ : list Z) (ops : list hop).
  Hypothesis A : along P all self_ genesis oracle_ ops.

  Lemma prefix_all k : (length ops <= k)%nat -> prefix self_ genesis oracle_ ops k = hrun (init_hg self_ genesis oracle_) ops.
  Proof. intros Hk. unfold prefix. rewrite firstn_all2 by lia. reflexivity. Qed.

  Lemma prefix_S k : (k < length ops)%nat -> exists o, hop_ok all o /\ prefix self_ genesis oracle_ ops (S k) = hstep (prefix self_ genesis oracle_ ops k) o.
  Proof.
    intros Hk. destruct (firstn_S_nth ops k Hk) as [o [Ho E]]. exists o.
    split; [apply (proj1 (Forall_forall _ _) (al_ops _ _ _ _ _ _ A) o Ho)|unfold prefix; rewrite E, hrun_app; reflexivity].
  Qed.

  Lemma prefix_lr_le k : last_round (prefix self_ genesis oracle_ ops k) <= last_round (hrun (init_hg self_ genesis oracle_) ops).
  Proof. unfold prefix. rewrite <- (firstn_skipn k ops) at 2. rewrite hrun_app. apply hrun_lrq_le. Qed.

  Lemma prefix_lr_S k : last_round (prefix self_ genesis oracle_ ops k) <= last_round (prefix self_ genesis oracle_ ops (S k)).
  Proof.
    destruct (Nat.lt_ge_cases k (length ops)) as [Hk|Hk].
    - destruct (prefix_S k Hk) as [o [_ ->]]. apply hstep_lrq_le.
    - rewrite (prefix_all k), (prefix_all (S k)) by lia. lia.
  Qed.

  Lemma along_tbl k : tblD P (prefix self_ genesis oracle_ ops k).
  Proof.
    intros q Hq. pose proof (prefix_lr_S k). pose proof (prefix_lr_le k).
    unfold prefix in *. rewrite (al_look _ _ _ _ _ _ A k q) by lia. apply (al_fin _ _ _ _ _ _ A). lia.
  Qed.

  Lemma along_facts k : failed (prefix self_ genesis oracle_ ops k) = false ->
    ginv all (prefix self_ genesis oracle_ ops k) /\ la_ok (prefix self_ genesis oracle_ ops k) /\ rinv (prefix self_ genesis oracle_ ops k) /\ peersets (prefix self_ genesis oracle_ ops k) <> [] /\ cinvD P None (prefix self_ genesis oracle_ ops k) /\ goodD P (prefix self_ genesis oracle_ ops k).
  Proof.
    intros Hf. pose proof (al_id _ _ _ _ _ _ A) as ID. pose proof (Forall_firstn _ k ops (al_ops _ _ _ _ _ _ A)) as Hpre.
    pose proof (hrun_ginv all self_ genesis oracle_ (firstn k ops) ID Hpre) as G. fold (prefix self_ genesis oracle_ ops k) in G.
    assert (LA : la_ok (prefix self_ genesis oracle_ ops k)).
    { apply (hrun_la_ok all (firstn k ops) ID Hpre (init_hg self_ genesis oracle_)); [apply ginv_init|]. apply la_ok_no_events, init_no_events. }
    destruct (al_inv _ _ _ _ _ _ A k Hf) as [Hne I]. fold (prefix self_ genesis oracle_ ops k) in Hne, I.
    split; [exact G|]. split; [exact LA|]. split; [apply (proj2 (hrun_rtop self_ genesis oracle_ (firstn k ops)) Hf)|].
    split; [exact Hne|]. split; [exact I|].
    constructor; [apply (g_dag _ _ (gi_core _ _ G))|exact LA|exact I|]. eexists. apply (ginv_hmeasure all _ G Hf).
  Qed.

  Lemma along_step k : (k < length ops)%nat -> failed (prefix self_ genesis oracle_ ops (S k)) = false ->
    exists o, prefix self_ genesis oracle_ ops (S k) = hstep (prefix self_ genesis oracle_ ops k) o /\ stepD P all (prefix self_ genesis oracle_ ops k) o.
  Proof.
    intros Hk Hf. destruct (prefix_S k Hk) as [o [Ho ES]]. exists o. split; [exact ES|].
    assert (Hfk : failed (prefix self_ genesis oracle_ ops k) = false).
    { destruct (failed (prefix self_ genesis oracle_ ops k)) eqn:E; [|reflexivity]. rewrite ES, (hstep_failed_mono _ o E) in Hf. discriminate. }
    destruct (along_facts k Hfk) as [Gi [LA [R [Hne [I _]]]]].
    constructor; try assumption; [apply (al_id _ _ _ _ _ _ A)|rewrite <- ES; exact Hf|].
    intros q Hq. rewrite <- ES in Hq. pose proof (prefix_lr_le (S k)).
    unfold prefix in *. rewrite (al_look _ _ _ _ _ _ A k q) by lia. apply (al_fin _ _ _ _ _ _ A). lia.
  Qed.

  (* what holds initially and is kept by every step of the run holds at every prefix that did not fail *)
  Lemma along_ind_k (Inv : nat -> Prop) : Inv 0%nat ->
    (forall k, prefix self_ genesis oracle_ ops (S k) = prefix self_ genesis oracle_ ops k -> Inv k -> Inv (S k)) ->
    (forall k o, prefix self_ genesis oracle_ ops (S k) = hstep (prefix self_ genesis oracle_ ops k) o -> stepD P all (prefix self_ genesis oracle_ ops k) o -> Inv k -> Inv (S k)) ->
    forall k, failed (prefix self_ genesis oracle_ ops k) = false -> Inv k.
  Proof.
    intros H0 Hall Hstep. induction k as [|k IH]; intros Hf; [exact H0|].
    destruct (Nat.lt_ge_cases k (length ops)) as [Hk|Hk].
    - destruct (along_step k Hk Hf) as [o [ES Sd]]. apply (Hstep k o ES Sd), IH, (stepD_nf _ _ _ _ Sd).
    - assert (E : prefix self_ genesis oracle_ ops (S k) = prefix self_ genesis oracle_ ops k) by (rewrite !prefix_all by lia; reflexivity).
      apply (Hall k E), IH. rewrite <- E. exact Hf.
  Qed.

  Lemma along_ind (Inv : hg -> Prop) : Inv (init_hg self_ genesis oracle_) ->
    (forall k o, prefix self_ genesis oracle_ ops (S k) = hstep (prefix self_ genesis oracle_ ops k) o -> stepD P all (prefix self_ genesis oracle_ ops k) o -> Inv (prefix self_ genesis oracle_ ops k) -> Inv (hstep (prefix self_ genesis oracle_ ops k) o)) ->
    forall k, failed (prefix self_ genesis oracle_ ops k) = false -> Inv (prefix self_ genesis oracle_ ops k).
  Proof.
    intros H0 Hstep. apply (along_ind_k (fun k => Inv (prefix self_ genesis oracle_ ops k))); [exact H0|intros k ->; auto|].
    intros k o ES Sd. rewrite ES. apply (Hstep k o ES Sd).
  Qed.

  (* a preorder that every step of the run respects relates every prefix to every later one *)
  Lemma along_rel (Rel : hg -> hg -> Prop) : (forall s, Rel s s) -> (forall a b c, Rel a b -> Rel b c -> Rel a c) ->
    (forall k o, stepD P all (prefix self_ genesis oracle_ ops k) o -> Rel (prefix self_ genesis oracle_ ops k) (hstep (prefix self_ genesis oracle_ ops k) o)) ->
    forall k d, failed (prefix self_ genesis oracle_ ops (k + d)) = false -> Rel (prefix self_ genesis oracle_ ops k) (prefix self_ genesis oracle_ ops (k + d)).
  Proof.
    intros Hr Ht Hstep k. induction d as [|d IH]; [rewrite Nat.add_0_r; intros _; apply Hr|].
    rewrite Nat.add_succ_r. intros Hf. destruct (Nat.lt_ge_cases (k + d) (length ops)) as [Hk|Hk].
    - destruct (along_step (k + d) Hk Hf) as [o [ES Sd]]. rewrite ES.
      apply (Ht _ (prefix self_ genesis oracle_ ops (k + d))); [apply IH, (stepD_nf _ _ _ _ Sd)|apply Hstep, Sd].
    - rewrite (prefix_all (S (k + d))) in Hf |- * by lia. rewrite <- (prefix_all (k + d)) in Hf |- * by lia. apply IH, Hf.
  Qed.

  Lemma along_failed_mono k d : failed (prefix self_ genesis oracle_ ops (k + d)) = false -> failed (prefix self_ genesis oracle_ ops k) = false.
  Proof.
    intros Hf. refine (along_rel (fun s s' => failed s' = false -> failed s = false) _ _ _ k d Hf Hf); [auto|auto|].
    intros j o Sd _. apply (stepD_nf _ _ _ _ Sd).
  Qed.

  Theorem along_FI k : failed (prefix self_ genesis oracle_ ops k) = false -> FI (prefix self_ genesis oracle_ ops k).
  Proof.
    apply (along_ind FI).
    { intros r x v [ri [Hgr _]]. rewrite init_no_round in Hgr. discriminate. }
    clear k. intros k o ES Sd. pose proof (sd_f _ _ _ _ Sd) as Hf. rewrite <- ES in Hf |- *.
    destruct (along_facts (S k) Hf) as [_ [_ [R' [_ [_ G']]]]]. pose proof (prefix_lr_S (S k)) as L.
    rewrite ES in *. apply (hstep_FI_D P all _ o Sd G' R').
    intros q Hq. rewrite <- ES. unfold prefix in *.
    rewrite (al_look _ _ _ _ _ _ A (S k) q), (al_look _ _ _ _ _ _ A k q) by (rewrite ?ES; lia). reflexivity.
  Qed.
End Along.

Lemma gap_along self_ genesis oracle_ all ops P :
  self_ <> -1 -> ids_determine all -> Forall (hop_ok all) ops -> gap_runb (init_hg self_ genesis oracle_) ops = true ->
  (forall q, 0 <= q <= last_round (hrun (init_hg self_ genesis oracle_) ops) -> P q = psat (hrun (init_hg self_ genesis oracle_) ops) q) ->
  along P all self_ genesis oracle_ ops.
Proof.
  intros Hs ID H Hg HP. constructor; [exact ID|exact H| | |].
  - intros k Hf. destruct (hrun_c10inv self_ genesis oracle_ (firstn k ops) Hs) as [_ C10].
    split; [apply table_wf_nonempty, (c_wf _ _ C10)|].
    apply (cinvD_ext (psat (hrun (init_hg self_ genesis oracle_) ops))); [|apply (hrun_cinvD self_ genesis oracle_ all ops Hs ID H Hg k Hf)].
    intros q Hq. symmetry. apply HP.
    apply (rinv_contig _ (proj2 (hrun_rtop self_ genesis oracle_ (firstn k ops)) Hf)) in Hq.
    pose proof (prefix_lr_le self_ genesis oracle_ ops k) as L. unfold prefix in L. lia.
  - intros k q Hq. destruct (Nat.lt_ge_cases k (length ops)) as [Hk|Hk]; [|rewrite firstn_all2 by lia; reflexivity].
    apply (window_lookup_final_step self_ genesis oracle_ Hs ops k q (gap_run_window self_ genesis oracle_ Hs ops [] Hg) Hk Hq).
  - intros q Hq. rewrite (psat_some self_ genesis oracle_ ops q Hs). f_equal. symmetry. apply HP, Hq.
Qed.

Lemma static_along g all self_ oracle_ ops :
  ids_determine all -> no_accept all -> Forall (hop_ok all) ops -> along (fun _ => g) all self_ g oracle_ ops.
Proof.
  intros ID NA H.
  assert (S : forall l, Forall (hop_ok all) l -> static g (hrun (init_hg self_ g oracle_) l))
    by (intros l Hl; apply (c_static _ _ _ (nf_c _ _ _ (hrun_nf g all self_ oracle_ l ID NA Hl)))).
  pose proof (fun k => S _ (Forall_firstn _ k ops H)) as Sk.
  constructor; [exact ID|exact H| | |].
  - intros k _. split; [rewrite (Sk k); discriminate|].
    apply cinv_cinvD, (nf_c _ _ _ (hrun_nf g all self_ oracle_ _ ID NA (Forall_firstn _ k ops H))).
  - intros k q _. rewrite (get_peerset_static g _ q (Sk k)), (get_peerset_static g _ q (S ops H)). reflexivity.
  - intros q _. apply (get_peerset_static g _ q (S ops H)).
Qed.

Lemma static_not_failed g all self_ oracle_ ops :
  ids_determine all -> no_accept all -> Forall (hop_ok all) ops -> failed (hrun (init_hg self_ g oracle_) ops) = false.
Proof. intros ID NA H. apply (nf_f _ _ _ (hrun_nf g all self_ oracle_ ops ID NA H)). Qed.

Lemma along_final P all self_ genesis oracle_ ops : along P all self_ genesis oracle_ ops ->
  let st := hrun (init_hg self_ genesis oracle_) ops in failed st = false ->
  ginv all st /\ la_ok st /\ rinv st /\ peersets st <> [] /\ cinvD P None st /\ goodD P st.
Proof.
  intros A st. pose proof (along_facts P all self_ genesis oracle_ ops A (length ops)) as Q.
  rewrite prefix_length in Q. exact Q.
Qed.

Lemma along_FI_final P all self_ genesis oracle_ ops : along P all self_ genesis oracle_ ops ->
  failed (hrun (init_hg self_ genesis oracle_) ops) = false -> FI (hrun (init_hg self_ genesis oracle_) ops).
Proof.
  intros A. pose proof (along_FI P all self_ genesis oracle_ ops A (length ops)) as Q.
  rewrite prefix_length in Q. exact Q.
Qed.

Theorem hrun_FI_D_final self_ genesis oracle_ all ops :
  self_ <> -1 -> ids_determine all -> Forall (hop_ok all) ops -> gap_runb (init_hg self_ genesis oracle_) ops = true ->
  failed (hrun (init_hg self_ genesis oracle_) ops) = false -> FI (hrun (init_hg self_ genesis oracle_) ops).
Proof.
  intros Hs ID H Hg. apply (along_FI_final _ all _ _ _ _ (gap_along self_ genesis oracle_ all ops _ Hs ID H Hg (fun q _ => eq_refl))).
Qed.

Theorem hrun_FI g all self_ oracle_ ops :
  ids_determine all -> no_accept all -> Forall (hop_ok all) ops -> FI (hrun (init_hg self_ g oracle_) ops).
Proof.
  intros ID NA H. apply (along_FI_final _ all _ _ _ _ (static_along g all self_ oracle_ ops ID NA H) (static_not_failed g all _ _ _ ID NA H)).
Qed.

(* two nodes that respect the distance bound, whose tables agree on the rounds both have and that do not hold the two
   branches of a fork, never record different fame for one witness *)
Theorem gap_recorded_fame_agreement all s1 s2 g1 g2 o1 o2 ops1 ops2 r x v1 v2 :
  ids_determine all -> s1 <> -1 -> s2 <> -1 ->
  Forall (hop_ok all) ops1 -> Forall (hop_ok all) ops2 ->
  gap_runb (init_hg s1 g1 o1) ops1 = true -> gap_runb (init_hg s2 g2 o2) ops2 = true ->
  failed (hrun (init_hg s1 g1 o1) ops1) = false -> failed (hrun (init_hg s2 g2 o2) ops2) = false ->
  tables_agree (hrun (init_hg s1 g1 o1) ops1) (hrun (init_hg s2 g2 o2) ops2) ->
  no_cross_fork (hrun (init_hg s1 g1 o1) ops1) (hrun (init_hg s2 g2 o2) ops2) ->
  frec (hrun (init_hg s1 g1 o1) ops1) r x v1 -> frec (hrun (init_hg s2 g2 o2) ops2) r x v2 -> v1 = v2.
Proof.
  intros ID S1 S2 H1 H2 B1 B2 F1 F2 T NF R1 R2.
  apply (gap_fame_agreement all s1 s2 g1 g2 o1 o2 ops1 ops2 ID S1 S2 H1 H2 B1 B2 F1 F2 T NF x r v1 v2).
  - apply (hrun_FI_D_final s1 g1 o1 all ops1 S1 ID H1 B1 F1). exact R1.
  - apply (hrun_FI_D_final s2 g2 o2 all ops2 S2 ID H2 B2 F2). exact R2.
Qed.

(* the two theorems with the record spelled out *)
Theorem recorded_fame_is_vote_gap genesis all self_ oracle_ ops r ri x (v : bool) :
  self_ <> -1 -> ids_determine all -> Forall (hop_ok all) ops ->
  gap_runb (init_hg self_ genesis oracle_) ops = true ->
  failed (hrun (init_hg self_ genesis oracle_) ops) = false ->
  get_round (hrun (init_hg self_ genesis oracle_) ops) r = Some ri ->
  aget x (ri_created ri) = Some (true, if v then TTrue else TFalse) ->
  fame_of (hrun (init_hg self_ genesis oracle_) ops) x r = Some (Some v).
Proof.
  intros Hs ID H B F Hr Ha.
  apply (hrun_FI_D_final self_ genesis oracle_ all ops Hs ID H B F r x v). exists ri. split; [exact Hr|exact Ha].
Qed.

Theorem recorded_fame_agreement_gap all s1 s2 g1 g2 o1 o2 ops1 ops2 r x ri1 ri2 (v1 v2 : bool) :
  ids_determine all -> s1 <> -1 -> s2 <> -1 ->
  Forall (hop_ok all) ops1 -> Forall (hop_ok all) ops2 ->
  gap_runb (init_hg s1 g1 o1) ops1 = true -> gap_runb (init_hg s2 g2 o2) ops2 = true ->
  failed (hrun (init_hg s1 g1 o1) ops1) = false -> failed (hrun (init_hg s2 g2 o2) ops2) = false ->
  tables_agree (hrun (init_hg s1 g1 o1) ops1) (hrun (init_hg s2 g2 o2) ops2) ->
  no_cross_fork (hrun (init_hg s1 g1 o1) ops1) (hrun (init_hg s2 g2 o2) ops2) ->
  get_round (hrun (init_hg s1 g1 o1) ops1) r = Some ri1 -> aget x (ri_created ri1) = Some (true, if v1 then TTrue else TFalse) ->
  get_round (hrun (init_hg s2 g2 o2) ops2) r = Some ri2 -> aget x (ri_created ri2) = Some (true, if v2 then TTrue else TFalse) ->
  v1 = v2.
Proof.
  intros ID S1 S2 H1 H2 B1 B2 F1 F2 T NF A1 A2 C1 C2.
  apply (gap_recorded_fame_agreement all s1 s2 g1 g2 o1 o2 ops1 ops2 r x v1 v2 ID S1 S2 H1 H2 B1 B2 F1 F2 T NF).
  - exists ri1. split; assumption.
  - exists ri2. split; assumption.
Qed.
