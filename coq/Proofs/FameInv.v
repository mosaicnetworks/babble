(* The fame values recorded in the round tables: what does not depend on the validator sets.  A record appears only
   in DecideFame, which writes the value of its voting loop; the other passes keep the created lists.  [FI]: every
   recorded value is the value of the voting loop read in the current state (proved in Proofs/FameInvD.v). *)
From Coq Require Import ZArith List Bool Lia ZifyBool Permutation.
From RecordUpdate Require Import RecordSet.
From V Require Import Model.ZMap Model.HgImpl Proofs.ZMapFacts Proofs.HgFrames Proofs.FirstDesc Proofs.DivInv
  Proofs.CInvRun Proofs.ViewOk Proofs.NoFail.
Import ListNotations RecordSetNotations.
Open Scope Z_scope.

(* states that agree on what DecideFame reads *)
Record fkeep (s s' : hg) : Prop := { fk_c : ckeep s s'; fk_lr : last_round s' = last_round s }.

Lemma fkeep_refl s : fkeep s s.
Proof. constructor; [apply ckeep_refl|reflexivity]. Qed.
Lemma fkeep_trans a b c : fkeep a b -> fkeep b c -> fkeep a c.
Proof. intros [A1 A2] [B1 B2]. constructor; [eapply ckeep_trans; eauto|congruence]. Qed.
Lemma fkeep_sym a b : fkeep a b -> fkeep b a.
Proof. intros [A1 A2]. constructor; [apply ckeep_sym; exact A1|congruence]. Qed.

Definition tri_of (v : bool) : trilean := if v then TTrue else TFalse.
Definition frec (st : hg) (r x : Z) (v : bool) : Prop :=
  exists ri, get_round st r = Some ri /\ aget x (ri_created ri) = Some (true, tri_of v).

Lemma frec_rounds s s' : rounds s' = rounds s -> forall r x v, frec s' r x v <-> frec s r x v.
Proof. intros E r x v. unfold frec, get_round. rewrite E. reflexivity. Qed.

Lemma aget_app_one {A} k (l : list (Z * A)) k0 v0 u :
  aget k (l ++ [(k0, v0)]) = Some u -> aget k l = Some u \/ (aget k l = None /\ k0 = k /\ u = v0).
Proof.
  destruct (aget k l) as [u'|] eqn:E.
  - rewrite (aget_app_some k l _ u' E). intros H. left. exact H.
  - rewrite (aget_app_none k l _ E). cbn [aget]. destruct (Z.eqb_spec k0 k); [|discriminate].
    intros H. inversion H. right. auto.
Qed.

Lemma tri_of_not_undefined v : tri_of v <> Undefined.
Proof. destruct v; discriminate. Qed.

(* adding a created event never adds a recorded fame *)
Lemma frec_add_created st (st' : hg) r0 y w : rounds st' = zset r0 (add_created (round_or_new st r0) y w) (rounds st) ->
  forall r x v, frec st' r x v -> frec st r x v.
Proof.
  intros E r x v [ri' [Hg Ha]]. unfold get_round in Hg. rewrite E, zget_zset in Hg.
  destruct ((r0 =? r) && (0 <=? r0)) eqn:Eb; [|exists ri'; split; [exact Hg|exact Ha]].
  apply andb_true_iff in Eb. destruct Eb as [Er _]. apply Z.eqb_eq in Er. subst r0.
  inversion Hg; subst ri'; clear Hg. unfold add_created, round_or_new in Ha.
  destruct (get_round st r) as [ri|] eqn:Hri.
  - destruct (aget y (ri_created ri)); [exists ri; auto|].
    replace (ri_created (ri <| ri_created := ri_created ri ++ [(y, (w, Undefined))] |>))
      with (ri_created ri ++ [(y, (w, Undefined))]) in Ha by (reflexivity).
    destruct (aget_app_one _ _ _ _ _ Ha) as [H|[_ [_ H]]]; [exists ri; auto|].
    inversion H. exfalso. eapply tri_of_not_undefined; eauto.
  - cbn in Ha. destruct (Z.eqb_spec y x); [|discriminate]. inversion Ha. exfalso. eapply tri_of_not_undefined; eauto.
Qed.

Lemma rounds_maybe_queue s r ri : rounds (maybe_queue s r ri) = rounds s.
Proof. destruct (maybe_queue_fields s r ri) as [_ [_ [_ [H _]]]]. exact H. Qed.

Lemma rounds_divide_lt st y : rounds (divide_lt st y) = rounds st.
Proof.
  unfold divide_lt. pose proof (nomemo_eq_rounds _ _ (lamport_f_nomemo (fuel_of st) st y)) as R1.
  destruct (lamport_f (fuel_of st) st y) as [[t|] s]; cbn [snd] in R1.
  - rewrite <- R1. unfold set_event_lt. destruct (get_event s y); reflexivity.
  - rewrite <- R1. reflexivity.
Qed.

(* the round tables after the "ev.round == nil" block: as before, or y added to the created list of its round *)
Lemma divide_round_rounds st y : rounds (divide_round st y) = rounds st \/
  exists r0 w, rounds (divide_round st y) = zset r0 (add_created (round_or_new st r0) y w) (rounds st).
Proof.
  unfold divide_round.
  pose proof (nomemo_eq_rounds _ _ (round_f_nomemo (fuel_of st) st y)) as R1.
  destruct (round_f (fuel_of st) st y) as [[r0|] s]; cbn [snd] in R1; [|left; exact R1].
  cbv zeta. set (s1 := set_event_round s y r0).
  assert (R2 : rounds s1 = rounds st).
  { rewrite <- R1. unfold s1, set_event_round. destruct (get_event s y); reflexivity. }
  replace (round_or_new s1 r0) with (round_or_new st r0) by (unfold round_or_new, get_round; rewrite R2; reflexivity).
  set (s2 := maybe_queue s1 r0 (round_or_new st r0)).
  assert (R3 : rounds s2 = rounds st) by (unfold s2; rewrite rounds_maybe_queue; exact R2).
  pose proof (nomemo_eq_rounds _ _ (witness_f_nomemo (fuel_of s2) s2 y)) as R4.
  destruct (witness_f (fuel_of s2) s2 y) as [[w|] s']; cbn [snd] in R4.
  - right. exists r0, w. rewrite <- R3, <- R4. reflexivity.
  - left. rewrite <- R3, <- R4. reflexivity.
Qed.

(* a preorder that relates states with the same round tables, and a state to one with an event added to a created
   list, relates a state to the one after DivideRounds *)
Lemma divide_rounds_rel (Rel : hg -> hg -> Prop) : (forall s, Rel s s) -> (forall a b c, Rel a b -> Rel b c -> Rel a c) ->
  (forall s s', rounds s' = rounds s -> Rel s s') ->
  (forall s (s' : hg) r0 y w, rounds s' = zset r0 (add_created (round_or_new s r0) y w) (rounds s) -> Rel s s') ->
  forall st, Rel st (divide_rounds st).
Proof.
  intros Hr Ht Hs Ha.
  assert (H1 : forall st y, Rel st (divide_one st y)).
  { intros st y. unfold divide_one. destruct (failed st); [apply Hr|].
    destruct (get_event st y) as [ev|]; [|apply Hs; reflexivity].
    cbv zeta. set (st1 := match ev_round ev with Some _ => st | None => divide_round st y end).
    assert (H1 : Rel st st1).
    { unfold st1. destruct (ev_round ev); [apply Hr|].
      destruct (divide_round_rounds st y) as [E|[r0 [w E]]]; [apply Hs, E|apply (Ha _ _ r0 y w E)]. }
    destruct (failed st1); [exact H1|].
    destruct (get_event st1 y) as [ev1|]; [|apply (Ht _ st1); [exact H1|apply Hs; reflexivity]].
    destruct (ev_lt ev1); [exact H1|]. apply (Ht _ st1); [exact H1|apply Hs, rounds_divide_lt]. }
  intros st. unfold divide_rounds. generalize (undetermined st). intros l. revert st.
  induction l as [|y l IH]; intros st; cbn [fold_left]; [apply Hr|]. apply (Ht _ (divide_one st y)); [apply H1|apply IH].
Qed.

Lemma frec_divide_rounds st r x v : frec (divide_rounds st) r x v -> frec st r x v.
Proof.
  apply (divide_rounds_rel (fun s s' => frec s' r x v -> frec s r x v)); [auto|auto| |].
  - intros s s' E. apply (frec_rounds s s' E).
  - intros s s' r0 y w E. apply (frec_add_created s s' r0 y w E).
Qed.

Lemma aget_set_fame ri y v x u : aget x (ri_created (set_fame ri y v)) = Some u ->
  aget x (ri_created ri) = Some u \/
  (x = y /\ exists w, u = (w, tri_of v) /\ (aget y (ri_created ri) = None \/ exists t, aget y (ri_created ri) = Some (w, t))).
Proof.
  unfold set_fame. fold (tri_of v).
  destruct (aget y (ri_created ri)) as [[w t]|] eqn:Ey.
  - replace (ri_created (ri <| ri_created := aset y (w, tri_of v) (ri_created ri) |>))
      with (aset y (w, tri_of v) (ri_created ri)) by (reflexivity).
    rewrite Ancestry.aget_aset. destruct (Z.eqb_spec y x) as [->|]; [|auto].
    intros H. inversion H. right. split; [reflexivity|]. exists w. split; [reflexivity|]. right. eauto.
  - replace (ri_created (ri <| ri_created := ri_created ri ++ [(y, (true, tri_of v))] |>))
      with (ri_created ri ++ [(y, (true, tri_of v))]) by (reflexivity).
    intros H. destruct (aget_app_one _ _ _ _ _ H) as [H'|[_ [E ->]]]; [auto|].
    right. split; [auto|]. exists true. auto.
Qed.

Lemma fame_fold_frec s r ws : forall ri0 ri' x u,
  fold_left (fun (a : option rinfo) y =>
               match a with
               | None => None
               | Some ri' =>
                 if is_decided ri' y then Some ri'
                 else match fame_of s y r with
                      | None => None
                      | Some None => Some ri'
                      | Some (Some v) => Some (set_fame ri' y v)
                      end
               end) ws (Some ri0) = Some ri' ->
  aget x (ri_created ri') = Some u ->
  aget x (ri_created ri0) = Some u \/ exists v w, u = (w, tri_of v) /\ fame_of s x r = Some (Some v).
Proof.
  induction ws as [|y ws IH]; intros ri0 ri' x u; cbn [fold_left].
  - intros E; inversion E; subst. auto.
  - destruct (is_decided ri0 y); [apply IH|].
    destruct (fame_of s y r) as [[v|]|] eqn:Ef.
    + intros Hf Ha. destruct (IH _ _ x u Hf Ha) as [H|H]; [|auto].
      destruct (aget_set_fame ri0 y v x u H) as [H'|[-> [w [-> _]]]]; [auto|]. right. exists v, w. auto.
    + apply IH.
    + intros E. exfalso. clear -E. induction ws as [|z ws IHw]; cbn [fold_left] in E; [discriminate|auto].
Qed.

Lemma frec_decide_fame_round s dec pr r x v :
  frec (fst (decide_fame_round (s, dec) pr)) r x v -> frec s r x v \/ fame_of s x r = Some (Some v).
Proof.
  unfold decide_fame_round.
  destruct (failed s); [auto|].
  assert (Hfail : frec (fail s) r x v -> frec s r x v) by (apply (frec_rounds s (fail s)); reflexivity).
  destruct (get_round s (fst pr)) as [ri|] eqn:Hri; [|auto].
  destruct (get_peerset s (fst pr)) as [rps|]; [|auto].
  match goal with |- context [fold_left ?f ?l ?a] => destruct (fold_left f l a) as [ri'|] eqn:Hf end; [|auto].
  pose proof (wl_of_witnesses_decided ri' rps) as _.
  assert (Hcr : ri_created (snd (witnesses_decided ri' rps)) = ri_created ri').
  { unfold witnesses_decided. destruct (ri_decided ri'); [reflexivity|]. destruct (existsb _ _); [reflexivity|].
    cbn [snd]. reflexivity. }
  destruct (witnesses_decided ri' rps) as [d ri'']. cbn [fst snd] in *.
  intros [rj [Hg Ha]].
  assert (H0 : 0 <= fst pr) by (eapply get_round_some_nonneg; eauto).
  rewrite (get_round_zset s (set_round s (fst pr) ri'') (fst pr) ri'' r H0) in Hg by (reflexivity).
  destruct (Z.eqb_spec (fst pr) r) as [<-|Hne]; [|left; exists rj; auto].
  inversion Hg; subst rj. rewrite Hcr in Ha.
  destruct (fame_fold_frec s (fst pr) _ ri ri' x _ Hf Ha) as [H|[v' [w [E Hfo]]]]; [left; exists ri; auto|].
  inversion E as [[Ew Et]]. assert (v' = v) by (destruct v, v'; cbn in Et; congruence). subst v'. right. exact Hfo.
Qed.

Lemma contig_fail s : contig s -> contig (fail s).
Proof. intros C. apply (contig_same s); [intros r; reflexivity|reflexivity|exact C]. Qed.

Lemma decide_fame_round_contig s dec pr : contig s -> contig (fst (decide_fame_round (s, dec) pr)).
Proof.
  intros C. unfold decide_fame_round. destruct (failed s); [exact C|].
  destruct (get_round s (fst pr)) as [ri|] eqn:Hri; [|apply contig_fail; exact C].
  destruct (get_peerset s (fst pr)); [|apply contig_fail; exact C].
  match goal with |- context [fold_left ?f ?l ?a] => destruct (fold_left f l a) end; [|apply contig_fail; exact C].
  destruct (witnesses_decided _ _) as [d ri'']. cbn [fst]. eapply contig_set_round; eauto.
Qed.

Lemma decide_fame_round_fkeep s dec pr : contig s -> fkeep s (fst (decide_fame_round (s, dec) pr)).
Proof.
  intros C. constructor; [apply decide_fame_round_ckeep|].
  unfold decide_fame_round. destruct (failed s); [reflexivity|].
  destruct (get_round s (fst pr)) as [ri|] eqn:Hri; [|reflexivity].
  destruct (get_peerset s (fst pr)); [|reflexivity].
  match goal with |- context [fold_left ?f ?l ?a] => destruct (fold_left f l a) end; [|reflexivity].
  destruct (witnesses_decided _ _) as [d ri'']. cbn [fst].
  assert (Hr : 0 <= fst pr <= last_round s) by (apply C; rewrite Hri; discriminate).
  unfold set_round. cbn. lia.
Qed.

Lemma decide_fame_fold_fkeep l : forall s dec, contig s ->
  fkeep s (fst (fold_left decide_fame_round l (s, dec))) /\ contig (fst (fold_left decide_fame_round l (s, dec))).
Proof.
  induction l as [|pr l IH]; intros s dec C; cbn [fold_left]; [split; [apply fkeep_refl|exact C]|].
  pose proof (decide_fame_round_fkeep s dec pr C) as K1. pose proof (decide_fame_round_contig s dec pr C) as C1.
  destruct (decide_fame_round (s, dec) pr) as [s' dec']. cbn [fst] in *.
  destruct (IH s' dec' C1) as [K2 C2]. split; [eapply fkeep_trans; eauto|exact C2].
Qed.

Lemma decide_fame_fkeep st : contig st -> fkeep st (decide_fame st) /\ contig (decide_fame st).
Proof.
  intros C. unfold decide_fame. destruct (decide_fame_fold_fkeep (pending st) st [] C) as [K C'].
  destruct (fold_left decide_fame_round (pending st) (st, [])) as [s decided]. cbn [fst] in *.
  destruct (failed s); [auto|]. split.
  - eapply fkeep_trans; [exact K|]. constructor; [apply ckeep_set_pending|reflexivity].
  - apply (contig_same s); [intros r; reflexivity|reflexivity|exact C'].
Qed.

(* DecideRoundReceived keeps the created lists *)
Definition crt (st : hg) (r : Z) : option (list (Z * (bool * trilean))) := option_map ri_created (get_round st r).

Lemma frec_crt st r x v : frec st r x v <-> exists l, crt st r = Some l /\ aget x l = Some (true, tri_of v).
Proof.
  unfold frec, crt. split.
  - intros [ri [Hg Ha]]. exists (ri_created ri). rewrite Hg. auto.
  - intros [l [Hc Ha]]. destruct (get_round st r) as [ri|]; [|discriminate]. inversion Hc; subst. exists ri. auto.
Qed.

Lemma crt_set_rounds st i tr tr' r : get_round st i = Some tr -> ri_created tr' = ri_created tr ->
  crt (st <| rounds := zset i tr' (rounds st) |>) r = crt st r.
Proof.
  intros Hg Hc. unfold crt.
  rewrite (get_round_zset st _ i tr' r (get_round_some_nonneg _ _ _ Hg)) by (reflexivity).
  destruct (Z.eqb_spec i r) as [<-|]; [rewrite Hg; cbn; congruence|reflexivity].
Qed.

Lemma created_witnesses_decided tr ps : ri_created (snd (witnesses_decided tr ps)) = ri_created tr.
Proof.
  unfold witnesses_decided. destruct (ri_decided tr); [reflexivity|]. destruct (existsb _ _); [reflexivity|].
  cbn [snd]. reflexivity.
Qed.

Lemma rr_loop_crt x r : forall is_ st, crt (fst (rr_loop st x is_)) r = crt st r.
Proof.
  induction is_ as [|i rest IH]; intros st; cbn [rr_loop]; [reflexivity|].
  destruct (get_round st i) as [tr|] eqn:Hg;
    [|destruct (lower_bound st) as [lb0|]; [destruct (i <=? lb0); [apply IH|reflexivity]|reflexivity]].
  assert (Hfail : forall s, crt (fail s) r = crt s r) by (intros s; reflexivity).
  destruct (get_peerset st i) as [tps|]; [|apply Hfail].
  pose proof (created_witnesses_decided tr tps) as Hd.
  destruct (witnesses_decided tr tps) as [d tr']. cbn [snd] in Hd.
  set (st1 := st <| rounds := zset i tr' (rounds st) |>).
  assert (K1 : crt st1 r = crt st r) by (apply (crt_set_rounds st i tr tr' r Hg Hd)).
  assert (Hi : 0 <= i) by (eapply get_round_some_nonneg; eauto).
  assert (Hg1 : get_round st1 i = Some tr').
  { rewrite (get_round_zset st st1 i tr' i Hi) by (unfold st1; reflexivity).
    rewrite Z.eqb_refl. reflexivity. }
  destruct d; cbn [negb].
  - match goal with |- context [fold_left ?f ?l ?a] => destruct (fold_left f l a) as [sees|] end;
      [|cbn [fst]; rewrite Hfail; exact K1].
    destruct (_ && _).
    + destruct (get_event st1 x) as [ex|] eqn:Hx; cbn [fst]; [|rewrite Hfail; exact K1].
      rewrite <- K1. set (st2 := set_evst st1 x (ex <| ev_rr := Some i |>)).
      assert (Hg2 : get_round st2 i = Some tr') by (unfold st2, get_round, set_evst; unfold get_round in Hg1; exact Hg1).
      assert (E2 : crt st2 r = crt st1 r) by (unfold crt, st2, get_round, set_evst; reflexivity).
      rewrite <- E2. unfold crt.
      rewrite (get_round_zset st2 (set_round st2 i _) i _ r Hi) by (reflexivity).
      destruct (Z.eqb_spec i r) as [<-|]; [rewrite Hg2; cbn; reflexivity|reflexivity].
    + rewrite IH. exact K1.
  - destruct (lower_bound st1) as [lb|]; [|exact K1].
    destruct (lb <? i); [exact K1|]. rewrite IH. exact K1.
Qed.

Lemma decide_rr_one_crt s und x r : crt (fst (decide_rr_one (s, und) x)) r = crt s r.
Proof.
  unfold decide_rr_one. destruct (failed s); [reflexivity|].
  pose proof (nomemo_eq_rounds _ _ (round_f_nomemo (fuel_of s) s x)) as R1.
  destruct (round_f (fuel_of s) s x) as [[r0|] s1]; cbn [snd] in R1.
  - pose proof (rr_loop_crt x r (zrange (r0 + 1) (last_round s1)) s1) as H.
    destruct (rr_loop s1 x (zrange (r0 + 1) (last_round s1))) as [s' received]. cbn [fst] in *.
    rewrite H. unfold crt, get_round. rewrite R1. reflexivity.
  - cbn [fst]. unfold crt, get_round. replace (rounds (fail s1)) with (rounds s1) by (reflexivity).
    rewrite R1. reflexivity.
Qed.

Lemma decide_round_received_crt st r : crt (decide_round_received st) r = crt st r.
Proof.
  unfold decide_round_received.
  assert (G : forall l s und, crt (fst (fold_left decide_rr_one l (s, und))) r = crt s r).
  { induction l as [|x l IH]; intros s und; cbn [fold_left]; [reflexivity|].
    pose proof (decide_rr_one_crt s und x r) as H. destruct (decide_rr_one (s, und) x) as [s' und']. cbn [fst] in *.
    rewrite IH. exact H. }
  specialize (G (undetermined st) st []).
  destruct (fold_left decide_rr_one (undetermined st) (st, [])) as [s und]. cbn [fst] in G.
  destruct (failed s); [exact G|]. rewrite <- G. reflexivity.
Qed.

(* the recorded fame values are the values of the voting loop in the current state *)
Definition FI (st : hg) : Prop := forall r x v, frec st r x v -> fame_of st x r = Some (Some v).

