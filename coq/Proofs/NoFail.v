(* No consensus pass fails: under static membership, every reachable state of the per-event pipeline
   has failed = false.  (The model's `failed` flag records that a pass returned an error; the
   correspondence check reports a DIFF when it is set.)  Each `fail` site is shown unreachable
   from the invariants: cinv (memo tables, round tables), dag_ok, the Lamport invariant, the
   round-queue invariant, well-formedness of the voting view, stored last-consensus events. *)
From Coq Require Import ZArith List Bool Lia ZifyBool Permutation.
From RecordUpdate Require Import RecordSet.
From V Require Import Model.ZMap Model.Quorum Model.HgImpl Proofs.ZMapFacts Proofs.QuorumProofs Proofs.HgFrames
  Proofs.HgDagFrames Proofs.AdmissionProofs Proofs.BlockInv Proofs.RoundOrder Proofs.OrderFrames Proofs.OrderProofs
  Proofs.Ancestry Proofs.VotingProofs Proofs.VotingTheorems Proofs.FameBridge Proofs.Static Proofs.FirstDesc
  Proofs.DivInv Proofs.CInvRun Proofs.Height Proofs.StronglySee Proofs.ViewOk.
From V Require Import Proofs.FirstDescD.
From V Require Import Proofs.InsertInvD.
From V Require Import Proofs.DivInvD.
From V Require Import Proofs.ViewOkD.
Import ListNotations RecordSetNotations.
Open Scope Z_scope.

Lemma lamport_f_memo_hit fuel st x t : zget x (lt_memo st) = Some t -> lamport_f fuel st x = (Some t, st).
Proof. intros H. destruct fuel; cbn [lamport_f]; rewrite H; reflexivity. Qed.

Lemma lamport_f_some f st x ex :
  get_event st x = Some ex ->
  (e_sp (ev_e ex) = -1 \/ exists t, zget (e_sp (ev_e ex)) (lt_memo st) = Some t) ->
  (e_op (ev_e ex) = -1 \/ exists t, zget (e_op (ev_e ex)) (lt_memo st) = Some t) ->
  fst (lamport_f (S f) st x) <> None.
Proof.
  intros Hx Hs Ho. cbn [lamport_f]. destruct (zget x (lt_memo st)); [discriminate|]. rewrite Hx.
  assert (E1 : exists plt, (if e_sp (ev_e ex) =? -1 then (Some (-1), st) else lamport_f f st (e_sp (ev_e ex))) = (Some plt, st)).
  { destruct Hs as [->|[t Ht]]; [cbn; eauto|]. destruct (_ =? _); [eauto|].
    rewrite (lamport_f_memo_hit f st _ t Ht). eauto. }
  destruct E1 as [plt ->].
  destruct Ho as [->|[t Ht]]; [cbn; discriminate|].
  destruct (e_op (ev_e ex) =? -1); [discriminate|].
  destruct (get_event st (e_op (ev_e ex))); [|discriminate].
  rewrite (lamport_f_memo_hit f st _ t Ht). discriminate.
Qed.

Lemma divide_lt_failed st x ex :
  get_event st x = Some ex ->
  (e_sp (ev_e ex) = -1 \/ exists t, zget (e_sp (ev_e ex)) (lt_memo st) = Some t) ->
  (e_op (ev_e ex) = -1 \/ exists t, zget (e_op (ev_e ex)) (lt_memo st) = Some t) ->
  failed (divide_lt st x) = failed st.
Proof.
  intros Hx Hs Ho. unfold divide_lt, fuel_of.
  pose proof (lamport_f_some (Z.to_nat (topo st)) st x ex Hx Hs Ho) as Hn.
  pose proof (failed_nomemo _ _ (lamport_f_nomemo (S (Z.to_nat (topo st))) st x)) as Ff.
  destruct (lamport_f (S (Z.to_nat (topo st))) st x) as [[t|] s]; cbn [fst snd] in *; [|contradiction].
  unfold set_event_lt. destruct (get_event s x); [|exact Ff]. rewrite <- Ff. reflexivity.
Qed.

(* the event being divided: its parents are other events *)
Definition parents_not_self (st : hg) (n : Z) : Prop :=
  forall ex, get_event st n = Some ex -> e_sp (ev_e ex) <> n /\ e_op (ev_e ex) <> n.

Lemma parents_not_self_frame st st' n : dag_frame st st' -> parents_not_self st n -> parents_not_self st' n.
Proof.
  intros F H ex' Hx'. destruct (proj1 (frame_get_event st st' n F) _ Hx') as [ex [Hx E]]. rewrite <- E. apply H. exact Hx.
Qed.

Lemma divide_one_nofail g E n s y :
  dag_ok s -> cinv g E s -> failed s = false -> dinv n s -> parents_not_self s n ->
  (E = None \/ E = Some n) -> get_event s y <> None ->
  failed (divide_one s y) = false.
Proof.
  intros OK I Hf D Pn HE Hy. unfold divide_one. rewrite Hf.
  destruct (get_event s y) as [ev|] eqn:Hyy; [|contradiction]. cbv zeta.
  set (st1 := match ev_round ev with Some _ => s | None => divide_round s y end).
  assert (H1 : failed st1 = false /\ dag_frame s st1 /\ dinv n st1).
  { subst st1. destruct (ev_round ev) as [r|] eqn:Er; [split; [exact Hf|split; [apply dag_frame_refl|exact D]]|].
    assert (Ey : E = Some y).
    { destruct E as [x|]; [|destruct (c_all _ _ _ I y ev Hyy ltac:(discriminate)) as [r [w [_ [_ C]]]]; congruence].
      destruct (Z.eq_dec x y) as [->|Hne]; [reflexivity|].
      destruct (c_all _ _ _ I y ev Hyy ltac:(congruence)) as [r [w [_ [_ C]]]]. congruence. }
    subst E. destruct (divide_round_cinv g s y I) as [_ F'].
    split; [congruence|]. split; [apply divide_round_frame|].
    eapply dinv_okeep; [apply divide_round_okeep|apply divide_round_failed_mono|exact D]. }
  destruct H1 as [F1 [Fr1 D1]]. rewrite F1.
  pose proof (stored_frame s st1 y Fr1 ltac:(rewrite Hyy; discriminate)) as Hy1.
  destruct (get_event st1 y) as [ev1|] eqn:Hy1'; [|contradiction].
  destruct (ev_lt ev1) eqn:El; [exact F1|].
  assert (y = n) by (apply (d_only _ _ D1 F1 y ev1 Hy1' El)). subst y.
  pose proof (dag_ok_frame s st1 OK Fr1) as OK1.
  pose proof (parents_not_self_frame s st1 n Fr1 Pn ev1 Hy1') as [Pn1 Pn2].
  assert (Hpar : forall p ep, get_event st1 p = Some ep -> p <> n -> exists t, zget p (lt_memo st1) = Some t).
  { intros p ep Hp Hpn. destruct (ev_lt ep) as [t|] eqn:Elp.
    - exists t. apply (l_ev _ (d_l _ _ D1) p ep t Hp Elp).
    - exfalso. apply Hpn. apply (d_only _ _ D1 F1 p ep Hp Elp). }
  rewrite (divide_lt_failed st1 n ev1 Hy1'); [exact F1| |].
  - destruct (d_sp st1 OK1 _ _ Hy1') as [[Hs _]|[ps [Hps _]]]; [left; exact Hs|right]. eapply Hpar; eauto.
  - destruct (d_op st1 OK1 _ _ Hy1') as [Ho|[po Hpo]]; [left; exact Ho|right]. eapply Hpar; eauto.
Qed.

Lemma divide_rounds_nofail g n l : forall s E,
  dag_ok s -> cinv g E s -> failed s = false -> dinv n s -> parents_not_self s n ->
  (E = None \/ E = Some n) -> (forall y, In y l -> get_event s y <> None) ->
  failed (fold_left divide_one l s) = false.
Proof.
  induction l as [|y l IH]; intros s E OK I Hf D Pn HE Hl; cbn [fold_left]; [exact Hf|].
  pose proof (divide_one_nofail g E n s y OK I Hf D Pn HE (Hl y (or_introl eq_refl))) as F1.
  pose proof (divide_one_frame s y) as Fr.
  destruct (divide_one_cinv g E s y I Hf) as [C|I1]; [congruence|].
  apply (IH (divide_one s y) (after_div E y)).
  - eapply dag_ok_frame; eauto.
  - exact I1.
  - exact F1.
  - apply divide_one_dinv. exact D.
  - eapply parents_not_self_frame; eauto.
  - destruct HE as [->| ->]; cbn [after_div]; [left; reflexivity|]. destruct (n =? y); auto.
  - intros z Hz. apply (stored_frame s _ z Fr). apply Hl. right. exact Hz.
Qed.

Lemma hmeasure_frame s s' h : dag_frame s s' -> hmeasure s h -> hmeasure s' h.
Proof.
  intros F H x ex' p Hx Hn Hp. destruct (proj1 (frame_get_event s s' x F) _ Hx) as [ex [Hx0 E]].
  rewrite <- E in Hp. eapply H; eauto.
Qed.

Lemma good_step g s s' : good g s -> dag_frame s s' -> ckeep s s' -> good g s'.
Proof.
  intros [OK LA I [h Hh]] F K. constructor.
  - eapply dag_ok_frame; eauto.
  - eapply la_ok_frame; eauto.
  - eapply cinv_ckeep; eauto.
  - exists h. eapply hmeasure_frame; eauto.
Qed.

Lemma contig_same s s' : (forall r, get_round s' r = None <-> get_round s r = None) -> last_round s' = last_round s ->
  contig s -> contig s'.
Proof.
  intros Hd Hl C r. rewrite Hl, <- (C r). split; intros H D; apply H; apply Hd; exact D.
Qed.

Lemma contig_set_round s r ri ri' : contig s -> get_round s r = Some ri -> contig (set_round s r ri').
Proof.
  intros C Hg.
  assert (Hr : 0 <= r <= last_round s) by (apply C; rewrite Hg; discriminate).
  apply (contig_same s); [| |exact C].
  - intros r'. rewrite (get_round_zset s (set_round s r ri') r ri' r' ltac:(lia)) by reflexivity.
    destruct (Z.eqb_spec r r') as [<-|]; [rewrite Hg; split; discriminate|reflexivity].
  - unfold set_round. destruct s; cbn in *. lia.
Qed.

Lemma fame_of_defined g s x r : good g s -> contig s -> In x (wits s r) -> fame_of s x r <> None.
Proof.
  intros G C Hx.
  pose proof (proj1 (wits_spec g s G r x) Hx) as [Hr Hw].
  destruct (wits_stored g s G r x Hx) as [ex Hex].
  assert (Hg : get_round s r <> None).
  { intros D. unfold wits, wl in Hx. rewrite D in Hx. destruct Hx. }
  pose proof (proj1 (C r) Hg) as Hrr.
  assert (Hn : 1 <= ps_len g).
  { destruct (witness_true g s G x Hw) as [ex' [r' [spr [_ [_ [_ [_ Hm]]]]]]].
    apply mem_key_In in Hm. apply dedup_In in Hm. unfold ps_len.
    destruct (dedup (keys g)); [destruct Hm|cbn [length]; lia]. }
  pose proof (view_ok_reach g s G C x r ex Hn ltac:(lia) Hex) as V.
  rewrite (fame_of_as_view s x r).
  - destruct (VOTE_T1_votes_are_reference_votes _ _ _ _ _ V) as [E _]. rewrite E. discriminate.
  - intros j Hj. apply In_zrange in Hj. apply (round_witnesses_some g s G C). lia.
Qed.

Lemma fame_fold_some s r ws : (forall x, In x ws -> fame_of s x r <> None) -> forall ri0,
  fold_left (fun (a : option rinfo) x =>
               match a with
               | None => None
               | Some ri' =>
                 if is_decided ri' x then Some ri'
                 else match fame_of s x r with
                      | None => None
                      | Some None => Some ri'
                      | Some (Some v) => Some (set_fame ri' x v)
                      end
               end) ws (Some ri0) <> None.
Proof.
  induction ws as [|x ws IH]; intros H ri0; cbn [fold_left]; [discriminate|].
  assert (Hws : forall y, In y ws -> fame_of s y r <> None) by (intros y Hy; apply H; right; exact Hy).
  destruct (is_decided ri0 x); [apply IH; exact Hws|].
  pose proof (H x (or_introl eq_refl)) as Hx.
  destruct (fame_of s x r) as [[v|]|]; [apply IH; exact Hws|apply IH; exact Hws|contradiction].
Qed.

Lemma failed_set_round s r ri : failed (set_round s r ri) = failed s.
Proof. reflexivity. Qed.

Lemma decide_fame_round_nofail g s dec pr :
  good g s -> contig s -> failed s = false -> get_round s (fst pr) <> None ->
  failed (fst (decide_fame_round (s, dec) pr)) = false /\ contig (fst (decide_fame_round (s, dec) pr)).
Proof.
  intros G C Hf Hg. unfold decide_fame_round. rewrite Hf.
  destruct (get_round s (fst pr)) as [ri|] eqn:Hri; [|contradiction].
  rewrite (get_peerset_static g s (fst pr) (c_static _ _ _ (gd_c _ _ G))).
  assert (Hall : forall x, In x (witnesses ri) -> fame_of s x (fst pr) <> None).
  { intros x Hx. apply (fame_of_defined g s x (fst pr) G C). rewrite (wits_get_round s _ ri Hri). exact Hx. }
  pose proof (fame_fold_some s (fst pr) (witnesses ri) Hall ri) as Hs.
  match goal with |- context [fold_left ?f ?l ?a] => destruct (fold_left f l a) as [ri'|] end; [|contradiction].
  destruct (witnesses_decided ri' g) as [d ri'']. cbn [fst].
  split; [rewrite failed_set_round; exact Hf|eapply contig_set_round; eauto].
Qed.

Lemma decide_fame_nofail g st :
  good g st -> contig st -> failed st = false ->
  (forall pr, In pr (pending st) -> get_round st (fst pr) <> None) ->
  failed (decide_fame st) = false.
Proof.
  intros G C Hf Hp. unfold decide_fame.
  assert (H : forall l s dec, good g s -> contig s -> failed s = false ->
              (forall pr, In pr l -> get_round s (fst pr) <> None) ->
              failed (fst (fold_left decide_fame_round l (s, dec))) = false).
  { induction l as [|pr l IH]; intros s dec Gs Cs Fs Hl; cbn [fold_left]; [exact Fs|].
    destruct (decide_fame_round_nofail g s dec pr Gs Cs Fs (Hl pr (or_introl eq_refl))) as [F1 C1].
    pose proof (decide_fame_round_ckeep s dec pr) as K1. pose proof (decide_fame_round_frame s dec pr) as Fr1.
    destruct (decide_fame_round (s, dec) pr) as [s' dec']. cbn [fst] in *.
    apply IH; [eapply good_step; eauto|exact C1|exact F1|].
    intros pr' Hpr' D. apply (Hl pr' (or_intror Hpr')). apply (ck_rd _ _ K1). exact D. }
  specialize (H (pending st) st [] G C Hf Hp).
  destruct (fold_left decide_fame_round (pending st) (st, [])) as [s decided]. cbn [fst] in H.
  rewrite H. exact H.
Qed.

Lemma famous_in_keys ri x : In x (famous_witnesses ri) -> In x (map fst (ri_created ri)).
Proof.
  unfold famous_witnesses. intros H. apply in_map_iff in H. destruct H as [en [E H]].
  apply filter_In in H. destruct H as [H _]. subst x. apply in_map. exact H.
Qed.

Lemma sees_fold_some st x fws : (forall w, In w fws -> see st w x <> None) -> forall n,
  fold_left (fun (acc : option Z) w =>
               match acc, see st w x with
               | Some n, Some b => Some (if b then n + 1 else n)
               | _, _ => None
               end) fws (Some n) <> None.
Proof.
  induction fws as [|w l IH]; intros H n; cbn [fold_left]; [discriminate|].
  pose proof (H w (or_introl eq_refl)) as Hw. destruct (see st w x) as [b|]; [|contradiction].
  apply IH. intros w' Hw'. apply H. right. exact Hw'.
Qed.

Lemma see_stored st w x : get_event st w <> None -> get_event st x <> None -> see st w x <> None.
Proof.
  intros Hw Hx. unfold see, ancestor. destruct (w =? x); [discriminate|].
  destruct (get_event st w); [|contradiction]. destruct (get_event st x); [|contradiction]. discriminate.
Qed.

Lemma keys_stored g st i tr w : cinv g None st -> get_round st i = Some tr ->
  In w (map fst (ri_created tr)) -> get_event st w <> None.
Proof.
  intros I Hg Hw.
  assert (Hwl : exists b, In (w, b) (wl st i)).
  { unfold wl. rewrite Hg. unfold wl_of. apply in_map_iff in Hw. destruct Hw as [[w' [b f]] [E Hw]]. cbn in E. subst w'.
    exists b. apply in_map_iff. exists (w, (b, f)). auto. }
  destruct Hwl as [b Hb]. destruct (c_tab _ _ _ I i w b Hb) as [Hr _].
  destruct (c_rdom _ _ _ I w i Hr) as [_ [ew [Hew _]]]. rewrite Hew. discriminate.
Qed.

Lemma failed_set_evst s x e : failed (set_evst s x e) = failed s.
Proof. reflexivity. Qed.

Lemma rr_loop_nofail g x : forall is_ st,
  cinv g None st -> failed st = false -> get_event st x <> None ->
  failed (fst (rr_loop st x is_)) = false.
Proof.
  induction is_ as [|i rest IH]; intros st I Hf Hx; cbn [rr_loop]; [exact Hf|].
  destruct (get_round st i) as [tr|] eqn:Hg;
    [|destruct (lower_bound st) as [lb0|]; [destruct (i <=? lb0); [apply IH; assumption|exact Hf]|exact Hf]].
  rewrite (get_peerset_static g st i (c_static _ _ _ I)).
  pose proof (wl_of_witnesses_decided tr g) as Hd.
  destruct (witnesses_decided tr g) as [d tr']. cbn [snd] in Hd.
  set (st1 := st <| rounds := zset i tr' (rounds st) |>).
  assert (K1 : ckeep st st1) by (apply (ckeep_set_rounds st i tr tr' Hg Hd)).
  assert (I1 : cinv g None st1) by (eapply cinv_ckeep; eauto).
  assert (F1 : failed st1 = false) by (unfold st1; exact Hf).
  assert (E1 : forall y, get_event st1 y = get_event st y) by (intros y; unfold st1; reflexivity).
  assert (Hx1 : get_event st1 x <> None) by (rewrite E1; exact Hx).
  destruct d; cbn [negb].
  - assert (Hsees : forall w, In w (famous_witnesses tr') -> see st1 w x <> None).
    { intros w Hw. apply see_stored; [|exact Hx1]. rewrite E1.
      apply (keys_stored g st i tr w I Hg). rewrite <- (wl_of_keys _ _ Hd). apply famous_in_keys. exact Hw. }
    pose proof (sees_fold_some st1 x (famous_witnesses tr') Hsees 0) as Hs.
    match goal with |- context [fold_left ?f ?l ?a] => destruct (fold_left f l a) as [sees|] end; [|contradiction].
    destruct (_ && _).
    + destruct (get_event st1 x) as [ex|]; [|contradiction]. cbn [fst].
      rewrite failed_set_round, failed_set_evst. exact F1.
    + apply IH; assumption.
  - destruct (lower_bound st1) as [lb|]; [|exact F1].
    destruct (lb <? i); [exact F1|]. apply IH; assumption.
Qed.

Lemma decide_rr_one_nofail g s und x :
  cinv g None s -> failed s = false -> get_event s x <> None ->
  failed (fst (decide_rr_one (s, und) x)) = false.
Proof.
  intros I Hf Hx. unfold decide_rr_one. rewrite Hf.
  destruct (get_event s x) as [ex|] eqn:Hex; [|contradiction].
  destruct (c_all _ _ _ I x ex Hex ltac:(discriminate)) as [r [w [Hr _]]].
  unfold fuel_of. rewrite (round_f_memo_hit _ s x r Hr).
  pose proof (rr_loop_nofail g x (zrange (r + 1) (last_round s)) s I Hf ltac:(rewrite Hex; discriminate)) as H.
  destruct (rr_loop s x (zrange (r + 1) (last_round s))) as [s' received]. exact H.
Qed.

Lemma decide_round_received_nofail g st :
  cinv g None st -> failed st = false -> (forall x, In x (undetermined st) -> get_event st x <> None) ->
  failed (decide_round_received st) = false.
Proof.
  intros I Hf Hu. unfold decide_round_received.
  assert (G : forall l s und, ckeep st s -> failed s = false -> (forall x, In x l -> get_event st x <> None) ->
              failed (fst (fold_left decide_rr_one l (s, und))) = false).
  { induction l as [|x l IH]; intros s und K Fs Hl; cbn [fold_left]; [exact Fs|].
    assert (Is : cinv g None s) by (eapply cinv_ckeep; eauto).
    assert (Hxs : get_event s x <> None).
    { pose proof (Hl x (or_introl eq_refl)) as H0. destruct (get_event st x) as [ex|] eqn:E; [|contradiction].
      destruct (ckeep_fwd _ _ _ _ K E) as [ex' [E' _]]. rewrite E'. discriminate. }
    pose proof (decide_rr_one_nofail g s und x Is Fs Hxs) as F1.
    pose proof (decide_rr_one_keep _ s und x (cinv_cinvD _ _ _ Is)) as K1.
    destruct (decide_rr_one (s, und) x) as [s' und']. cbn [fst] in *.
    apply IH; [eapply ckeep_trans; eauto|exact F1|intros y Hy; apply Hl; right; exact Hy]. }
  specialize (G (undetermined st) st [] (ckeep_refl st) Hf Hu).
  destruct (fold_left decide_rr_one (undetermined st) (st, [])) as [s und]. cbn [fst] in G.
  rewrite G. exact G.
Qed.

(* what GetFrame, called from ProcessDecidedRounds, needs so as not to fail *)
Record fready (g : peerset) (st : hg) : Prop := {
  fr_dag : dag_ok st;
  fr_c : cinv g None st;
  fr_lt : forall x ex, get_event st x = Some ex -> zget x (lt_memo st) <> None;
  fr_rcv : forall r x, In x (rcv st r) -> get_event st x <> None;
  fr_lce : forall c h, aget c (last_cons_ev st) = Some h -> get_event st h <> None
}.

Lemma create_frame_event_some g st x : fready g st -> get_event st x <> None -> create_frame_event st x <> None.
Proof.
  intros [OK I Hlt _ _] Hx. unfold create_frame_event.
  destruct (get_event st x) as [ev|] eqn:Hev; [|contradiction].
  destruct (c_all _ _ _ I x ev Hev ltac:(discriminate)) as [r [w [Hr [Hw _]]]].
  unfold rmemo in Hr. rewrite Hr.
  pose proof (c_tabc _ _ _ I x r w Hr Hw) as Hin. unfold wl in Hin.
  destruct (get_round st r) as [ri|]; [|destruct Hin].
  assert (Hk : aget x (ri_created ri) <> None).
  { apply aget_in_keys. unfold wl_of in Hin. apply in_map_iff in Hin. destruct Hin as [[x' wf] [E Hin]].
    cbn in E. inversion E; subst. apply (in_map fst) in Hin. exact Hin. }
  destruct (aget x (ri_created ri)) as [[w' t]|]; [|contradiction].
  pose proof (Hlt x ev Hev) as Hl. destruct (zget x (lt_memo st)); [discriminate|contradiction].
Qed.

Lemma participant_event_stored st c i x : dag_ok st -> participant_event st c i = Some x -> get_event st x <> None.
Proof.
  intros OK. unfold participant_event. destruct (zget c (pevents st)) as [p|] eqn:Hp; [|discriminate].
  unfold pidx_get_item. destruct (_ <? _); [discriminate|]. destruct (_ <=? _); [discriminate|].
  intros Hn. destruct (d_chain st OK _ _ Hp) as [_ Hch]. destruct (Hch _ _ Hn) as [es [Hes _]]. rewrite Hes. discriminate.
Qed.

Lemma root_below_some g st c : fready g st -> forall n index, root_below st c index n <> None.
Proof.
  intros Fr. induction n as [|n IH]; intros index; cbn [root_below]; [discriminate|].
  destruct (index - 1 <? 0); [discriminate|].
  destruct (participant_event st c (index - 1)) as [peh|] eqn:Hp; [|discriminate].
  pose proof (create_frame_event_some g st peh Fr (participant_event_stored st c _ peh (fr_dag _ _ Fr) Hp)) as H1.
  destruct (create_frame_event st peh); [|contradiction].
  specialize (IH (index - 1)). destruct (root_below st c (index - 1) n); [discriminate|contradiction].
Qed.

Lemma create_root_some g st c head : fready g st -> (head = -1 \/ get_event st head <> None) -> create_root st c head <> None.
Proof.
  intros Fr Hh. unfold create_root. destruct (Z.eqb_spec head (-1)); [discriminate|].
  destruct Hh as [?|Hh]; [contradiction|].
  pose proof (create_frame_event_some g st head Fr Hh) as H1.
  destruct (create_frame_event st head); [|contradiction].
  destruct (get_event st head) as [he|]; [|contradiction].
  pose proof (root_below_some g st c Fr ROOT_DEPTH (e_index (ev_e he))) as H2.
  destruct (root_below st c (e_index (ev_e he)) ROOT_DEPTH); [discriminate|contradiction].
Qed.

Lemma cfe_fold_some st xs : (forall x, In x xs -> create_frame_event st x <> None) -> forall acc,
  fold_left (fun (acc : option (list frameev)) x =>
     match acc, create_frame_event st x with
     | Some l, Some fe => Some (l ++ [fe])
     | _, _ => None
     end) xs (Some acc) <> None.
Proof.
  induction xs as [|x xs IH]; intros H acc; cbn [fold_left]; [discriminate|].
  pose proof (H x (or_introl eq_refl)) as Hx. destruct (create_frame_event st x); [|contradiction].
  apply IH. intros y Hy. apply H. right. exact Hy.
Qed.

Lemma sp_of_head st x : dag_ok st -> sp_of st x = -1 \/ get_event st (sp_of st x) <> None.
Proof.
  intros OK. unfold sp_of. destruct (get_event st x) as [e|] eqn:E; [|left; reflexivity].
  destruct (d_sp st OK _ _ E) as [[Hs _]|[ps [Hps _]]]; [left; exact Hs|right; rewrite Hps; discriminate].
Qed.

Lemma get_frame_not_none g st rr : fready g st -> get_round st rr <> None -> fst (get_frame st rr) <> None.
Proof.
  intros Fr Hg. unfold get_frame.
  destruct (zget rr (frames st)); [discriminate|].
  destruct (get_round st rr) as [ri|] eqn:Hri; [|contradiction].
  rewrite (get_peerset_static g st rr (c_static _ _ _ (fr_c _ _ Fr))).
  assert (Hev : forall x, In x (ri_received ri) -> create_frame_event st x <> None).
  { intros x Hx. apply (create_frame_event_some g st x Fr). apply (fr_rcv _ _ Fr rr). unfold rcv. rewrite Hri. exact Hx. }
  pose proof (cfe_fold_some st (ri_received ri) Hev []) as He.
  match goal with |- context [fold_left ?f (ri_received ri) ?a] => destruct (fold_left f (ri_received ri) a) as [evs|] end;
    [|contradiction].
  set (sorted := fe_sort st evs).
  assert (H1 : forall l roots, fold_left (fun (acc : option (list (Z * list frameev))) fe =>
                        match acc with
                        | None => None
                        | Some roots =>
                          let p := creator_of st (fe_id fe) in
                          match aget p roots with
                          | Some _ => Some roots
                          | None => match create_root st p (sp_of st (fe_id fe)) with
                                    | Some r => Some (roots_insert p r roots)
                                    | None => None
                                    end
                          end
                        end) l (Some roots) <> None).
  { induction l as [|fe l IH]; intros roots; cbn [fold_left]; [discriminate|]. cbv zeta.
    destruct (aget (creator_of st (fe_id fe)) roots); [apply IH|].
    pose proof (create_root_some g st (creator_of st (fe_id fe)) (sp_of st (fe_id fe)) Fr (sp_of_head st _ (fr_dag _ _ Fr))) as Hc.
    destruct (create_root st (creator_of st (fe_id fe)) (sp_of st (fe_id fe))); [apply IH|contradiction]. }
  specialize (H1 sorted []).
  match goal with |- context [fold_left ?f sorted ?a] => destruct (fold_left f sorted a) as [roots1|] end; [|contradiction].
  assert (H2 : forall (l : list peer) roots, fold_left (fun (acc : option (list (Z * list frameev))) (p : peer) =>
                        match acc with
                        | None => None
                        | Some roots =>
                          match aget (pid p) (first_rounds st) with
                          | None => Some roots
                          | Some fr =>
                            if rr <? fr then Some roots
                            else match aget (pkey p) roots with
                                 | Some _ => Some roots
                                 | None =>
                                   let h := match aget (pkey p) (last_cons_ev st) with Some h => h | None => -1 end in
                                   match create_root st (pkey p) h with
                                   | Some r => Some (roots_insert (pkey p) r roots)
                                   | None => None
                                   end
                                 end
                          end
                        end) l (Some roots) <> None).
  { induction l as [|p l IH]; intros roots; cbn [fold_left]; [discriminate|].
    destruct (aget (pid p) (first_rounds st)); [|apply IH].
    destruct (rr <? z); [apply IH|].
    destruct (aget (pkey p) roots); [apply IH|]. cbv zeta.
    assert (Hh : (match aget (pkey p) (last_cons_ev st) with Some h => h | None => -1 end) = -1 \/
                 get_event st (match aget (pkey p) (last_cons_ev st) with Some h => h | None => -1 end) <> None).
    { destruct (aget (pkey p) (last_cons_ev st)) as [h|] eqn:E; [right; apply (fr_lce _ _ Fr _ _ E)|left; reflexivity]. }
    pose proof (create_root_some g st (pkey p) _ Fr Hh) as Hc.
    destruct (create_root st (pkey p) _); [apply IH|contradiction]. }
  specialize (H2 (repertoire st) roots1).
  match goal with |- context [fold_left ?f (repertoire st) ?a] => destruct (fold_left f (repertoire st) a) end;
    [discriminate|contradiction].
Qed.

Definition lcv (st : hg) := (failed st, last_cons_ev st, lt_memo st).

Lemma lcv_store_set_block st b : lcv (store_set_block st b) = lcv st.
Proof. reflexivity. Qed.
Lemma lcv_set_peerset st r ps st' : set_peerset st r ps = Some st' -> lcv st' = lcv st.
Proof.
  apply (set_peerset_steps (fun a b => lcv b = lcv a)).
  - intros a b c H1 H2. rewrite H2. exact H1.
  - reflexivity.
  - intros r0 s p. destruct (sp_step_reindexed r0 s p) as (R & F & P & ->). reflexivity.
Qed.
Lemma lcv_commit_keep st st' : commit_keep st' = commit_keep st -> lcv st' = lcv st.
Proof.
  intros H. exact (f_equal (fun '(((_, _, _, _, _, _, m, _, _, _), (_, _, _, f)), _, (l, _, _, _)) => (f, l, m)) H).
Qed.
Lemma lcv_commit st b : lcv (commit st b) = lcv st.
Proof.
  apply (commit_steps (fun a b => lcv b = lcv a)).
  - intros a b0 c H1 H2. rewrite H2. exact H1.
  - exact lcv_set_peerset.
  - exact lcv_commit_keep.
Qed.

Lemma lcv_fields s s' : lcv s' = lcv s -> failed s' = failed s /\ last_cons_ev s' = last_cons_ev s /\ lt_memo s' = lt_memo s.
Proof. unfold lcv. intros H. inversion H. auto. Qed.

Lemma add_consensus_events_lce l : forall s,
  failed (fold_left add_consensus_event l s) = failed s /\
  lt_memo (fold_left add_consensus_event l s) = lt_memo s /\
  forall c h, aget c (last_cons_ev (fold_left add_consensus_event l s)) = Some h ->
              aget c (last_cons_ev s) = Some h \/ In h (map fe_id l).
Proof.
  induction l as [|fe l IH]; intros s; cbn [fold_left map]; [auto|].
  destruct (IH (add_consensus_event s fe)) as [A [B C]].
  split; [rewrite A; reflexivity|]. split; [rewrite B; reflexivity|].
  intros c h Hh. destruct (C c h Hh) as [H|H]; [|right; right; exact H].
  assert (E : last_cons_ev (add_consensus_event s fe) = aset (creator_of s (fe_id fe)) (fe_id fe) (last_cons_ev s))
    by reflexivity.
  rewrite E, Ancestry.aget_aset in H. destruct (_ =? _); [inversion H; right; left; reflexivity|left; exact H].
Qed.

Lemma process_frame_lce s f :
  failed (process_frame s f) = failed s /\ lt_memo (process_frame s f) = lt_memo s /\
  forall c h, aget c (last_cons_ev (process_frame s f)) = Some h ->
              aget c (last_cons_ev s) = Some h \/ In h (map fe_id (f_events f)).
Proof.
  unfold process_frame. destruct (f_events f) as [|fe rest] eqn:E; [auto|].
  cbv zeta. set (s1 := fold_left add_consensus_event (fe :: rest) s).
  destruct (add_consensus_events_lce (fe :: rest) s) as [A [B C]]. fold s1 in A, B, C.
  set (b := block_of_frame _ _ _).
  assert (K : forall s2, lcv s2 = lcv s1 ->
            failed s2 = failed s /\ lt_memo s2 = lt_memo s /\
            forall c h, aget c (last_cons_ev s2) = Some h -> aget c (last_cons_ev s) = Some h \/ In h (map fe_id (fe :: rest))).
  { intros s2 H. destruct (lcv_fields _ _ H) as [H1 [H2 H3]]. rewrite H1, H2, H3. auto. }
  destruct (b_txs b), (b_itxs b); try (apply K; reflexivity);
    (apply K; rewrite lcv_commit, lcv_store_set_block; reflexivity).
Qed.

Lemma lcv_get_frame st rr : lcv (snd (get_frame st rr)) = lcv st.
Proof. destruct (get_frame_shape st rr) as [[f [_ ->]]|[[f [_ ->]]| ->]]; reflexivity. Qed.
Lemma lcv_bump s r : lcv (bump_last_consensus s r) = lcv s.
Proof. unfold bump_last_consensus. destruct (last_consensus s) as [l|]; [destruct (l <? r)|]; reflexivity. Qed.

Lemma get_frame_cached st rr f s1 : get_frame st rr = (Some f, s1) -> zget rr (frames s1) = Some f.
Proof. intros H. exact (proj1 (get_frame_some _ _ _ _ H)). Qed.

Record pdinv (g : peerset) (all : list event) (s : hg) : Prop := {
  pd_fr : fready g s;
  pd_f : finv s;
  pd_nd : forall r, NoDup (rcv s r);
  pd_fa : from_attempts s all
}.

Lemma fready_transport g s s' :
  fready g s -> dag_frame s s' -> cw s' = cw s -> peersets s' = peersets s -> lt_memo s' = lt_memo s ->
  (forall c h, aget c (last_cons_ev s') = Some h -> get_event s h <> None) ->
  fready g s'.
Proof.
  intros [OK I Hlt Hr Hl] F C P L Hl'.
  destruct (cw_fields _ _ C) as [Ev [Ro _]].
  assert (GE : forall x, get_event s' x = get_event s x) by (intros x; unfold get_event; rewrite Ev; reflexivity).
  constructor.
  - eapply dag_ok_frame; eauto.
  - eapply cinv_ckeep; [exact I|apply ckeep_cw; assumption].
  - intros x ex. rewrite GE, L. apply Hlt.
  - intros r x. unfold rcv, get_round. rewrite Ro, GE. apply Hr.
  - intros c h Hh. rewrite GE. apply (Hl' c h Hh).
Qed.

Lemma process_round_nofail g all s processed stop pr :
  no_accept all -> pdinv g all s -> failed s = false -> get_round s (fst pr) <> None ->
  failed (fst (fst (process_round (s, processed, stop) pr))) = false /\
  pdinv g all (fst (fst (process_round (s, processed, stop) pr))).
Proof.
  intros NA PD Hf Hg.
  destruct (process_round_inv s processed stop pr (pd_f _ _ _ PD) (pd_nd _ _ _ PD)) as [F' [K' _]].
  pose proof (process_round_frame s processed stop pr) as Fr'.
  pose proof (cw_process_round s processed stop pr) as C'.
  pose proof (process_round_peersets all s processed stop pr (pd_fa _ _ _ PD) NA) as P'.
  assert (Core : failed (fst (fst (process_round (s, processed, stop) pr))) = false /\
                 lt_memo (fst (fst (process_round (s, processed, stop) pr))) = lt_memo s /\
                 forall c h, aget c (last_cons_ev (fst (fst (process_round (s, processed, stop) pr)))) = Some h ->
                             get_event s h <> None).
  { unfold process_round. rewrite Hf, orb_false_r.
    destruct stop; [cbn [fst]; split; [exact Hf|split; [reflexivity|apply (fr_lce _ _ (pd_fr _ _ _ PD))]]|].
    destruct (negb (snd pr)); [cbn [fst]; split; [exact Hf|split; [reflexivity|apply (fr_lce _ _ (pd_fr _ _ _ PD))]]|].
    destruct (get_round s (fst pr)) as [ri|] eqn:Hri; [|contradiction].
    pose proof (get_frame_not_none g s (fst pr) (pd_fr _ _ _ PD) ltac:(rewrite Hri; discriminate)) as Hsome.
    destruct (get_frame_finv s (fst pr) (pd_f _ _ _ PD) (pd_nd _ _ _ PD)) as [F1 K1].
    pose proof (lcv_get_frame s (fst pr)) as L1.
    pose proof (get_frame_cached s (fst pr)) as Spec.
    destruct (get_frame s (fst pr)) as [[f|] s1]; cbn [fst snd] in *; [|contradiction].
    destruct (lcv_fields _ _ L1) as [Lf [Ll Lt]].
    destruct (process_frame_lce s1 f) as [A [B C]].
    destruct (lcv_fields _ _ (lcv_bump (process_frame s1 f) (fst pr))) as [Bf [Bl Bt]].
    split; [congruence|]. split; [congruence|].
    intros c h. rewrite Bl. intros Hh.
    destruct K1 as [_ [Ev1 _]].
    destruct (C c h Hh) as [H|H].
    - rewrite Ll in H. apply (fr_lce _ _ (pd_fr _ _ _ PD) c h H).
    - (* an event of the frame: stored *)
      apply in_map_iff in H. destruct H as [fe [E Hfe]]. subst h.
      pose proof (Spec f s1 eq_refl) as Hz.
      destruct (F1 (fst pr) f Hz) as [_ [_ [_ [_ [Hst _]]]]].
      destruct (Hst fe Hfe) as [ex Hex]. unfold get_event in *. rewrite Ev1 in Hex. rewrite Hex. discriminate. }
  destruct Core as [Ff [Lt Lce]].
  split; [exact Ff|].
  constructor.
  - apply (fready_transport g s); auto. apply (pd_fr _ _ _ PD).
  - exact F'.
  - apply (nodup_nf _ _ K'). apply (pd_nd _ _ _ PD).
  - eapply from_attempts_frame; [apply (pd_fa _ _ _ PD)|exact Fr'].
Qed.

Lemma insert_parents_not_self all st e s :
  dag_ok st -> from_attempts st all -> ids_determine all -> In e all -> 0 <= e_id e ->
  insert_event st e = (InsOk, s) -> parents_not_self s (e_id e).
Proof.
  intros OK FA ID Hin Hid E.
  destruct (insert_event_ok_shape st e all s OK FA ID Hin Hid E) as [st2 [GE [Fresh [Fr2 [_ [Hsp Hop]]]]]].
  cbv zeta in GE. apply (parents_not_self_frame st2 s _ Fr2).
  intros ex Hex. rewrite GE, Z.eqb_refl in Hex. inversion Hex; subst ex. cbn [ev_e].
  assert (Hp : forall p, (e_sp e = p \/ e_op e = p) -> p <> e_id e).
  { intros p Hp Epn. destruct (Z.eq_dec p (-1)) as [->|Hpn]; [lia|].
    destruct (Ancestry.checked_parent_stored st e Hsp Hop p Hpn Hp) as [ep Hep]. subst p. congruence. }
  split; apply Hp; [left|right]; reflexivity.
Qed.

Definition lce_ok (st : hg) : Prop := forall c h, aget c (last_cons_ev st) = Some h -> get_event st h <> None.

Lemma process_decided_rounds_nofail g all st :
  no_accept all -> pdinv g all st -> failed st = false ->
  (forall pr, In pr (pending st) -> get_round st (fst pr) <> None) ->
  failed (process_decided_rounds st) = false /\ lce_ok (process_decided_rounds st).
Proof.
  intros NA PD Hf Hp. unfold process_decided_rounds.
  assert (G : forall l s p b, pdinv g all s -> failed s = false ->
              (forall pr, In pr l -> get_round s (fst pr) <> None) ->
              failed (fst (fst (fold_left process_round l (s, p, b)))) = false /\
              pdinv g all (fst (fst (fold_left process_round l (s, p, b))))).
  { induction l as [|pr l IH]; intros s p b PDs Fs Hl; cbn [fold_left]; [auto|].
    destruct (process_round_nofail g all s p b pr NA PDs Fs (Hl pr (or_introl eq_refl))) as [F1 PD1].
    pose proof (cw_process_round s p b pr) as C1.
    destruct (process_round (s, p, b) pr) as [[s1 p1] b1]. cbn [fst] in *.
    apply IH; [exact PD1|exact F1|].
    intros pr' Hpr'. destruct (cw_fields _ _ C1) as [_ [Ro _]]. unfold get_round. rewrite Ro.
    apply (Hl pr' (or_intror Hpr')). }
  destruct (G (pending st) st [] false PD Hf Hp) as [F1 PD1].
  destruct (fold_left process_round (pending st) (st, [], false)) as [[s processed] stop]. cbn [fst] in *.
  split; [exact F1|].
  intros c h. replace (last_cons_ev (s <| pending := _ |>)) with (last_cons_ev s) by reflexivity.
  intros Hh. pose proof (fr_lce _ _ (pd_fr _ _ _ PD1) c h Hh) as H. unfold get_event in *. exact H.
Qed.

Record nf_inv (g : peerset) (all : list event) (st : hg) : Prop := {
  nf_g : ginv all st;
  nf_la : la_ok st;
  nf_c : cinv g None st;
  nf_r : rinv st;
  nf_f : failed st = false;
  nf_l : lce_ok st
}.

Lemma nf_good g all st : nf_inv g all st -> good g st.
Proof.
  intros [Gi LA I R Hf Lce]. constructor; [apply (g_dag _ _ (gi_core _ _ Gi))|exact LA|exact I|].
  eexists. apply (ginv_hmeasure all st Gi Hf).
Qed.

Lemma undetermined_stored st : oinv st -> forall x, In x (undetermined st) -> get_event st x <> None.
Proof. intros O x Hx. destruct (u_ex _ O x Hx) as [ex ->]. discriminate. Qed.

Lemma pending_rounds_stored st : rinv st -> forall pr, In pr (pending st) -> get_round st (fst pr) <> None.
Proof. intros R [r d] Hpr. cbn [fst]. destruct (r_pend _ (proj1 R) r d Hpr) as [ri [-> _]]. discriminate. Qed.

Lemma lce_ok_frame st st' : dag_frame st st' -> lcev st' = lcev st -> lce_ok st -> lce_ok st'.
Proof. intros F E L c h. unfold lcev in E. rewrite E. intros H. exact (stored_frame st st' h F (L c h H)). Qed.

(* the state right after a successful InsertEvent of event n *)
Record post_ins (g : peerset) (all : list event) (n : Z) (s : hg) : Prop := {
  pi_c : gcore all s; pi_f : finv s; pi_dl : dlv s; pi_d : dinv n s; pi_u : In n (undetermined s);
  pi_p : parents_not_self s n; pi_i : cinv g (Some n) s; pi_la : la_ok s; pi_r : rinv s;
  pi_nf : failed s = false; pi_l : lce_ok s
}.

(* DivideRounds re-establishes the invariant after an insertion; the next two passes keep it *)
Lemma divide_rounds_nf g all n s : post_ins g all n s -> nf_inv g all (divide_rounds s).
Proof.
  intros [C F Dl D Hin Pn I LA R Hf Lce]. pose proof (g_dag _ _ C) as OK.
  pose proof (divide_rounds_frame s) as Fr.
  pose proof (divide_rounds_nofail g n (undetermined s) s (Some n) OK I Hf D Pn (or_intror eq_refl)
                (undetermined_stored s (g_o _ _ C))) as Hf1.
  fold (divide_rounds s) in Hf1.
  constructor.
  - apply (divide_rounds_pass all n s C F Dl D Hin Hf).
  - exact (la_ok_frame _ _ LA Fr).
  - destruct (divide_rounds_cinv g (undetermined s) s (Some n) (or_intror I) Hin) as [C'|I1]; [|exact I1].
    fold (divide_rounds s) in C'. congruence.
  - destruct (divide_rounds_rinv s (or_intror R)) as [C'|R1]; [congruence|exact R1].
  - exact Hf1.
  - exact (lce_ok_frame _ _ Fr (divide_rounds_lcev s) Lce).
Qed.

Lemma decide_fame_nf g all s : nf_inv g all s -> nf_inv g all (decide_fame s).
Proof.
  intros N. pose proof (nf_good g all s N) as G. destruct N as [Gi LA I R Hf Lce].
  pose proof (decide_fame_frame s) as Fr.
  constructor.
  - apply (decide_fame_pass all s Gi Hf).
  - exact (la_ok_frame _ _ LA Fr).
  - exact (cinv_ckeep _ _ _ _ I (decide_fame_ckeep s)).
  - exact (decide_fame_rinv s R).
  - exact (decide_fame_nofail g s G (rinv_contig _ R) Hf (pending_rounds_stored s R)).
  - exact (lce_ok_frame _ _ Fr (decide_fame_lcev s) Lce).
Qed.

Lemma decide_round_received_nf g all s : nf_inv g all s -> nf_inv g all (decide_round_received s).
Proof.
  intros [Gi LA I R Hf Lce]. pose proof (decide_round_received_frame s) as Fr.
  constructor.
  - apply (decide_round_received_pass all s Gi Hf).
  - exact (la_ok_frame _ _ LA Fr).
  - exact (cinv_ckeep _ _ _ _ I (decide_round_received_keep _ s (cinv_cinvD _ _ _ I))).
  - exact (rinv_rstep _ _ R (decide_round_received_rstep s (proj1 (rinv_bounded _ R)))).
  - exact (decide_round_received_nofail g s I Hf (undetermined_stored s (g_o _ _ (gi_core _ _ Gi)))).
  - exact (lce_ok_frame _ _ Fr (decide_round_received_lcev s) Lce).
Qed.

(* every stored event has its timestamp memoised, every received event is stored *)
Lemma nf_pdinv g all s : nf_inv g all s -> pdinv g all s.
Proof.
  intros [[C A F _] _ I _ Hf Lce]. pose proof (g_o _ _ C) as O.
  constructor; [constructor|exact F|apply (c_nodup _ O)|apply (g_from _ _ C)].
  - apply (g_dag _ _ C).
  - exact I.
  - intros x ex Hx. destruct (ev_lt ex) as [t|] eqn:Et; [|destruct (A Hf x ex Hx Et)].
    rewrite (l_ev _ (g_l _ _ C) x ex t Hx Et). discriminate.
  - intros r x Hx. destruct (c_in _ O r x Hx) as [ex [-> _]]. discriminate.
  - exact Lce.
Qed.

Lemma process_decided_rounds_nf g all s :
  no_accept all -> nf_inv g all s -> nf_inv g all (process_decided_rounds s).
Proof.
  intros NA N.
  destruct (process_decided_rounds_nofail g all s NA (nf_pdinv g all s N) (nf_f _ _ _ N)
              (pending_rounds_stored s (nf_r _ _ _ N))) as [F4 L4].
  destruct N as [Gi LA I R Hf Lce]. destruct (ginv_dag all s Gi) as [_ FA].
  constructor; [| | | |exact F4|exact L4].
  - apply (process_decided_rounds_pass all s Gi Hf).
  - exact (la_ok_frame _ _ LA (process_decided_rounds_frame s)).
  - exact (cinv_ckeep _ _ _ _ I (ckeep_cw _ _ (cw_process_decided_rounds s)
                                    (process_decided_rounds_peersets all s FA NA))).
  - apply rinv_qinv, process_decided_rounds_qinv, rinv_qinv, R.
Qed.

(* the consensus run that follows an insertion: what ProcessDecidedRounds starts from, and the
   invariant at the end *)
Record stages (g : peerset) (all : list event) (s : hg) : Prop := {
  sg_pd3 : pdinv g all (decide_round_received (decide_fame (divide_rounds s)));
  sg_4 : nf_inv g all (run_consensus s)
}.

Lemma run_consensus_stages g all n s :
  no_accept all -> post_ins g all n s -> stages g all s.
Proof.
  intros NA PI. pose proof (divide_rounds_nf g all n s PI) as N1.
  pose proof (decide_fame_nf g all _ N1) as N2. pose proof (decide_round_received_nf g all _ N2) as N3.
  constructor; [exact (nf_pdinv g all _ N3)|].
  unfold run_consensus. rewrite (nf_f _ _ _ N1), (nf_f _ _ _ N2), (nf_f _ _ _ N3).
  exact (process_decided_rounds_nf g all _ NA N3).
Qed.

Lemma lcv_process_sig st s : lcv (process_sig st s) = lcv st.
Proof. destruct (process_sig_cases st s) as [->|(b & ps & _ & _ & _ & _ & ->)]; reflexivity. Qed.
Lemma lcv_process_sigpool st : lcv (process_sigpool st) = lcv st.
Proof. apply fold_left_view, lcv_process_sig. Qed.

(* what a successful InsertEvent leaves for the consensus run *)
Lemma insert_post_ins g all st e s :
  ids_determine all -> In e all -> 0 <= e_id e -> nf_inv g all st -> insert_event st e = (InsOk, s) ->
  post_ins g all (e_id e) s /\ (forall x, get_event st x <> None -> get_event s x <> None).
Proof.
  intros ID Hin Hid [Gi LA I R Hf Lce] E.
  pose proof (g_dag _ _ (gi_core _ _ Gi)) as OK. pose proof (g_from _ _ (gi_core _ _ Gi)) as FA.
  destruct (insert_ok_inv all st e s ID Hin Hid Gi E) as [Cs [Fs [Dls [Ds [Hund _]]]]].
  destruct (insert_cinv g all st e s OK LA FA ID Hin Hid I E) as [Is _].
  destruct (insert_event_ok_shape st e all s OK FA ID Hin Hid E) as [st2 [GE [Fresh [Fr2 [OK2 [Hsp Hop]]]]]].
  cbv zeta in GE.
  assert (Hst : forall x, get_event st x <> None -> get_event s x <> None).
  { intros x Hx. apply (stored_frame st2 s x Fr2). rewrite GE.
    destruct (x =? e_id e); [discriminate|exact Hx]. }
  split; [|exact Hst]. constructor; try assumption.
  - apply (insert_parents_not_self all st e s OK FA ID Hin Hid E).
  - eapply la_ok_frame; [|exact Fr2]. apply (la_ok_store st st2 e _ OK LA eq_refl GE Fresh Hsp Hop).
  - eapply rinv_rstep; [exact R|]. pose proof (insert_event_rstep st e) as H. rewrite E in H. exact H.
  - pose proof (insert_event_failed st e) as H. rewrite E in H. cbn [snd] in H. congruence.
  - intros c h. pose proof (insert_event_lcev st e) as H. rewrite E in H. cbn [snd] in H. unfold lcev in H. rewrite H.
    intros Hh. apply Hst. apply (Lce c h Hh).
Qed.

Lemma insert_run_nf g all st e s :
  ids_determine all -> no_accept all -> In e all -> 0 <= e_id e -> nf_inv g all st ->
  insert_event st e = (InsOk, s) -> nf_inv g all (run_consensus s).
Proof.
  intros ID NA Hin Hid N E. destruct (insert_post_ins g all st e s ID Hin Hid N E) as [PI _].
  exact (sg_4 _ _ _ (run_consensus_stages g all _ s NA PI)).
Qed.

Lemma process_sigpool_nf g all st : nf_inv g all st -> nf_inv g all (process_sigpool st).
Proof.
  intros [Gi LA I R Hf Lce]. destruct (lcv_fields _ _ (lcv_process_sigpool st)) as [A [B _]].
  constructor.
  - apply (process_sigpool_ginv all st Gi).
  - exact (la_ok_frame _ _ LA (process_sigpool_frame st)).
  - exact (cinv_ckeep _ _ _ _ I (ckeep_cw _ _ (cw_process_sigpool st) (process_sigpool_peersets st))).
  - exact (rinv_rstep _ _ R (rstep_rv _ _ (proj1 (process_sigpool_rv st)))).
  - congruence.
  - intros c h. rewrite B. intros Hh. destruct (cw_fields _ _ (cw_process_sigpool st)) as [Ev _].
    unfold get_event. rewrite Ev. exact (Lce c h Hh).
Qed.

Lemma nf_dag g all st : nf_inv g all st -> dag_ok st /\ from_attempts st all.
Proof. intros N. exact (ginv_dag all st (nf_g _ _ _ N)). Qed.

Lemma hstep_nf g all st o :
  ids_determine all -> no_accept all -> hop_ok all o -> nf_inv g all st -> nf_inv g all (hstep st o).
Proof.
  intros ID NA Ho N.
  apply (hstep_along all (nf_inv g all) (fun _ _ => True) ID (nf_dag g all) (fun _ => I)
           (fun st e s Hin Hid N E => conj (insert_run_nf g all st e s ID NA Hin Hid N E) I)
           (fun st N => conj (process_sigpool_nf g all st N) I) st o Ho N).
Qed.

Lemma nf_init g all self_ oracle_ : nf_inv g all (init_hg self_ g oracle_).
Proof.
  destruct (cw_fields _ _ (cw_init self_ g oracle_)) as [Ev _].
  constructor; [apply ginv_init| |apply cinv_init|apply rinv_init| |].
  - apply la_ok_no_events. intros x. unfold get_event. rewrite Ev. cbn. apply zget_empty.
  - unfold init_hg. destruct (set_peerset (empty_hg self_) 0 g) as [st|] eqn:S; [|reflexivity].
    destruct (lcv_fields _ _ (lcv_set_peerset _ _ _ _ S)) as [A _].
    transitivity (failed st); [reflexivity|]. rewrite A. reflexivity.
  - intros c h. unfold init_hg. destruct (set_peerset (empty_hg self_) 0 g) as [st|] eqn:S.
    + destruct (lcv_fields _ _ (lcv_set_peerset _ _ _ _ S)) as [_ [B _]].
      replace (last_cons_ev (st <| validators := g |> <| oracle := oracle_ |>)) with (last_cons_ev st) by reflexivity.
      rewrite B. cbn. discriminate.
    + cbn. discriminate.
Qed.

Theorem hrun_nf g all self_ oracle_ ops :
  ids_determine all -> no_accept all -> Forall (hop_ok all) ops ->
  nf_inv g all (hrun (init_hg self_ g oracle_) ops).
Proof.
  intros ID NA H.
  apply (hrun_along all (nf_inv g all) (fun _ _ => True) ID (nf_dag g all) (fun _ => I) (fun _ _ _ _ _ => I)
           (fun st e s Hin Hid N E => conj (insert_run_nf g all st e s ID NA Hin Hid N E) I)
           (fun st N => conj (process_sigpool_nf g all st N) I) ops H _ (nf_init g all self_ oracle_)).
Qed.

(* C01_no_pass_fails: under static membership no consensus pass returns an error *)
Corollary hrun_not_failed g all self_ oracle_ ops :
  ids_determine all -> no_accept all -> Forall (hop_ok all) ops ->
  failed (hrun (init_hg self_ g oracle_) ops) = false.
Proof. intros ID NA H. apply (nf_f _ _ _ (hrun_nf g all self_ oracle_ ops ID NA H)). Qed.
