(* C08: proofs about Model/Hostile.v.  With every repair present no function of the validation
   layer ends in Panic or Hang, for ALL argument values (a superset of the hostile grammar). *)
From Coq Require Import ZArith List Bool Lia.
From V Require Import Model.Hostile.
Import ListNotations.
Open Scope Z_scope.

Definition safe {A} (o : outcome A) : Prop := o <> Panic /\ o <> Hang.

Lemma safe_ok : forall A (a : A), safe (Ok a).
Proof. intros A a; split; discriminate. Qed.
Lemma safe_err : forall A, safe (@Err A).
Proof. intros A; split; discriminate. Qed.

Lemma safe_bind : forall A B (o : outcome A) (f : A -> outcome B),
  safe o -> (forall a, o = Ok a -> safe (f a)) -> safe (bind o f).
Proof.
  intros A B o f [Hp Hh] Hf. destruct o as [a| | |]; cbn [bind].
  - apply Hf; reflexivity.
  - apply safe_err.
  - contradiction Hp; reflexivity.
  - contradiction Hh; reflexivity.
Qed.

Lemma safe_if : forall A (b : bool) (x y : outcome A), safe x -> safe y -> safe (if b then x else y).
Proof. intros A b x y Hx Hy; destruct b; assumption. Qed.

Lemma safe_cases : forall A (o : outcome A), safe o -> (exists a, o = Ok a) \/ o = Err.
Proof.
  intros A [a| | |] [Hp Hh]; [left; exists a; reflexivity|right; reflexivity
                             |contradiction Hp; reflexivity|contradiction Hh; reflexivity].
Qed.

Lemma len_nonneg : forall A (l : list A), 0 <= len l.
Proof. intros; unfold len; lia. Qed.

Lemma slice_from_safe : forall A (s : list A) k, 0 <= k <= len s -> safe (slice_from s k).
Proof.
  intros A s k Hk. unfold slice_from.
  replace ((k <? 0) || (len s <? k)) with false; [apply safe_ok|].
  symmetry; apply orb_false_iff; split; apply Z.ltb_ge; lia.
Qed.

Lemma slice_to_ok : forall n k, 0 <= k <= n -> slice_to n k = Ok k.
Proof.
  intros n k Hk. unfold slice_to.
  replace ((k <? 0) || (n <? k)) with false; [reflexivity|].
  symmetry; apply orb_false_iff; split; apply Z.ltb_ge; lia.
Qed.

Lemma decode_from_string_safe : forall s, safe (decode_from_string repaired s).
Proof.
  intros s. unfold decode_from_string. cbn [fx_hex repaired andb].
  destruct (len s <? 2) eqn:E.
  - apply safe_ok.
  - apply safe_bind.
    + apply slice_from_safe. apply Z.ltb_ge in E. lia.
    + intros; apply safe_ok.
Qed.

Lemma pub_key_bytes_safe : forall s, safe (pub_key_bytes repaired s).
Proof.
  intros s. unfold pub_key_bytes. apply safe_bind; [apply decode_from_string_safe|intros; apply safe_ok].
Qed.

(* the "0X" of a key is cut off without being looked at *)
Lemma pub_key_bytes_0x : forall fx a b s, pub_key_bytes fx (a :: b :: s) = Ok (fst (hex_pairs s)).
Proof.
  intros fx a b s. unfold pub_key_bytes, decode_from_string, slice_from.
  replace (len (a :: b :: s) <? 2) with false by (symmetry; apply Z.ltb_ge; unfold len; cbn [length]; lia).
  rewrite andb_false_r. reflexivity.
Qed.

Lemma decode_signature_safe : forall fx sig, safe (decode_signature fx sig).
Proof.
  intros fx sig. unfold decode_signature.
  destruct (split_bar sig) as [|a [|b [|c l]]]; try apply safe_err.
  destruct (fx_sig fx && (is_none (set_string36 a) || is_none (set_string36 b))); [apply safe_err|apply safe_ok].
Qed.

(* with the repair a decoded signature has no nil component *)
Lemma decode_signature_repaired_some : forall sig r s,
  decode_signature repaired sig = Ok (r, s) -> is_none r = false /\ is_none s = false.
Proof.
  intros sig r s. unfold decode_signature.
  destruct (split_bar sig) as [|a [|b [|c l]]]; try discriminate.
  cbn [fx_sig repaired andb].
  destruct (is_none (set_string36 a) || is_none (set_string36 b)) eqn:E; [discriminate|].
  intros H; inversion H; subst. apply orb_false_iff in E. exact E.
Qed.

Lemma keys_verify_safe : forall pk r s b, safe (keys_verify repaired pk r s b).
Proof.
  intros pk r s b. unfold keys_verify. cbn [fx_key repaired andb].
  destruct (key_unusable pk || is_none r || is_none s) eqn:E; [apply safe_ok|].
  apply orb_false_iff in E; destruct E as [E Hs]. apply orb_false_iff in E; destruct E as [Hk Hr].
  destruct r as [rv|]; [|discriminate]. destruct s as [sv|]; [|discriminate].
  destruct pk; try discriminate.
  destruct (rv <=? 0); [apply safe_ok|]. destruct (sv <=? 0); [apply safe_ok|].
  destruct ((secp_n <=? rv) || (secp_n <=? sv)); apply safe_ok.
Qed.

Lemma block_verify_safe : forall v sig b, safe (block_verify repaired v sig b).
Proof.
  intros. unfold block_verify. apply safe_bind; [apply decode_signature_safe|].
  intros; apply keys_verify_safe.
Qed.

Lemma itx_verify_safe : forall t, safe (itx_verify repaired t).
Proof.
  intros t. unfold itx_verify. apply safe_if; [apply safe_err|].
  apply safe_bind; [apply pub_key_bytes_safe|]. intros kb _.
  apply safe_bind; [apply decode_signature_safe|]. intros; apply keys_verify_safe.
Qed.

Lemma itxs_verify_safe : forall l, safe (itxs_verify repaired l).
Proof.
  induction l as [|t r IH]; cbn [itxs_verify]; [apply safe_ok|].
  apply safe_bind; [apply itx_verify_safe|]. intros ok _. destruct ok; [exact IH|apply safe_err].
Qed.

Lemma bsigs_wellformed_safe : forall fx l, safe (bsigs_wellformed fx l).
Proof.
  intros fx; induction l as [|s r IH]; cbn [bsigs_wellformed]; [apply safe_ok|].
  destruct (decode_signature fx s); try apply safe_err.
  destruct (encodable s); [exact IH|apply safe_err].
Qed.

Lemma event_verify_safe : forall itxs bsigs creator sig b,
  safe (event_verify repaired itxs bsigs creator sig b).
Proof.
  intros. unfold event_verify.
  apply safe_bind; [apply itxs_verify_safe|]. intros _ _.
  apply safe_bind; [cbn [fx_utf8 repaired]; apply bsigs_wellformed_safe|]. intros _ _.
  apply safe_bind; [apply decode_signature_safe|]. intros; apply keys_verify_safe.
Qed.

Lemma parent_at_safe : forall which n, safe (parent_at repaired which n).
Proof. intros; unfold parent_at; cbn [fx_parents repaired]; apply safe_ok. Qed.

(* an accepted internal transaction carries only text that the canonical encoder terminates on *)
Lemma itx_verify_repaired_encodable : forall t,
  itx_verify repaired t = Ok true ->
  quote_str (it_key t) = Ok tt /\ quote_str (it_addr t) = Ok tt /\ quote_str (it_moniker t) = Ok tt.
Proof.
  intros t. unfold itx_verify. cbn [fx_utf8 repaired andb].
  destruct (encodable (it_key t) && encodable (it_addr t) && encodable (it_moniker t)) eqn:E;
    cbn [negb]; [intros _|discriminate].
  apply andb_true_iff in E; destruct E as [E Hm]. apply andb_true_iff in E; destruct E as [Hk Ha].
  unfold encodable in *. unfold quote_str.
  apply andb_true_iff in Hk; destruct Hk as [_ Hk]. apply andb_true_iff in Ha; destruct Ha as [_ Ha].
  apply andb_true_iff in Hm; destruct Hm as [_ Hm].
  apply negb_true_iff in Hk, Ha, Hm. rewrite Hk, Ha, Hm. repeat split.
Qed.

Lemma bsigs_wellformed_encodable : forall fx l,
  bsigs_wellformed fx l = Ok tt -> forall s, In s l -> quote_str s = Ok tt.
Proof.
  intros fx; induction l as [|x r IH]; cbn [bsigs_wellformed]; intros H s Hin; [contradiction|].
  destruct (decode_signature fx x); try discriminate.
  destruct (encodable x) eqn:E; [|discriminate].
  destruct Hin as [->|Hin]; [|apply IH; assumption].
  unfold encodable in E; apply andb_true_iff in E; destruct E as [_ E]; apply negb_true_iff in E.
  unfold quote_str; rewrite E; reflexivity.
Qed.

Lemma peer_id_safe : forall p, peer_present p = true -> safe (peer_id repaired p).
Proof.
  intros [k|] H; [|discriminate]. cbn [peer_id].
  apply safe_bind; [apply pub_key_bytes_safe|intros; apply safe_ok].
Qed.

Lemma new_peer_set_safe : forall l, forallb peer_present l = true -> safe (new_peer_set repaired l).
Proof.
  induction l as [|p r IH]; cbn [new_peer_set forallb]; intros H; [apply safe_ok|].
  apply andb_true_iff in H; destruct H as [Hp Hr].
  apply safe_bind; [apply peer_id_safe; exact Hp|intros; apply IH; exact Hr].
Qed.

Lemma get_signatures_safe : forall ks, safe (get_signatures repaired ks).
Proof.
  induction ks as [|k r IH]; cbn [get_signatures]; [apply safe_ok|].
  apply safe_bind; [apply pub_key_bytes_safe|intros; exact IH].
Qed.

Lemma check_sigs_safe : forall l, safe (check_sigs repaired l).
Proof.
  induction l as [|[[[k m] sig] b] r IH]; cbn [check_sigs]; [apply safe_ok|].
  destruct m; [|exact IH].
  apply safe_bind; [apply pub_key_bytes_safe|]. intros kb _.
  destruct (safe_cases _ _ (block_verify_safe kb sig b)) as [[[|] ->]| ->]; try exact IH.
  apply safe_bind; [exact IH|intros; apply safe_ok].
Qed.

Lemma peersets_ok_safe : forall l, forallb (forallb peer_present) l = true -> safe (peersets_ok repaired l).
Proof.
  induction l as [|ps r IH]; cbn [peersets_ok forallb]; intros H; [apply safe_ok|].
  apply andb_true_iff in H; destruct H as [Hp Hr].
  apply safe_bind; [apply new_peer_set_safe; exact Hp|intros; apply IH; exact Hr].
Qed.

Lemma collect_roots_valid : forall roots, forallb root_valid roots = true ->
  exists l, collect_roots roots = Ok l /\ forallb fev_valid l = true.
Proof.
  induction roots as [|r rs IH]; cbn [collect_roots forallb]; intros H.
  - exists []; split; reflexivity.
  - apply andb_true_iff in H; destruct H as [Hr Hrs].
    destruct r as [evs|]; [|discriminate].
    destruct (IH Hrs) as [l [Hl Hv]]. rewrite Hl. cbn [bind].
    exists (evs ++ l); split; [reflexivity|].
    rewrite forallb_app. cbn [root_valid] in Hr. rewrite Hr, Hv. reflexivity.
Qed.

Lemma fevs_insertable_safe : forall l, forallb fev_valid l = true -> safe (fevs_insertable repaired l).
Proof.
  induction l as [|e r IH]; cbn [fevs_insertable forallb]; intros H; [apply safe_ok|].
  apply andb_true_iff in H; destruct H as [He Hr].
  apply safe_bind; [|intros; apply IH; exact Hr].
  destruct e; try discriminate. cbn [fev_insertable].
  apply safe_bind; [apply parent_at_safe|intros; apply parent_at_safe].
Qed.

Lemma reset_derefs_safe : forall f, frame_validate f = true -> safe (reset_derefs repaired f).
Proof.
  intros f H. unfold frame_validate in H.
  apply andb_true_iff in H; destruct H as [H He]. apply andb_true_iff in H; destruct H as [H Hr].
  apply andb_true_iff in H; destruct H as [Hp Hps].
  unfold reset_derefs. apply safe_bind; [apply peersets_ok_safe; exact Hps|]. intros _ _.
  destruct (collect_roots_valid _ Hr) as [l [Hl Hv]]. rewrite Hl. cbn [bind].
  apply fevs_insertable_safe. rewrite forallb_app, Hv, He. reflexivity.
Qed.

Lemma ff_check_safe : forall f, safe (ff_check repaired f).
Proof.
  intros f. unfold ff_check. cbn [fx_frame fx_utf8 repaired andb].
  destruct (frame_validate f) eqn:V; cbn [negb]; [|apply safe_err].
  assert (Hp : forallb peer_present (ff_peers f) = true).
  { unfold frame_validate in V. apply andb_true_iff in V; destruct V as [V _].
    apply andb_true_iff in V; destruct V as [V _]. apply andb_true_iff in V; destruct V as [V _]. exact V. }
  apply safe_bind; [apply new_peer_set_safe; exact Hp|]. intros _ _.
  apply safe_if; [apply safe_err|].
  apply safe_bind; [apply get_signatures_safe|]. intros _ _.
  apply safe_bind; [apply check_sigs_safe|]. intros n _.
  apply safe_if; [apply safe_err|].
  destruct (ff_has_fffd f); [apply safe_err|].
  apply safe_if; [apply safe_err|].
  apply reset_derefs_safe; exact V.
Qed.

Lemma fe_less_safe : forall a b, fev_valid a = true -> fev_valid b = true -> safe (fe_less repaired a b).
Proof.
  intros a b Ha Hb. destruct a as [| |la na sa]; try discriminate. destruct b as [| |lb nb sb]; try discriminate.
  cbn [fe_less]. destruct (negb (la =? lb)); [apply safe_ok|].
  destruct (decode_signature repaired sa) as [[ra ?]| | |]; destruct (decode_signature repaired sb) as [[rb ?]| | |];
    try destruct ra; try destruct rb; cbn [fx_less repaired]; apply safe_ok.
Qed.

Lemma process_sigpool_repaired_ok : forall l, fst (process_sigpool repaired l) = Ok tt.
Proof.
  induction l as [|e r IH]; cbn [process_sigpool]; [reflexivity|].
  destruct (negb (pe_known e) || negb (pe_member e)).
  - destruct (process_sigpool repaired r) as [o rest]; exact IH.
  - destruct (safe_cases _ _ (block_verify_safe (pe_validator e) (pe_sig e) (pe_sigok e))) as [[[|] ->]| ->].
    + exact IH.
    + destruct (process_sigpool repaired r) as [o rest]; exact IH.
    + exact IH.
Qed.

(* as it is: one malformed signature is never removed, and every call ends with an error on it *)
Lemma process_sigpool_asis_stuck : forall e r,
  pe_known e = true -> pe_member e = true ->
  block_verify asis (pe_validator e) (pe_sig e) (pe_sigok e) = Err ->
  process_sigpool asis (e :: r) = (Err, e :: r).
Proof.
  intros e r Hk Hm Hv. cbn [process_sigpool]. rewrite Hk, Hm, Hv. reflexivity.
Qed.

(* with the clamp, a sync request to a node that serves syncs fails only when eventDiff does *)
Lemma sync_request_repaired_ok : forall st limit conf d,
  gate st true = true -> 0 <= d -> exists n, sync_request repaired st limit conf d = Ok n.
Proof.
  intros st limit conf d G Hd. unfold sync_request. rewrite G. cbn [fx_limit repaired andb negb].
  replace (d <? 0) with false by (symmetry; apply Z.ltb_ge; exact Hd).
  destruct (0 <? d); [|eexists; reflexivity].
  set (l := if Z.min limit conf <? 0 then 0 else Z.min limit conf).
  assert (Hl : 0 <= l) by (unfold l; destruct (Z.ltb_spec (Z.min limit conf) 0); lia).
  destruct (Z.ltb_spec l d); [|eexists; reflexivity].
  rewrite slice_to_ok by lia. eexists; reflexivity.
Qed.

Lemma sync_request_safe : forall st limit conf d, safe (sync_request repaired st limit conf d).
Proof.
  intros. destruct (gate st true) eqn:G; [|unfold sync_request; rewrite G; apply safe_err].
  destruct (Z.ltb_spec d 0) as [Hd|Hd].
  - unfold sync_request. rewrite G. apply Z.ltb_lt in Hd. rewrite Hd. apply safe_err.
  - destruct (sync_request_repaired_ok st limit conf d G Hd) as [n ->]. apply safe_ok.
Qed.

Lemma join_request_safe : forall st t present, safe (join_request repaired st t present).
Proof.
  intros. unfold join_request. destruct (negb (gate st false)); [apply safe_err|].
  apply safe_bind; [apply itx_verify_safe|]. intros ok _.
  destruct (negb ok); [apply safe_err|]. destruct present; [apply safe_ok|apply safe_err].
Qed.

Lemma eager_sync_safe : forall st e pool, safe (fst (eager_sync repaired st e pool)).
Proof.
  intros. unfold eager_sync.
  destruct (negb (gate st false)); [apply safe_err|].
  destruct (negb (we_read_ok e)); [apply safe_err|].
  destruct (safe_cases _ _ (event_verify_safe (we_itxs e) (we_bsigs e) (we_creator e) (we_sig e) (we_sigok e)))
    as [[[|] ->]| ->]; cbn [fst]; try apply safe_err.
  destruct (we_rest_ok e); [|apply safe_err]. rewrite process_sigpool_repaired_ok. apply safe_ok.
Qed.

Lemma known_head_cons : forall k x h, known_head k h = true -> known_head (x :: k) h = true.
Proof.
  intros k x [y|] H; [|reflexivity]. cbn [known_head existsb] in *. rewrite H. apply orb_true_r.
Qed.

Lemma heads_ok_cons : forall k x hs, heads_ok k hs = true -> heads_ok (x :: k) hs = true.
Proof.
  intros k x hs. unfold heads_ok. induction hs as [|p r IH]; cbn [forallb]; intros H; [reflexivity|].
  apply andb_true_iff in H; destruct H as [Hp Hr]. rewrite (known_head_cons _ _ _ Hp), (IH Hr). reflexivity.
Qed.

Lemma heads_ok_del : forall k hs c, heads_ok k hs = true -> heads_ok k (del_head hs c) = true.
Proof.
  intros k hs c. unfold heads_ok, del_head. induction hs as [|p r IH]; cbn [forallb filter]; intros H; [reflexivity|].
  apply andb_true_iff in H; destruct H as [Hp Hr].
  destruct (negb (fst p =? c)); [cbn [forallb]; rewrite Hp, (IH Hr); reflexivity|exact (IH Hr)].
Qed.

Lemma heads_ok_set : forall k hs c v,
  heads_ok k hs = true -> known_head k v = true -> heads_ok k (set_head hs c v) = true.
Proof.
  intros k hs c v H Hv. unfold set_head. change (heads_ok k ((c, v) :: del_head hs c)) with
    (known_head k v && heads_ok k (del_head hs c)). rewrite Hv, (heads_ok_del _ _ _ H). reflexivity.
Qed.

(* as long as every recorded head is an event of the hashgraph, recording the heads succeeds and the
   property is kept - whether the event of the message was inserted or skipped *)
Lemma sync_heads_ok : forall known heads busy ins m,
  heads_ok known heads = true ->
  fst (fst (sync_heads known heads busy ins m)) = true /\
  heads_ok (snd (fst (sync_heads known heads busy ins m))) (snd (sync_heads known heads busy ins m)) = true.
Proof.
  intros known heads busy ins m H. unfold sync_heads.
  set (known1 := if ins then em_id m :: known else known).
  set (other := if ins && (em_creator m =? em_from m) then Some (em_id m) else None).
  set (heads1 := if ins then match head_of heads (em_creator m) with
                             | Some (Some _) => del_head heads (em_creator m) | _ => heads end else heads).
  assert (H1 : heads_ok known1 heads1 = true).
  { unfold known1, heads1. destruct ins; [|exact H].
    destruct (head_of heads (em_creator m)) as [[?|]|]; try (apply heads_ok_cons; exact H).
    apply heads_ok_cons. apply heads_ok_del. exact H. }
  assert (Ho : known_head known1 other = true).
  { unfold known1, other. destruct ins; cbn [andb]; [|reflexivity].
    destruct (em_creator m =? em_from m); [|reflexivity].
    cbn [known_head existsb]. rewrite Z.eqb_refl. reflexivity. }
  set (heads2 := match head_of heads1 (em_from m), other with
                 | Some (Some _), None => heads1 | _, _ => set_head heads1 (em_from m) other end).
  assert (H2 : heads_ok known1 heads2 = true).
  { unfold heads2. destruct (head_of heads1 (em_from m)) as [[?|]|]; destruct other;
      try (apply heads_ok_set; assumption); exact H1. }
  destruct busy; cbn [fst snd]; [rewrite H2; cbn [fst snd]; split; reflexivity|split; [reflexivity|exact H2]].
Qed.

Lemma handle_safe : forall st c, ns_locked st = false -> safe (fst (handle repaired st c)).
Proof.
  intros st c L. destruct c as [limit de|e sigs m|t present| |f snap blocks]; cbn [handle]; rewrite L.
  - destruct (negb (gate (ns_state st) true)); [apply safe_err|].
    cbn [fst]. apply safe_bind; [apply sync_request_safe|intros; apply safe_ok].
  - destruct (negb (gate (ns_state st) false)); [apply safe_err|].
    destruct (negb (we_read_ok e)); [apply safe_err|].
    destruct (safe_cases _ _ (event_verify_safe (we_itxs e) (we_bsigs e) (we_creator e) (we_sig e) (we_sigok e)))
      as [[[|] ->]| ->]; cbn [fst]; try apply safe_err.
    destruct (negb (we_rest_ok e) && negb (em_normal m)); [apply safe_err|].
    destruct (sync_heads (ns_known st) (ns_heads st) (ns_busy st) (we_rest_ok e) m) as [[rc k'] h'].
    destruct (negb rc); [apply safe_err|].
    set (pending := if we_rest_ok e then ns_pool st ++ sigs else ns_pool st).
    pose proof (process_sigpool_repaired_ok pending) as H.
    destruct (process_sigpool repaired pending) as [o rest]. cbn [fst] in *. subst o. apply safe_ok.
  - destruct (negb (gate (ns_state st) false)); [apply safe_err|].
    cbn [fst]. apply safe_bind; [apply join_request_safe|intros; apply safe_ok].
  - destruct (negb (gate (ns_state st) false)); [apply safe_err|apply safe_ok].
  - destruct (negb (ns_state st =? 1)); [apply safe_err|].
    cbn [fx_restore fx_rehearse repaired andb].
    destruct (safe_cases _ _ (ff_check_safe f)) as [[[] ->]| ->]; cbn [fst]; [|apply safe_err].
    destruct (negb (ff_insert_ok f)); cbn [fst]; [apply safe_err|apply safe_ok].
Qed.

(* what a command does to the node state: nothing; or the event passed validation and core.sync ran
   (hashgraph, heads and pool advance, the lock is released); or the response to a fast-forward request
   restored the snapshot before the checks and, past them, reset the hashgraph *)
Lemma handle_cases : forall fx st c o st', handle fx st c = (o, st') ->
  st' = st \/
  (exists e sigs m rc k' h' pool, c = CEager e sigs m /\
     sync_heads (ns_known st) (ns_heads st) (ns_busy st) (we_rest_ok e) m = (rc, k', h') /\
     st' = mkNS (ns_state st) (ns_conf_limit st) (if we_rest_ok e then ns_events st + 1 else ns_events st)
                (ns_blocks st) (ns_app st) pool (ns_locked st) k' h' (ns_busy st)) \/
  (exists f snap blocks st1, c = RFastForward f snap blocks /\
     st1 = (if fx_restore fx then st else set_app st snap) /\
     (st' = st1 \/
      exists bl, st' = reset_graph (set_app (set_blocks st1 bl) snap) /\ (o = Ok tt \/ fx_rehearse fx = false))).
Proof.
  intros fx st c o st' H.
  assert (same : forall o0 s, (o0, s) = (o, st') -> st' = s) by (intros o0 s E; inversion E; reflexivity).
  destruct c as [limit de|e sigs m|t present| |f snap blocks]; cbn [handle] in H.
  (* the three requests that are only answered *)
  1, 3, 4: left; destruct (negb (gate (ns_state st) _)); [|destruct (ns_locked st)]; exact (same _ _ H).
  - destruct (negb (gate (ns_state st) false)); [left; exact (same _ _ H)|].
    destruct (ns_locked st); [left; exact (same _ _ H)|].
    destruct (negb (we_read_ok e)); [left; exact (same _ _ H)|].
    destruct (event_verify fx (we_itxs e) (we_bsigs e) (we_creator e) (we_sig e) (we_sigok e)) as [[|]| | |];
      try (left; exact (same _ _ H)).
    destruct (negb (we_rest_ok e) && negb (em_normal m)); [left; exact (same _ _ H)|].
    right; left.
    destruct (sync_heads (ns_known st) (ns_heads st) (ns_busy st) (we_rest_ok e) m) as [[rc k'] h'] eqn:SH.
    exists e, sigs, m, rc, k', h'.
    destruct (negb rc); [|destruct (process_sigpool fx (if we_rest_ok e then ns_pool st ++ sigs else ns_pool st))];
      inversion H; eexists; repeat split; exact SH.
  - destruct (negb (ns_state st =? 1)); [left; exact (same _ _ H)|].
    destruct (ns_locked st); [left; exact (same _ _ H)|].
    right; right. exists f, snap, blocks, (if fx_restore fx then st else set_app st snap).
    split; [reflexivity|split; [reflexivity|]].
    destruct (ff_check fx f) as [[]| | |]; try (left; exact (same _ _ H)).
    destruct (fx_rehearse fx && negb (ff_insert_ok f)) eqn:R; [left; exact (same _ _ H)|].
    right. destruct (negb (ff_insert_ok f)); inversion H; eexists; split; try reflexivity.
    + right. rewrite andb_true_r in R. exact R.
    + left. reflexivity.
Qed.

(* only an ACCEPTED fast-forward response changes the delivered blocks or the application state *)
Lemma handle_blocks_unchanged : forall st c o st',
  handle repaired st c = (o, st') ->
  (ns_blocks st' = ns_blocks st /\ ns_app st' = ns_app st) \/
  (o = Ok tt /\ exists f snap blocks, c = RFastForward f snap blocks).
Proof.
  intros st c o st' H.
  destruct (handle_cases _ _ _ _ _ H)
    as [->|[(e & sigs & m & rc & k' & h' & pool & _ & _ & ->)|(f & snap & blocks & st1 & -> & -> & [->|(bl & _ & [->|R])])]].
  - left; split; reflexivity.
  - left; split; reflexivity.
  - left; split; reflexivity.
  - right; split; [reflexivity|]. exists f, snap, blocks; reflexivity.
  - discriminate R.
Qed.

(* what every command does to the node state, in one place: the fields no command changes (the core
   lock is released on every path), the event count never decreases, and every recorded head stays an
   event of the hashgraph *)
Definition keeps (st st' : nstate) : Prop :=
  ns_state st' = ns_state st /\ ns_conf_limit st' = ns_conf_limit st /\ ns_locked st' = ns_locked st /\
  ns_busy st' = ns_busy st /\ ns_events st <= ns_events st' /\
  (heads_ok (ns_known st) (ns_heads st) = true -> heads_ok (ns_known st') (ns_heads st') = true).

(* also of [set_app] and [set_blocks] of st, which touch none of these fields *)
Lemma keeps_refl : forall st, keeps st st.
Proof. intros st. unfold keeps. repeat split; try apply Z.le_refl. intros H; exact H. Qed.

Lemma handle_invariants : forall fx st c, keeps st (snd (handle fx st c)).
Proof.
  intros fx st c. destruct (handle fx st c) as [o st'] eqn:H. cbn [snd].
  destruct (handle_cases _ _ _ _ _ H)
    as [->|[(e & sigs & m & rc & k' & h' & pool & _ & SH & ->)|(f & snap & blocks & st1 & _ & -> & [->|(bl & -> & _)])]].
  - apply keeps_refl.
  - pose proof (sync_heads_ok (ns_known st) (ns_heads st) (ns_busy st) (we_rest_ok e) m) as K.
    rewrite SH in K. unfold keeps. cbn [ns_state ns_conf_limit ns_locked ns_busy ns_events ns_known ns_heads].
    repeat split; [destruct (we_rest_ok e); lia|intros HK; exact (proj2 (K HK))].
  - destruct (fx_restore fx); exact (keeps_refl st).
  - destruct (fx_restore fx); repeat split; apply Z.le_refl.
Qed.

Lemma handle_releases_lock : forall fx st c, ns_locked st = false -> ns_locked (snd (handle fx st c)) = false.
Proof. intros fx st c L. destruct (handle_invariants fx st c) as [_ [_ [H _]]]. rewrite H. exact L. Qed.

Lemma handle_events_mono : forall fx st c, ns_events st <= ns_events (snd (handle fx st c)).
Proof. intros fx st c. destruct (handle_invariants fx st c) as [_ [_ [_ [_ [H _]]]]]. exact H. Qed.

(* every recorded head is an event of the hashgraph: kept by every command, in particular by an event
   that is refused or silently skipped (both versions of the code) *)
Lemma handle_heads_known : forall fx st c,
  heads_ok (ns_known st) (ns_heads st) = true ->
  heads_ok (ns_known (snd (handle fx st c))) (ns_heads (snd (handle fx st c))) = true.
Proof. intros fx st c. destruct (handle_invariants fx st c) as [_ [_ [_ [_ [_ H]]]]]. exact H. Qed.

Lemma head_of_del_same : forall hs c, head_of (del_head hs c) c = None.
Proof.
  intros hs c. unfold head_of, del_head. induction hs as [|p r IH]; cbn [filter find]; [reflexivity|].
  destruct (fst p =? c) eqn:E; cbn [negb]; [exact IH|]. cbn [find]. rewrite E. exact IH.
Qed.

Lemma head_of_del_other : forall hs c k, (c =? k) = false -> head_of (del_head hs c) k = head_of hs k.
Proof.
  intros hs c k N. unfold head_of, del_head. induction hs as [|p r IH]; cbn [filter find]; [reflexivity|].
  destruct (fst p =? c) eqn:E; cbn [negb].
  - apply Z.eqb_eq in E. rewrite E, N. exact IH.
  - cbn [find]. destruct (fst p =? k); [reflexivity|exact IH].
Qed.

(* core.sync on an event that was not inserted: the hashgraph is as it was, and no head is new *)
Lemma sync_heads_skipped : forall known heads busy m,
  snd (fst (sync_heads known heads busy false m)) = known /\
  forall k h, head_of (snd (sync_heads known heads busy false m)) k = Some (Some h) ->
              head_of heads k = Some (Some h).
Proof.
  intros known heads busy m. unfold sync_heads. cbn [andb].
  assert (H2 : forall k h,
    head_of (match head_of heads (em_from m) with
             | Some (Some _) => heads
             | _ => set_head heads (em_from m) None end) k = Some (Some h) ->
    head_of heads k = Some (Some h)).
  { intros k h. destruct (head_of heads (em_from m)) as [[x|]|] eqn:E; intros H; try exact H;
      unfold set_head in H; unfold head_of in H at 1; cbn [find fst snd] in H;
      destruct (em_from m =? k) eqn:Ek; try discriminate;
      fold (head_of (del_head heads (em_from m)) k) in H;
      rewrite (head_of_del_other _ _ _ Ek) in H; exact H. }
  destruct busy; [destruct (heads_ok known _)|]; cbn [fst snd]; split;
    try reflexivity; try exact H2; intros k h H; discriminate H.
Qed.

(* a refused or silently skipped event (a validly signed fork, a duplicate, ...) leaves the hashgraph
   as it was and never becomes - nor makes anything else become - the head to use for the next
   self-event: every non-nil head after it was that same head before it *)
Lemma skipped_event_no_new_head : forall fx st e sigs m,
  we_rest_ok e = false ->
  let st' := snd (handle fx st (CEager e sigs m)) in
  ns_known st' = ns_known st /\
  forall k h, head_of (ns_heads st') k = Some (Some h) -> head_of (ns_heads st) k = Some (Some h).
Proof.
  intros fx st e sigs m R. cbv zeta.
  destruct (handle fx st (CEager e sigs m)) as [o st'] eqn:H. cbn [snd].
  destruct (handle_cases _ _ _ _ _ H)
    as [->|[(e0 & sigs0 & m0 & rc & k' & h' & pool & E & SH & ->)|(f & snap & blocks & st1 & E & _)]].
  - split; [reflexivity|intros k h Hk; exact Hk].
  - injection E as <- _ <-. rewrite R in SH.
    pose proof (sync_heads_skipped (ns_known st) (ns_heads st) (ns_busy st) m) as SK.
    rewrite SH in SK. exact SK.
  - discriminate E.
Qed.

Definition is_request (c : cmd) : bool :=
  match c with RFastForward _ _ _ => false | _ => true end.

(* whatever request was answered without error before an arbitrary message - a sync request whose
   eventDiff fails, a validly signed but ill-chained event included - is still answered without error
   after it *)
Lemma handle_still_serves : forall st c v,
  ns_locked st = false ->
  heads_ok (ns_known st) (ns_heads st) = true ->
  is_request v = true ->
  fst (handle repaired st v) = Ok tt ->
  fst (handle repaired (snd (handle repaired st c)) v) = Ok tt.
Proof.
  intros st c v L HK Hv Hok.
  destruct (handle_invariants repaired st c) as [Hs [Hc [Hl [Hb [Hm Hh]]]]].
  specialize (Hh HK).
  set (st' := snd (handle repaired st c)) in *.
  rewrite L in Hl.
  destruct v as [limit de|e sigs m|t present| |f snap blocks]; [| | | |discriminate]; cbn [handle] in *;
    rewrite Hs, Hl; rewrite L in Hok.
  - destruct (gate (ns_state st) true) eqn:G; [|discriminate].
    cbn [fst negb] in *. rewrite Hc. destruct de; [exact Hok|].
    assert (H0 : 0 <= ns_events st).
    { destruct (Z.ltb_spec (ns_events st) 0) as [Hn|Hn]; [|exact Hn].
      unfold sync_request in Hok. apply Z.ltb_lt in Hn. rewrite G, Hn in Hok. discriminate. }
    destruct (sync_request_repaired_ok (ns_state st) limit (ns_conf_limit st) (ns_events st') G
                (Z.le_trans _ _ _ H0 Hm)) as [n ->].
    reflexivity.
  - destruct (negb (gate (ns_state st) false)); [discriminate|].
    destruct (negb (we_read_ok e)); [discriminate|].
    destruct (event_verify repaired (we_itxs e) (we_bsigs e) (we_creator e) (we_sig e) (we_sigok e)) as [[|]| | |];
      try discriminate.
    destruct (negb (we_rest_ok e) && negb (em_normal m)); [discriminate|].
    rewrite Hb.
    pose proof (sync_heads_ok (ns_known st') (ns_heads st') (ns_busy st) (we_rest_ok e) m Hh) as [SH _].
    destruct (sync_heads (ns_known st') (ns_heads st') (ns_busy st) (we_rest_ok e) m) as [[rc k'] h'].
    cbn [fst] in SH. subst rc. cbn [negb].
    set (pending := if we_rest_ok e then ns_pool st' ++ sigs else ns_pool st').
    pose proof (process_sigpool_repaired_ok pending) as H.
    destruct (process_sigpool repaired pending) as [o rest]. exact H.
  - destruct (negb (gate (ns_state st) false)); [discriminate|exact Hok].
  - destruct (negb (gate (ns_state st) false)); [discriminate|reflexivity].
Qed.

(* a sync request whose eventDiff fails is answered with an error and changes nothing *)
Lemma sync_diff_error_is_noop : forall fx st limit,
  gate (ns_state st) true = true -> ns_locked st = false ->
  handle fx st (CSync limit true) = (Err, st).
Proof.
  intros fx st limit G L. cbn [handle]. rewrite G, L. cbn [negb].
  unfold sync_request. rewrite G. cbn [negb]. reflexivity.
Qed.
