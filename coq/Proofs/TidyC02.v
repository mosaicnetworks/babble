(* C02: explicit forms of "consecutive indexes from 0, no gaps", "append-only" and "a delivered
   block never changes except for its signature set", over the whole [hrun] (insertion attempts
   and ProcessSigPool calls).  Corollaries of Proofs/BlockInv.v. *)
From Coq Require Import ZArith List Bool Lia.
From V Require Import Model.ZMap Model.Quorum Model.HgImpl Proofs.BlockInv.
Import ListNotations.
Open Scope Z_scope.

Lemma list_eq_nth {A} (l l' : list A) : (forall k, nth_error l k = nth_error l' k) -> l = l'.
Proof.
  revert l'. induction l as [|a l IH]; intros [|a' l'] H; [reflexivity|specialize (H 0%nat); discriminate|specialize (H 0%nat); discriminate|].
  pose proof (H 0%nat) as H0. cbn in H0. inversion H0; subst. f_equal. apply IH. intros k. exact (H (S k)).
Qed.

Lemma nth_error_seq_lt s n k : (k < n)%nat -> nth_error (seq s n) k = Some (s + k)%nat.
Proof.
  revert s k. induction n as [|n IH]; intros s k H; [lia|]. destruct k as [|k]; cbn [seq nth_error].
  - f_equal. lia.
  - rewrite IH by lia. f_equal. lia.
Qed.

(* the delivery sequence carries the indexes 0, 1, ..., n-1 in this order: consecutive from 0,
   no gap, no repeat; n = last stored index + 1 *)
Theorem delivered_indexes st : binv st ->
  map b_index (delivered st) = map Z.of_nat (seq 0 (length (delivered st))) /\
  Z.of_nat (length (delivered st)) = last_block st + 1.
Proof.
  intros OK. split; [|apply (b_len st OK)].
  apply list_eq_nth. intros k. rewrite !nth_error_map.
  destruct (nth_error (delivered st) k) as [d|] eqn:Hk.
  - assert (Hlt : (k < length (delivered st))%nat) by (apply nth_error_Some; congruence).
    rewrite (nth_error_seq_lt 0 _ k Hlt). cbn [option_map plus]. rewrite (binv_consecutive st OK k d Hk). reflexivity.
  - apply nth_error_None in Hk.
    assert (E : nth_error (seq 0 (length (delivered st))) k = None) by (apply nth_error_None; rewrite seq_length; exact Hk).
    rewrite E. reflexivity.
Qed.

Theorem hrun_delivered_indexes self_ genesis oracle_ ops :
  let st := hrun (init_hg self_ genesis oracle_) ops in
  map b_index (delivered st) = map Z.of_nat (seq 0 (length (delivered st))) /\
  Z.of_nat (length (delivered st)) = last_block st + 1.
Proof. apply delivered_indexes, hrun_binv. Qed.

(* the delivery sequence only grows at its end *)
Theorem hrun_delivered_append_only self_ genesis oracle_ ops ops' :
  exists l, delivered (hrun (init_hg self_ genesis oracle_) (ops ++ ops')) =
            delivered (hrun (init_hg self_ genesis oracle_) ops) ++ l.
Proof. rewrite hrun_app. apply hrun_del, hrun_binv. Qed.

(* once delivered, a block is immutable but for its signature set, field by field: at every
   later point of every continuation (insertions and ProcessSigPool calls) the delivery sequence
   still has it at position k, and the store reports under index k a block with the same index,
   round-received, timestamp, transactions, internal transactions, frame (hash), peers (hash),
   committed flag, receipts and body identifier (state hash), whose signatures include the
   delivered block's *)
Theorem block_immutable_after_delivery self_ genesis oracle_ ops ops' k d :
  nth_error (delivered (hrun (init_hg self_ genesis oracle_) ops)) k = Some d ->
  nth_error (delivered (hrun (init_hg self_ genesis oracle_) (ops ++ ops'))) k = Some d /\
  exists b, zget (Z.of_nat k) (blocks (hrun (init_hg self_ genesis oracle_) (ops ++ ops'))) = Some b /\
    b_index b = b_index d /\ b_rr b = b_rr d /\ b_ts b = b_ts d /\ b_txs b = b_txs d /\
    b_itxs b = b_itxs d /\ b_frame b = b_frame d /\ b_peers b = b_peers d /\
    b_committed b = b_committed d /\ b_receipts b = b_receipts d /\ b_bodyid b = b_bodyid d /\
    (forall v o, aget v (b_sigs d) = Some o -> aget v (b_sigs b) = Some o).
Proof.
  intros H. destruct (delivered_block_immutable self_ genesis oracle_ ops ops' k d H) as [H1 [b [Hb [Eb Si]]]].
  split; [exact H1|]. exists b. split; [exact Hb|].
  destruct (body_fields b d Eb) as [F1 [F2 [F3 [F4 [F5 [F6 [F7 [F8 [F9 F10]]]]]]]]].
  repeat (split; [assumption|]). exact Si.
Qed.

(* the stored copy at two later points: same body *)
Corollary stored_body_stable self_ genesis oracle_ ops ops' k d b b' :
  nth_error (delivered (hrun (init_hg self_ genesis oracle_) ops)) k = Some d ->
  zget (Z.of_nat k) (blocks (hrun (init_hg self_ genesis oracle_) ops)) = Some b ->
  zget (Z.of_nat k) (blocks (hrun (init_hg self_ genesis oracle_) (ops ++ ops'))) = Some b' ->
  body b' = body b.
Proof.
  intros H Hb Hb'.
  destruct (delivered_block_immutable self_ genesis oracle_ ops ops' k d H) as [_ [b2 [Hb2 [Eb2 _]]]].
  destruct (delivered_block_immutable self_ genesis oracle_ ops [] k d H) as [_ [b1 [Hb1 [Eb1 _]]]].
  rewrite app_nil_r in Hb1. congruence.
Qed.
