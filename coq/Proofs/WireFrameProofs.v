(* C15, continuing WireProofs.v: events received in a frame (InsertFrameEvent after fix 5bf08c3) can be served in
   wire form again; the text validation makes the frame digest total. *)
From Coq Require Import ZArith List Bool String Ascii Lia Permutation.
From V Require Import Model.ZMap Model.Wire Proofs.WireSort Proofs.WireJson Proofs.WireProofs.
Import ListNotations.
Open Scope Z_scope.

(* one frame event: the node D that received it (store ds) names it to a reader (store rs) *)

(* peer ids are a function of the key: the two repertoires agree where D's is defined *)
Definition rep_agree (ds rs : wstore) : Prop :=
  forall k id, id_of_key k (ws_rep ds) = Some id -> id_of_key k (ws_rep rs) = Some id.
(* what D records about an event (creator, index) is what the reader has *)
Definition truthful (ds rs : wstore) : Prop :=
  forall h k i, ev_find h (ws_ev ds) = Some (k, i) -> ev_find h (ws_ev rs) = Some (k, i).

Lemma frame_self_parent_back : forall rs k cid sp i,
  store_ok rs -> id_of_key k (ws_rep rs) = Some cid ->
  (sp <> [] -> ev_find sp (ws_ev rs) = Some (k, i)) ->
  read_self_parent rs cid (if zlist_eqb sp [] then -1 else i) = Some sp.
Proof.
  intros rs k cid sp i Hok Hcid Hsp. apply (read_self_parent_back rs k); [exact Hok | exact Hcid |].
  destruct (zlist_eqb sp []) eqn:Esp; [reflexivity | apply Hsp, zlist_eqb_neq, Esp].
Qed.

(* an other-parent that D can name is described as SetWireInfo would *)
Lemma frame_other_parent_info : forall ds op,
  frame_other_parent_named ds op = true ->
  other_parent_info ds op = Some (inr (fst (frame_other_parent ds op), snd (frame_other_parent ds op))).
Proof.
  intros ds op. unfold frame_other_parent_named, other_parent_info, frame_other_parent.
  destruct (zlist_eqb op []); [reflexivity|].
  destruct (ev_find op (ws_ev ds)) as [[k i]|]; [|discriminate].
  destruct (id_of_key k (ws_rep ds)); [reflexivity | discriminate].
Qed.

Section FrameEvent.
  Variables (ds rs : wstore) (cid : Z) (e : event) (sp op : gostr) (k : bytes) (e1 : event).
  Hypothesis Hok : store_ok rs.
  Hypothesis Hrep : rep_agree ds rs.
  Hypothesis Htr : truthful ds rs.
  Hypothesis Hpar : b_parents (e_body e) = Some [sp; op].
  Hypothesis Hcr : b_creator (e_body e) = Some k.
  Hypothesis Hcid : id_of_key k (ws_rep ds) = Some cid.
  Hypothesis Hsp : sp <> [] -> ev_find sp (ws_ev rs) = Some (k, b_index (e_body e) - 1).
  Hypothesis Hbs : forall l b, b_bsigs (e_body e) = Some l -> In b l -> bs_validator b = Some k.

  Theorem frame_event_rewire :
    frame_other_parent_named ds op = true ->
    e_body e1 = frame_event_wire_info ds cid e -> e_sig e1 = e_sig e ->
    exists e2, read_wire rs (to_wire e1) = inr e2 /\ same_public e2 e /\ same_wire_info e2 e1.
  Proof using Hok Hrep Htr Hpar Hcr Hcid Hsp Hbs.
    intros Hnamed Hb1 Hs1. pose proof (Hrep _ _ Hcid) as Hcid'.
    unfold frame_event_wire_info in Hb1. cbv zeta in Hb1. rewrite Hpar in Hb1.
    refine (read_wire_back rs e e1 sp op k cid _ _ _ _ _ _ Hpar Hcr Hbs Hb1 Hs1).
    - exact (so_rep rs Hok _ _ Hcid').
    - exact (frame_self_parent_back rs k cid sp _ Hok Hcid' Hsp).
    - exact (other_parent_back ds rs op _ _ Hok Hrep Htr (frame_other_parent_info ds op Hnamed)).
  Qed.

  (* the residual: an other-parent that D does not have is left out of the wire form, and the
     reader builds an event WITHOUT it (another hash) *)
  Theorem frame_event_rewire_residual :
    frame_other_parent_named ds op = false ->
    e_body e1 = frame_event_wire_info ds cid e ->
    op <> [] /\ exists e2, read_wire rs (to_wire e1) = inr e2 /\ b_parents (e_body e2) = Some [sp; []].
  Proof using Hok Hrep Hpar Hcr Hcid Hsp.
    intros Hnamed Hb1. pose proof (Hrep _ _ Hcid) as Hcid'.
    assert (op <> [] /\ frame_other_parent ds op = (0, -1)) as [Hop Hfo].
    { unfold frame_other_parent_named in Hnamed. unfold frame_other_parent.
      destruct (zlist_eqb op []) eqn:Eop; [discriminate|]. split; [apply zlist_eqb_neq; exact Eop|].
      destruct (ev_find op (ws_ev ds)) as [[k2 i2]|]; [|reflexivity].
      destruct (id_of_key k2 (ws_rep ds)); [discriminate | reflexivity]. }
    split; [exact Hop|].
    unfold frame_event_wire_info in Hb1. cbv zeta in Hb1. rewrite Hpar, Hfo in Hb1.
    unfold read_wire, to_wire. cbv zeta. rewrite Hb1.
    cbn [with_wire fst snd b_txs b_itxs b_bsigs b_cid b_opcid b_index b_spi b_opi b_ts
         w_cid w_spi w_opcid w_opi w_txs w_itxs w_bsigs w_index w_ts w_sig].
    rewrite (so_rep rs Hok _ _ Hcid'), (frame_self_parent_back rs k cid sp _ Hok Hcid' Hsp).
    unfold read_other_parent. cbn. eexists. split; reflexivity.
  Qed.
End FrameEvent.

Lemma insert_frame_events_cons : forall st n h fe e l st' n' out,
  insert_frame_events st n ((h, (fe, e)) :: l) = Some (st', n', out) ->
  exists cid out2,
    let e1 := set_private e (frame_event_wire_info st cid e) n (Some (fe_round fe)) (Some (fe_lamport fe)) in
    id_of_key (key_bytes (b_creator (e_body e))) (ws_rep st) = Some cid /\
    insert_frame_events (store_add st h cid e1) (n + 1) l = Some (st', n', out2) /\
    out = (e1, frame_other_parent_named st (other_parent_of e)) :: out2.
Proof.
  intros st n h fe e l st' n' out H. cbn [insert_frame_events] in H. unfold insert_frame_event in H.
  destruct (id_of_key _ _) as [cid|]; [|discriminate].
  destruct (insert_frame_events _ _ l) as [[[st2 n2] out2]|] eqn:Hr; [|discriminate].
  injection H as <- <- <-. exists cid, out2. repeat split. exact Hr.
Qed.

(* topological indexes are consecutive from the counter: the order in which the node later serves
   the events (sort by topological index) is the insertion order *)
Lemma insert_frame_events_topo : forall l st n st' n' out,
  insert_frame_events st n l = Some (st', n', out) ->
  map (fun r => e_topo (fst r)) out = zseq n (List.length l).
Proof.
  induction l as [|[h [fe e]] l IH]; intros st n st' n' out H.
  - injection H as _ _ <-. reflexivity.
  - destruct (insert_frame_events_cons _ _ _ _ _ _ _ _ _ H) as (cid & out2 & _ & Hr & ->).
    cbn [List.length map fst zseq set_private e_topo]. rewrite (IH _ _ _ _ _ Hr). reflexivity.
Qed.

Lemma zseq_nth : forall len n i v, nth_error (zseq n len) i = Some v -> v = n + Z.of_nat i.
Proof.
  induction len as [|len IH]; intros n [|i] v H; cbn [zseq nth_error] in H; try discriminate.
  - injection H as <-. lia.
  - rewrite (IH _ _ _ H). lia.
Qed.

Theorem frame_events_topological : forall l st n st' n' out i j a b,
  insert_frame_events st n l = Some (st', n', out) ->
  nth_error out i = Some a -> nth_error out j = Some b -> (i < j)%nat ->
  e_topo (fst a) < e_topo (fst b).
Proof.
  intros l st n st' n' out i j a b H Ha Hb Hij.
  assert (forall k x, nth_error out k = Some x -> e_topo (fst x) = n + Z.of_nat k) as Hk.
  { intros k x Hx. apply (zseq_nth (List.length l)). rewrite <- (insert_frame_events_topo _ _ _ _ _ _ H).
    exact (map_nth_error (fun r => e_topo (fst r)) k out Hx). }
  rewrite (Hk _ _ Ha), (Hk _ _ Hb). lia.
Qed.

(* what the reader knows about one frame event: its parents (self-parent by the same creator at
   index - 1: the admission invariant), its own block signatures, and the event itself *)
Definition reader_knows (rs : wstore) (x : gostr * (fevent * event)) : Prop :=
  let e := snd (snd x) in
  exists sp op k,
    b_parents (e_body e) = Some [sp; op] /\ b_creator (e_body e) = Some k /\
    (sp <> [] -> ev_find sp (ws_ev rs) = Some (k, b_index (e_body e) - 1)) /\
    (forall l b, b_bsigs (e_body e) = Some l -> In b l -> bs_validator b = Some k) /\
    ev_find (fst x) (ws_ev rs) = Some (k, b_index (e_body e)).

Lemma truthful_add : forall ds rs h cid e k,
  truthful ds rs -> b_creator (e_body e) = Some k -> ev_find h (ws_ev rs) = Some (k, b_index (e_body e)) ->
  truthful (store_add ds h cid e) rs.
Proof.
  intros ds rs h cid e k Htr Hcr Hh h' k' i' H. unfold store_add in H. cbn [ws_ev ev_find] in H.
  destruct (zlist_eqb h h') eqn:E.
  - apply zlist_eqb_eq in E. subst h'. injection H as <- <-. rewrite Hcr. exact Hh.
  - apply Htr. exact H.
Qed.

Theorem frame_rewire_all : forall rs l ds n ds' n' out,
  store_ok rs -> rep_agree ds rs -> truthful ds rs ->
  Forall (reader_knows rs) l ->
  insert_frame_events ds n l = Some (ds', n', out) ->
  Forall2 (fun x r => snd r = true ->
                      exists e2, read_wire rs (to_wire (fst r)) = inr e2 /\
                                 same_public e2 (snd (snd x)) /\ same_wire_info e2 (fst r)) l out.
Proof.
  intros rs l. induction l as [|[h [fe e]] l IH]; intros ds n ds' n' out Hok Hrep Htr Hall H.
  - injection H as _ _ <-. constructor.
  - destruct (insert_frame_events_cons _ _ _ _ _ _ _ _ _ H) as (cid & out2 & Hcid & Hr & ->).
    apply Forall_cons_iff in Hall. destruct Hall as [(sp & op & k & Hpar & Hcr & Hsp & Hbs & Hself) Hrest].
    cbn [fst snd] in *. rewrite Hcr in Hcid. cbn [key_bytes] in Hcid.
    constructor.
    + cbn [fst snd]. intro Hnamed. unfold other_parent_of in Hnamed. rewrite Hpar in Hnamed.
      apply (frame_event_rewire ds rs cid e sp op k); try assumption; reflexivity.
    + refine (IH _ _ _ _ _ Hok _ _ Hrest Hr); [exact Hrep|].
      apply (truthful_add ds rs h cid _ k Htr); unfold set_private, frame_event_wire_info; cbv zeta;
        cbn [e_body]; rewrite Hpar; assumption.
Qed.

Lemma encodable_valid : forall s, encodable s = true -> valid_str s = true.
Proof. intros s H. unfold encodable in H. apply andb_true_iff in H. apply H. Qed.
Lemma encodable_nofffd : forall s, encodable s = true -> str_has_fffd s = false.
Proof. intros s H. unfold encodable in H. apply andb_true_iff in H. destruct H as [_ H]. apply negb_true_iff in H. exact H. Qed.

Definition implies {A} (f g : A -> bool) : Prop := forall a, f a = true -> g a = true.

Lemma forallb_impl : forall {A} {f g : A -> bool}, implies f g -> implies (forallb f) (forallb g).
Proof.
  intros A f g H l Hl. apply forallb_forall. intros a Ha. apply H, (forallb_in f l a Hl Ha).
Qed.

(* a signature string that DecodeSignature accepts only has characters of 0-9 a-z A-Z + - | *)
Definition sig_char (c : Z) : bool := b36_digit c || (c =? 43) || (c =? 45) || (c =? 124).

Lemma existsb_false : forall {A} (f : A -> bool) l, (forall a, In a l -> f a = false) -> existsb f l = false.
Proof.
  intros A f l H. induction l as [|a l IH]; [reflexivity|]. cbn [existsb].
  rewrite (H a (or_introl eq_refl)). apply IH. intros b Hb. apply H. right. exact Hb.
Qed.

Lemma sig_chars_encodable : implies (forallb sig_char) encodable.
Proof.
  intros s H. unfold encodable, valid_str, str_has_fffd. apply andb_true_iff. split.
  - revert H. apply forallb_impl. intros c Hc. unfold sig_char, b36_digit in Hc. lia.
  - apply negb_true_iff, existsb_false. intros c Hin. pose proof (forallb_in _ _ _ H Hin) as Hc.
    unfold sig_char, b36_digit, UFFFD in *. lia.
Qed.

Lemma nonempty_digits_chars : implies nonempty_digits (forallb sig_char).
Proof.
  intros [|c s] H; [discriminate|]. revert H. apply forallb_impl.
  intros d Hd. unfold sig_char. rewrite Hd. reflexivity.
Qed.

Lemma b36_int_chars : forall s, b36_int s = true -> forallb sig_char s = true.
Proof.
  intros [|c r] H; [discriminate|]. cbn [b36_int] in H.
  destruct ((c =? 43) || (c =? 45)) eqn:E.
  - cbn [forallb]. rewrite (nonempty_digits_chars _ H). unfold sig_char.
    apply orb_true_iff in E. destruct E as [E|E]; rewrite E; rewrite ?orb_true_r; reflexivity.
  - apply nonempty_digits_chars. exact H.
Qed.

Lemma split_bar_chars : forall s, forallb (forallb sig_char) (split_bar s) = true -> forallb sig_char s = true.
Proof.
  induction s as [|c r IH]; intros H; [reflexivity|]. cbn [split_bar] in H.
  destruct (c =? 124) eqn:E.
  - cbn [forallb] in *. rewrite (IH H). unfold sig_char. rewrite E, !orb_true_r. reflexivity.
  - destruct (split_bar r) as [|x t] eqn:Es.
    + cbn [forallb] in *. apply andb_true_iff in H. destruct H as [H _]. apply andb_true_iff in H. destruct H as [Hc _].
      rewrite Hc. rewrite IH by reflexivity. reflexivity.
    + cbn [forallb] in *. apply andb_true_iff in H. destruct H as [H Ht]. apply andb_true_iff in H. destruct H as [Hc Hx].
      rewrite Hc. rewrite IH; [reflexivity|]. rewrite Hx, Ht. reflexivity.
Qed.

Theorem sig_decodes_encodable : forall s, sig_decodes s = true -> encodable s = true.
Proof.
  intros s H. apply sig_chars_encodable. apply split_bar_chars. unfold sig_decodes in H.
  destruct (split_bar s) as [|a [|b [|c t]]]; try discriminate.
  apply andb_true_iff in H. destruct H as [Ha Hb]. cbn [forallb].
  rewrite (b36_int_chars _ Ha), (b36_int_chars _ Hb). reflexivity.
Qed.

(* no document built from encodable strings contains U+FFFD: [no_fffd ok g] says so of what [g]
   writes of a value that satisfies [ok] *)
Definition no_fffd {A} (ok : A -> bool) (g : A -> json) : Prop := forall a, ok a = true -> jhas_fffd (g a) = false.

(* an object has U+FFFD in it when the value of one of its fields has *)
Lemma nf_obj : forall l, Forall (fun kv : string * json => jhas_fffd (snd kv) = false) l -> jhas_fffd (JObj l) = false.
Proof. intros l H. cbn [jhas_fffd]. apply existsb_false, Forall_forall, H. Qed.

Lemma nf_list : forall {A} {ok : A -> bool} {g}, no_fffd ok g -> no_fffd (list_forall ok) (j_list g).
Proof.
  intros A ok g H [l|] Hl; [|reflexivity]. cbn [j_list jhas_fffd]. cbn [list_forall] in Hl.
  apply existsb_false. intros j Hj. apply in_map_iff in Hj. destruct Hj as (a & <- & Ha).
  apply H, (forallb_in _ _ _ Hl Ha).
Qed.

Lemma nf_ptr : forall {A} {ok : A -> bool} {g}, no_fffd ok g -> no_fffd (opt_forall ok) (j_ptr g).
Proof. intros A ok g H [a|] Ho; [|reflexivity]. exact (H a Ho). Qed.

Lemma nf_smap : forall {A} {ok : A -> bool} {g},
  no_fffd ok g -> no_fffd (list_forall (fun kv => encodable (fst kv) && ok (snd kv))) (j_smap raw g).
Proof.
  intros A ok g H [l|] Hl; [|reflexivity]. cbn [j_smap jhas_fffd]. cbn [list_forall] in Hl.
  apply existsb_false. intros kv Hin. apply in_isort, in_map_iff in Hin. destruct Hin as (kv0 & <- & Hin).
  apply forallb_in with (a := kv0) in Hl; [|exact Hin]. apply andb_true_iff in Hl. destruct Hl as [Hk Hv].
  cbn [fst snd]. unfold raw. rewrite (encodable_nofffd _ Hk). exact (H _ Hv).
Qed.

Lemma nf_imap : forall {A} {ok : A -> bool} {g},
  no_fffd ok g -> no_fffd (list_forall (fun kv : Z * A => ok (snd kv))) (j_imap g).
Proof.
  intros A ok g H [l|] Hl; [|reflexivity]. cbn [j_imap jhas_fffd]. cbn [list_forall] in Hl.
  apply existsb_false. intros kv Hin. apply in_isort, in_map_iff in Hin. destruct Hin as (kv0 & <- & Hin).
  exact (H _ (forallb_in _ _ _ Hl Hin)).
Qed.

Lemma nf_str : no_fffd encodable (j_str raw).
Proof. exact encodable_nofffd. Qed.

Lemma nf_bytes : forall b, jhas_fffd (j_bytes b) = false.
Proof. intros [b|]; reflexivity. Qed.

Lemma nf_txs : forall l, jhas_fffd (j_list j_bytes l) = false.
Proof.
  intros [l|]; [|reflexivity]. cbn [j_list jhas_fffd]. apply existsb_false.
  intros j Hj. apply in_map_iff in Hj. destruct Hj as (a & <- & _). apply nf_bytes.
Qed.

Lemma nf_peer : no_fffd peer_text_ok (j_peer raw).
Proof.
  intros p H. unfold peer_text_ok in H. split_and.
  apply nf_obj. repeat constructor; apply encodable_nofffd; assumption.
Qed.

Lemma nf_itx : no_fffd itx_frame_text_ok (j_itx raw).
Proof.
  intros t H. unfold itx_frame_text_ok in H. split_and. apply nf_obj. repeat constructor.
  - apply nf_obj. repeat constructor. apply nf_peer. assumption.
  - apply encodable_nofffd. assumption.
Qed.

Lemma nf_bsig : no_fffd (fun b => encodable (bs_sig b)) (j_bsig raw).
Proof. intros b H. apply nf_obj. repeat constructor; [apply nf_bytes | exact (encodable_nofffd _ H)]. Qed.

Lemma nf_event : no_fffd event_frame_text_ok (j_event raw).
Proof.
  intros e H. unfold event_frame_text_ok in H. split_and. apply nf_obj. repeat constructor.
  - apply nf_obj. repeat constructor.
    + apply nf_txs.
    + apply (nf_list nf_itx). assumption.
    + apply (nf_list nf_str). assumption.
    + apply nf_bytes.
    + apply (nf_list nf_bsig). assumption.
  - apply encodable_nofffd. assumption.
Qed.

Lemma nf_fevent : no_fffd fevent_text_ok (j_fevent raw).
Proof. intros fe H. apply nf_obj. repeat constructor. exact (nf_ptr nf_event _ H). Qed.

Lemma nf_fevents : no_fffd fevents_text_ok (j_list (j_ptr (j_fevent raw))).
Proof. exact (nf_list (nf_ptr nf_fevent)). Qed.

Lemma nf_peers : no_fffd peers_text_ok (j_peers raw).
Proof. exact (nf_list (nf_ptr nf_peer)). Qed.

Lemma nf_root : no_fffd (fun r => fevents_text_ok (r_events r)) (j_root raw).
Proof. intros r H. apply nf_obj. repeat constructor. exact (nf_fevents _ H). Qed.

Theorem frame_text_ok_no_fffd : forall f, frame_text_ok f = true -> jhas_fffd (j_frame raw f) = false.
Proof.
  intros f H. unfold frame_text_ok in H. split_and. apply nf_obj. repeat constructor.
  - apply nf_peers. assumption.
  - apply (nf_smap (nf_ptr nf_root)). assumption.
  - apply nf_fevents. assumption.
  - apply (nf_imap nf_peers). assumption.
Qed.

Theorem frame_text_ok_digest_total : forall f, frame_text_ok f = true -> frame_digest f <> None.
Proof.
  intros f H. unfold frame_digest, ug_write. rewrite (frame_text_ok_no_fffd f H). discriminate.
Qed.

(* validated text is valid UTF-8: the round trip theorems apply *)
Lemma list_all_impl : forall {A} {f g : A -> bool}, implies f g -> implies (list_all f) (list_all g).
Proof. intros A f g H [l|] Hl; [|reflexivity]. exact (forallb_impl H l Hl). Qed.

Lemma opt_all_impl : forall {A} {f g : A -> bool}, implies f g -> implies (opt_all f) (opt_all g).
Proof. intros A f g H [a|] Ho; [|reflexivity]. exact (H a Ho). Qed.

Lemma peer_text_valid : implies peer_text_ok peer_valid.
Proof.
  intros p H. unfold peer_text_ok in H. split_and. unfold peer_valid.
  rewrite !encodable_valid by assumption. reflexivity.
Qed.

Lemma itx_text_valid : implies itx_frame_text_ok itx_valid.
Proof.
  intros t H. unfold itx_frame_text_ok in H. split_and. unfold itx_valid.
  rewrite peer_text_valid, encodable_valid by assumption. reflexivity.
Qed.

Lemma event_text_valid : implies event_frame_text_ok event_valid.
Proof.
  intros e H. unfold event_frame_text_ok in H. split_and.
  unfold event_valid, body_valid.
  rewrite (list_all_impl itx_text_valid), (list_all_impl encodable_valid),
          (list_all_impl (g := bsig_valid) (fun b => encodable_valid (bs_sig b))), encodable_valid by assumption.
  reflexivity.
Qed.

Lemma fevents_text_valid : implies fevents_text_ok (list_all (opt_all fevent_valid)).
Proof. exact (list_all_impl (opt_all_impl (fun fe => opt_all_impl event_text_valid (fe_core fe)))). Qed.

Lemma peers_text_valid : implies peers_text_ok peers_valid.
Proof. exact (list_all_impl (opt_all_impl peer_text_valid)). Qed.

Theorem frame_text_ok_valid : forall f, frame_text_ok f = true -> frame_valid f = true.
Proof.
  intros f H. unfold frame_text_ok in H. split_and. unfold frame_valid.
  rewrite peers_text_valid, fevents_text_valid by assumption.
  assert (list_all (fun kv : gostr * option root => valid_str (fst kv) && opt_all root_valid (snd kv)) (f_roots f) = true) as ->.
  { eapply list_all_impl; [|eassumption]. intros [k v] Hkv. cbn [fst snd] in *.
    apply andb_true_iff in Hkv. destruct Hkv as [Hk Hv]. rewrite (encodable_valid _ Hk). cbn [andb].
    exact (opt_all_impl (fun r => fevents_text_valid (r_events r)) v Hv). }
  assert (list_all (fun kv : Z * option (list (option peer)) => peers_valid (snd kv)) (f_psets f) = true) as ->.
  { eapply list_all_impl; [|eassumption]. intros kv Hkv. exact (peers_text_valid _ Hkv). }
  reflexivity.
Qed.

(* a validated frame survives the JSON transport and the database form with the same digest *)
Theorem validated_frame_roundtrip : forall f,
  frame_text_ok f = true ->
  frame_digest f <> None /\
  (exists f', json_rt_frame f = Some f' /\ frame_digest f' = frame_digest f) /\
  (no_nil_root f = true -> exists f', ug_rt_frame f = Some (Some f') /\ frame_digest f' = frame_digest f).
Proof.
  intros f H. pose proof (frame_text_ok_digest_total f H) as Hd. pose proof (frame_text_ok_valid f H) as Hv.
  split; [exact Hd|]. split.
  - destruct (frame_json_roundtrip f Hv) as (f' & H1 & H2 & _). exists f'. split; assumption.
  - intros Hn. destruct (frame_db_roundtrip f Hv Hn Hd) as (f' & H1 & H2 & _). exists f'. split; assumption.
Qed.

(* admission side: what the validation lets into a node only contributes validated text *)

(* the hashes a store hands out are "0X" + hex: encodable *)
Definition store_text_ok (st : wstore) : Prop := forall h v, In (h, v) (ws_ev st) -> encodable h = true.

(* checkSelfParent / checkOtherParent: each parent is "" or the hash of a stored event *)
Definition parents_known (st : wstore) (e : event) : Prop :=
  exists sp op, b_parents (e_body e) = Some [sp; op] /\
    (sp = [] \/ exists v, ev_find sp (ws_ev st) = Some v) /\ (op = [] \/ exists v, ev_find op (ws_ev st) = Some v).

(* an internal transaction that passes InternalTransaction.Verify (the gate of
   node.processJoinRequest, and part of Event.Verify) passes the frame's check *)
Theorem verified_itx_text : forall t, itx_text_ok t = true -> itx_frame_text_ok t = true.
Proof.
  intros t H. unfold itx_text_ok in H. split_and. unfold itx_frame_text_ok.
  rewrite sig_decodes_encodable by assumption. assumption.
Qed.

(* an event that passes Event.Verify's text checks and whose parents are "" or stored hashes
   (InsertEvent) passes the frame's check: whatever frame it ends up in, it does not stop the hash *)
Theorem admitted_event_text : forall st e,
  store_text_ok st -> event_text_ok e = true -> parents_known st e ->
  event_frame_text_ok e = true /\ event_valid e = true /\ jhas_fffd (j_event raw e) = false.
Proof.
  intros st e Hst Hev (sp & op & Hpar & Hsp & Hop).
  assert (event_frame_text_ok e = true) as Hf.
  { unfold event_text_ok in Hev. split_and. unfold event_frame_text_ok.
    rewrite sig_decodes_encodable by assumption. rewrite Hpar. cbn [list_forall forallb].
    assert (forall p, (p = [] \/ exists v, ev_find p (ws_ev st) = Some v) -> encodable p = true) as Hx.
    { intros p [-> | [v Hv]]; [reflexivity|]. eapply Hst. apply ev_find_in. exact Hv. }
    rewrite (Hx sp Hsp), (Hx op Hop). cbn [andb].
    apply andb_true_iff. split.
    - eapply list_all_impl; [|eassumption]. intros b Hb. apply andb_true_iff in Hb. apply Hb.
    - eapply list_all_impl; [exact verified_itx_text | assumption]. }
  split; [exact Hf|]. split; [apply event_text_valid; exact Hf | apply nf_event; exact Hf].
Qed.

(* a frame assembled from validated peers (accepted internal transactions or the operator's
   peers.json), admitted events and participant keys passes Frame.ValidateText by construction,
   hence its hash is defined on every node; a frame received in a fast-forward is checked
   directly (core.checkFastForward) *)
Theorem assembled_frame_text : forall f,
  peers_text_ok (f_peers f) = true ->
  list_forall (fun kv : Z * option (list (option peer)) => peers_text_ok (snd kv)) (f_psets f) = true ->
  list_forall (fun kv : gostr * option root => encodable (fst kv) && opt_forall (fun r => fevents_text_ok (r_events r)) (snd kv)) (f_roots f) = true ->
  fevents_text_ok (f_events f) = true ->
  frame_text_ok f = true /\ frame_digest f <> None.
Proof.
  intros f H1 H2 H3 H4.
  assert (frame_text_ok f = true) as H by (unfold frame_text_ok; rewrite H1, H2, H3, H4; reflexivity).
  split; [exact H | apply frame_text_ok_digest_total; exact H].
Qed.
