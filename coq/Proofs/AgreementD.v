(* Fame level (model after fix 05eda0b: quorum of voting round j = super-majority of the voters' set, round
   j - 1).  Two states satisfying the division invariant for one per-round assignment P, whose tables answer P on
   the rounds they have, never decide the fame of a witness differently.  Run level: Proofs/RoundAgreeD.v. *)
From Coq Require Import ZArith List Bool Lia ZifyBool Permutation.
From V Require Import Model.ZMap Model.Quorum Model.Voting Model.VotingRef Model.VotingRefD Model.HgImpl
  Proofs.ZMapFacts Proofs.QuorumProofs Proofs.AdmissionProofs Proofs.Ancestry Proofs.BlockInv Proofs.RoundOrder
  Proofs.VotingProofs Proofs.VotingProofsD Proofs.FameBridge Proofs.Static Proofs.FirstDesc Proofs.DivInv
  Proofs.Height Proofs.ViewOk Proofs.SameHistory Proofs.FirstDescD Proofs.StronglySeeD Proofs.RoundFunD
  Proofs.ViewOkD Proofs.SameHistoryD.
Import ListNotations.
Open Scope Z_scope.

(* the invariant only reads P on the rounds the state has *)
Lemma wl_in_round st r x w : In (x, w) (wl st r) -> get_round st r <> None.
Proof. unfold wl. destruct (get_round st r); [discriminate|intros []]. Qed.

Lemma cinvD_ext P P' E st :
  (forall q, get_round st q <> None -> P q = P' q) -> cinvD P E st -> cinvD P' E st.
Proof.
  intros HP I. destruct I as [I1 I2 I3 I4 I5 I6 I7 I8 I9 I10 I11 I12 I13 I14].
  constructor; auto.
  - intros x r Hr. destruct (I3 x r Hr) as [H0 [ex [Hx [spr [opr [Hs [Ho [Hz Hq]]]]]]]].
    split; [exact H0|]. exists ex. split; [exact Hx|]. exists spr, opr. repeat split; auto.
    + apply (Hq H).
    + destruct (Hq H) as [Hg ->]. rewrite (HP _ Hg). reflexivity.
  - intros x w Hw. destruct (I4 x w Hw) as [ex [r [Hx [Hr Hq]]]].
    exists ex, r. split; [exact Hx|]. split; [exact Hr|].
    rewrite <- (HP r (wl_in_round st r x w (I8 x r w Hr Hw))). exact Hq.
Qed.

Lemma goodD_ext P P' st : (forall q, get_round st q <> None -> P q = P' q) -> goodD P st -> goodD P' st.
Proof. intros HP [A B C D]. constructor; auto. apply (cinvD_ext P P' None st HP C). Qed.

Lemma fame_loop_no_witness P rw r : forall js votes,
  (forall j, In j js -> rw j = Some []) -> fame_loop P rw r js votes = Some None.
Proof.
  induction js as [|j rest IH]; intros votes H; cbn [fame_loop]; [reflexivity|].
  rewrite (H j (or_introl eq_refl)). cbn [fame_round_j]. apply IH. intros j' Hj'. apply H. right. exact Hj'.
Qed.

(* a first-round voter whose "sees" lookup fails makes the loop fail *)
Lemma fame_loop_unseen P rw r js y l votes : rw (r + 1) = Some (y :: l) -> vp_sees P y = None ->
  fame_loop P rw r ((r + 1) :: js) votes = None.
Proof. intros E Hs. cbn [fame_loop]. rewrite E. cbn [fame_round_j]. rewrite Z.add_simpl_l, Hs. reflexivity. Qed.

Lemma zrange_nil lo hi : hi < lo -> zrange lo hi = [].
Proof. intros H. unfold zrange. replace (Z.to_nat (hi - lo + 1)) with O by lia. reflexivity. Qed.
Lemma zrange_cons lo hi : lo <= hi -> zrange lo hi = lo :: zrange (lo + 1) hi.
Proof.
  intros H. unfold zrange. replace (Z.to_nat (hi - lo + 1)) with (S (Z.to_nat (hi - (lo + 1) + 1))) by lia.
  reflexivity.
Qed.

Section PreD.
  Variables (P : Z -> peerset) (st : hg).
  Hypothesis G : goodD P st.
  Hypothesis R : contig st.
  Hypothesis T : forall q, 0 <= q <= last_round st -> get_peerset st q = Some (P q).

  Lemma round_witnesses_witsD j : 0 <= j <= last_round st -> round_witnesses st j = Some (wits st j).
  Proof.
    intros Hj. pose proof (round_witnesses_someD P st R T j Hj) as H.
    pose proof (view_witnesses_witsD P st T j Hj) as E. unfold view_witnesses in E.
    destruct (round_witnesses st j); [congruence|contradiction].
  Qed.

  Lemma wits_empty_upD j0 : 0 <= j0 -> wits st j0 = [] -> forall n j, j = j0 + Z.of_nat n -> wits st j = [].
  Proof.
    intros H0 E0. induction n as [|n IH]; intros j Hj; [replace j with j0 by lia; exact E0|].
    destruct (wits st j) as [|y l] eqn:E; [reflexivity|exfalso].
    assert (Hy : In y (wits st j)) by (rewrite E; left; reflexivity).
    apply (wits_specD P st G) in Hy. destruct Hy as [Hr _].
    destruct (cd_rdom _ _ _ (gD_c _ _ G) y j Hr) as [_ [ey [Hey _]]].
    pose proof (quorumD P st G y ey j Hey Hr ltac:(lia)) as Hq.
    rewrite (IH (j - 1) ltac:(lia)) in Hq. cbn in Hq. pose proof (super_majority_pos (P (j - 1))). lia.
  Qed.

  Lemma fame_all_emptyD x r : -1 <= r -> (forall j, r + 1 <= j -> wits st j = []) -> fame_of st x r = Some None.
  Proof.
    intros Hr H. unfold fame_of. apply fame_loop_no_witness. intros j Hj. apply In_zrange in Hj.
    rewrite (round_witnesses_witsD j ltac:(lia)). rewrite (H j ltac:(lia)). reflexivity.
  Qed.

  Lemma fame_decided_preD x r v : fame_of st x r = Some (Some v) ->
    -1 <= r <= last_round st /\ exists ex, get_event st x = Some ex.
  Proof.
    intros Hf.
    assert (Hlr : r + 1 <= last_round st).
    { destruct (Z.le_gt_cases (r + 1) (last_round st)); [assumption|].
      unfold fame_of in Hf. rewrite zrange_nil in Hf by lia. discriminate. }
    assert (Hr : -1 <= r).
    { destruct (Z.le_gt_cases (-1) r); [assumption|exfalso].
      unfold fame_of in Hf. rewrite (zrange_cons (r + 1)) in Hf by lia. cbn [fame_loop] in Hf.
      unfold round_witnesses, get_round in Hf. rewrite zget_neg in Hf by lia. discriminate. }
    split; [lia|].
    destruct (get_event st x) as [ex|] eqn:Hx; [eauto|exfalso].
    destruct (wits st (r + 1)) as [|y l] eqn:E.
    + rewrite (fame_all_emptyD x r Hr) in Hf; [discriminate|].
      intros j Hj. apply (wits_empty_upD (r + 1) ltac:(lia) E (Z.to_nat (j - (r + 1)))). lia.
    + assert (Hy : In y (wits st (r + 1))) by (rewrite E; left; reflexivity).
      destruct (wits_storedD P st G _ y Hy) as [ey Hey].
      unfold fame_of in Hf. rewrite (zrange_cons (r + 1) _ Hlr) in Hf.
      rewrite (fame_loop_unseen _ _ r _ y l) in Hf; [discriminate| |].
      * rewrite <- E. apply round_witnesses_witsD. clear - Hr Hlr. lia.
      * unfold vparams_of. cbn [vp_sees]. unfold see, ancestor.
        destruct (Z.eqb_spec y x) as [->|Hne]; [congruence|]. rewrite Hey, Hx. reflexivity.
  Qed.
End PreD.

Theorem fame_agreement_statesD P s1 s2 x r v1 v2 :
  goodD P s1 -> rinv s1 -> (forall q, 0 <= q <= last_round s1 -> get_peerset s1 q = Some (P q)) ->
  goodD P s2 -> rinv s2 -> (forall q, 0 <= q <= last_round s2 -> get_peerset s2 q = Some (P q)) ->
  same_bodies s1 s2 -> no_cross_fork s1 s2 ->
  fame_of s1 x r = Some (Some v1) -> fame_of s2 x r = Some (Some v2) -> v1 = v2.
Proof.
  intros G1 R1' T1 G2 R2' T2 SB NF F1 F2.
  pose proof (rinv_contig _ R1') as R1. pose proof (rinv_contig _ R2') as R2.
  destruct (fame_decided_preD P s1 G1 R1 T1 x r v1 F1) as [Hr1 [e1x H1x]].
  destruct (fame_decided_preD P s2 G2 R2 T2 x r v2 F2) as [Hr2 [e2x H2x]].
  pose proof (view_ok_reachD P s1 G1 R1 T1 x r e1x Hr1 H1x) as V1.
  pose proof (view_ok_reachD P s2 G2 R2 T2 x r e2x Hr2 H2x) as V2.
  pose proof (same_history_reachD P s1 s2 G1 G2 SB NF R1 R2 T1 T2 x r e1x e2x (proj1 Hr1) H1x H2x) as SH.
  pose proof (round_witnesses_zrangeD P s1 R1 T1 r (proj1 Hr1)) as N1.
  pose proof (round_witnesses_zrangeD P s2 R2 T2 r (proj1 Hr1)) as N2.
  apply (decisions_agreeD (nD P) r _ _ _ _ _ _ (GWD s1 s2) v1 v2 V1 V2 SH).
  - rewrite <- (fame_of_as_view s1 x r N1). exact F1.
  - rewrite <- (fame_of_as_view s2 x r N2). exact F2.
Qed.

(* a decision reached by a node that knows fewer events is the decision of every node that knows more *)
Theorem fame_stable_statesD P s1 s2 x r v :
  goodD P s1 -> rinv s1 -> (forall q, 0 <= q <= last_round s1 -> get_peerset s1 q = Some (P q)) ->
  goodD P s2 -> rinv s2 -> (forall q, 0 <= q <= last_round s2 -> get_peerset s2 q = Some (P q)) ->
  same_bodies s1 s2 -> no_cross_fork s1 s2 ->
  (forall y e, get_event s1 y = Some e -> get_event s2 y <> None) ->
  fame_of s1 x r = Some (Some v) -> fame_of s2 x r = Some (Some v).
Proof.
  intros G1 R1' T1 G2 R2' T2 SB NF Sub F1.
  pose proof (rinv_contig _ R1') as R1. pose proof (rinv_contig _ R2') as R2.
  destruct (fame_decided_preD P s1 G1 R1 T1 x r v F1) as [Hr1 [e1x H1x]].
  destruct (get_event s2 x) as [e2x|] eqn:H2x; [|exfalso; apply (Sub x e1x H1x); exact H2x].
  assert (Incl : forall j, incl (wits s1 j) (wits s2 j)).
  { intros j w Hw. destruct (wits_storedD P s1 G1 j w Hw) as [e1 He1].
    destruct (get_event s2 w) as [e2|] eqn:He2; [|exfalso; apply (Sub w e1 He1); exact He2].
    destruct (memo_agreeD P P s1 s2 G1 G2 SB (fun q _ _ => eq_refl) w e1 e2 He1 He2) as [Er Ew].
    apply (wits_specD P s1 G1) in Hw. apply (wits_specD P s2 G2). rewrite <- Er, <- Ew. exact Hw. }
  (* s1's last round lists an event; s2 stores it with the same memoised round, so s2 has that round *)
  assert (HJ : last_round s1 <= last_round s2).
  { pose proof (r_lr _ (proj1 R2')) as L2. destruct (Z.le_gt_cases 0 (last_round s1)) as [H0|H0]; [|clear - L2 H0; lia].
    assert (Hg : get_round s1 (last_round s1) <> None) by (apply R1; split; [exact H0|apply Z.le_refl]).
    pose proof (cd_tabne _ _ _ (gD_c _ _ G1) _ Hg) as Hne.
    destruct (wl s1 (last_round s1)) as [|[y w] l] eqn:E; [contradiction|].
    assert (Hin : In (y, w) (wl s1 (last_round s1))) by (rewrite E; left; reflexivity).
    destruct (cd_tab _ _ _ (gD_c _ _ G1) _ y w Hin) as [Hr Hw].
    destruct (cd_rdom _ _ _ (gD_c _ _ G1) y _ Hr) as [_ [e1 [He1 _]]].
    destruct (get_event s2 y) as [e2|] eqn:He2; [|exfalso; apply (Sub y e1 He1); exact He2].
    destruct (memo_agreeD P P s1 s2 G1 G2 SB (fun q _ _ => eq_refl) y e1 e2 He1 He2) as [Er Ew]. rewrite Er in Hr. rewrite Ew in Hw.
    pose proof (cd_tabc _ _ _ (gD_c _ _ G2) y _ w Hr Hw) as Hin2.
    assert (Hg2 : get_round s2 (last_round s1) <> None) by (apply (wl_in_round _ _ _ _ Hin2)).
    apply R2 in Hg2. exact (proj2 Hg2). }
  pose proof (view_ok_reachD P s1 G1 R1 T1 x r e1x Hr1 H1x) as V1.
  pose proof (view_ok_reachD P s2 G2 R2 T2 x r e2x (conj (proj1 Hr1) (Z.le_trans _ _ _ (proj2 Hr1) HJ)) H2x) as V2.
  pose proof (same_history_reachD P s1 s2 G1 G2 SB NF R1 R2 T1 T2 x r e1x e2x (proj1 Hr1) H1x H2x) as SH.
  pose proof (round_witnesses_zrangeD P s1 R1 T1 r (proj1 Hr1)) as N1.
  pose proof (round_witnesses_zrangeD P s2 R2 T2 r (proj1 Hr1)) as N2.
  rewrite (fame_of_as_view s2 x r N2).
  apply (decision_monotoneD (nD P) r _ _ _ _ _ _ (GWD s1 s2) v V1 V2 SH HJ).
  - intros j _. rewrite (view_witnesses_eqD P s1 R1 T1), (view_witnesses_eqD P s2 R2 T2). apply Incl.
  - rewrite <- (fame_of_as_view s1 x r N1). exact F1.
Qed.
