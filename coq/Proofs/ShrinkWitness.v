(* REGRESSION WITNESS for fix 05eda0b (known finding C01-fame-threshold-after-shrink).
   Before the fix DecideFame decided, at a round-j witness y, with the super-majority of the peer-set of round j
   (`t >= jPeerSet.SuperMajority()`), while the votes it counts are those of the round j-1 witnesses that y strongly
   sees with the peer-set of round j-1.  When the set SHRINKS between j-1 and j (5 -> 4: super-majority 4 -> 3), three
   equal votes out of five decided, and two such "decisions" need not intersect in a majority: a second fork under
   dynamic membership, independent of the window (distance bound respected on both nodes, same table, same rounds).
   The fix takes the quorum from the voters' set (round j-1): Model/HgImpl.v [vparams_of], field [vp_sm] (Model/Voting.v).
   sh: five validators, 64 gossip events (plain gossip DAG, every coin bit true), the first event of creator 0
   carries "peer 4 leaves", accepted in block 0 (round-received 1): the four-peer set governs rounds >= 7.
   x = 35 is creator 4's round-5 witness, seen by the round-6 witnesses 45 (creator 4) and 46 (creator 3) and not by
   42, 43, 44 (creators 2, 1, 0).  Round 7: witness 60 (creator 0) strongly sees all five: 3 no / 2 yes; with the OLD
   quorum 3 >= 3: NOT famous (now: 3 < 4, no decision).  Witnesses 52, 53, 55 (creators 2, 3, 1) strongly see
   42, 43, 45, 46: 2 no / 2 yes, a tie counts as yes; the round-8 witness 62 (no descendant of 60) counts 3 yes,
   3 >= 3 (the four-peer set of round 7 on either rule): FAMOUS.
   Node A receives the events in creation order, node B receives event 60 last (both orders are topological).
   [vparams_old] / [fame_old] below are the pre-fix quorum, used ONLY here: on A's view after event 60 the old rule
   decides "not famous", on B's view (everything but 60) "famous" (sh_regression_obs); before the fix block 4 contained
   transaction 34 on A only (corpus/C01-shrink-fork.json on two real cores, /repo before the fix).  With the fixed
   rule the two nodes agree on this history (sh_fork_obs). *)
From Coq Require Import ZArith List Bool Permutation.
From V Require Import Model.ZMap Model.Quorum Model.Voting Model.HgImpl Model.Window Proofs.AdmissionProofs Proofs.BlockInv
  Proofs.OrderProofs Proofs.Static Proofs.Agreement Proofs.BlockAgree Proofs.WindowWitness Proofs.WindowStable Proofs.GapWindow.
Import ListNotations.
Open Scope Z_scope.

Definition sh_g : peerset := [mkPeer 100 0; mkPeer 101 1; mkPeer 102 2; mkPeer 103 3; mkPeer 104 4].
Definition sh_ev (t : Z * Z * Z * Z * Z) : event :=
  match t with (id, c, ix, sp, op) =>
    mkEvent id c ix sp op 0 true (1000 + id) [id]
            (if (c =? 0) && (ix =? 0) then [mkItx id false (mkPeer 104 4) true true] else []) [] true end.
(* (id, creator, index, self-parent, other-parent), in creation order *)
Definition sh_rows : list (Z * Z * Z * Z * Z) :=
  [(0,0,0,-1,-1); (1,1,0,-1,-1); (2,2,0,-1,-1); (3,3,0,-1,-1); (4,4,0,-1,-1); (5,0,1,0,4); (6,1,1,1,5);
   (7,2,1,2,6); (8,3,1,3,7); (9,4,1,4,8); (10,0,2,5,9); (11,1,2,6,10); (12,2,2,7,11); (13,3,2,8,12);
   (14,4,2,9,13); (15,0,3,10,14); (16,1,3,11,15); (17,2,3,12,16); (18,3,3,13,17); (19,4,3,14,18);
   (20,0,4,15,19); (21,1,4,16,20); (22,2,4,17,21); (23,3,4,18,22); (24,4,4,19,23); (25,0,5,20,24);
   (26,1,5,21,25); (27,2,5,22,26); (28,3,5,23,27); (29,4,5,24,28); (30,0,6,25,29); (31,1,6,26,30);
   (32,2,6,27,31); (33,3,6,28,32); (34,0,7,30,32); (35,4,6,29,33); (36,0,8,34,33); (37,1,7,31,36);
   (38,2,7,32,37); (39,3,7,33,38); (40,0,9,36,39); (41,1,8,37,40); (42,2,8,38,41); (43,1,9,41,42);
   (44,0,10,40,43); (45,4,7,35,43); (46,3,8,39,45); (47,1,10,43,45); (48,2,9,42,47); (49,3,9,46,48);
   (50,4,8,45,49); (51,1,11,47,50); (52,2,10,48,51); (53,3,10,49,52); (54,4,9,50,53); (55,1,12,51,54);
   (56,2,11,52,44); (57,4,10,54,44); (58,1,13,55,56); (59,1,14,58,57); (60,0,11,44,59); (61,2,12,56,59);
   (62,3,11,53,61); (63,1,15,59,62)].
Definition sh_all : list event := map sh_ev sh_rows.
(* the second order: event 60 last *)
Definition sh_ordb : list Z :=
  [0; 1; 2; 3; 4; 5; 6; 7; 8; 9; 10; 11; 12; 13; 14; 15; 16; 17; 18; 19; 20; 21; 22; 23; 24; 25; 26; 27; 28;
   29; 30; 31; 32; 33; 34; 35; 36; 37; 38; 39; 40; 41; 42; 43; 44; 45; 46; 47; 48; 49; 50; 51; 52; 53; 54;
   55; 56; 57; 58; 59; 61; 62; 63; 60].
Definition sh_all' : list event := map (fun i => nth (Z.to_nat i) sh_all (sh_ev (0, 0, 0, 0, 0))) sh_ordb.

Lemma sh_premises :
  ids_determine sh_all /\ sigkeys_determine sh_all /\ fork_free sh_all /\
  Forall (hop_ok sh_all) (map HInsert sh_all) /\ Forall (hop_ok sh_all) (map HInsert sh_all') /\
  (length sh_ordb = 64%nat /\ forallb (fun i => existsb (Z.eqb i) sh_ordb) (zseq 0 64) = true).
Proof.
  split; [apply ids_determine_distinct; vm_compute; reflexivity|].
  split; [apply sigkeys_determine_distinct; vm_compute; reflexivity|].
  split; [apply fork_freeb_sound; vm_compute; reflexivity|].
  split; [apply hop_ok_inserts; vm_compute; reflexivity|].
  split; [|vm_compute; split; reflexivity].
  assert (R : forallb (fun i => (0 <=? i) && (i <? 64)) sh_ordb = true) by (vm_compute; reflexivity).
  assert (L : length sh_all = 64%nat) by (vm_compute; reflexivity).
  assert (F : forallb (fun e => 0 <=? e_id e) sh_all = true) by (vm_compute; reflexivity).
  rewrite forallb_forall in R, F.
  apply Forall_forall. intros o Ho. apply in_map_iff in Ho. destruct Ho as [e [<- He]].
  unfold sh_all' in He. apply in_map_iff in He. destruct He as [i [<- Hi]].
  specialize (R i Hi). apply andb_prop in R. destruct R as [R1 R2]. apply Z.leb_le in R1. apply Z.ltb_lt in R2.
  assert (Hin : In (nth (Z.to_nat i) sh_all (sh_ev (0, 0, 0, 0, 0))) sh_all) by (apply (nth_In_len _ _ _ 64%nat L); apply Nat2Z.inj_lt; rewrite Z2Nat.id by exact R1; exact R2).
  cbn [hop_ok]. split; [exact Hin|]. apply Z.leb_le. apply F. exact Hin.
Qed.

Local Notation IA := (init_hg 0 sh_g []) (only parsing).
Local Notation IB := (init_hg 1 sh_g []) (only parsing).
Local Notation SA := (hrun IA (map HInsert sh_all)) (only parsing).
Local Notation SB := (hrun IB (map HInsert sh_all')) (only parsing).

(* witnesses of a round with their fame *)
Definition fame_row (st : hg) (r : Z) : list (Z * trilean) :=
  match get_round st r with
  | Some ri => map (fun e => (fst e, snd (snd e))) (filter (fun e => fst (snd e)) (ri_created ri))
  | None => [] end.

(* with the fixed quorum the two nodes agree on this history *)
Definition sh_fork_obs (sa sb : hg) : Prop :=
  failed sa = false /\ failed sb = false /\
  peersets sa = peersets sb /\ map (fun p => (fst p, length (snd p))) (peersets sa) = [(0, 5%nat); (7, 4%nat)] /\
  map (rnd sa) (zseq 0 64) = map (rnd sb) (zseq 0 64) /\
  fame_row sa 5 = [(35, TTrue); (36, TTrue); (37, TTrue); (38, TTrue); (39, TTrue)] /\
  fame_row sb 5 = [(35, TTrue); (36, TTrue); (37, TTrue); (38, TTrue); (39, TTrue)] /\
  length (delivered sa) = 6%nat /\
  map (fun b => (b_index b, b_rr b, b_txs b)) (delivered sa) = map (fun b => (b_index b, b_rr b, b_txs b)) (delivered sb) /\
  option_map (fun b => (b_index b, b_rr b, b_txs b)) (nth_error (delivered sa) 4) = Some (4, 5, [28; 29; 30; 31; 32; 33]).

(* the quorum before the fix: the super-majority of the set of round j *)
Definition vparams_old (st : hg) (x : Z) : vparams :=
  mkVP (fun y => see st y x)
       (fun j => match get_round st (j - 1) with Some ri => Some (witnesses ri) | None => None end)
       (fun j y w => match get_peerset st (j - 1) with
                     | Some pps => strongly_see st y w pps
                     | None => None end)
       (fun j => match get_peerset st j with Some ps => Some (super_majority ps) | None => None end)
       (coin_of st).
Definition fame_old (st : hg) (x r : Z) : option (option bool) :=
  fame_loop (vparams_old st x) (round_witnesses st) r (zrange (r + 1) st.(last_round)) [].

(* a60: node A after event 60 (creation order); b63: node B after everything but 60; sa: node A at the end *)
Definition sh_regression_obs (a60 b63 sa : hg) : Prop :=
  nth_error sh_all 60 = Some (sh_ev (60, 0, 11, 44, 59)) /\ nth_error sh_all' 63 = Some (sh_ev (60, 0, 11, 44, 59)) /\
  failed a60 = false /\ failed b63 = false /\ last_round a60 = 7 /\ last_round b63 = 8 /\
  (* the old rule: two different decisions on two views of one DAG *)
  fame_old a60 35 5 = Some (Some false) /\ fame_old b63 35 5 = Some (Some true) /\
  (* the fixed rule: no decision at 60; "famous" at 62 on both *)
  fame_of a60 35 5 = Some None /\ fame_of b63 35 5 = Some (Some true) /\
  fame_of sa 35 5 = Some (Some true).

Lemma sh_trace_facts :
  let ta := trace IA (map HInsert sh_all) in let tb := trace IB (map HInsert sh_all') in
  let sa := last ta IA in
  sh_regression_obs (nth 61 ta IA) (nth 63 tb IB) sa /\
  forallb e_coin sh_all = true /\
  adjb gap_stepb ta = true /\ adjb gap_stepb tb = true /\ adjb window_stepb ta = true /\ adjb window_stepb tb = true /\
  sh_fork_obs sa (last tb IB).
Proof. vm_compute. repeat split; reflexivity. Qed.

(* the same about the runs *)
Lemma sh_facts :
  sh_regression_obs (hrun IA (map HInsert (firstn 61 sh_all))) (hrun IB (map HInsert (firstn 63 sh_all'))) SA /\
  forallb e_coin sh_all = true /\
  gap_runb IA (map HInsert sh_all) = true /\ gap_runb IB (map HInsert sh_all') = true /\
  window_runb IA (map HInsert sh_all) = true /\ window_runb IB (map HInsert sh_all') = true /\
  sh_fork_obs SA SB.
Proof.
  pose proof sh_trace_facts as F. cbv zeta in F.
  rewrite (nth_trace _ IA), (nth_trace _ IB), !firstn_map, !last_trace in F by reflexivity.
  rewrite !gap_runb_trace, !window_runb_trace. exact F.
Qed.
