(* C07: admission invariants of InsertEvent on the HgImpl model (tree with fix 26c0384). *)
From Coq Require Import ZArith List Bool Lia ZifyBool.
From RecordUpdate Require Import RecordSet.
From V Require Import Model.ZMap Model.Quorum Model.HgImpl Proofs.ZMapFacts Proofs.HgFrames Proofs.HgDagFrames.
Import ListNotations RecordSetNotations.
Open Scope Z_scope.

(** * What InsertEvent does *)

Lemma insert_ok_checks st e st' :
  insert_event st e = (InsOk, st') ->
  e_sigok e = true /\ check_self_parent st e = InsOk /\ check_other_parent st e = InsOk.
Proof.
  intros H. destruct (insert_event_cases st e _ _ H) as [[_ [N _]]|[Hs [Hsp [Hop _]]]]; [congruence|auto].
Qed.

(* a rejection other than the late Store.SetEvent failure leaves the whole state unchanged *)
Lemma insert_reject_noop st e r st' :
  insert_event st e = (r, st') -> r <> InsOk -> r <> InsStore -> st' = st.
Proof.
  intros H Hn1 Hn2. destruct (insert_event_cases st e _ _ H) as [[E _]|[_ [_ [_ A]]]]; [exact E|].
  destruct (insert_admitted_result st e r st' A) as [->|[-> _]]; congruence.
Qed.

Lemma dag_frame_after_store st2 e la : dag_frame st2 (after_store st2 e la).
Proof.
  exact (after_store_steps _ _ dag_frame_ok (fun _ _ => dag_frame_same _ _ eq_refl eq_refl eq_refl)
           dag_frame_set_sigpool st2 e la).
Qed.

(* of what the coordinate invariants read, it changes only the queue of undetermined events *)
Lemma after_store_fields st2 e la :
  let st3 := update_ancestor_fd st2 e la in
  let s := after_store st2 e la in
  events s = events st3 /\ round_memo s = round_memo st3 /\ witness_memo s = witness_memo st3 /\
  rounds s = rounds st3 /\ topo s = topo st3 /\ undetermined s = undetermined st3 ++ [e_id e].
Proof.
  unfold after_store. generalize (update_ancestor_fd st2 e la). intros st3. cbv zeta.
  destruct (is_loaded e); repeat split.
Qed.

Lemma check_other_parent_ok st e :
  check_other_parent st e = InsOk -> e_op e = -1 \/ exists po, get_event st (e_op e) = Some po.
Proof.
  unfold check_other_parent. destruct (Z.eqb_spec (e_op e) (-1)); [auto|].
  destruct (get_event st (e_op e)); [eauto|discriminate].
Qed.

Lemma pidx_last_spec p :
  (pidx_last p = None /\ pi_items p = []) \/
  (exists l front, pidx_last p = Some l /\ pi_items p = front ++ [l]).
Proof.
  unfold pidx_last. destruct (pi_items p) as [|l front _] using rev_ind; [left; auto|right].
  exists l, front. rewrite map_app. cbn [map]. rewrite last_last. auto.
Qed.

(* a passed self-parent check: the creator is a participant, and either has no event yet and the
   new one is its first, or the named self-parent is its last event, one height below *)
Lemma check_self_parent_ok st e :
  check_self_parent st e = InsOk ->
  exists p, zget (e_creator e) (pevents st) = Some p /\
    ((pi_items p = [] /\ e_sp e = -1 /\ e_index e = 0) \/
     exists front spe, pi_items p = front ++ [e_sp e] /\ get_event st (e_sp e) = Some spe /\
                       e_index e = e_index (ev_e spe) + 1).
Proof.
  unfold check_self_parent. destruct (zget (e_creator e) (pevents st)) as [p|]; [|discriminate].
  intros Hc. exists p. split; [reflexivity|].
  destruct (pidx_last_spec p) as [[Hl Hi]|[l [front [Hl Hi]]]]; rewrite Hl in Hc.
  - destruct (Z.eqb_spec (e_sp e) (-1)); [|discriminate]. destruct (Z.eqb_spec (e_index e) 0); [auto|discriminate].
  - destruct (Z.eqb_spec (e_sp e) l) as [E|]; [subst l|discriminate].
    destruct (get_event st (e_sp e)) as [spe|]; [|discriminate].
    destruct (Z.eqb_spec (e_index e) (e_index (ev_e spe) + 1)); [|discriminate]. right. eauto.
Qed.

(* RollingIndex.Set appends when the window is empty or the index is the next one *)
Lemma pidx_set_append p x i :
  pi_last p < 0 \/ i = pi_last p + 1 -> pidx_set p x i = Some (mkPidx (pi_items p ++ [x]) i).
Proof.
  intros H. unfold pidx_set.
  replace ((0 <=? pi_last p) && (pi_last p + 1 <? i)) with false by lia.
  replace ((pi_last p <? 0) || (i =? pi_last p + 1)) with true by lia. reflexivity.
Qed.

(* the event map after a successful Store.SetEvent, of a new event or of a stored one *)
Lemma store_set_event_get st es st2 :
  store_set_event st es = Some st2 -> 0 <= e_id (ev_e es) ->
  forall x, get_event st2 x = if x =? e_id (ev_e es) then Some es else get_event st x.
Proof.
  intros H Hid x. destruct (store_set_event_footprint st es st2 H) as [P ->].
  unfold get_event, set_evst. cbn. rewrite zget_zset, (Z.eqb_sym x).
  replace (0 <=? e_id (ev_e es)) with true by lia. rewrite andb_true_r. reflexivity.
Qed.

(* Store.SetEvent of an event not yet stored whose index extends its creator's window *)
Lemma store_fresh st es p p' :
  get_event st (e_id (ev_e es)) = None -> zget (e_creator (ev_e es)) (pevents st) = Some p ->
  pidx_set p (e_id (ev_e es)) (e_index (ev_e es)) = Some p' ->
  exists st2, store_set_event st es = Some st2 /\
    forall c, zget c (pevents st2) = if c =? e_creator (ev_e es) then Some p' else zget c (pevents st).
Proof.
  intros Hf Hp Hset. unfold store_set_event. rewrite Hf, Hp, Hset. eexists. split; [reflexivity|].
  intros c. unfold set_evst. cbn. rewrite zget_zset, (Z.eqb_sym c).
  replace (0 <=? e_creator (ev_e es)) with true by (pose proof (zget_some_nonneg _ _ _ Hp); lia).
  rewrite andb_true_r. reflexivity.
Qed.

(** * The DAG invariant *)

Record dag_ok (st : hg) : Prop := {
  d_id : forall x es, get_event st x = Some es -> e_id (ev_e es) = x;
  d_sig : forall x es, get_event st x = Some es -> e_sigok (ev_e es) = true;
  d_sp : forall x es, get_event st x = Some es ->
         (e_sp (ev_e es) = -1 /\ e_index (ev_e es) = 0) \/
         exists ps, get_event st (e_sp (ev_e es)) = Some ps /\
                    e_creator (ev_e ps) = e_creator (ev_e es) /\
                    e_index (ev_e es) = e_index (ev_e ps) + 1;
  d_op : forall x es, get_event st x = Some es ->
         e_op (ev_e es) = -1 \/ exists po, get_event st (e_op (ev_e es)) = Some po;
  d_chain : forall c p, zget c (pevents st) = Some p ->
         pi_last p = Z.of_nat (length (pi_items p)) - 1 /\
         forall i x, nth_error (pi_items p) i = Some x ->
           exists es, get_event st x = Some es /\ e_creator (ev_e es) = c /\
                      e_index (ev_e es) = Z.of_nat i;
  d_listed : forall x es, get_event st x = Some es ->
         exists p, zget (e_creator (ev_e es)) (pevents st) = Some p /\
                   0 <= e_index (ev_e es) /\
                   nth_error (pi_items p) (Z.to_nat (e_index (ev_e es))) = Some x
}.

(** The clauses that look events up are monotone in the event map: they survive every step that
    keeps the stored events and their bodies. *)

Definition keeps (st st' : hg) : Prop :=
  forall x es, get_event st x = Some es -> exists es', get_event st' x = Some es' /\ ev_e es' = ev_e es.

(* the self-parent clause and the other-parent clause, for an event with body [ev] *)
Definition sp_ok (st : hg) (ev : event) : Prop :=
  (e_sp ev = -1 /\ e_index ev = 0) \/
  exists ps, get_event st (e_sp ev) = Some ps /\ e_creator (ev_e ps) = e_creator ev /\
             e_index ev = e_index (ev_e ps) + 1.
Definition op_ok (st : hg) (ev : event) : Prop :=
  e_op ev = -1 \/ exists po, get_event st (e_op ev) = Some po.
(* the chain clause for a window of creator [c] whose oldest item has index [b] *)
Definition window_ok (st : hg) (c b : Z) (items : list Z) : Prop :=
  forall i x, nth_error items i = Some x ->
    exists es, get_event st x = Some es /\ e_creator (ev_e es) = c /\ e_index (ev_e es) = b + Z.of_nat i.

Lemma sp_ok_keeps st st' ev : keeps st st' -> sp_ok st ev -> sp_ok st' ev.
Proof.
  intros K [H|[ps [Hps R]]]; [left; exact H|right].
  destruct (K _ _ Hps) as [ps' [Hps' E]]. exists ps'. rewrite E. auto.
Qed.

Lemma op_ok_keeps st st' ev : keeps st st' -> op_ok st ev -> op_ok st' ev.
Proof. intros K [H|[po Hpo]]; [left; exact H|right]. destruct (K _ _ Hpo) as [po' [Hpo' _]]. eauto. Qed.

Lemma window_ok_keeps st st' c b items : keeps st st' -> window_ok st c b items -> window_ok st' c b items.
Proof.
  intros K W i x Hi. destruct (W i x Hi) as [es [H R]]. destruct (K _ _ H) as [es' [H' E]].
  exists es'. rewrite E. auto.
Qed.

Lemma window_ok_app st c b items x es :
  window_ok st c b items -> get_event st x = Some es -> e_creator (ev_e es) = c ->
  e_index (ev_e es) = b + Z.of_nat (length items) -> window_ok st c b (items ++ [x]).
Proof.
  intros W Hx Hc Hi i y Hy. destruct (Nat.lt_ge_cases i (length items)) as [Hlt|Hge].
  - rewrite nth_error_app1 in Hy by exact Hlt. exact (W i y Hy).
  - rewrite nth_error_app2 in Hy by exact Hge.
    destruct (i - length items)%nat as [|k] eqn:Ek; [|destruct k; discriminate].
    injection Hy as <-. exists es. split; [exact Hx|split; [exact Hc|]]. rewrite Hi. f_equal. lia.
Qed.

(* states with the same event bodies keep each other's events *)
Definition body_eq (E E' : zmap evst) : Prop :=
  forall x, option_map ev_e (zget x E') = option_map ev_e (zget x E).

Lemma body_eq_sym E E' : body_eq E E' -> body_eq E' E.
Proof. intros B x. symmetry. apply B. Qed.

Lemma static_body E E' : ev_static_eq E E' -> body_eq E E'.
Proof.
  intros H x. specialize (H x). destruct (zget x E'), (zget x E); cbn in *; try congruence.
  unfold ev_static in H. inversion H. reflexivity.
Qed.

Lemma body_keeps st st' : body_eq (events st) (events st') -> keeps st st'.
Proof.
  intros B x es H. specialize (B x). unfold get_event in *. rewrite H in B.
  destruct (zget x (events st')) as [es'|]; [|discriminate]. injection B as B. eauto.
Qed.

(* reading through a frame *)
Lemma frame_get_event st st' x :
  dag_frame st st' ->
  (forall es', get_event st' x = Some es' -> exists es, get_event st x = Some es /\ ev_e es = ev_e es') /\
  (forall es, get_event st x = Some es -> exists es', get_event st' x = Some es' /\ ev_e es' = ev_e es).
Proof.
  intros [He _]. apply static_body in He.
  split; [exact (body_keeps st' st (body_eq_sym _ _ He) x)|exact (body_keeps st st' He x)].
Qed.

Lemma dag_ok_frame st st' : dag_ok st -> dag_frame st st' -> dag_ok st'.
Proof.
  intros OK F.
  assert (Kb : keeps st' st) by (intros x; apply (frame_get_event st st' x F)).
  assert (Kf : keeps st st') by (intros x; apply (frame_get_event st st' x F)).
  destruct F as [_ [Fp _]].
  constructor.
  - intros x es' H. destruct (Kb _ _ H) as [es [H0 E]]. rewrite <- E. exact (d_id st OK _ _ H0).
  - intros x es' H. destruct (Kb _ _ H) as [es [H0 E]]. rewrite <- E. exact (d_sig st OK _ _ H0).
  - intros x es' H. destruct (Kb _ _ H) as [es [H0 E]]. rewrite <- E.
    exact (sp_ok_keeps st st' _ Kf (d_sp st OK _ _ H0)).
  - intros x es' H. destruct (Kb _ _ H) as [es [H0 E]]. rewrite <- E.
    exact (op_ok_keeps st st' _ Kf (d_op st OK _ _ H0)).
  - intros c p' Hp'. destruct (Fp c) as [E|[N S]].
    + rewrite E in Hp'. destruct (d_chain st OK _ _ Hp') as [Hlast Hnth]. split; [exact Hlast|].
      exact (window_ok_keeps st st' c 0 _ Kf Hnth).
    + rewrite S in Hp'. injection Hp' as <-. split; [reflexivity|]. intros [|i] x Hi; discriminate.
  - intros x es' H. destruct (Kb _ _ H) as [es [H0 E]]. rewrite <- E.
    destruct (d_listed st OK _ _ H0) as [p [Hp R]]. exists p. split; [|exact R].
    destruct (Fp (e_creator (ev_e es))) as [E2|[N _]]; congruence.
Qed.

(** * Admission preserves the invariant *)

(* A checked event extends its creator's window: [b] is the index of the window's oldest item.
   The window hypotheses are what the chain clause of the invariant provides. *)
Lemma checked_extends_from st e p b :
  check_self_parent st e = InsOk -> zget (e_creator e) (pevents st) = Some p ->
  pi_last p = b + Z.of_nat (length (pi_items p)) - 1 -> (pi_items p = [] -> b = 0) ->
  window_ok st (e_creator e) b (pi_items p) ->
  pidx_set p (e_id e) (e_index e) = Some (mkPidx (pi_items p ++ [e_id e]) (e_index e)) /\
  e_index e = b + Z.of_nat (length (pi_items p)) /\
  ((e_sp e = -1 /\ pi_items p = [] /\ e_index e = 0) \/
   exists front spe, pi_items p = front ++ [e_sp e] /\ get_event st (e_sp e) = Some spe /\
                     e_creator (ev_e spe) = e_creator e /\ e_index e = e_index (ev_e spe) + 1).
Proof.
  intros Hc Hp Hlast Hnil W.
  destruct (check_self_parent_ok st e Hc) as [p0 [Hp0 C]]. rewrite Hp in Hp0. injection Hp0 as <-.
  destruct C as [[Hi [Hs Hx]]|[front [spe [Hi [Hspe Hx]]]]].
  - specialize (Hnil Hi). assert (Hlen : length (pi_items p) = O) by (rewrite Hi; reflexivity).
    split; [apply pidx_set_append; lia|]. split; [lia|auto].
  - assert (Hpos : nth_error (pi_items p) (length front) = Some (e_sp e))
      by (rewrite Hi, nth_error_app2, Nat.sub_diag by lia; reflexivity).
    destruct (W _ _ Hpos) as [es [Hes [Hcr Hix]]]. rewrite Hspe in Hes. injection Hes as <-.
    assert (Hlen : length (pi_items p) = S (length front)) by (rewrite Hi, app_length; cbn; lia).
    split; [apply pidx_set_append; lia|]. split; [lia|right; exists front, spe; auto].
Qed.

(* under the invariant a checked event always extends its creator's RollingIndex *)
Lemma checked_extends st e p :
  dag_ok st -> check_self_parent st e = InsOk -> zget (e_creator e) (pevents st) = Some p ->
  pidx_set p (e_id e) (e_index e) = Some (mkPidx (pi_items p ++ [e_id e]) (e_index e)) /\
  e_index e = Z.of_nat (length (pi_items p)) /\
  ((e_sp e = -1 /\ pi_items p = []) \/
   exists front spe, pi_items p = front ++ [e_sp e] /\ get_event st (e_sp e) = Some spe /\
                     e_creator (ev_e spe) = e_creator e /\ e_index e = e_index (ev_e spe) + 1).
Proof.
  intros OK Hc Hp. destruct (d_chain st OK _ _ Hp) as [Hlast Hnth].
  destruct (checked_extends_from st e p 0 Hc Hp) as [Hset [Hidx Hpar]]; [lia|reflexivity|exact Hnth|].
  split; [exact Hset|]. split; [exact Hidx|]. destruct Hpar as [[Hs [Hi _]]|R]; auto.
Qed.

(* a checked event names its creator's last event as self-parent, or is its creator's first *)
Lemma checked_sp_ok st e : dag_ok st -> check_self_parent st e = InsOk -> sp_ok st e.
Proof.
  intros OK Hsp. destruct (check_self_parent_ok st e Hsp) as [p [Hp _]].
  destruct (checked_extends st e p OK Hsp Hp) as [_ [Hidx [[Hs Hnil]|[front [spe [_ R]]]]]].
  - left. rewrite Hnil in Hidx. auto.
  - right. exists spe. exact R.
Qed.

(** The state after Store.SetEvent of a new event [es], through its event map alone. *)
Section Stored.
  Variables (st st2 : hg) (es : evst).
  Hypothesis GE : forall x, get_event st2 x = if x =? e_id (ev_e es) then Some es else get_event st x.

  Lemma stored_cases x es0 :
    get_event st2 x = Some es0 -> (x = e_id (ev_e es) /\ es0 = es) \/ get_event st x = Some es0.
  Proof.
    rewrite GE. destruct (Z.eqb_spec x (e_id (ev_e es))); [intros [= <-]; left; auto|right; assumption].
  Qed.

  Hypothesis Fresh : get_event st (e_id (ev_e es)) = None.

  Lemma stored_old x ex : get_event st x = Some ex -> get_event st2 x = Some ex.
  Proof. intros H. rewrite GE. destruct (Z.eqb_spec x (e_id (ev_e es))); [congruence|exact H]. Qed.

  Lemma stored_keeps : keeps st st2.
  Proof. intros x ex H. exists ex. split; [exact (stored_old x ex H)|reflexivity]. Qed.
End Stored.

(* the state right after Store.SetEvent of a checked, fresh event *)
Lemma dag_ok_store st e :
  dag_ok st -> 0 <= e_id e ->
  e_sigok e = true -> check_self_parent st e = InsOk -> check_other_parent st e = InsOk ->
  get_event st (e_id e) = None ->
  exists st2, store_set_event (st <| topo := topo st + 1 |>)
                (mkEvst e None None None (fst (init_coords st e)) (snd (init_coords st e)) (topo st)) = Some st2 /\
              dag_ok st2.
Proof.
  intros OK Hid Hsig Hsp Hop Hfresh.
  destruct (check_self_parent_ok st e Hsp) as [p [Hp _]].
  destruct (checked_extends st e p OK Hsp Hp) as [Hset [Hidx _]].
  destruct (d_chain st OK _ _ Hp) as [Hlast Hnth].
  set (st1 := st <| topo := _ |>). set (es := mkEvst e None None None _ _ _).
  destruct (store_fresh st1 es p _ Hfresh Hp Hset) as [st2 [Hst GP]]. exists st2. split; [exact Hst|].
  pose proof (store_set_event_get st1 es st2 Hst Hid) as GE. change (get_event st1) with (get_event st) in GE.
  change (pevents st1) with (pevents st) in GP. change (ev_e es) with e in GE, GP.
  pose proof (stored_keeps st st2 es GE Hfresh) as K.
  assert (Hnew : get_event st2 (e_id e) = Some es) by (rewrite GE, Z.eqb_refl; reflexivity).
  constructor.
  - intros x es0 H. destruct (stored_cases st st2 es GE x es0 H) as [[-> ->]|H0]; [reflexivity|exact (d_id st OK _ _ H0)].
  - intros x es0 H. destruct (stored_cases st st2 es GE x es0 H) as [[-> ->]|H0]; [exact Hsig|exact (d_sig st OK _ _ H0)].
  - intros x es0 H. apply (sp_ok_keeps st st2 _ K).
    destruct (stored_cases st st2 es GE x es0 H) as [[-> ->]|H0]; [exact (checked_sp_ok st e OK Hsp)|exact (d_sp st OK _ _ H0)].
  - intros x es0 H. apply (op_ok_keeps st st2 _ K).
    destruct (stored_cases st st2 es GE x es0 H) as [[-> ->]|H0]; [exact (check_other_parent_ok st e Hop)|exact (d_op st OK _ _ H0)].
  - intros c q H. rewrite GP in H. destruct (Z.eqb_spec c (e_creator e)) as [->|Hne].
    + injection H as <-. cbn [pi_items pi_last]. split; [rewrite app_length; cbn [length]; lia|].
      apply (window_ok_app st2 _ 0 _ _ es (window_ok_keeps st st2 _ 0 _ K Hnth) Hnew eq_refl Hidx).
    + destruct (d_chain st OK _ _ H) as [Hl Hn]. split; [exact Hl|exact (window_ok_keeps st st2 c 0 _ K Hn)].
  - intros x es0 H. rewrite GP. destruct (stored_cases st st2 es GE x es0 H) as [[-> ->]|H0].
    + change (ev_e es) with e. rewrite Z.eqb_refl. eexists. split; [reflexivity|]. split; [cbn; lia|].
      cbn [pi_items]. rewrite Hidx, Nat2Z.id, nth_error_app2, Nat.sub_diag by lia. reflexivity.
    + destruct (d_listed st OK _ _ H0) as [q [Hq [Hge Hn]]].
      destruct (Z.eqb_spec (e_creator (ev_e es0)) (e_creator e)) as [Ec|_]; [|eauto].
      rewrite Ec, Hp in Hq. injection Hq as <-. eexists. split; [reflexivity|]. split; [exact Hge|].
      apply nth_error_app1_some. exact Hn.
Qed.

(** * All attempt sequences *)

(* event identifiers (hash ordinals) determine the event: SHA-256 collision freedom *)
Definition ids_determine (evs : list event) : Prop :=
  forall e e', In e evs -> In e' evs -> e_id e = e_id e' -> e = e'.

Definition from_attempts (st : hg) (evs : list event) : Prop :=
  forall x es, get_event st x = Some es -> In (ev_e es) evs.

Lemma from_attempts_frame st st' evs : from_attempts st evs -> dag_frame st st' -> from_attempts st' evs.
Proof.
  intros H F x es' H'. destruct (proj1 (frame_get_event st st' x F) _ H') as [es [H0 E]].
  rewrite <- E. eauto.
Qed.

Lemma from_attempts_store st es st2 evs :
  store_set_event st es = Some st2 -> 0 <= e_id (ev_e es) -> from_attempts st evs -> In (ev_e es) evs ->
  from_attempts st2 evs.
Proof.
  intros Hst Hid FA Hin x es0 H.
  destruct (stored_cases st st2 es (store_set_event_get st es st2 Hst Hid) x es0 H) as [[_ ->]|H0]; [exact Hin|exact (FA _ _ H0)].
Qed.

(* a checked event is not yet stored *)
Lemma checked_fresh st e all :
  dag_ok st -> from_attempts st all -> ids_determine all -> In e all ->
  check_self_parent st e = InsOk -> get_event st (e_id e) = None.
Proof.
  intros OK FA ID Hin Hsp.
  destruct (get_event st (e_id e)) as [es|] eqn:Hg; [exfalso|reflexivity].
  assert (He : ev_e es = e).
  { apply ID; [eapply FA; eauto|auto|]. apply (d_id st OK _ _ Hg). }
  destruct (d_listed st OK _ _ Hg) as [p [Hp [Hge Hn]]]. rewrite He in *.
  destruct (checked_extends st e p OK Hsp Hp) as [_ [Hidx _]].
  assert (Hlt : (Z.to_nat (e_index e) < length (pi_items p))%nat) by (apply nth_error_Some; congruence).
  lia.
Qed.

(* an event that passed the checks is stored, and the rest of InsertEvent runs *)
Lemma admitted_stored st e all r st' :
  dag_ok st -> from_attempts st all -> ids_determine all -> In e all -> 0 <= e_id e ->
  e_sigok e = true -> check_self_parent st e = InsOk -> check_other_parent st e = InsOk ->
  insert_admitted st e = (r, st') ->
  r = InsOk /\ get_event st (e_id e) = None /\
  exists st2, store_set_event (st <| topo := topo st + 1 |>)
                (mkEvst e None None None (fst (init_coords st e)) (snd (init_coords st e)) (topo st)) = Some st2 /\
              dag_ok st2 /\ st' = after_store st2 e (fst (init_coords st e)).
Proof.
  intros OK FA ID Hin Hid Hsig Hsp Hop A.
  pose proof (checked_fresh st e all OK FA ID Hin Hsp) as Hfresh.
  destruct (dag_ok_store st e OK Hid Hsig Hsp Hop Hfresh) as [st2 [Hst OK2]].
  rewrite insert_admitted_eq in A. cbv zeta in A. rewrite Hst in A. injection A as <- <-.
  split; [reflexivity|]. split; [exact Hfresh|]. exists st2. auto.
Qed.

Lemma insert_event_inv st e all r st' :
  dag_ok st -> from_attempts st all -> ids_determine all -> In e all -> 0 <= e_id e ->
  insert_event st e = (r, st') ->
  dag_ok st' /\ from_attempts st' all /\ r <> InsStore.
Proof.
  intros OK FA ID Hin Hid H.
  destruct (insert_event_cases st e r st' H) as [[-> [_ N]]|[Hsig [Hsp [Hop A]]]]; [auto|].
  destruct (admitted_stored st e all r st' OK FA ID Hin Hid Hsig Hsp Hop A) as [-> [_ [st2 [Hst [OK2 ->]]]]].
  pose proof (dag_frame_after_store st2 e (fst (init_coords st e))) as F.
  split; [exact (dag_ok_frame _ _ OK2 F)|]. split; [|discriminate].
  apply (from_attempts_frame st2 _ all); [|exact F].
  exact (from_attempts_store _ _ st2 all Hst Hid FA Hin).
Qed.

Lemma step_inv st e all :
  dag_ok st -> from_attempts st all -> ids_determine all -> In e all -> 0 <= e_id e ->
  dag_ok (step st e) /\ from_attempts (step st e) all.
Proof.
  intros OK FA ID Hin Hid. unfold step, insert_and_run.
  destruct (insert_event st e) as [r s] eqn:E.
  destruct (insert_event_inv st e all r s OK FA ID Hin Hid E) as [OK' [FA' _]].
  destruct r; cbn [snd]; auto.
  pose proof (run_consensus_frame s) as F.
  split; [eapply dag_ok_frame; eauto|eapply from_attempts_frame; eauto].
Qed.

(** * The initial state *)

Lemma init_frame self_ genesis oracle_ : dag_frame (empty_hg self_) (init_hg self_ genesis oracle_).
Proof.
  unfold init_hg. destruct (set_peerset (empty_hg self_) 0 genesis) as [st|] eqn:S; [|apply dag_frame_refl].
  eapply dag_frame_trans; [exact (set_peerset_frame _ _ _ _ S)|]. apply dag_frame_same; reflexivity.
Qed.

Lemma init_no_events self_ genesis oracle_ x : get_event (init_hg self_ genesis oracle_) x = None.
Proof.
  destruct (get_event (init_hg self_ genesis oracle_) x) as [es|] eqn:H; [|reflexivity].
  destruct (proj1 (frame_get_event _ _ x (init_frame self_ genesis oracle_)) _ H) as [es0 [H0 _]].
  unfold get_event, empty_hg in H0. cbn in H0. rewrite zget_empty in H0. discriminate.
Qed.

Lemma init_no_event self_ genesis oracle_ all : from_attempts (init_hg self_ genesis oracle_) all.
Proof. intros x es H. rewrite init_no_events in H. discriminate. Qed.

Lemma dag_ok_init self_ genesis oracle_ : dag_ok (init_hg self_ genesis oracle_).
Proof.
  apply (dag_ok_frame (empty_hg self_)); [|apply init_frame].
  constructor; intros x y H; unfold get_event, empty_hg in H; cbn in H; rewrite zget_empty in H; discriminate.
Qed.

(* an invariant of every attempt drawn from [evs] holds along every run over [evs] *)
Lemma run_invariant (P : hg -> Prop) evs :
  (forall st e, In e evs -> P st -> P (step st e)) -> forall st, P st -> P (run st evs).
Proof.
  intros S.
  assert (G : forall todo, incl todo evs -> forall st, P st -> P (run st todo)).
  { induction todo as [|e rest IH]; intros Hi st H; [exact H|]. cbn [run fold_left].
    apply IH; [intros y Hy; apply Hi; right; exact Hy|]. apply S; [apply Hi; left; reflexivity|exact H]. }
  exact (G evs (incl_refl evs)).
Qed.

(* every reachable state of every attempt sequence *)
Theorem run_dag_ok self_ genesis oracle_ evs :
  ids_determine evs -> (forall e, In e evs -> 0 <= e_id e) ->
  dag_ok (run (init_hg self_ genesis oracle_) evs).
Proof.
  intros ID Hpos.
  apply (run_invariant (fun st => dag_ok st /\ from_attempts st evs) evs).
  - intros st e Hin [OK FA]. exact (step_inv st e evs OK FA ID Hin (Hpos e Hin)).
  - split; [apply dag_ok_init|apply init_no_event].
Qed.

(** consequences stated on the invariant *)

(* no two events of one creator at the same height *)
Lemma dag_ok_no_fork st x y ex ey :
  dag_ok st -> get_event st x = Some ex -> get_event st y = Some ey ->
  e_creator (ev_e ex) = e_creator (ev_e ey) -> e_index (ev_e ex) = e_index (ev_e ey) -> x = y.
Proof.
  intros OK Hx Hy Hc Hi.
  destruct (d_listed st OK _ _ Hx) as [p [Hp [_ Hn]]].
  destruct (d_listed st OK _ _ Hy) as [q [Hq [_ Hm]]].
  rewrite Hc in Hp. rewrite Hp in Hq. inversion Hq; subst q. rewrite Hi in Hn. congruence.
Qed.

(* per-creator indexes are gap free: every height below a stored event's index is occupied *)
Lemma dag_ok_gap_free st x ex i :
  dag_ok st -> get_event st x = Some ex -> 0 <= i <= e_index (ev_e ex) ->
  exists y ey, get_event st y = Some ey /\ e_creator (ev_e ey) = e_creator (ev_e ex) /\ e_index (ev_e ey) = i.
Proof.
  intros OK Hx Hi.
  destruct (d_listed st OK _ _ Hx) as [p [Hp [_ Hn]]].
  destruct (d_chain st OK _ _ Hp) as [_ Hch].
  assert (Hlt : (Z.to_nat i < length (pi_items p))%nat).
  { assert ((Z.to_nat (e_index (ev_e ex)) < length (pi_items p))%nat) by (apply nth_error_Some; congruence). lia. }
  destruct (nth_error (pi_items p) (Z.to_nat i)) as [y|] eqn:Hy; [|apply nth_error_None in Hy; lia].
  destruct (Hch _ _ Hy) as [ey [Hey [Hc Hix]]]. exists y, ey. split; [auto|split; [auto|lia]].
Qed.

Lemma insert_event_ok_shape st e all st' :
  dag_ok st -> from_attempts st all -> ids_determine all -> In e all -> 0 <= e_id e ->
  insert_event st e = (InsOk, st') ->
  exists st2,
    let es := mkEvst e None None None (fst (init_coords st e)) (snd (init_coords st e)) (topo st) in
    (forall x, get_event st2 x = if x =? e_id e then Some es else get_event st x) /\
    get_event st (e_id e) = None /\
    dag_frame st2 st' /\ dag_ok st2 /\
    check_self_parent st e = InsOk /\ check_other_parent st e = InsOk.
Proof.
  intros OK FA ID Hin Hid H.
  destruct (insert_event_cases st e _ _ H) as [[_ [N _]]|[Hsig [Hsp [Hop A]]]]; [congruence|].
  destruct (admitted_stored st e all _ st' OK FA ID Hin Hid Hsig Hsp Hop A) as [_ [Hfresh [st2 [Hst [OK2 ->]]]]].
  exists st2. cbv zeta. split; [exact (store_set_event_get _ _ st2 Hst Hid)|].
  pose proof (dag_frame_after_store st2 e (fst (init_coords st e))). auto.
Qed.
