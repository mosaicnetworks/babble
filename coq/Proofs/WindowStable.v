(* Under the window premise every validator-set lookup made during a run returns what
   the FINAL table returns.  [window_runb init ops]: every step writes table entries only for
   rounds above every round divided so far (Model/Window.v window_stepb; false in general:
   Properties/C10.v C10_window_refuted).  Then for every prefix of the run and every round r that
   exists at that point (r <= last_round), get_peerset of the prefix state = get_peerset of the
   final state: "the set that governs a round is final when the round is divided". *)
From Coq Require Import ZArith List Bool Lia ZifyBool Sorted.
From V Require Import Model.ZMap Model.Quorum Model.HgImpl Model.PeerSetSpec Model.Window
  Proofs.BlockInv Proofs.HgBlockFrames Proofs.PeerSetProofs Proofs.TidyRR Proofs.LrMono.
Import ListNotations.
Open Scope Z_scope.

Fixpoint window_runb (st : hg) (ops : list hop) : bool :=
  match ops with
  | [] => true
  | o :: r => window_stepb st (hstep st o) && window_runb (hstep st o) r
  end.

Lemma window_runb_app ops1 : forall st ops2,
  window_runb st (ops1 ++ ops2) = window_runb st ops1 && window_runb (hrun st ops1) ops2.
Proof.
  induction ops1 as [|o ops1 IH]; intros st ops2; [reflexivity|].
  cbn [app window_runb]. rewrite IH, andb_assoc. reflexivity.
Qed.

Lemma replay_keeps tbl vals ds k p : In (k, p) tbl -> In (k, p) (fst (replay tbl vals ds)).
Proof.
  revert tbl vals. induction ds as [|d ds IH]; intros tbl vals H; [exact H|].
  unfold replay. cbn [fold_left]. pose proof (replay_step_incl (tbl, vals) (b_rr d) (b_itxs d) k p H) as H1.
  unfold replay_block. destruct (replay_step (tbl, vals) (b_rr d) (b_itxs d)) as [t' v']. apply IH. exact H1.
Qed.

(* a lookup below every key the replay adds is not affected *)
Lemma replay_get_stable ds : forall tbl vals r,
  table_wf tbl -> Forall (fun d => 0 <= b_rr d) ds ->
  (forall k p, In (k, p) (fst (replay tbl vals ds)) -> (exists p0, In (k, p0) tbl) \/ r < k) ->
  ps_table_get r (fst (replay tbl vals ds)) = ps_table_get r tbl.
Proof.
  induction ds as [|d ds IH]; intros tbl vals r W F Hk; [reflexivity|].
  inversion F as [|x l H0 F']; subst.
  pose proof (replay_step_wf (tbl, vals) (b_rr d) (b_itxs d) W H0) as W1.
  pose proof (fun k p => replay_step_incl (tbl, vals) (b_rr d) (b_itxs d) k p) as K1.
  assert (E : replay tbl vals (d :: ds) = replay (fst (replay_step (tbl, vals) (b_rr d) (b_itxs d)))
                                                 (snd (replay_step (tbl, vals) (b_rr d) (b_itxs d))) ds).
  { unfold replay. cbn [fold_left]. unfold replay_block. destruct (replay_step (tbl, vals) (b_rr d) (b_itxs d)); reflexivity. }
  rewrite E in Hk |- *.
  destruct (replay_step (tbl, vals) (b_rr d) (b_itxs d)) as [t1 v1] eqn:Es. cbn [fst snd] in *.
  assert (S1 : ps_table_get r t1 = ps_table_get r tbl).
  { unfold replay_step in Es. cbn [fst snd] in Es.
    destruct (snd (apply_receipts vals (b_itxs d))); [|inversion Es; reflexivity].
    destruct (table_has (b_rr d + 6) tbl) eqn:T; [inversion Es; reflexivity|].
    inversion Es; subst t1 v1. apply get_insert_wf; [exact W|lia|].
    (* the inserted key is new and survives to the end *)
    assert (Hin : In (b_rr d + 6, fst (apply_receipts vals (b_itxs d)))
                     (fst (replay (ps_table_insert (b_rr d + 6) (fst (apply_receipts vals (b_itxs d))) tbl)
                                  (fst (apply_receipts vals (b_itxs d))) ds))).
    { apply replay_keeps. apply insert_In. left. reflexivity. }
    destruct (Hk _ _ Hin) as [[p0 Hp0]|Hlt]; [|exact Hlt].
    exfalso. apply (proj1 (table_has_false _ _) T p0). exact Hp0. }
  rewrite <- S1. apply IH; [exact W1|exact F'|].
  intros k p Hin. destruct (Hk k p Hin) as [[p0 Hp0]|Hlt]; [left|right; exact Hlt].
  exists p0. apply K1. exact Hp0.
Qed.

Lemma window_step_keys st st' k p : window_stepb st st' = true -> In (k, p) (peersets st') ->
  (exists p0, In (k, p0) (peersets st)) \/ last_round st' < k.
Proof.
  unfold window_stepb, new_entries. rewrite forallb_forall. intros H Hin.
  destruct (existsb (Z.eqb k) (map fst (peersets st))) eqn:E.
  - left. apply existsb_exists in E. destruct E as [k' [Hk' Ek]]. apply Z.eqb_eq in Ek. subst k'.
    apply in_map_iff in Hk'. destruct Hk' as [[k0 p0] [E0 Hp0]]. cbn in E0. subst k0. eauto.
  - right. apply Z.ltb_lt. apply H. apply filter_In. split; [apply in_map_iff; exists (k, p); auto|rewrite E; reflexivity].
Qed.

Section Node.
  Variables (self_ : Z) (genesis : peerset) (oracle_ : list Z).
  Hypothesis Hself : self_ <> -1.
  Notation R := (reach self_ genesis oracle_).

  Lemma window_step_stable ops o r :
    window_stepb (R ops) (hstep (R ops) o) = true -> r <= last_round (hstep (R ops) o) ->
    get_peerset (hstep (R ops) o) r = get_peerset (R ops) r.
  Proof.
    intros Hw Hr. destruct (reach_ext self_ genesis oracle_ ops [o] Hself) as (l & _ & F & T).
    rewrite reach_app in T. cbn [hrun fold_left] in T. unfold get_peerset. rewrite T.
    apply replay_get_stable; [exact (c_wf _ _ (proj2 (hrun_c10inv self_ genesis oracle_ ops Hself)))|exact F|].
    intros k p Hin. rewrite <- T in Hin.
    destruct (window_step_keys _ _ k p Hw Hin) as [H|H]; [left; exact H|right; lia].
  Qed.

  Lemma window_run_stable ops2 : forall ops1 r,
    window_runb (R ops1) ops2 = true -> r <= last_round (R ops1) ->
    get_peerset (R (ops1 ++ ops2)) r = get_peerset (R ops1) r.
  Proof.
    induction ops2 as [|o ops2 IH]; intros ops1 r Hw Hr; [rewrite app_nil_r; reflexivity|].
    cbn [window_runb] in Hw. apply andb_prop in Hw. destruct Hw as [Hw1 Hw2].
    assert (E' : hstep (R ops1) o = R (ops1 ++ [o])) by (rewrite reach_app; reflexivity).
    pose proof (hstep_lrq_le (R ops1) o) as Lm.
    replace (ops1 ++ o :: ops2) with ((ops1 ++ [o]) ++ ops2) by (rewrite <- app_assoc; reflexivity).
    rewrite (IH (ops1 ++ [o]) r); [| rewrite <- E'; exact Hw2 | rewrite <- E'; lia].
    rewrite <- E'. apply window_step_stable; [exact Hw1|lia].
  Qed.

  (* THE STABILITY THEOREM: under the window premise, the validator set read for a round that exists
     at some point of the run is the set the final table gives for that round *)
  Theorem window_lookup_final ops k r :
    window_runb (init_hg self_ genesis oracle_) ops = true ->
    r <= last_round (R (firstn k ops)) ->
    get_peerset (R (firstn k ops)) r = get_peerset (R ops) r.
  Proof.
    intros Hw Hr. rewrite <- (firstn_skipn k ops) in Hw |- * at 2. symmetry. apply window_run_stable; [|exact Hr].
    rewrite window_runb_app in Hw. apply andb_prop in Hw. apply Hw.
  Qed.

  (* the lookups made DURING step k (division of the new event, fame, round-received, frames of the
     rounds processed by the step) are for rounds up to the last round AFTER the step, against the table
     before the step or a table in between: all of them equal the final answer *)
  Theorem window_lookup_final_step ops k r :
    window_runb (init_hg self_ genesis oracle_) ops = true -> (k < length ops)%nat ->
    r <= last_round (R (firstn (S k) ops)) ->
    get_peerset (R (firstn k ops)) r = get_peerset (R ops) r /\
    get_peerset (R (firstn (S k) ops)) r = get_peerset (R ops) r.
  Proof.
    intros Hw Hk Hr. pose proof (window_lookup_final ops (S k) r Hw Hr) as F. split; [|exact F].
    rewrite <- F.
    destruct (nth_error ops k) as [o|] eqn:Eo; [|apply nth_error_None in Eo; lia].
    destruct (nth_error_split ops k Eo) as (l1 & l2 & -> & <-).
    assert (E0 : firstn (length l1) (l1 ++ o :: l2) = l1)
      by (rewrite <- (Nat.add_0_r (length l1)), firstn_app_2; apply app_nil_r).
    assert (E1 : firstn (S (length l1)) (l1 ++ o :: l2) = l1 ++ [o])
      by (rewrite <- Nat.add_1_r, firstn_app_2; reflexivity).
    rewrite E0. rewrite E1 in Hr |- *. rewrite reach_app in Hr |- *. cbn [hrun fold_left] in Hr |- *. symmetry.
    apply window_step_stable; [|exact Hr].
    rewrite window_runb_app in Hw. apply andb_prop in Hw. destruct Hw as [_ Hw].
    cbn [window_runb] in Hw. apply andb_prop in Hw. apply Hw.
  Qed.
End Node.
