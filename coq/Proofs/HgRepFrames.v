(* Footprint on the repertoire and on the per-creator index table (for C11_no_self_fork): every
   participant that has an index table is in the repertoire.  Only SetPeerSet (inside commit's
   processAcceptedInternalTransactions) adds to either; Store.SetEvent replaces the table of an
   existing participant. *)
From Coq Require Import ZArith List Bool Lia.
From RecordUpdate Require Import RecordSet.
From V Require Import Model.ZMap Model.Quorum Model.Voting Model.HgImpl Proofs.ZMapFacts Proofs.HgFrames.
Import ListNotations RecordSetNotations.
Open Scope Z_scope.

Definition rview (st : hg) := (repertoire st, pevents st).

Lemma rview_psv st st' : psv st' = psv st -> rview st' = rview st.
Proof. intros H. exact (f_equal (fun '(pe, rep, _) => (rep, pe)) H). Qed.
Lemma rview_ord_rest st st' : ord_rest st' = ord_rest st -> rview st' = rview st.
Proof. intros H. apply rview_psv, psv_ord_rest, H. Qed.

Lemma rview_set_undetermined st p : rview (st <| undetermined := p |>) = rview st.
Proof. reflexivity. Qed.
Lemma rview_set_pending_loaded st p : rview (st <| pending_loaded := p |>) = rview st.
Proof. reflexivity. Qed.
Lemma rview_set_sigpool st p : rview (st <| sigpool := p |>) = rview st.
Proof. reflexivity. Qed.
Lemma rview_set_topo st p : rview (st <| topo := p |>) = rview st.
Proof. reflexivity. Qed.

Lemma update_ancestor_fd_rview st e la : rview (update_ancestor_fd st e la) = rview st.
Proof. apply rview_ord_rest, update_ancestor_fd_ord_rest. Qed.

(** * The invariant *)
Definition rep_inv (st : hg) : Prop :=
  forall c p, zget c (pevents st) = Some p -> rep_mem c (repertoire st) = true.

Lemma rep_inv_rview st st' : rview st' = rview st -> rep_inv st -> rep_inv st'.
Proof. unfold rview, rep_inv. intros E H. inversion E as [[E1 E2]]. rewrite E1, E2. exact H. Qed.

(* Store.SetEvent: same repertoire, same participants *)
Lemma store_set_event_rep st es st' : store_set_event st es = Some st' -> rep_inv st -> rep_inv st'.
Proof.
  unfold store_set_event. destruct (get_event st _); [intros [= <-] OK; exact OK|].
  destruct (zget (e_creator (ev_e es)) (pevents st)) as [p|] eqn:Hp; [|discriminate].
  destruct (pidx_set _ _ _) as [p'|]; [|discriminate].
  intros [= <-] OK c q Hq.
  change (zget c (zset (e_creator (ev_e es)) p' (pevents st)) = Some q) in Hq.
  change (rep_mem c (repertoire st) = true).
  rewrite zget_zset in Hq.
  destruct (Z.eqb_spec (e_creator (ev_e es)) c) as [<-|Hne]; cbn [andb] in Hq; eapply OK; eauto.
Qed.

Lemma after_store_rview st e la : rview (after_store st e la) = rview st.
Proof.
  rewrite <- (update_ancestor_fd_rview st e la).
  unfold after_store. generalize (update_ancestor_fd st e la). intros s3. cbv zeta.
  destruct (is_loaded e); reflexivity.
Qed.

Lemma insert_event_rep st e : rep_inv st -> rep_inv (snd (insert_event st e)).
Proof.
  intros OK. destruct (insert_event st e) as [r s] eqn:Ev. cbn [snd].
  destruct (insert_event_cases _ _ _ _ Ev) as [[-> _]|(_ & _ & _ & A)]; [exact OK|].
  rewrite insert_admitted_eq in A. cbv zeta in A.
  destruct (store_set_event _ _) as [st2|] eqn:E; injection A as <- <-; [|exact OK].
  exact (rep_inv_rview st2 _ (after_store_rview _ _ _) (store_set_event_rep _ _ _ E OK)).
Qed.

(** SetPeerSet *)
Lemma rep_mem_app k l l' : rep_mem k l = true -> rep_mem k (l ++ l') = true.
Proof. unfold rep_mem. rewrite existsb_app. intros ->. reflexivity. Qed.

Lemma sp_step_rep r s p : rep_inv s -> rep_inv (sp_step r s p).
Proof.
  intros Hs. unfold sp_step.
  set (s1 := s <| repertoire := if rep_mem (pkey p) (repertoire s) then repertoire s else repertoire s ++ [p] |>).
  set (s2 := s1 <| first_rounds := add_first_round (pid p) r (first_rounds s1) |>).
  cbv zeta.
  assert (R2 : repertoire s2 = if rep_mem (pkey p) (repertoire s) then repertoire s else repertoire s ++ [p])
    by reflexivity.
  assert (P2 : pevents s2 = pevents s) by reflexivity.
  assert (Grow : forall c, rep_mem c (repertoire s) = true -> rep_mem c (repertoire s2) = true).
  { intros c Hc. rewrite R2. destruct (rep_mem (pkey p) (repertoire s)); [exact Hc|apply rep_mem_app; exact Hc]. }
  assert (Has : rep_mem (pkey p) (repertoire s2) = true).
  { rewrite R2. destruct (rep_mem (pkey p) (repertoire s)) eqn:E; [exact E|].
    unfold rep_mem. rewrite existsb_app. cbn. rewrite Z.eqb_refl. apply orb_true_r. }
  destruct (zmem (pkey p) (pevents s2)).
  - intros c q Hq. rewrite P2 in Hq. apply Grow. eapply Hs; eauto.
  - intros c q Hq.
    change (zget c (zset (pkey p) new_pidx (pevents s2)) = Some q) in Hq.
    change (rep_mem c (repertoire s2) = true). rewrite zget_zset in Hq.
    destruct (Z.eqb_spec (pkey p) c) as [<-|Hne]; cbn [andb] in Hq.
    + exact Has.
    + rewrite P2 in Hq. apply Grow. eapply Hs; eauto.
Qed.

Lemma set_peerset_rep st r ps st' : set_peerset st r ps = Some st' -> rep_inv st -> rep_inv st'.
Proof.
  apply (set_peerset_steps (fun s s' => rep_inv s -> rep_inv s')); [auto| |exact sp_step_rep].
  intros s t H. exact H.
Qed.

Lemma rep_inv_round_rest st st' : round_rest st' = round_rest st -> rep_inv st -> rep_inv st'.
Proof. intros H. apply rep_inv_rview, rview_psv, psv_round_rest, H. Qed.

Lemma run_consensus_rep st : rep_inv st -> rep_inv (run_consensus st).
Proof.
  apply (run_consensus_preorder (fun s s' => rep_inv s -> rep_inv s')); [auto| | | |].
  - intros s. apply rep_inv_rview, rview_ord_rest, divide_rounds_ord_rest.
  - intros s. apply rep_inv_rview, rview_ord_rest, decide_fame_ord_rest.
  - intros s. apply rep_inv_rview, rview_ord_rest, decide_round_received_ord_rest.
  - apply (process_decided_rounds_steps (fun s s' => rep_inv s -> rep_inv s'));
      [auto|exact set_peerset_rep|exact rep_inv_round_rest].
Qed.

Lemma step_rep st e : rep_inv st -> rep_inv (step st e).
Proof.
  intros OK. unfold step, insert_and_run. pose proof (insert_event_rep st e OK) as H.
  destruct (insert_event st e) as [r s]. cbn [snd] in *. destruct r; cbn [snd]; auto. apply run_consensus_rep. exact H.
Qed.

Lemma rview_process_sigpool st : rview (process_sigpool st) = rview st.
Proof. apply rview_psv, psv_sig_rest, process_sigpool_sig_rest. Qed.

Lemma rep_inv_init self_ genesis oracle_ : rep_inv (init_hg self_ genesis oracle_).
Proof.
  unfold init_hg. destruct (set_peerset (empty_hg self_) 0 genesis) as [st|] eqn:S.
  - apply set_peerset_rep in S.
    + exact S.
    + intros c p H. unfold empty_hg in H. cbn in H. rewrite zget_empty in H. discriminate.
  - intros c p H. unfold empty_hg in H. cbn in H. rewrite zget_empty in H. discriminate.
Qed.
