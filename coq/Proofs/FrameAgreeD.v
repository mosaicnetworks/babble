(* Dynamic membership: two nodes that respect the distance bound (same genesis set) build the same FRAME for every
   round whose block both have delivered: the delivered blocks agree in every field. *)
From Coq Require Import ZArith List Bool Lia Sorted.
From RecordUpdate Require Import RecordSet.
From V Require Import Model.ZMap Model.Quorum Model.HgImpl Model.PeerSetSpec Proofs.AdmissionProofs Proofs.BlockInv
  Proofs.RoundOrder Proofs.OrderProofs Proofs.Agreement Proofs.FrameFn Proofs.GapWindow Proofs.CInvRunD
  Proofs.CommittedD Proofs.FsvD Proofs.BlockAgree Proofs.BlockAgreeD Proofs.BlockPeersD Proofs.FrameD.
Import ListNotations RecordSetNotations.
Open Scope Z_scope.

(* the last-consensus-event function reads the EVENTS of the frames below n only *)
Lemma lce_fn_ext_ev cre cre' frs frs' n :
  (forall R, 0 <= R < Z.of_nat n -> option_map f_events (zget R frs) = option_map f_events (zget R frs')) ->
  (forall R f fe, 0 <= R < Z.of_nat n -> zget R frs = Some f -> In fe (f_events f) -> cre (fe_id fe) = cre' (fe_id fe)) ->
  lce_fn cre frs n = lce_fn cre' frs' n.
Proof.
  intros H1 H2. apply lce_fn_ext_ids; [|exact H2]. intros R HR. pose proof (H1 R HR) as E.
  destruct (zget R frs), (zget R frs'); try discriminate E; [|reflexivity]. injection E as E. cbn [option_map]. rewrite E. reflexivity.
Qed.

(** * where a cached frame comes from: a prefix of the run, which is itself a run that respects the distance bound *)
Lemma frame_origin all s g o ops R f :
  s <> -1 -> ids_determine all -> Forall (hop_ok all) ops -> gap_runb (init_hg s g o) ops = true ->
  failed (hrun (init_hg s g o) ops) = false -> zget R (frames (hrun (init_hg s g o) ops)) = Some f ->
  built (fst (fsv_tbl (f_peersets f))) (snd (fsv_tbl (f_peersets f))) s g o ops R f.
Proof.
  intros Hs ID H B F Hz.
  set (P := psat (hrun (init_hg s g o) ops)).
  assert (HP : forall q, 0 <= q <= last_round (hrun (init_hg s g o) ops) -> P q = psat (hrun (init_hg s g o) ops) q) by reflexivity.
  pose proof (finv2_preD s g o all ops Hs ID H B P HP) as FI.
  assert (Ff : failed (hrun (init_hg s g o) (firstn (length ops) ops)) = false) by (rewrite firstn_all; exact F).
  assert (Hz' : zget R (frames (hrun (init_hg s g o) (firstn (length ops) ops))) = Some f) by (rewrite firstn_all; exact Hz).
  destruct (g2_fe _ _ _ _ _ (FI (length ops) Ff) R f Hz') as [j [Hj [Fe Hzj]]].
  assert (Fj : failed (hrun (init_hg s g o) (firstn j ops)) = false).
  { destruct (failed (hrun (init_hg s g o) (firstn j ops))) eqn:E; [|reflexivity].
    rewrite <- (firstn_skipn j ops), hrun_app in F. rewrite (hrun_failed_true (skipn j ops) _ E) in F. discriminate. }
  exists j. split; [exact Fj|]. split; [exact Hzj|]. split; [exact Fe|].
  intros R' HR'. apply (g2_fc _ _ _ _ _ (FI j Fj) R' ltac:(lia)).
  pose proof (pinv_preD s g o all ops Hs ID H B P HP j Fj) as [_ Fr _].
  destruct (Fr R f Hzj) as [l [Hl Hle]]. exists l. split; [exact Hl|lia].
Qed.

Lemma nth_error_firstn_lt {A} (l : list A) : forall k i, (i < k)%nat -> nth_error (firstn k l) i = nth_error l i.
Proof.
  induction l as [|a l IH]; intros k i Hi; [destruct k, i; reflexivity|].
  destruct k; [lia|]. destruct i; [reflexivity|]. cbn [firstn nth_error]. apply IH. lia.
Qed.

Lemma filter_lt_firstn ds : StronglySorted Z.lt (map b_rr ds) ->
  forall k d, nth_error ds k = Some d -> filter (fun x => b_rr x <? b_rr d) ds = firstn k ds.
Proof.
  induction ds as [|a l IH]; intros S k d Hk; [destruct k; discriminate|].
  cbn [map] in S. inversion S as [|? ? S' Fa]; subst. rewrite Forall_forall in Fa.
  destruct k as [|k]; cbn [nth_error] in Hk.
  - inversion Hk; subst a. cbn [filter firstn]. replace (b_rr d <? b_rr d) with false by lia.
    clear - Fa. induction l as [|b l IHl]; [reflexivity|]. cbn [filter].
    assert (b_rr d < b_rr b) by (apply Fa; left; reflexivity). replace (b_rr b <? b_rr d) with false by lia.
    apply IHl. intros x Hx. apply Fa. right. exact Hx.
  - cbn [filter firstn].
    assert (b_rr a < b_rr d) by (apply Fa; apply in_map; eapply nth_error_In; exact Hk).
    replace (b_rr a <? b_rr d) with true by lia. f_equal. apply (IH S' k d Hk).
Qed.

(** * AGREEMENT OF THE DELIVERED BLOCKS, ALL FIELDS *)
Section FinalF.
  Variables (all : list event) (g : peerset).
  Hypothesis ID : ids_determine all.
  Hypothesis SK : sigkeys_determine all.
  Hypothesis FF : fork_free all.
  Variables (s1 s2 : Z) (o1 o2 : list Z) (ops1 ops2 : list hop).
  Hypothesis S1 : s1 <> -1.
  Hypothesis S2 : s2 <> -1.
  Hypothesis H1 : Forall (hop_ok all) ops1.
  Hypothesis H2 : Forall (hop_ok all) ops2.
  Hypothesis B1 : gap_runb (init_hg s1 g o1) ops1 = true.
  Hypothesis B2 : gap_runb (init_hg s2 g o2) ops2 = true.
  Let st1 := hrun (init_hg s1 g o1) ops1.
  Let st2 := hrun (init_hg s2 g o2) ops2.
  Hypothesis F1 : failed st1 = false.
  Hypothesis F2 : failed st2 = false.

  (* the tables recorded in the frames of the k-th blocks *)
  Lemma block_tables_agree k d1 d2 :
    nth_error (delivered st1) k = Some d1 -> nth_error (delivered st2) k = Some d2 ->
    tbl_below g (delivered st1) (b_rr d1) = tbl_below g (delivered st2) (b_rr d2).
  Proof.
    intros Hk1 Hk2.
    destruct (proj2 (hrun_rtop s1 g o1 ops1) F1) as [A1 _]. destruct (proj2 (hrun_rtop s2 g o2 ops2) F2) as [A2 _].
    fold st1 in A1. fold st2 in A2.
    unfold tbl_below.
    rewrite (filter_lt_firstn (delivered st1) (r_del_sorted _ A1) k d1 Hk1), (filter_lt_firstn (delivered st2) (r_del_sorted _ A2) k d2 Hk2).
    unfold replay_genesis. f_equal. apply replay_ext.
    assert (L1 : (k < length (delivered st1))%nat) by (apply nth_error_Some; rewrite Hk1; discriminate).
    assert (L2 : (k < length (delivered st2))%nat) by (apply nth_error_Some; rewrite Hk2; discriminate).
    assert (Len : length (firstn k (delivered st1)) = length (firstn k (delivered st2))) by (rewrite !firstn_length; lia).
    rewrite (map_prefix_of_pointwise (fun d : block => (b_rr d, b_itxs d)) (firstn k (delivered st1)) (firstn k (delivered st2)));
      [rewrite Len, <- (map_length (fun d : block => (b_rr d, b_itxs d))); apply firstn_all|lia|].
    intros i e1 e2 E1 E2.
    assert (Hi : (i < k)%nat).
    { assert (C : nth_error (firstn k (delivered st1)) i <> None) by (rewrite E1; discriminate).
      apply nth_error_Some in C. rewrite firstn_length in C. lia. }
    rewrite nth_error_firstn_lt in E1, E2 by exact Hi.
    pose proof (blocks_agree_gap_ts all g ID SK FF s1 s2 o1 o2 ops1 ops2 S1 S2 H1 H2 B1 B2 F1 F2 i e1 e2 E1 E2) as E.
    injection E as _ Er _ _ Ei. rewrite Er, Ei. reflexivity.
  Qed.

  (* the 7-tuple of the static C01_agreement ([cbody], Proofs/BlockAgree.v) *)
  Theorem blocks_agree_gap_cbody k d1 d2 :
    nth_error (delivered st1) k = Some d1 -> nth_error (delivered st2) k = Some d2 -> cbody d1 = cbody d2.
  Proof.
    intros Hk1 Hk2. destruct (gap_runs_along all g ID SK FF s1 s2 o1 o2 ops1 ops2 S1 S2 H1 H2 B1 B2 F1 F2) as [P [A1 A2]].
    pose proof (nth_error_In _ _ Hk1) as Hd1. pose proof (nth_error_In _ _ Hk2) as Hd2.
    destruct (delivered_block_payload all _ d1 (hrun_ginv all s1 g o1 ops1 ID H1) Hd1) as [Hz1 _].
    destruct (delivered_block_payload all _ d2 (hrun_ginv all s2 g o2 ops2 ID H2) Hd2) as [Hz2 _].
    pose proof (hrun_KP g ops1 _ (KP_init s1 g o1 S1) F1) as K1. pose proof (hrun_KP g ops2 _ (KP_init s2 g o2 S2) F2) as K2.
    (* the table snapshots *)
    assert (Ept : f_peersets (b_frame d1) = f_peersets (b_frame d2)).
    { rewrite (proj2 (kp_fp _ _ K1 _ _ Hz1)), (proj2 (kp_fp _ _ K2 _ _ Hz2)). apply (block_tables_agree k d1 d2 Hk1 Hk2). }
    apply (blocks_agree_frames_along P all s1 s2 g g o1 o2 ops1 ops2 (fst (fsv_tbl (f_peersets (b_frame d1)))) (snd (fsv_tbl (f_peersets (b_frame d1)))) k d1 d2 A1 A2 F1 F2 FF SK Hk1 Hk2
             (proj2 (block_peers_spec all s1 g o1 ops1 d1 S1 ID H1 F1 Hd1)) (proj2 (block_peers_spec all s2 g o2 ops2 d2 S2 ID H2 F2 Hd2)) Ept).
    - exact (frame_origin all s1 g o1 ops1 _ _ S1 ID H1 B1 F1 Hz1).
    - rewrite Ept. exact (frame_origin all s2 g o2 ops2 _ _ S2 ID H2 B2 F2 Hz2).
  Qed.

  Corollary blocks_prefix_gap_cbody : (length (delivered st1) <= length (delivered st2))%nat ->
    map cbody (delivered st1) = firstn (length (delivered st1)) (map cbody (delivered st2)).
  Proof.
    intros Hlen. apply map_prefix_of_pointwise; [exact Hlen|]. exact blocks_agree_gap_cbody.
  Qed.
End FinalF.
