(* In every state satisfying the division invariant [cinvD P] whose table answers P q for every round q it
   has, the store lookups made by DecideFame (with the quorum of fix 05eda0b: the super-majority of the voters'
   set) form a well-formed view of the voting with per-round sizes [view_okD].  The last section reads off
   [view_ok] for static membership. *)
From Coq Require Import ZArith List Bool Lia ZifyBool Permutation.
From RecordUpdate Require Import RecordSet.
From V Require Import Model.ZMap Model.Quorum Model.Voting Model.VotingRef Model.VotingRefD Model.HgImpl
  Proofs.ZMapFacts Proofs.QuorumProofs Proofs.AdmissionProofs Proofs.Ancestry Proofs.BlockInv Proofs.RoundOrder
  Proofs.VotingProofs Proofs.VotingProofsD Proofs.FameBridge Proofs.Static Proofs.FirstDesc Proofs.DivInv Proofs.Height
  Proofs.StronglySee Proofs.ViewOk Proofs.FirstDescD Proofs.StronglySeeD.
Import ListNotations RecordSetNotations.
Open Scope Z_scope.

Lemma view_okD_intro n r P W J :
  (forall j, 0 <= n j) -> r <= J ->
  (forall j, r + 1 <= j <= J -> NoDup (W j) /\ Z.of_nat (length (W j)) <= n j) ->
  (forall j j' y, r + 1 <= j <= J -> r + 1 <= j' <= J -> In y (W j) -> In y (W j') -> j = j') ->
  (forall j, r + 2 <= j <= J -> vp_sm P j = Some (smd n j)) ->
  (forall j, r + 2 <= j <= J -> vp_prev P j = Some (W (j - 1))) ->
  (forall j y w, r + 2 <= j <= J -> In y (W j) -> In w (W (j - 1)) -> vp_ss P j y w <> None) ->
  (forall j y, r + 2 <= j <= J -> In y (W j) -> smd n j <= Z.of_nat (length (ssset P W j y))) ->
  (forall y, In y (W (r + 1)) -> vp_sees P y <> None) ->
  view_okD n r P W J.
Proof.
  intros H1 H2 H3 H4 H5 H6 H7 H8 H9. constructor; auto.
  - intros j Hj; apply H3; exact Hj.
  - intros j Hj; apply H3; exact Hj.
  - intros j Hj. exists (W (j - 1)). split; [apply H6; exact Hj|apply Permutation_refl].
Qed.

Section ViewD.
  Variables (P : Z -> peerset) (st : hg).
  Hypothesis G : goodD P st.
  Hypothesis R : contig st.
  (* the table of st answers P on the rounds st has *)
  Hypothesis T : forall q, 0 <= q <= last_round st -> get_peerset st q = Some (P q).
  Let I := gD_c _ _ G.

  Definition nD (q : Z) : Z := ps_len (P q).

  Lemma view_witnesses_witsD j : 0 <= j <= last_round st -> view_witnesses st j = wits st j.
  Proof.
    intros Hj. unfold view_witnesses, round_witnesses. rewrite (T j Hj).
    destruct (get_round st j) as [ri|] eqn:Er; [symmetry; apply wits_get_round; exact Er|].
    unfold wits, wl. rewrite Er. reflexivity.
  Qed.

  (* with a contiguous table also beyond the rounds st has: both sides are empty there *)
  Lemma view_witnesses_eqD j : view_witnesses st j = wits st j.
  Proof.
    destruct (get_round st j) as [ri|] eqn:E.
    - apply view_witnesses_witsD. apply R. rewrite E. discriminate.
    - unfold view_witnesses, round_witnesses, wits, wl. rewrite E. reflexivity.
  Qed.

  Lemma round_witnesses_someD j : 0 <= j <= last_round st -> round_witnesses st j <> None.
  Proof.
    intros Hj. unfold round_witnesses. rewrite (T j Hj).
    pose proof (proj2 (R j) Hj) as Hg. destruct (get_round st j); [discriminate|contradiction].
  Qed.

  Lemma round_witnesses_zrangeD r : -1 <= r ->
    forall j, In j (zrange (r + 1) (last_round st)) -> round_witnesses st j <> None.
  Proof using R T. intros Hr j Hj. apply In_zrange in Hj. apply round_witnesses_someD. lia. Qed.

  Lemma wits_lengthD j : Z.of_nat (length (wits st j)) <= nD j.
  Proof.
    unfold nD, ps_len. apply inj_le. rewrite <- (map_length (creator_of st)).
    apply NoDup_incl_length.
    - apply NoDup_map_inj_in; [apply (wits_nodupD P st G)|].
      intros a b Ha Hb Hc.
      destruct (wits_storedD P st G j a Ha) as [ea Hea]. destruct (wits_storedD P st G j b Hb) as [eb Heb].
      unfold creator_of in Hc. rewrite Hea, Heb in Hc. exact (wits_injD P st G j a b ea eb Ha Hb Hea Heb Hc).
    - intros c Hc. apply in_map_iff in Hc. destruct Hc as [w [E Hw]].
      destruct (wits_memberD P st G j w Hw) as [ew [Hew Hm]].
      unfold creator_of in E. rewrite Hew in E. subst c. apply dedup_In. apply mem_key_In. exact Hm.
  Qed.

  Lemma ssb_ss_true_withD sees j y w : 1 <= j <= last_round st + 1 ->
    ssb (vparams_with st sees) j y w = ss_true (P (j - 1)) st y w.
  Proof.
    intros Hj. unfold ssb, vparams_with, ss_true. cbn [vp_ss]. rewrite (T (j - 1)) by lia.
    destruct (strongly_see st y w (P (j - 1))) as [[|]|]; reflexivity.
  Qed.

  Theorem view_ok_reach_genD sees r :
    -1 <= r <= last_round st ->
    (forall y, In y (wits st (r + 1)) -> sees y <> None) ->
    view_okD nD r (vparams_with st sees) (view_witnesses st) (last_round st).
  Proof.
    intros Hr Hsees. apply view_okD_intro; [intros j; unfold nD, ps_len; lia|lia| | | | | | |].
    - intros j Hj. rewrite view_witnesses_eqD. split; [apply (wits_nodupD P st G)|apply wits_lengthD].
    - intros j j' y Hj Hj'. rewrite !view_witnesses_eqD. intros H1 H2.
      apply (wits_specD P st G) in H1. apply (wits_specD P st G) in H2. destruct H1 as [H1 _], H2 as [H2 _]. congruence.
    - intros j Hj. unfold vparams_with. cbn [vp_sm]. rewrite (T (j - 1)) by lia. reflexivity.
    - intros j Hj. unfold vparams_with. cbn [vp_prev]. rewrite view_witnesses_eqD.
      assert (Hg : get_round st (j - 1) <> None) by (apply R; lia).
      destruct (get_round st (j - 1)) as [ri|] eqn:E; [|contradiction].
      rewrite (wits_get_round st _ ri E). reflexivity.
    - intros j y w Hj. rewrite !view_witnesses_eqD. intros Hy Hw.
      destruct (wits_storedD P st G _ y Hy) as [ey Hey]. destruct (wits_storedD P st G _ w Hw) as [ew Hew].
      unfold vparams_with. cbn [vp_ss]. rewrite (T (j - 1)) by lia.
      unfold strongly_see. rewrite Hey, Hew. discriminate.
    - intros j y Hj. rewrite view_witnesses_eqD. intros Hy. unfold ssset. rewrite view_witnesses_eqD.
      apply (wits_specD P st G) in Hy. destruct Hy as [Hry _].
      destruct (cd_rdom _ _ _ I y j Hry) as [_ [ey [Hey _]]].
      rewrite (filter_ext _ _ (fun w => ssb_ss_true_withD sees j y w ltac:(lia))).
      unfold smd, nD. apply (quorumD P st G y ey j Hey Hry). lia.
    - intros y. rewrite view_witnesses_eqD. intros Hy. cbn [vparams_with vp_sees]. apply Hsees. exact Hy.
  Qed.

  Theorem view_ok_reachD x r ex :
    -1 <= r <= last_round st -> get_event st x = Some ex ->
    view_okD nD r (vparams_of st x) (view_witnesses st) (last_round st).
  Proof.
    intros Hr Hx. rewrite vparams_of_with. apply view_ok_reach_genD; [exact Hr|].
    intros y Hy. destruct (wits_storedD P st G _ y Hy) as [ey Hey].
    unfold see, ancestor. destruct (y =? x); [discriminate|]. rewrite Hey, Hx. discriminate.
  Qed.
End ViewD.

Section Static.
  Variables (g : peerset) (st : hg).
  Hypothesis G : good g st.
  Hypothesis R : contig st.

  Lemma round_witnesses_some j : 0 <= j <= last_round st -> round_witnesses st j <> None.
  Proof. exact (round_witnesses_someD (fun _ => g) st R (fun q _ => good_peerset g st G q) j). Qed.

  Definition round_witnesses_zrange :=
    round_witnesses_zrangeD (fun _ => g) st R (fun q _ => good_peerset g st G q).

  Theorem view_ok_reach x r ex :
    1 <= ps_len g -> -1 <= r <= last_round st -> get_event st x = Some ex ->
    view_ok (ps_len g) r (vparams_of st x) (view_witnesses st) (last_round st).
  Proof.
    intros Hn Hr Hx. apply (view_okD_const _ _ _ _ _ Hn).
    exact (view_ok_reachD _ st (good_goodD g st G) R (fun q _ => good_peerset g st G q) x r ex Hr Hx).
  Qed.
End Static.
