(* C08: the code AS IT IS panics / hangs / wedges: one concrete witness per site (by evaluation),
   each replayed on the real code by harness/cmd/hostile (see findings/hostile/FINDINGS.md). *)
From Coq Require Import ZArith List Bool.
From V Require Import Model.Hostile Model.HostileWitness Proofs.HostileProofs.
Import ListNotations.
Open Scope Z_scope.

(* The one valid key of the witnesses is the generator of secp256k1.  Decoding it is the only 256-bit
   arithmetic behind this file, and plain evaluation of a witness makes the kernel redo it at every
   place where a handler looks at the key: it is done here, once. *)
Lemma generator_key :
  encodable g_hex = true /\ hex_pairs (hex_of g_bytes) = (g_bytes, true) /\
  forall fx, to_public_key fx g_bytes = KPoint g_x g_y.
Proof. vm_compute. repeat split. Qed.

Lemma g_hex_encodable : encodable g_hex = true.
Proof. exact (proj1 generator_key). Qed.

Lemma g_hex_key : forall fx, pub_key_bytes fx g_hex = Ok g_bytes.
Proof. intros fx. unfold g_hex. rewrite pub_key_bytes_0x, (proj1 (proj2 generator_key)). reflexivity. Qed.

Lemma g_key : forall fx, to_public_key fx g_bytes = KPoint g_x g_y.
Proof. exact (proj2 (proj2 generator_key)). Qed.

(* Evaluation that stops where the key is looked at, takes the answer from the three facts above and
   goes on.  What it leaves is closed by conversion: nothing in it looks at the key any more. *)
Ltac key_compute :=
  repeat (progress (lazy -[encodable pub_key_bytes to_public_key g_hex g_bytes g_x g_y];
                    rewrite ?g_hex_encodable, ?g_hex_key, ?g_key)).

(* The same for the closed right-hand side of an equation E, in a goal of its own: the kernel checks a
   reduction step made in a goal by unfolding the unreduced term until it meets the reduced one, but a
   step made in a hypothesis by unfolding the reduced term first, and its head is the decoding of the key.
   This is for a command sent to the state that an earlier command left (remember the earlier result,
   evaluate it, substitute, go on): evaluated in one go, the later handler is unfolded on a state that is
   still stuck at the key, and the stuck term is copied to wherever the handler reads the state. *)
Tactic Notation "key_compute" "in" hyp(E) :=
  match type of E with
  | _ = ?t => let V := fresh in eassert (V : t = _) by (key_compute; reflexivity); rewrite V in E; clear V
  end.

(* the witnesses are well-formed honest objects *)
Lemma good_objects :
  to_public_key asis g_bytes = KPoint g_x g_y /\
  itx_verify asis good_itx = Ok true /\ itx_verify repaired good_itx = Ok true /\
  fst (eager_sync asis 0 good_event []) = Ok tt /\
  ff_check asis good_ff = Ok tt /\ ff_check repaired good_ff = Ok tt /\
  process_sigpool asis [good_entry] = (Ok tt, []).
Proof. key_compute. repeat split. Qed.

(* 1. common.DecodeFromString: hexString[2:] on "" and on a 1-character string *)
Lemma w_hex : decode_from_string asis [] = Panic /\ decode_from_string asis [48] = Panic /\
              decode_from_string repaired [] = Ok ([], false).
Proof. vm_compute. repeat split. Qed.

(* 2. keys.DecodeSignature: "!|!" decodes WITHOUT error to nil values, which Verify dereferences
      (valid key, so the nil big.Int is the only defect) *)
Lemma w_sig : decode_signature asis s_bang = Ok (None, None) /\
              block_verify asis g_bytes s_bang false = Panic /\
              block_verify repaired g_bytes s_bang false = Err.
Proof. vm_compute. repeat split. Qed.

(* 3. keys.ToPublicKey / Verify: nil key for empty bytes, key with nil X, Y for garbage
      (well-formed signature "1|1", so the key is the only defect) *)
Lemma w_key : to_public_key asis [] = KNil /\ to_public_key asis [4] = KXYNil /\
              block_verify asis [] s_one false = Panic /\ block_verify asis [4] s_one false = Panic /\
              block_verify repaired [] s_one false = Ok false /\ block_verify repaired [4] s_one false = Ok false.
Proof. vm_compute. repeat split. Qed.

(* 4. Event.SelfParent / OtherParent *)
Lemma w_parents : parent_at asis 0 0 = Panic /\ parent_at asis 1 1 = Panic /\ parent_at asis 1 2 = Ok tt.
Proof. vm_compute. repeat split. Qed.

(* 5. processSyncRequest: negative SyncLimit, also while Suspended (state 5) *)
Lemma w_limit : sync_request asis 0 (-1) 1000 3 = Panic /\ sync_request asis 5 (-1) 1000 3 = Panic /\
                sync_request repaired 5 (-1) 1000 3 = Ok 0 /\ sync_request asis 0 (-1) 1000 0 = Ok 0.
Proof. vm_compute. repeat split. Qed.

(* 6. SortedFrameEvents.Less: same Lamport timestamp, one undecodable signature *)
Lemma w_less : fe_less asis (FEv 1 2 s_bang) (FEv 1 2 s_one) = Panic /\
               fe_less asis (FEv 1 2 s_abc) (FEv 1 2 s_one) = Panic /\
               fe_less asis (FEv 1 2 s_bang) (FEv 2 2 s_one) = Ok true /\
               fe_less repaired (FEv 1 2 s_bang) (FEv 1 2 s_one) = Ok true.
Proof. vm_compute. repeat split. Qed.

(* 7. a JoinRequest with an empty PubKeyHex (anybody), in the Babbling state *)
Lemma w_join : join_request asis 0 (mkItx [] [] [] s_one false) false = Panic /\
               join_request repaired 0 (mkItx [] [] [] s_one false) false = Err.
Proof. vm_compute. repeat split. Qed.

(* 8. an event carrying a hostile internal transaction panics BEFORE its own signature is looked
      at: the sender does not need any key (here the event signature is garbage) *)
Lemma w_event_itx :
  event_verify asis [mkItx [48; 88] [] [] s_one false] [] g_bytes s_abc false = Panic /\
  fst (eager_sync asis 0 (mkWE true [mkItx [] [] [] s_one false] [] g_bytes s_abc false true) []) = Panic /\
  fst (eager_sync repaired 0 (mkWE true [mkItx [] [] [] s_one false] [] g_bytes s_abc false true) []) = Err.
Proof. vm_compute. repeat split. Qed.

(* 9. fast-forward responses: null peer, key "" in Block.Signatures, undecodable block signature,
      null root, null frame event, frame event without Core, one parent, U+FFFD anywhere *)
Lemma w_ff :
  ff_check asis (with_peers good_ff [Some g_hex; None]) = Panic /\
  ff_check asis (with_sigs good_ff [([], false, s_one, false)]) = Panic /\
  ff_check asis (with_sigs good_ff [(g_hex, true, s_bang, false)]) = Panic /\
  ff_check asis (with_roots good_ff [None]) = Panic /\
  ff_check asis (with_events good_ff [FNil]) = Panic /\
  ff_check asis (with_events good_ff [FCoreNil 1]) = Panic /\
  ff_check asis (with_events good_ff [FEv 1 1 s_one]) = Panic /\
  ff_check asis (with_fffd good_ff) = Hang /\
  ff_check repaired (with_peers good_ff [Some g_hex; None]) = Err /\
  ff_check repaired (with_roots good_ff [None]) = Err /\
  ff_check repaired (with_events good_ff [FEv 1 1 s_one]) = Err /\
  ff_check repaired (with_fffd good_ff) = Err.
Proof. key_compute. repeat split. Qed.

(* 10. ProcessSigPool: a malformed signature of a validator is never removed and makes every call
       fail (wedge); an undecodable one panics *)
Lemma w_sigpool :
  process_sigpool asis [mkPE true true g_bytes s_abc false; good_entry] =
     (Err, [mkPE true true g_bytes s_abc false; good_entry]) /\
  fst (process_sigpool asis [mkPE true true g_bytes s_bang false]) = Panic /\
  process_sigpool repaired [mkPE true true g_bytes s_abc false; good_entry] = (Ok tt, []).
Proof. key_compute. repeat split. Qed.

(* 11. the canonical encoder: a correctly signed internal transaction whose moniker contains U+FFFD
       is accepted, and hashing any frame that contains it never terminates *)
Lemma w_moniker :
  itx_verify asis (mkItx g_hex s_plain s_fffd s_one true) = Ok true /\
  join_request asis 0 (mkItx g_hex s_plain s_fffd s_one true) true = Ok true /\
  quote_str s_fffd = Hang /\
  itx_verify repaired (mkItx g_hex s_plain s_fffd s_one true) = Err.
Proof. key_compute. repeat split. Qed.

Definition no_panic_statement (fx : fixes) : Prop :=
  forall st c, ns_locked st = false -> safe (fst (handle fx st c)).

(* the no-panic statement is FALSE of the code as it is *)
Lemma no_panic_asis_refuted : ~ no_panic_statement asis.
Proof.
  intros H. destruct (H st_suspended (CSync (-1) false) eq_refl) as [Hp _]. apply Hp. vm_compute. reflexivity.
Qed.

Definition blocks_unchanged_statement (fx : fixes) : Prop := forall st c o st',
  handle fx st c = (o, st') ->
  (ns_blocks st' = ns_blocks st /\ ns_app st' = ns_app st) \/
  (o = Ok tt /\ exists f snap blocks, c = RFastForward f snap blocks).

(* 12. a REJECTED fast-forward response replaces the application state (snapshot 99) ... *)
Lemma w_restore_before_check :
  handle asis st_catching_up (RFastForward (with_frame_hash good_ff false) 99 [50]) =
    (Err, mkNS 1 1000 3 [10; 11] 99 [] false [1; 2] [] true) /\
  handle repaired st_catching_up (RFastForward (with_frame_hash good_ff false) 99 [50]) = (Err, st_catching_up).
Proof. key_compute. repeat split. Qed.

(* 13. ... and a response that passes the checks but cannot be inserted loses the delivered blocks *)
Lemma w_reset_not_atomic :
  handle asis st_catching_up (RFastForward (with_insert good_ff false) 99 [50]) =
    (Err, mkNS 1 1000 3 [] 99 [] false [] [] true) /\
  handle repaired st_catching_up (RFastForward (with_insert good_ff false) 99 [50]) = (Err, st_catching_up).
Proof. key_compute. repeat split. Qed.

Lemma blocks_unchanged_asis_refuted : ~ blocks_unchanged_statement asis.
Proof.
  intros H. destruct (H _ _ _ _ (proj1 w_restore_before_check)) as [[_ Ha]|[Ho _]]; discriminate.
Qed.

Definition still_serves_statement (fx : fixes) : Prop := forall st c v,
  ns_locked st = false ->
  heads_ok (ns_known st) (ns_heads st) = true ->
  is_request v = true ->
  fst (handle fx st v) = Ok tt ->
  fst (handle fx (snd (handle fx st c)) v) = Ok tt.

(* 14. after one validly signed event carrying a malformed block signature, every later VALID
       eager sync is answered with an error *)
Definition poison : cmd := CEager good_event [mkPE true true g_bytes s_abc false] good_meta.
Lemma w_wedge :
  fst (handle asis st_babbling (CEager good_event [] good_meta)) = Ok tt /\
  fst (handle asis st_babbling poison) = Err /\
  fst (handle asis (snd (handle asis st_babbling poison)) (CEager good_event [] good_meta)) = Err /\
  fst (handle asis (snd (handle asis (snd (handle asis st_babbling poison)) (CEager good_event [] good_meta))) (CEager good_event [] good_meta)) = Err /\
  fst (handle repaired (snd (handle repaired st_babbling poison)) (CEager good_event [] good_meta)) = Ok tt.
Proof.
  remember (handle asis st_babbling poison) as p eqn:P.
  remember (handle asis (snd p) (CEager good_event [] good_meta)) as p' eqn:P'.
  remember (handle repaired st_babbling poison) as r eqn:R.
  key_compute in P. subst p. key_compute in P'. subst p'. key_compute in R. subst r.
  key_compute. repeat split.
Qed.

Lemma still_serves_asis_refuted : ~ still_serves_statement asis.
Proof.
  intros H. destruct w_wedge as [E [_ [W _]]].
  specialize (H st_babbling poison (CEager good_event [] good_meta) eq_refl eq_refl eq_refl E).
  rewrite W in H. discriminate H.
Qed.

(* 15. the eventDiff-error path: answered with an error, nothing changes, the next valid request is
       served; what a handler that forgot to release the core lock on that path would cause instead *)
Lemma w_sync_diff_error :
  handle asis st_babbling (CSync 10 true) = (Err, st_babbling) /\
  handle repaired st_suspended (CSync 10 true) = (Err, st_suspended) /\
  fst (handle repaired (snd (handle repaired st_babbling (CSync 10 true))) (CSync 10 false)) = Ok tt /\
  fst (handle repaired (leak_lock st_babbling) (CSync 10 false)) = Hang /\
  fst (handle repaired (leak_lock st_babbling) (CEager good_event [] good_meta)) = Hang.
Proof. vm_compute. repeat split. Qed.

(* 16. a validly signed fork of a validator's own chain (refused with a "normal" self-parent error) is
       skipped without an error and is a no-op for a busy node; afterwards a valid push of another
       peer is accepted. What a core.sync that recorded the NOT inserted fork as the sender's head would
       cause instead (seeded/C08-r2): every later valid push fails in recordHeads *)
Lemma w_ill_chained_event :
  handle asis st_babbling (CEager fork_event [] fork_meta) = (Ok tt, st_babbling) /\
  handle repaired st_babbling (CEager fork_event [] fork_meta) = (Ok tt, st_babbling) /\
  fst (handle repaired (snd (handle repaired st_babbling (CEager fork_event [] fork_meta)))
                       (CEager good_event [] (mkEM 100 8 8 false))) = Ok tt /\
  heads_ok (ns_known (poison_head st_babbling 7 999)) (ns_heads (poison_head st_babbling 7 999)) = false /\
  fst (handle repaired (poison_head st_babbling 7 999) (CEager good_event [] (mkEM 100 8 8 false))) = Err /\
  fst (handle repaired (snd (handle repaired (poison_head st_babbling 7 999) (CEager good_event [] (mkEM 100 8 8 false))))
                       (CEager good_event [] (mkEM 101 8 8 false))) = Err.
Proof.
  remember (handle repaired st_babbling (CEager fork_event [] fork_meta)) as r eqn:R.
  remember (handle repaired (poison_head st_babbling 7 999) (CEager good_event [] (mkEM 100 8 8 false))) as r' eqn:R'.
  key_compute in R. subst r. key_compute in R'. subst r'.
  key_compute. repeat split.
Qed.
