(* C13: when does an event inserted after a Reset get the same round / witness flag / Lamport
   timestamp on the fast-forwarded node as on a full-history node?

   round(y) reads: the memoised rounds of y's parents, the RoundInfo and the peer set of the parent
   round pr, and for every witness w recorded in that RoundInfo the strongly-see test
   (last ancestors of y against first descendants of w, over the peer set).  [roots_sufficient v s y pr]
   says that the fast-forwarded node v and the full-history node s agree on what that computation
   reads; its negation is the known finding C13-roots-insufficient (a parent-round witness that y
   strongly sees on s is below the ROOT_DEPTH root events shipped in the frame, so v does not have it). *)
From Coq Require Import ZArith List Bool Lia ZifyBool Permutation.
From RecordUpdate Require Import RecordSet.
From V Require Import Model.ZMap Model.Quorum Model.Voting Model.HgImpl Model.HgReset
  Proofs.ZMapFacts Proofs.HgFrames.
Import ListNotations RecordSetNotations.
Open Scope Z_scope.

(* round_f as a function of what it reads *)

Definition parent_round (st : hg) (p : Z) : option Z :=
  if p =? -1 then Some (-1) else zget p (round_memo st).

Definition ss_step (st : hg) (x : Z) (pps : peerset) (acc : option Z) (w : Z) : option Z :=
  match acc, strongly_see st x w pps with
  | Some n, Some b => Some (if b then n + 1 else n)
  | _, _ => None
  end.
Definition ss_fold (st : hg) (x : Z) (pps : peerset) (ws : list Z) : option Z :=
  fold_left (ss_step st x pps) ws (Some 0).

Definition round_witnesses_at (st : hg) (r : Z) : list Z :=
  match get_round st r with Some ri => witnesses ri | None => [] end.

(* the round of x, given the rounds of its parents (-1 for no parent) *)
Definition round_of_parents (st : hg) (x spr opr : Z) : option Z :=
  let pr := if spr <? opr then opr else spr in
  if pr =? -1 then Some 0
  else match get_round st pr, get_peerset st pr with
       | Some pri, Some pps =>
         match ss_fold st x pps (witnesses pri) with
         | Some c => Some (if super_majority pps <=? c then pr + 1 else pr)
         | None => None
         end
       | _, _ => None
       end.

Lemma round_f_memoised fuel st x r : zget x (round_memo st) = Some r -> round_f fuel st x = (Some r, st).
Proof. intros H. destruct fuel; cbn [round_f]; rewrite H; reflexivity. Qed.

Lemma witness_f_memoised fuel st x w : zget x (witness_memo st) = Some w -> witness_f fuel st x = (Some w, st).
Proof. unfold witness_f. intros ->. reflexivity. Qed.

Lemma round_f_parent fuel st p r : parent_round st p = Some r ->
  (if p =? -1 then (Some (-1), st) else round_f fuel st p) = (Some r, st).
Proof.
  unfold parent_round. destruct (p =? -1); [intros H; inversion H; reflexivity|]. apply round_f_memoised.
Qed.

(* one unfolding of _round for an event that is not memoised and whose parents are *)
Lemma round_f_step_full fuel st x ex spr opr :
  zget x (round_memo st) = None -> get_event st x = Some ex ->
  parent_round st (e_sp (ev_e ex)) = Some spr -> parent_round st (e_op (ev_e ex)) = Some opr ->
  round_f (S fuel) st x =
  match round_of_parents st x spr opr with
  | Some r => (Some r, st <| round_memo := zset x r (round_memo st) |>)
  | None => (None, st)
  end.
Proof.
  intros Hm Hx Hsp Hop. cbn [round_f]. rewrite Hm, Hx.
  rewrite (round_f_parent fuel st _ _ Hsp). rewrite (round_f_parent fuel st _ _ Hop).
  unfold round_of_parents. cbv zeta.
  destruct ((if spr <? opr then opr else spr) =? -1); [reflexivity|].
  destruct (get_round st _) as [pri|]; [|reflexivity].
  destruct (get_peerset st _) as [pps|]; [|reflexivity].
  unfold ss_fold, ss_step. destruct (fold_left _ (witnesses pri) (Some 0)); reflexivity.
Qed.

Lemma round_f_step fuel st x ex spr opr :
  zget x (round_memo st) = None -> get_event st x = Some ex ->
  parent_round st (e_sp (ev_e ex)) = Some spr -> parent_round st (e_op (ev_e ex)) = Some opr ->
  fst (round_f (S fuel) st x) = round_of_parents st x spr opr.
Proof.
  intros Hm Hx Hsp Hop. rewrite (round_f_step_full fuel st x ex spr opr Hm Hx Hsp Hop).
  destruct (round_of_parents st x spr opr); reflexivity.
Qed.

Definition ss_true (st : hg) (x : Z) (pps : peerset) (w : Z) : bool :=
  match strongly_see st x w pps with Some true => true | _ => false end.

Lemma ss_fold_count st x pps : forall ws n,
  (forall w, In w ws -> strongly_see st x w pps <> None) ->
  fold_left (ss_step st x pps) ws (Some n) = Some (n + Z.of_nat (length (filter (ss_true st x pps) ws))).
Proof.
  induction ws as [|w r IH]; intros n D; cbn [fold_left filter length].
  - f_equal. lia.
  - unfold ss_step at 2, ss_true at 1.
    destruct (strongly_see st x w pps) as [[|]|] eqn:E; [| |exfalso; apply (D w); [left; reflexivity|exact E]].
    + rewrite IH by (intros; apply D; right; auto). cbn [length]. f_equal. lia.
    + rewrite IH by (intros; apply D; right; auto). reflexivity.
Qed.

Lemma same_members_length {A} (l1 l2 : list A) :
  NoDup l1 -> NoDup l2 -> (forall a, In a l1 <-> In a l2) -> length l1 = length l2.
Proof. intros N1 N2 H. apply Permutation_length. apply NoDup_Permutation; assumption. Qed.

Record roots_sufficient (v s : hg) (y pr : Z) (pps : peerset) : Prop := {
  (* both nodes have a RoundInfo for the parent round, without repeated witnesses *)
  rs_round : get_round v pr = None <-> get_round s pr = None;
  rs_nodup_v : NoDup (round_witnesses_at v pr);
  rs_nodup_s : NoDup (round_witnesses_at s pr);
  (* the strongly-see tests are defined (y and the witnesses are in the respective stores) *)
  rs_def_v : forall w, In w (round_witnesses_at v pr) -> strongly_see v y w pps <> None;
  rs_def_s : forall w, In w (round_witnesses_at s pr) -> strongly_see s y w pps <> None;
  (* every parent-round witness that y strongly sees on the full node is known to the reset node
     as a witness of that round: it is inside the frame (roots + events) or was inserted later *)
  rs_inside : forall w, In w (round_witnesses_at s pr) -> strongly_see s y w pps = Some true ->
              In w (round_witnesses_at v pr);
  (* the reset node does not invent witnesses *)
  rs_sub : forall w, In w (round_witnesses_at v pr) -> In w (round_witnesses_at s pr);
  (* for the witnesses it has, the coordinates it compares give the same answer *)
  rs_coords : forall w, In w (round_witnesses_at v pr) -> strongly_see v y w pps = strongly_see s y w pps
}.

Lemma ss_count_agree v s y pr pps :
  roots_sufficient v s y pr pps ->
  length (filter (ss_true v y pps) (round_witnesses_at v pr)) = length (filter (ss_true s y pps) (round_witnesses_at s pr)).
Proof.
  intros R. apply same_members_length.
  - apply NoDup_filter, (rs_nodup_v _ _ _ _ _ R).
  - apply NoDup_filter, (rs_nodup_s _ _ _ _ _ R).
  - intros w. rewrite !filter_In. unfold ss_true. split; intros [Hin Ht].
    + split; [apply (rs_sub _ _ _ _ _ R); exact Hin|]. rewrite <- (rs_coords _ _ _ _ _ R w Hin). exact Ht.
    + assert (Hs : strongly_see s y w pps = Some true) by (destruct (strongly_see s y w pps) as [[|]|]; congruence).
      pose proof (rs_inside _ _ _ _ _ R w Hin Hs) as Hv. split; [exact Hv|].
      rewrite (rs_coords _ _ _ _ _ R w Hv), Hs. reflexivity.
Qed.

(* same parents' rounds, same peer set for the parent round, sufficient roots: same round *)
Theorem round_of_parents_agree v s y spr opr :
  let pr := if spr <? opr then opr else spr in
  get_peerset v pr = get_peerset s pr ->
  (forall pps, get_peerset s pr = Some pps -> roots_sufficient v s y pr pps) ->
  round_of_parents v y spr opr = round_of_parents s y spr opr.
Proof.
  cbv zeta. intros Hps R. unfold round_of_parents. cbv zeta.
  set (pr := if spr <? opr then opr else spr) in *.
  destruct (pr =? -1); [reflexivity|]. rewrite Hps.
  destruct (get_peerset s pr) as [pps|] eqn:P.
  - specialize (R pps eq_refl).
    pose proof (ss_count_agree _ _ _ _ _ R) as C.
    pose proof (rs_def_v _ _ _ _ _ R) as Dv. pose proof (rs_def_s _ _ _ _ _ R) as Ds.
    pose proof (rs_round _ _ _ _ _ R) as RR.
    unfold round_witnesses_at in C, Dv, Ds.
    destruct (get_round v pr) as [rv|] eqn:Gv, (get_round s pr) as [rs|] eqn:Gs.
    + unfold ss_fold. rewrite (ss_fold_count v y pps _ 0 Dv), (ss_fold_count s y pps _ 0 Ds), C. reflexivity.
    + exfalso. pose proof (proj2 RR eq_refl) as X. congruence.
    + exfalso. pose proof (proj1 RR eq_refl) as X. congruence.
    + reflexivity.
  - destruct (get_round v pr), (get_round s pr); reflexivity.
Qed.

(* the same, for _round itself (one unfolding: parents memoised with equal values, y not yet) *)
Theorem round_f_agree fv fs v s y ev es spr opr :
  zget y (round_memo v) = None -> zget y (round_memo s) = None ->
  get_event v y = Some ev -> get_event s y = Some es -> ev_e ev = ev_e es ->
  parent_round v (e_sp (ev_e ev)) = Some spr -> parent_round s (e_sp (ev_e es)) = Some spr ->
  parent_round v (e_op (ev_e ev)) = Some opr -> parent_round s (e_op (ev_e es)) = Some opr ->
  let pr := if spr <? opr then opr else spr in
  get_peerset v pr = get_peerset s pr ->
  (forall pps, get_peerset s pr = Some pps -> roots_sufficient v s y pr pps) ->
  fst (round_f (S fv) v y) = fst (round_f (S fs) s y).
Proof.
  intros Mv Ms Hv Hs Eb Sv Ss Ov Os pr Hps R.
  rewrite (round_f_step fv v y ev spr opr Mv Hv Sv Ov), (round_f_step fs s y es spr opr Ms Hs Ss Os).
  apply round_of_parents_agree; assumption.
Qed.

(* the strongly-see test only compares indexes per validator *)

Definition ss_test (la fd : coords) (p : Z) : bool :=
  match aget p la, aget p fd with
  | Some (i, _), Some (j, _) => j <=? i
  | _, _ => false
  end.

Lemma ss_count_ext la fd la' fd' ks :
  (forall p, In p ks -> ss_test la fd p = ss_test la' fd' p) -> ss_count la fd ks = ss_count la' fd' ks.
Proof.
  intros H. unfold ss_count. f_equal. f_equal.
  induction ks as [|k r IH]; cbn [filter]; [reflexivity|].
  fold (ss_test la fd k). fold (ss_test la' fd' k). rewrite (H k) by (left; reflexivity).
  rewrite IH by (intros; apply H; right; auto). reflexivity.
Qed.

Lemma In_dedup k l : In k (dedup l) -> In k l.
Proof.
  induction l as [|x r IH]; cbn [dedup]; [auto|].
  destruct (mem_key x r); [intros H; right; auto|intros [->|H]; [left; reflexivity|right; auto]].
Qed.

(* [rs_coords] from the coordinates: for every validator of the parent round's peer set the index
   comparison "last ancestor of y by p >= first descendant of w by p" has the same outcome *)
Lemma strongly_see_agree v s y w pps yv ys wv ws :
  get_event v y = Some yv -> get_event s y = Some ys -> get_event v w = Some wv -> get_event s w = Some ws ->
  (forall p, In p (keys pps) -> ss_test (ev_la yv) (ev_fd wv) p = ss_test (ev_la ys) (ev_fd ws) p) ->
  strongly_see v y w pps = strongly_see s y w pps.
Proof.
  intros Hyv Hys Hwv Hws H. unfold strongly_see. rewrite Hyv, Hys, Hwv, Hws.
  rewrite (ss_count_ext _ _ (ev_la ys) (ev_fd ws)); [reflexivity|].
  intros p Hp. apply H. apply In_dedup. exact Hp.
Qed.

Definition witness_of (st : hg) (creator xr spr : Z) : option bool :=
  match get_peerset st xr with
  | None => None
  | Some ps => if negb (mem_key creator (keys ps)) then Some false else Some (spr <? xr)
  end.

Lemma witness_f_step_full fuel st x ex xr spr :
  zget x (witness_memo st) = None -> get_event st x = Some ex ->
  zget x (round_memo st) = Some xr -> parent_round st (e_sp (ev_e ex)) = Some spr ->
  witness_f fuel st x =
  match witness_of st (e_creator (ev_e ex)) xr spr with
  | Some w => (Some w, st <| witness_memo := zset x w (witness_memo st) |>)
  | None => (None, st)
  end.
Proof.
  intros Hm Hx Hr Hsp. unfold witness_f. rewrite Hm, Hx, (round_f_memoised _ _ _ _ Hr).
  unfold witness_of. destruct (get_peerset st xr) as [ps|]; [|reflexivity].
  destruct (negb _); [reflexivity|].
  rewrite (round_f_parent fuel st _ _ Hsp). reflexivity.
Qed.

Lemma witness_f_step fuel st x ex xr spr :
  zget x (witness_memo st) = None -> get_event st x = Some ex ->
  zget x (round_memo st) = Some xr -> parent_round st (e_sp (ev_e ex)) = Some spr ->
  fst (witness_f fuel st x) = witness_of st (e_creator (ev_e ex)) xr spr.
Proof.
  intros Hm Hx Hr Hsp. rewrite (witness_f_step_full fuel st x ex xr spr Hm Hx Hr Hsp).
  destruct (witness_of st (e_creator (ev_e ex)) xr spr); reflexivity.
Qed.

(* same round, same self-parent round, same peer set at that round: same witness flag *)
Theorem witness_f_agree fv fs v s y ev es xr spr :
  zget y (witness_memo v) = None -> zget y (witness_memo s) = None ->
  get_event v y = Some ev -> get_event s y = Some es -> ev_e ev = ev_e es ->
  zget y (round_memo v) = Some xr -> zget y (round_memo s) = Some xr ->
  parent_round v (e_sp (ev_e ev)) = Some spr -> parent_round s (e_sp (ev_e es)) = Some spr ->
  get_peerset v xr = get_peerset s xr ->
  fst (witness_f fv v y) = fst (witness_f fs s y).
Proof.
  intros Mv Ms Hv Hs Eb Rv Rs Sv Ss P.
  rewrite (witness_f_step fv v y ev xr spr Mv Hv Rv Sv), (witness_f_step fs s y es xr spr Ms Hs Rs Ss).
  unfold witness_of. rewrite P, Eb. reflexivity.
Qed.

Definition parent_lt (st : hg) (p : Z) : option Z := if p =? -1 then Some (-1) else zget p (lt_memo st).

Definition lamport_of (plt : Z) (op : Z) (op_stored : bool) (opt : Z) : Z :=
  (if op =? -1 then plt
   else if op_stored then (if plt <? opt then opt else plt)
        else (if plt <? min_int32 then min_int32 else plt)) + 1.

Lemma lamport_f_memoised fuel st x t : zget x (lt_memo st) = Some t -> lamport_f fuel st x = (Some t, st).
Proof. intros H. destruct fuel; cbn [lamport_f]; rewrite H; reflexivity. Qed.

Lemma lamport_f_step fuel st x ex plt opt :
  zget x (lt_memo st) = None -> get_event st x = Some ex ->
  parent_lt st (e_sp (ev_e ex)) = Some plt ->
  (e_op (ev_e ex) = -1 \/ get_event st (e_op (ev_e ex)) = None \/ zget (e_op (ev_e ex)) (lt_memo st) = Some opt) ->
  fst (lamport_f (S fuel) st x) =
  Some (lamport_of plt (e_op (ev_e ex)) (match get_event st (e_op (ev_e ex)) with Some _ => true | None => false end) opt).
Proof.
  intros Hm Hx Hsp Hop. cbn [lamport_f]. rewrite Hm, Hx.
  assert (E1 : (if e_sp (ev_e ex) =? -1 then (Some (-1), st) else lamport_f fuel st (e_sp (ev_e ex))) = (Some plt, st)).
  { unfold parent_lt in Hsp. destruct (e_sp (ev_e ex) =? -1); [inversion Hsp; reflexivity|]. apply lamport_f_memoised; exact Hsp. }
  rewrite E1. unfold lamport_of.
  destruct (Z.eqb_spec (e_op (ev_e ex)) (-1)) as [Eo|Hne]; [reflexivity|].
  destruct (get_event st (e_op (ev_e ex))) as [eo|] eqn:Go; [|reflexivity].
  destruct Hop as [C|[C|Hop]]; [contradiction|discriminate|].
  rewrite (lamport_f_memoised _ _ _ _ Hop). reflexivity.
Qed.

(* same parents' timestamps, other-parent stored in both (or in neither): same timestamp *)
Theorem lamport_f_agree fv fs v s y ev es plt opt :
  zget y (lt_memo v) = None -> zget y (lt_memo s) = None ->
  get_event v y = Some ev -> get_event s y = Some es -> ev_e ev = ev_e es ->
  parent_lt v (e_sp (ev_e ev)) = Some plt -> parent_lt s (e_sp (ev_e es)) = Some plt ->
  (e_op (ev_e ev) = -1 \/
   (get_event v (e_op (ev_e ev)) <> None /\ get_event s (e_op (ev_e ev)) <> None /\
    zget (e_op (ev_e ev)) (lt_memo v) = Some opt /\ zget (e_op (ev_e ev)) (lt_memo s) = Some opt)) ->
  fst (lamport_f (S fv) v y) = fst (lamport_f (S fs) s y).
Proof.
  intros Mv Ms Hv Hs Eb Pv Ps Hop.
  rewrite (lamport_f_step fv v y ev plt opt Mv Hv Pv), (lamport_f_step fs s y es plt opt Ms Hs Ps).
  - rewrite <- Eb. destruct Hop as [E|[Gv [Gs _]]].
    + unfold lamport_of. rewrite E. reflexivity.
    + destruct (get_event v (e_op (ev_e ev))), (get_event s (e_op (ev_e ev))); congruence.
  - rewrite <- Eb. destruct Hop as [E|[_ [_ [_ L]]]]; auto.
  - destruct Hop as [E|[_ [_ [L _]]]]; auto.
Qed.

(* the "ev.round == nil" block of DivideRounds, for an event whose parents are memoised *)

(* what DivideRounds records for y: the memoised round and witness flag, the event's round field,
   the entry in the RoundInfo of that round *)
Definition divided (st : hg) (y : Z) : option (Z * bool) * option (option Z) * option (bool * trilean) :=
  (match zget y (round_memo st), zget y (witness_memo st) with Some r, Some w => Some (r, w) | _, _ => None end,
   option_map ev_round (get_event st y),
   match zget y (round_memo st) with
   | Some r => match get_round st r with Some ri => aget y (ri_created ri) | None => None end
   | None => None
   end).

(* [divided] reads the round and witness memos, the event table and the round table *)
Lemma divided_reads st y rm wm ev ro :
  round_memo st = rm -> witness_memo st = wm -> events st = ev -> rounds st = ro ->
  divided st y =
  (match zget y rm, zget y wm with Some r, Some w => Some (r, w) | _, _ => None end,
   option_map ev_round (zget y ev),
   match zget y rm with
   | Some r => match zget r ro with Some ri => aget y (ri_created ri) | None => None end
   | None => None
   end).
Proof. intros <- <- <- <-. reflexivity. Qed.

Lemma maybe_queue_pending st r ri : maybe_queue st r ri = st <| pending := pending (maybe_queue st r ri) |>.
Proof. unfold maybe_queue. destruct (_ && _); destruct st; reflexivity. Qed.

Lemma add_created_fresh ri x w : aget x (ri_created ri) = None ->
  add_created ri x w = ri <| ri_created := ri_created ri ++ [(x, (w, Undefined))] |>.
Proof. unfold add_created. intros ->. reflexivity. Qed.

(* the outcome of the block, as a function of what _round and _witness return *)
Lemma divide_round_divided st y e0 spr opr :
  0 <= y ->
  zget y (round_memo st) = None -> zget y (witness_memo st) = None ->
  get_event st y = Some e0 -> ev_round e0 = None ->
  parent_round st (e_sp (ev_e e0)) = Some spr -> parent_round st (e_op (ev_e e0)) = Some opr ->
  e_sp (ev_e e0) <> y ->
  (forall r ri, get_round st r = Some ri -> aget y (ri_created ri) = None) ->
  divided (divide_round st y) y =
  match round_of_parents st y spr opr with
  | None => (None, Some None, None)
  | Some r =>
    match witness_of st (e_creator (ev_e e0)) r spr with
    | None => (None, Some (Some r), None)
    | Some w => (Some (r, w), Some (Some r), if 0 <=? r then Some (w, Undefined) else None)
    end
  end.
Proof.
  intros Hy Mr Mw Hx Hr0 Hsp Hop Hne Hfresh.
  unfold divide_round, fuel_of.
  rewrite (round_f_step_full _ st y e0 spr opr Mr Hx Hsp Hop).
  destruct (round_of_parents st y spr opr) as [r|].
  2:{ rewrite (divided_reads (fail st) y (round_memo st) (witness_memo st) (events st) (rounds st)) by reflexivity.
      unfold get_event in Hx. rewrite Mr, Hx. cbn [option_map]. rewrite Hr0. reflexivity. }
  cbv zeta. unfold set_event_round.
  set (st1 := st <| round_memo := zset y r (round_memo st) |>).
  change (get_event st1 y) with (get_event st y). rewrite Hx.
  set (e1 := e0 <| ev_round := Some r |>).
  change (round_or_new (set_evst st1 y e1) r) with (round_or_new st r).
  (* the state handed to _witness: y memoised and stored with round r, the round possibly queued *)
  rewrite (maybe_queue_pending (set_evst st1 y e1)). generalize (pending (maybe_queue (set_evst st1 y e1) r (round_or_new st r))).
  intros q. set (s2 := _ <| pending := q |>).
  assert (Hri : aget y (ri_created (round_or_new st r)) = None).
  { unfold round_or_new. destruct (get_round st r) as [ri0|] eqn:G; [eapply Hfresh; eauto|reflexivity]. }
  assert (Sp2 : parent_round s2 (e_sp (ev_e e1)) = Some spr).
  { unfold parent_round in *. change (e_sp (ev_e e1)) with (e_sp (ev_e e0)). destruct (e_sp (ev_e e0) =? -1); [exact Hsp|].
    change (round_memo s2) with (zset y r (round_memo st)). rewrite zget_zset_other by (intros C; apply Hne; symmetry; exact C).
    exact Hsp. }
  rewrite (witness_f_step_full _ s2 y e1 r spr Mw (zget_zset_same y e1 (events st) Hy) (zget_zset_same y r (round_memo st) Hy) Sp2).
  change (witness_of s2 (e_creator (ev_e e1)) r spr) with (witness_of st (e_creator (ev_e e0)) r spr).
  destruct (witness_of st (e_creator (ev_e e0)) r spr) as [w|].
  - rewrite (divided_reads _ y (zset y r (round_memo st)) (zset y w (witness_memo st)) (zset y e1 (events st))
               (zset r (add_created (round_or_new st r) y w) (rounds st))) by reflexivity.
    rewrite !zget_zset_same by exact Hy. cbn [option_map]. f_equal.
    rewrite zget_zset, Z.eqb_refl. cbn [andb]. destruct (0 <=? r) eqn:Hr; [|rewrite zget_neg by lia; reflexivity].
    rewrite (add_created_fresh _ _ _ Hri). cbn [ri_created set]. rewrite aget_app_none by exact Hri. cbn [aget]. rewrite Z.eqb_refl. reflexivity.
  - rewrite (divided_reads _ y (zset y r (round_memo st)) (witness_memo st) (zset y e1 (events st)) (rounds st)) by reflexivity.
    rewrite !zget_zset_same by exact Hy. rewrite Mw. cbn [option_map]. f_equal.
    destruct (zget r (rounds st)) as [ri0|] eqn:G; [|reflexivity]. eapply Hfresh. exact G.
Qed.

Lemma parent_round_keep st st' p r :
  (forall x v, zget x (round_memo st) = Some v -> zget x (round_memo st') = Some v) ->
  parent_round st p = Some r -> parent_round st' p = Some r.
Proof. unfold parent_round. destruct (p =? -1); [auto|]. intros H. apply H. Qed.

(* C13 continuity at the level of DivideRounds: same recorded round, witness flag, RoundInfo entry *)
Theorem divide_round_agree v s y ev es spr opr :
  0 <= y ->
  zget y (round_memo v) = None -> zget y (round_memo s) = None ->
  zget y (witness_memo v) = None -> zget y (witness_memo s) = None ->
  get_event v y = Some ev -> get_event s y = Some es -> ev_e ev = ev_e es ->
  ev_round ev = None -> ev_round es = None ->
  parent_round v (e_sp (ev_e ev)) = Some spr -> parent_round s (e_sp (ev_e es)) = Some spr ->
  parent_round v (e_op (ev_e ev)) = Some opr -> parent_round s (e_op (ev_e es)) = Some opr ->
  e_sp (ev_e ev) <> y ->
  (forall r ri, get_round v r = Some ri -> aget y (ri_created ri) = None) ->
  (forall r ri, get_round s r = Some ri -> aget y (ri_created ri) = None) ->
  (forall r, get_peerset v r = get_peerset s r) ->
  (forall pps, get_peerset s (if spr <? opr then opr else spr) = Some pps ->
               roots_sufficient v s y (if spr <? opr then opr else spr) pps) ->
  divided (divide_round v y) y = divided (divide_round s y) y.
Proof.
  intros Hy Rv Rs Wv Ws Hv Hs Eb Nv Ns Sv Ss Ov Os Hne Fv Fs Hps R.
  rewrite (divide_round_divided v y ev spr opr Hy Rv Wv Hv Nv Sv Ov Hne Fv).
  rewrite (divide_round_divided s y es spr opr Hy Rs Ws Hs Ns Ss Os ltac:(rewrite <- Eb; exact Hne) Fs).
  rewrite (round_of_parents_agree v s y spr opr (Hps _) R).
  destruct (round_of_parents s y spr opr) as [r|]; [|reflexivity].
  unfold witness_of. rewrite (Hps r), Eb. reflexivity.
Qed.
