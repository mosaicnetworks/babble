(* C04: committed order and causality.  Lamport timestamps (memo and event field), round-received
   assigned once, received lists, frames. *)
From Coq Require Import ZArith List Bool Lia ZifyBool Sorted Permutation.
From RecordUpdate Require Import RecordSet.
From V Require Import Model.ZMap Model.Quorum Model.Voting Model.HgImpl Proofs.ZMapFacts Proofs.HgFrames
  Proofs.HgDagFrames Proofs.AdmissionProofs Proofs.HgBlockFrames Proofs.BlockInv Proofs.RoundOrder
  Proofs.OrderSort Proofs.OrderFrames.
Import ListNotations RecordSetNotations.
Open Scope Z_scope.

Lemma get_event_set_stored st x es0 es y :
  get_event st x = Some es0 -> get_event (set_evst st x es) y = if y =? x then Some es else get_event st y.
Proof.
  intros Hx. rewrite get_event_set_evst, (Z.eqb_sym y). destruct (x =? y); cbn [andb]; [|reflexivity].
  rewrite (proj2 (Z.leb_le 0 x)); [reflexivity|]. eapply zget_some_nonneg; exact Hx.
Qed.

(* timestamp of a parent reference: -1 for the empty parent *)
Definition parent_lt (st : hg) (p : Z) : option Z := if p =? -1 then Some (-1) else zget p (lt_memo st).

(* every memoised timestamp is 1 + the maximum of the parents' memoised timestamps *)
Definition memo_consistent (st : hg) : Prop :=
  forall x t, zget x (lt_memo st) = Some t ->
    exists ex a b, get_event st x = Some ex /\
      parent_lt st (e_sp (ev_e ex)) = Some a /\ parent_lt st (e_op (ev_e ex)) = Some b /\
      -1 <= a /\ -1 <= b /\ t = 1 + Z.max a b.

Definition ops_present (st : hg) : Prop :=
  forall x ex, get_event st x = Some ex ->
    e_op (ev_e ex) = -1 \/ exists po, get_event st (e_op (ev_e ex)) = Some po.

Definition memo_ext (st st' : hg) : Prop :=
  forall y t, zget y (lt_memo st) = Some t -> zget y (lt_memo st') = Some t.
(* stored events stay, with the same body *)
Definition eext (st st' : hg) : Prop :=
  forall x ex, get_event st x = Some ex -> exists ex', get_event st' x = Some ex' /\ ev_e ex' = ev_e ex.

Lemma memo_ext_refl st : memo_ext st st.
Proof. intros y t H; exact H. Qed.
Lemma memo_ext_trans a b c : memo_ext a b -> memo_ext b c -> memo_ext a c.
Proof. intros H1 H2 y t H. apply H2, H1, H. Qed.

Lemma parent_lt_ext st st' p a : memo_ext st st' -> parent_lt st p = Some a -> parent_lt st' p = Some a.
Proof. unfold parent_lt. intros E. destruct (p =? -1); [auto|apply E]. Qed.

Lemma memo_consistent_nonneg st x t : memo_consistent st -> zget x (lt_memo st) = Some t -> 0 <= t.
Proof. intros M H. destruct (M x t H) as [ex [a [b [_ [_ [_ [Ha [Hb ->]]]]]]]]. lia. Qed.

Lemma parent_lt_ge st p a : memo_consistent st -> parent_lt st p = Some a -> -1 <= a.
Proof.
  unfold parent_lt. intros M. destruct (p =? -1); [intros H; inversion H; lia|].
  intros H. pose proof (memo_consistent_nonneg st p a M H). lia.
Qed.

Lemma memo_parent_lt st x ex t p :
  memo_consistent st -> zget x (lt_memo st) = Some t -> get_event st x = Some ex ->
  (p = e_sp (ev_e ex) \/ p = e_op (ev_e ex)) -> p <> -1 ->
  exists c, zget p (lt_memo st) = Some c /\ c < t.
Proof.
  intros M Hm Hx Hp Hn. destruct (M x t Hm) as [ex' [a [b [Hx' [Ha [Hb [_ [_ ->]]]]]]]].
  rewrite Hx in Hx'. injection Hx' as <-. unfold parent_lt in Ha, Hb.
  apply Z.eqb_neq in Hn. destruct Hp as [->| ->]; rewrite Hn in *; [exists a|exists b]; (split; [assumption|lia]).
Qed.

(* the clause of memo_consistent for one entry; it survives when the memo table grows and the
   stored events keep their bodies *)
Definition memo_at (st : hg) (x t : Z) : Prop :=
  exists ex a b, get_event st x = Some ex /\
    parent_lt st (e_sp (ev_e ex)) = Some a /\ parent_lt st (e_op (ev_e ex)) = Some b /\
    -1 <= a /\ -1 <= b /\ t = 1 + Z.max a b.

Lemma memo_at_ext st st' x t : memo_ext st st' -> eext st st' -> memo_at st x t -> memo_at st' x t.
Proof.
  intros X E [ex [a [b [Hx [Ha [Hb R]]]]]]. destruct (E x ex Hx) as [ex' [Hx' Ee]].
  exists ex', a, b. rewrite Ee. split; [exact Hx'|]. split; [eapply parent_lt_ext; eauto|].
  split; [eapply parent_lt_ext; eauto|exact R].
Qed.

Lemma memo_consistent_eext st st' :
  lt_memo st' = lt_memo st -> eext st st' -> memo_consistent st -> memo_consistent st'.
Proof.
  intros L E M x t. rewrite L. intros H. apply (memo_at_ext st st'); [intros y ty; rewrite L; auto|exact E|exact (M x t H)].
Qed.

(* recording x's timestamp computed from its parents' memoised timestamps *)
Lemma mc_set s x ex a b :
  memo_consistent s -> get_event s x = Some ex ->
  parent_lt s (e_sp (ev_e ex)) = Some a -> parent_lt s (e_op (ev_e ex)) = Some b ->
  -1 <= a -> -1 <= b ->
  let F := s <| lt_memo := zset x (1 + Z.max a b) (lt_memo s) |> in
  memo_consistent F /\ memo_ext s F /\ zget x (lt_memo F) = Some (1 + Z.max a b).
Proof.
  intros M Hx Ha Hb Ha1 Hb1 F. set (v := 1 + Z.max a b) in *.
  assert (Hv : zget x (lt_memo F) = Some v) by (apply zget_zset_same; eapply zget_some_nonneg; exact Hx).
  assert (Hy : forall y, y <> x -> zget y (lt_memo F) = zget y (lt_memo s)) by (intros y Hne; apply zget_zset_other; auto).
  (* the value already memoised for x, if any, is v *)
  assert (Ext : memo_ext s F).
  { intros y t Hm. destruct (Z.eq_dec y x) as [->|Hne]; [|rewrite Hy; assumption].
    destruct (M x t Hm) as [ex' [a' [b' [Hx' [Ha' [Hb' [_ [_ ->]]]]]]]].
    rewrite Hx in Hx'. injection Hx' as <-. rewrite Hv. subst v. congruence. }
  split; [|split; [exact Ext|exact Hv]].
  intros y t Hm. apply (memo_at_ext s F y t Ext); [intros z ez Hz; exists ez; split; [exact Hz|reflexivity]|].
  destruct (Z.eq_dec y x) as [->|Hne]; [|apply M; rewrite <- Hy; assumption].
  rewrite Hv in Hm. injection Hm as <-. exists ex, a, b. auto 10.
Qed.

Lemma ops_present_events st st' : events st' = events st -> ops_present st -> ops_present st'.
Proof. intros E H x ex. unfold get_event. rewrite E. apply H. Qed.

Lemma memo_consistent_events st st' :
  events st' = events st -> lt_memo st' = lt_memo st -> memo_consistent st -> memo_consistent st'.
Proof.
  intros E L M x t. unfold parent_lt, get_event. rewrite L, E. apply M.
Qed.

Lemma lamport_f_spec fuel : forall st x o s, ops_present st -> memo_consistent st ->
  lamport_f fuel st x = (o, s) ->
  memo_consistent s /\ memo_ext st s /\ (forall t, o = Some t -> zget x (lt_memo s) = Some t).
Proof.
  (* a memoised or undefined result leaves the state alone *)
  assert (Same : forall st x o, memo_consistent st -> (forall t, o = Some t -> zget x (lt_memo st) = Some t) ->
            memo_consistent st /\ memo_ext st st /\ (forall t, o = Some t -> zget x (lt_memo st) = Some t)).
  { intros st x o M H. split; [exact M|split; [apply memo_ext_refl|exact H]]. }
  induction fuel as [|f IH]; intros st x o s OP M; cbn [lamport_f];
    (destruct (zget x (lt_memo st)) eqn:Hm; [intros [= <- <-]; apply Same; [exact M|congruence]|]).
  { intros [= <- <-]. apply Same; [exact M|discriminate]. }
  destruct (get_event st x) as [ex|] eqn:Hx; [|intros [= <- <-]; apply Same; [exact M|discriminate]].
  (* the timestamp of a parent reference, computed in a state with the events of st *)
  assert (Par : forall s0 p, events s0 = events st -> memo_consistent s0 ->
            let r := if p =? -1 then (Some (-1), s0) else lamport_f f s0 p in
            events (snd r) = events st /\ memo_consistent (snd r) /\ memo_ext s0 (snd r) /\
            forall a, fst r = Some a -> parent_lt (snd r) p = Some a).
  { intros s0 p Ev M0. unfold parent_lt. destruct (p =? -1); cbn [fst snd].
    - split; [exact Ev|split; [exact M0|split; [apply memo_ext_refl|auto]]].
    - pose proof (lamport_f_events f s0 p) as Ev'. destruct (lamport_f f s0 p) as [o' s'] eqn:E.
      destruct (IH _ _ _ _ (ops_present_events _ _ Ev OP) M0 E) as [M1 [X1 O1]]. cbn [fst snd] in *.
      split; [congruence|auto]. }
  set (sp := e_sp (ev_e ex)). set (op := e_op (ev_e ex)).
  destruct (Par st sp eq_refl M) as [Ev1 [M1 [X1 O1]]].
  destruct (if sp =? -1 then (Some (-1), st) else lamport_f f st sp) as [[a|] st1]; cbn [fst snd] in *;
    [|intros [= <- <-]; split; [exact M1|split; [exact X1|discriminate]]].
  specialize (O1 a eq_refl). pose proof (parent_lt_ge _ _ _ M1 O1) as Ga.
  assert (Hx1 : get_event st1 x = Some ex) by (unfold get_event; rewrite Ev1; exact Hx).
  destruct (Par st1 op Ev1 M1) as [Ev2 [M2 [X2 O2]]].
  (* the other parent is stored, since x is: its lookup gives the maximum with a *)
  match goal with |- match ?c with _ => _ end = _ -> _ =>
    replace c with (let r := if op =? -1 then (Some (-1), st1) else lamport_f f st1 op in
                    (option_map (Z.max a) (fst r), snd r)) end.
  2:{ cbv zeta. destruct (op =? -1) eqn:Eop; cbn [fst snd option_map]; [rewrite Z.max_l by lia; reflexivity|].
      destruct (ops_present_events _ _ Ev1 OP x ex Hx1) as [C|[po Hpo]]; [fold op in C; lia|]. fold op in Hpo. rewrite Hpo.
      destruct (lamport_f f st1 op) as [[b|] st2]; cbn [fst snd option_map]; [|reflexivity].
      destruct (Z.ltb_spec a b); [rewrite Z.max_r by lia|rewrite Z.max_l by lia]; reflexivity. }
  cbv zeta. destruct (if op =? -1 then (Some (-1), st1) else lamport_f f st1 op) as [[b|] st2]; cbn [fst snd option_map] in *;
    [|intros [= <- <-]; split; [exact M2|split; [eapply memo_ext_trans; eauto|discriminate]]].
  specialize (O2 b eq_refl).
  assert (Hx2 : get_event st2 x = Some ex) by (unfold get_event; rewrite Ev2; exact Hx).
  assert (Ha2 : parent_lt st2 sp = Some a) by (eapply parent_lt_ext; eauto).
  destruct (mc_set st2 x ex a b M2 Hx2 Ha2 O2 Ga (parent_lt_ge _ _ _ M2 O2)) as [MF [XF OF]].
  replace (Z.max a b + 1) with (1 + Z.max a b) by lia. intros [= <- <-].
  split; [exact MF|]. split; [eapply memo_ext_trans; [exact X1|eapply memo_ext_trans; eauto]|].
  intros t [= <-]. exact OF.
Qed.

Lemma option_map_fwd {A B} (p : A -> B) (o o' : option A) a :
  option_map p o' = option_map p o -> o = Some a -> exists a', o' = Some a' /\ p a' = p a.
Proof. intros E ->. destruct o' as [a'|]; [|discriminate]. injection E as E. eauto. Qed.

Lemma option_map_coarser {A B C} (p : A -> B) (g : B -> C) (o o' : option A) :
  option_map p o' = option_map p o -> option_map (fun a => g (p a)) o' = option_map (fun a => g (p a)) o.
Proof. intros E. destruct o', o; try discriminate; [|reflexivity]. injection E as E. cbn. rewrite E. reflexivity. Qed.

(* events (up to fields other than body and timestamp) and the Lamport memo are kept *)
Definition ev_l (es : evst) := (ev_e es, ev_lt es).
Record lkeep (st st' : hg) : Prop := {
  k_lt : lt_memo st' = lt_memo st;
  k_ev : forall x, option_map ev_l (get_event st' x) = option_map ev_l (get_event st x)
}.
Lemma lkeep_refl st : lkeep st st.
Proof. constructor; reflexivity. Qed.
Lemma lkeep_trans a b c : lkeep a b -> lkeep b c -> lkeep a c.
Proof. intros [A1 A2] [B1 B2]. constructor; congruence. Qed.
Lemma lkeep_sym a b : lkeep a b -> lkeep b a.
Proof. intros [A1 A2]. constructor; [symmetry; exact A1|intros x; symmetry; apply A2]. Qed.

Lemma okeep_lkeep st st' : okeep st st' -> lkeep st st'.
Proof.
  intros O. constructor; [apply (o_lt _ _ O)|]. intros x.
  exact (option_map_coarser ev_b (fun b => (fst (fst b), snd (fst b))) _ _ (o_ev _ _ O x)).
Qed.

Lemma lkeep_fwd st st' x es : lkeep st st' -> get_event st x = Some es ->
  exists es', get_event st' x = Some es' /\ ev_e es' = ev_e es /\ ev_lt es' = ev_lt es.
Proof.
  intros K H. destruct (option_map_fwd ev_l _ _ es (k_ev _ _ K x) H) as [es' [H' E]].
  injection E as Ee El. eauto.
Qed.
Lemma lkeep_bwd st st' x es' : lkeep st st' -> get_event st' x = Some es' ->
  exists es, get_event st x = Some es /\ ev_e es' = ev_e es /\ ev_lt es' = ev_lt es.
Proof.
  intros K H. destruct (lkeep_fwd _ _ x es' (lkeep_sym _ _ K) H) as [es [Hx [Ee El]]]. eauto.
Qed.
Lemma lkeep_eext st st' : lkeep st st' -> eext st st'.
Proof. intros K x ex Hx. destruct (lkeep_fwd _ _ _ _ K Hx) as [ex' [Hx' [Ee _]]]. eauto. Qed.

Lemma ops_present_eext st st' : eext st st' -> eext st' st -> ops_present st -> ops_present st'.
Proof.
  intros E E' O x ex' Hx. destruct (E' x ex' Hx) as [ex [Hx0 Ee]]. rewrite <- Ee.
  destruct (O x ex Hx0) as [?|[po Hpo]]; [left; auto|right]. destruct (E _ _ Hpo) as [po' [Hpo' _]]. eauto.
Qed.

Record linv (st : hg) : Prop := {
  l_memo : memo_consistent st;
  l_ev : forall x ex t, get_event st x = Some ex -> ev_lt ex = Some t -> zget x (lt_memo st) = Some t;
  l_par : forall x ex t p, get_event st x = Some ex -> ev_lt ex = Some t ->
          (p = e_sp (ev_e ex) \/ p = e_op (ev_e ex)) -> p <> -1 ->
          exists ep tp, get_event st p = Some ep /\ ev_lt ep = Some tp
}.

Lemma linv_lkeep st st' : lkeep st st' -> linv st -> linv st'.
Proof.
  intros K [M E P]. constructor.
  - eapply memo_consistent_eext; [apply (k_lt _ _ K)|apply lkeep_eext; exact K|exact M].
  - intros x ex' t Hx Ht. rewrite (k_lt _ _ K). destruct (lkeep_bwd _ _ _ _ K Hx) as [ex [Hx0 [_ El]]].
    eapply E; eauto. congruence.
  - intros x ex' t p Hx Ht Hp Hn. destruct (lkeep_bwd _ _ _ _ K Hx) as [ex [Hx0 [Ee El]]].
    rewrite Ee in Hp. destruct (P x ex t p Hx0 ltac:(congruence) Hp Hn) as [ep [tp [Hp0 Htp]]].
    destruct (lkeep_fwd _ _ _ _ K Hp0) as [ep' [Hp' [_ El']]]. exists ep', tp. split; [auto|congruence].
Qed.

(* state of DivideRounds after the insertion of event n: only n may lack a timestamp *)
Record dinv (n : Z) (st : hg) : Prop := {
  d_l : linv st;
  d_ops : ops_present st;
  d_only : failed st = false -> forall y ey, get_event st y = Some ey -> ev_lt ey = None -> y = n
}.

Lemma dinv_okeep n st st' : okeep st st' -> (failed st' = false -> failed st = false) -> dinv n st -> dinv n st'.
Proof.
  intros O Hf [L Op On]. pose proof (okeep_lkeep _ _ O) as K. constructor.
  - eapply linv_lkeep; eauto.
  - eapply ops_present_eext; [apply lkeep_eext; exact K|apply lkeep_eext, lkeep_sym; exact K|exact Op].
  - intros F y ey' Hy Hn. destruct (lkeep_bwd _ _ _ _ K Hy) as [ey [Hy0 [_ El]]].
    eapply On; eauto. congruence.
Qed.

Lemma failed_okeep_nomemo st st' : nomemo st' = nomemo st -> failed st' = failed st.
Proof. apply failed_nomemo. Qed.

Record oinv (st : hg) : Prop := {
  u_ex : forall x, In x (undetermined st) -> exists ex, get_event st x = Some ex;
  u_nodup : NoDup (undetermined st);
  u_none : failed st = false -> forall x ex, In x (undetermined st) -> get_event st x = Some ex -> ev_rr ex = None;
  c_in : forall r x, In x (rcv st r) -> exists ex, get_event st x = Some ex /\ ev_rr ex = Some r;
  c_nodup : forall r, NoDup (rcv st r);
  c_listed : forall x ex r, get_event st x = Some ex -> ev_rr ex = Some r -> In x (rcv st r)
}.

Definition ev_r (es : evst) := (ev_e es, ev_rr es).
Record qkeep (st st' : hg) : Prop := {
  q_ev : forall x, option_map ev_r (get_event st' x) = option_map ev_r (get_event st x);
  q_rcv : forall r, rcv st' r = rcv st r;
  q_und : undetermined st' = undetermined st
}.
Lemma qkeep_refl st : qkeep st st.
Proof. constructor; reflexivity. Qed.
Lemma qkeep_trans a b c : qkeep a b -> qkeep b c -> qkeep a c.
Proof. intros [A1 A2 A3] [B1 B2 B3]. constructor; congruence. Qed.
Lemma qkeep_sym a b : qkeep a b -> qkeep b a.
Proof. intros [A1 A2 A3]. constructor; [intros x; symmetry; apply A1|intros r; symmetry; apply A2|symmetry; exact A3]. Qed.

Lemma okeep_qkeep st st' : okeep st st' -> qkeep st st'.
Proof.
  intros O. constructor; [|apply (o_rcv _ _ O)|apply (o_und _ _ O)]. intros x.
  exact (option_map_coarser ev_b (fun b => (fst (fst b), snd b)) _ _ (o_ev _ _ O x)).
Qed.

Lemma qkeep_fwd st st' x es : qkeep st st' -> get_event st x = Some es ->
  exists es', get_event st' x = Some es' /\ ev_e es' = ev_e es /\ ev_rr es' = ev_rr es.
Proof.
  intros K H. destruct (option_map_fwd ev_r _ _ es (q_ev _ _ K x) H) as [es' [H' E]].
  injection E as Ee Er. eauto.
Qed.
Lemma qkeep_bwd st st' x es' : qkeep st st' -> get_event st' x = Some es' ->
  exists es, get_event st x = Some es /\ ev_e es' = ev_e es /\ ev_rr es' = ev_rr es.
Proof.
  intros K H. destruct (qkeep_fwd _ _ x es' (qkeep_sym _ _ K) H) as [es [Hx [Ee Er]]]. eauto.
Qed.

Lemma oinv_qkeep st st' : qkeep st st' -> (failed st' = false -> failed st = false) -> oinv st -> oinv st'.
Proof.
  intros K Hf [A1 A2 A3 A4 A5 A6]. constructor.
  - intros x. rewrite (q_und _ _ K). intros Hin. destruct (A1 x Hin) as [ex Hx].
    destruct (qkeep_fwd _ _ _ _ K Hx) as [ex' [Hx' _]]. eauto.
  - rewrite (q_und _ _ K). exact A2.
  - intros F x ex'. rewrite (q_und _ _ K). intros Hin Hx'.
    destruct (qkeep_bwd _ _ _ _ K Hx') as [ex [Hx [_ Er]]]. rewrite Er. eapply A3; eauto.
  - intros r x. rewrite (q_rcv _ _ K). intros Hin. destruct (A4 r x Hin) as [ex [Hx Hr]].
    destruct (qkeep_fwd _ _ _ _ K Hx) as [ex' [Hx' [_ Er]]]. exists ex'. split; [auto|congruence].
  - intros r. rewrite (q_rcv _ _ K). apply A5.
  - intros x ex' r Hx' Hr. rewrite (q_rcv _ _ K).
    destruct (qkeep_bwd _ _ _ _ K Hx') as [ex [Hx [_ Er]]]. eapply A6; eauto. congruence.
Qed.

(* monotone facts across any pass *)
Definition rr_mono (st st' : hg) : Prop :=
  forall x ex r, get_event st x = Some ex -> ev_rr ex = Some r ->
    exists ex', get_event st' x = Some ex' /\ ev_rr ex' = Some r.
Record rmono (st st' : hg) : Prop := {
  m_rr : rr_mono st st';
  m_rcv : forall r, incl (rcv st r) (rcv st' r);
  m_memo : memo_ext st st';
  m_e : eext st st'
}.
Lemma rmono_refl st : rmono st st.
Proof.
  constructor; [intros x ex r H1 H2; eauto|intros r; apply incl_refl|apply memo_ext_refl|intros x ex H; eauto].
Qed.
Lemma rmono_trans a b c : rmono a b -> rmono b c -> rmono a c.
Proof.
  intros [A1 A2 A3 A4] [B1 B2 B3 B4]. constructor.
  - intros x ex r H1 H2. destruct (A1 x ex r H1 H2) as [ex' [H1' H2']]. eapply B1; eauto.
  - intros r. eapply incl_tran; eauto.
  - eapply memo_ext_trans; eauto.
  - intros x ex H. destruct (A4 x ex H) as [ex' [H' E']]. destruct (B4 x ex' H') as [ex'' [H'' E'']].
    exists ex''. split; [auto|congruence].
Qed.
Lemma rmono_qkeep st st' : qkeep st st' -> memo_ext st st' -> rmono st st'.
Proof.
  intros K M. constructor; [|intros r; rewrite (q_rcv _ _ K); apply incl_refl|exact M|].
  - intros x ex r Hx Hr. destruct (qkeep_fwd _ _ _ _ K Hx) as [ex' [Hx' [_ Er]]]. exists ex'. split; [auto|congruence].
  - intros x ex Hx. destruct (qkeep_fwd _ _ _ _ K Hx) as [ex' [Hx' [Ee _]]]. eauto.
Qed.
Lemma rmono_okeep st st' : okeep st st' -> rmono st st'.
Proof.
  intros O. apply rmono_qkeep; [apply okeep_qkeep; exact O|]. intros y t. rewrite (o_lt _ _ O). auto.
Qed.

(* what DivideRounds keeps: round-received data and frames; timestamps are only added, the Lamport
   memo only grows *)
Record dkeep (st st' : hg) : Prop := {
  dk_q : qkeep st st';
  dk_m : memo_ext st st';
  dk_f : frames st' = frames st;
  dk_lt : forall x ex t, get_event st x = Some ex -> ev_lt ex = Some t ->
          exists ex', get_event st' x = Some ex' /\ ev_lt ex' = Some t;
  dk_fail : failed st = true -> failed st' = true
}.
Lemma dkeep_refl st : dkeep st st.
Proof. constructor; [apply qkeep_refl|apply memo_ext_refl|reflexivity|eauto|auto]. Qed.
Lemma dkeep_trans a b c : dkeep a b -> dkeep b c -> dkeep a c.
Proof.
  intros [A1 A2 A3 A4 A5] [B1 B2 B3 B4 B5].
  constructor; [eapply qkeep_trans; eauto|eapply memo_ext_trans; eauto|congruence| |auto].
  intros x ex t Hx Ht. destruct (A4 x ex t Hx Ht) as [ex' [Hx' Ht']]. eauto.
Qed.
Lemma dkeep_okeep st st' : okeep st st' -> (failed st = true -> failed st' = true) -> dkeep st st'.
Proof.
  intros O Hf. constructor; [apply okeep_qkeep; exact O| |apply (o_fr _ _ O)| |exact Hf].
  - intros y t. rewrite (o_lt _ _ O). auto.
  - intros x ex t Hx Ht. destruct (lkeep_fwd _ _ _ _ (okeep_lkeep _ _ O) Hx) as [ex' [Hx' [_ El]]].
    exists ex'. split; [auto|congruence].
Qed.
Lemma rmono_dkeep st st' : dkeep st st' -> rmono st st'.
Proof. intros K. apply rmono_qkeep; [apply (dk_q _ _ K)|apply (dk_m _ _ K)]. Qed.

(* only the memo tables differ, and the Lamport memo has grown consistently *)
Lemma dkeep_nomemo st s : nomemo s = nomemo st -> memo_ext st s -> dkeep st s.
Proof.
  intros N X.
  assert (G : forall y, get_event s y = get_event st y)
    by (intros y; unfold get_event; rewrite (nomemo_eq_events _ _ N); reflexivity).
  constructor; [constructor| | | |].
  - intros y. rewrite G. reflexivity.
  - intros r. unfold rcv, get_round. rewrite (nomemo_eq_rounds _ _ N). reflexivity.
  - exact (f_equal undetermined N).
  - exact X.
  - exact (f_equal frames N).
  - intros y ey t. rewrite G. eauto.
  - rewrite (failed_nomemo _ _ N). auto.
Qed.
Lemma dinv_nomemo n st s :
  nomemo s = nomemo st -> memo_consistent s -> memo_ext st s -> dinv n st -> dinv n s.
Proof.
  intros N M X [[_ E P] Op On]. pose proof (nomemo_eq_events _ _ N) as Ev.
  constructor; [constructor| |].
  - exact M.
  - intros y ey t. unfold get_event. rewrite Ev. intros Hy Ht. apply X. exact (E y ey t Hy Ht).
  - unfold get_event. rewrite Ev. exact P.
  - eapply ops_present_events; eauto.
  - rewrite (failed_nomemo _ _ N). unfold get_event. rewrite Ev. exact On.
Qed.

Lemma dkeep_set_lt s x ev t :
  get_event s x = Some ev -> ev_lt ev = None -> dkeep s (set_evst s x (ev <| ev_lt := Some t |>)).
Proof.
  intros Hx Hn. constructor; [constructor; [|reflexivity|reflexivity]|intros y ty H; exact H|reflexivity| |auto].
  - intros y. rewrite (get_event_set_stored _ _ _ _ _ Hx). destruct (Z.eqb_spec y x) as [->|]; [|reflexivity].
    rewrite Hx. reflexivity.
  - intros y ey ty. rewrite (get_event_set_stored _ _ _ _ _ Hx). destruct (Z.eqb_spec y x) as [->|]; [|eauto].
    rewrite Hx. intros [= <-]. congruence.
Qed.

Lemma dinv_set_lt n s x ev t :
  dinv n s -> failed s = false -> get_event s x = Some ev -> ev_lt ev = None -> zget x (lt_memo s) = Some t ->
  dinv n (set_evst s x (ev <| ev_lt := Some t |>)).
Proof.
  intros [[M E P] Op On] Hf Hx Hnone Hm.
  set (ev2 := ev <| ev_lt := Some t |>). set (R := set_evst s x ev2).
  assert (GR : forall y, get_event R y = if y =? x then Some ev2 else get_event s y)
    by (intros y; apply (get_event_set_stored _ _ _ _ _ Hx)).
  assert (Ex : eext s R).
  { intros y ey Hy. rewrite GR. destruct (Z.eqb_spec y x) as [->|]; [|eauto]. rewrite Hx in Hy. injection Hy as <-. eauto. }
  assert (Ex' : eext R s).
  { intros y ey. rewrite GR. destruct (Z.eqb_spec y x) as [->|]; [|eauto]. intros [= <-]. eauto. }
  (* the parents of x carry a timestamp: their memoised one is smaller, and only n lacks one *)
  assert (Hpar : forall p, (p = e_sp (ev_e ev) \/ p = e_op (ev_e ev)) -> p <> -1 ->
                   p <> x /\ exists ep tp, get_event s p = Some ep /\ ev_lt ep = Some tp).
  { intros p Hp Hn. destruct (memo_parent_lt s x ev t p M Hm Hx Hp Hn) as [c [Hc Hlt]].
    assert (Hne : p <> x) by (intros ->; rewrite Hm in Hc; injection Hc as <-; lia).
    split; [exact Hne|]. destruct (M p c Hc) as [ep [_ [_ [Hep _]]]].
    destruct (ev_lt ep) as [tp|] eqn:Hl; [eauto|].
    exfalso. apply Hne. rewrite (On Hf p ep Hep Hl). symmetry. eapply On; eauto. }
  constructor; [constructor| |].
  - exact (memo_consistent_eext s R eq_refl Ex M).
  - intros y ey ty. rewrite GR. destruct (Z.eqb_spec y x) as [->|]; [|apply E].
    intros [= <-] [= <-]. exact Hm.
  - intros y ey ty p. rewrite GR. destruct (Z.eqb_spec y x) as [->|Hne].
    + intros [= <-] _ Hp Hn. destruct (Hpar p Hp Hn) as [Hpx [ep [tp [Hep Htp]]]]. exists ep, tp.
      rewrite GR. replace (p =? x) with false by lia. auto.
    + intros Hy Hty Hp Hn. destruct (P y ey ty p Hy Hty Hp Hn) as [ep [tp [Hep Htp]]].
      rewrite GR. destruct (Z.eqb_spec p x) as [->|]; [exists ev2, t; auto|eauto].
  - exact (ops_present_eext s R Ex Ex' Op).
  - intros _ y ey. rewrite GR. destruct (Z.eqb_spec y x) as [->|]; [intros [= <-]; discriminate|]. apply On, Hf.
Qed.

Lemma divide_round_failed_mono st x : failed (divide_round st x) = false -> failed st = false.
Proof.
  unfold divide_round.
  pose proof (failed_nomemo _ _ (round_f_nomemo (fuel_of st) st x)) as Fr.
  destruct (round_f (fuel_of st) st x) as [[r|] s]; cbn [snd] in Fr; [|rewrite failed_fail; discriminate].
  cbv zeta.
  set (s1 := set_event_round s x r). set (ri := round_or_new s1 r). set (s2 := maybe_queue s1 r ri).
  assert (F1 : failed s1 = failed s) by (subst s1; unfold set_event_round; destruct (get_event s x); reflexivity).
  assert (F2 : failed s2 = failed s1) by (subst s2; unfold maybe_queue; destruct (_ && _ && _); reflexivity).
  pose proof (failed_nomemo _ _ (witness_f_nomemo (fuel_of s2) s2 x)) as Fw.
  destruct (witness_f (fuel_of s2) s2 x) as [[w|] s']; cbn [snd] in Fw; [|rewrite failed_fail; discriminate].
  change (failed s' = false -> failed st = false). congruence.
Qed.
Lemma divide_round_failed_keep st x : failed st = true -> failed (divide_round st x) = true.
Proof.
  intros H. destruct (failed (divide_round st x)) eqn:E; [reflexivity|].
  apply divide_round_failed_mono in E. congruence.
Qed.

Definition lt_done (st : hg) (x : Z) : Prop :=
  failed st = true \/ exists ex t, get_event st x = Some ex /\ ev_lt ex = Some t.

Lemma lt_done_dkeep st st' x : dkeep st st' -> lt_done st x -> lt_done st' x.
Proof.
  intros K [F|[ex [t [Hx Ht]]]]; [left; apply (dk_fail _ _ K F)|right].
  destruct (dk_lt _ _ K x ex t Hx Ht) as [ex' H']. eauto.
Qed.

(* a store error *)
Lemma fail_divided n x st s : dinv n s -> dkeep st s ->
  dinv n (fail s) /\ dkeep st (fail s) /\ lt_done (fail s) x.
Proof.
  intros D K. split; [|split; [|left; apply failed_fail]].
  - eapply dinv_okeep; [apply okeep_fail|rewrite failed_fail; discriminate|exact D].
  - eapply dkeep_trans; [exact K|apply dkeep_okeep; [apply okeep_fail|intros _; apply failed_fail]].
Qed.

(* the timestamp block: the memo table grows, then the timestamp is recorded in the event *)
Lemma divide_lt_spec n st x ev :
  dinv n st -> failed st = false -> get_event st x = Some ev -> ev_lt ev = None ->
  dinv n (divide_lt st x) /\ dkeep st (divide_lt st x) /\ lt_done (divide_lt st x) x.
Proof.
  intros D Hf Hx Hnone. unfold divide_lt.
  pose proof (lamport_f_nomemo (fuel_of st) st x) as N.
  destruct (lamport_f (fuel_of st) st x) as [o s] eqn:El. cbn [snd] in N.
  destruct (lamport_f_spec _ _ _ _ _ (d_ops _ _ D) (l_memo _ (d_l _ _ D)) El) as [M1 [X1 O1]].
  pose proof (dinv_nomemo n st s N M1 X1 D) as Ds. pose proof (dkeep_nomemo st s N X1) as Ks.
  destruct o as [t|]; [|apply fail_divided; assumption].
  assert (Hxs : get_event s x = Some ev) by (unfold get_event; rewrite (nomemo_eq_events _ _ N); exact Hx).
  unfold set_event_lt. rewrite Hxs. split; [|split].
  - apply dinv_set_lt; auto. rewrite (failed_nomemo _ _ N). exact Hf.
  - eapply dkeep_trans; [exact Ks|apply dkeep_set_lt; assumption].
  - right. exists (ev <| ev_lt := Some t |>), t. rewrite (get_event_set_stored _ _ _ _ _ Hxs), Z.eqb_refl. auto.
Qed.

Lemma divide_one_failed st x : failed st = true -> divide_one st x = st.
Proof. intros H. unfold divide_one. rewrite H. reflexivity. Qed.

Lemma divide_one_spec n st x : dinv n st ->
  dinv n (divide_one st x) /\ dkeep st (divide_one st x) /\ lt_done (divide_one st x) x.
Proof.
  intros D. unfold divide_one.
  destruct (failed st) eqn:Hf; [split; [exact D|split; [apply dkeep_refl|left; exact Hf]]|].
  destruct (get_event st x) as [ev|]; [|apply fail_divided; [exact D|apply dkeep_refl]]. cbv zeta.
  set (st1 := match ev_round ev with Some _ => st | None => divide_round st x end).
  assert (H1 : dinv n st1 /\ dkeep st st1).
  { subst st1. destruct (ev_round ev); [split; [exact D|apply dkeep_refl]|]. split.
    - eapply dinv_okeep; [apply divide_round_okeep|apply divide_round_failed_mono|exact D].
    - apply dkeep_okeep; [apply divide_round_okeep|apply divide_round_failed_keep]. }
  destruct H1 as [D1 K1].
  destruct (failed st1) eqn:Hf1; [split; [exact D1|split; [exact K1|left; exact Hf1]]|].
  destruct (get_event st1 x) as [ev1|] eqn:Hx1; [|apply fail_divided; assumption].
  destruct (ev_lt ev1) as [t|] eqn:Hl; [split; [exact D1|split; [exact K1|right; eauto]]|].
  destruct (divide_lt_spec n st1 x ev1 D1 Hf1 Hx1 Hl) as [D2 [K2 L2]].
  split; [exact D2|split; [eapply dkeep_trans; eauto|exact L2]].
Qed.
Lemma divide_one_dinv n st x : dinv n st -> dinv n (divide_one st x).
Proof. intros D. apply (divide_one_spec n st x D). Qed.

Lemma divide_rounds_spec n st : dinv n st ->
  dinv n (divide_rounds st) /\ dkeep st (divide_rounds st) /\
  (In n (undetermined st) -> lt_done (divide_rounds st) n).
Proof.
  unfold divide_rounds. generalize (undetermined st). intros l. revert st.
  induction l as [|x l IH]; intros st D; cbn [fold_left]; [split; [exact D|split; [apply dkeep_refl|intros []]]|].
  destruct (divide_one_spec n st x D) as [D1 [K1 L1]]. destruct (IH _ D1) as [D2 [K2 L2]].
  split; [exact D2|split; [eapply dkeep_trans; eauto|]].
  intros [->|Hin]; [eapply lt_done_dkeep; eauto|auto].
Qed.

(* after Store.SetEvent the new event is queued as undetermined; nothing else read here changes *)
Lemma after_store_okeep st2 e la :
  okeep (st2 <| undetermined := undetermined st2 ++ [e_id e] |>) (after_store st2 e la).
Proof.
  unfold after_store. destruct (update_ancestor_fd_okeep st2 e la) as [L E R U F].
  generalize dependent (update_ancestor_fd st2 e la). intros st3 L E R U F. cbv zeta.
  destruct (is_loaded e); (constructor; [exact L|exact E|exact R|exact (f_equal (fun l => l ++ [e_id e]) U)|exact F]).
Qed.

Lemma store_set_event_keeps st es st2 :
  store_set_event st es = Some st2 ->
  lt_memo st2 = lt_memo st /\ (forall r, rcv st2 r = rcv st r) /\
  undetermined st2 = undetermined st /\ frames st2 = frames st.
Proof. intros H. destruct (store_set_event_footprint _ _ _ H) as [P ->]. repeat split. Qed.

Lemma insert_ok_shape st e st' :
  get_event st (e_id e) = None -> 0 <= e_id e -> insert_event st e = (InsOk, st') ->
  lt_memo st' = lt_memo st /\
  (forall x, option_map ev_b (get_event st' x) =
             if x =? e_id e then Some (e, None, None) else option_map ev_b (get_event st x)) /\
  (forall r, rcv st' r = rcv st r) /\
  undetermined st' = undetermined st ++ [e_id e] /\ frames st' = frames st.
Proof.
  intros _ Hid H.
  destruct (insert_event_cases st e _ _ H) as [[_ [N _]]|[_ [_ [_ A]]]]; [congruence|].
  rewrite insert_admitted_eq in A. cbv zeta in A.
  destruct (store_set_event _ _) as [st2|] eqn:Hst; [|discriminate]. injection A as <-.
  assert (G2 : forall x, get_event st2 x = if x =? e_id e then Some _ else get_event st x)
    by exact (store_set_event_get _ _ st2 Hst Hid).
  destruct (store_set_event_keeps _ _ _ Hst) as [L2 [R2 [U2 F2]]].
  destruct (after_store_okeep st2 e (fst (init_coords (st <| topo := topo st + 1 |>) e))) as [L E R U F].
  split; [exact (eq_trans L L2)|]. split; [|split; [intros r; exact (eq_trans (R r) (R2 r))|split]].
  - intros x. etransitivity; [apply E|]. etransitivity; [exact (f_equal (option_map ev_b) (G2 x))|].
    destruct (x =? e_id e); reflexivity.
  - exact (eq_trans U (f_equal (fun l => l ++ [e_id e]) U2)).
  - exact (eq_trans F F2).
Qed.

Record ekeep (st st' : hg) : Prop := {
  ek_ev : events st' = events st;
  ek_lt : lt_memo st' = lt_memo st;
  ek_und : undetermined st' = undetermined st;
  ek_fr : frames st' = frames st;
  ek_rcv : forall r, rcv st' r = rcv st r
}.
Lemma ekeep_refl st : ekeep st st.
Proof. constructor; reflexivity. Qed.
Lemma ekeep_trans a b c : ekeep a b -> ekeep b c -> ekeep a c.
Proof. intros [A1 A2 A3 A4 A5] [B1 B2 B3 B4 B5]. constructor; congruence. Qed.
Lemma ekeep_fail st : ekeep st (fail st).
Proof. constructor; reflexivity. Qed.
Lemma ekeep_okeep st st' : events st' = events st -> okeep st st' -> ekeep st st'.
Proof.
  intros E O. constructor; [exact E|apply (o_lt _ _ O)|apply (o_und _ _ O)|apply (o_fr _ _ O)|apply (o_rcv _ _ O)].
Qed.
Lemma ekeep_get_event st st' x : ekeep st st' -> get_event st' x = get_event st x.
Proof. intros K. unfold get_event. rewrite (ek_ev _ _ K). reflexivity. Qed.
Lemma ekeep_qkeep st st' : ekeep st st' -> qkeep st st'.
Proof.
  intros K. constructor; [|apply (ek_rcv _ _ K)|apply (ek_und _ _ K)].
  intros x. rewrite (ekeep_get_event _ _ x K). reflexivity.
Qed.
Lemma ekeep_lkeep st st' : ekeep st st' -> lkeep st st'.
Proof. intros K. constructor; [apply (ek_lt _ _ K)|intros x; rewrite (ekeep_get_event _ _ x K); reflexivity]. Qed.
Lemma rmono_ekeep st st' : ekeep st st' -> rmono st st'.
Proof. intros K. apply rmono_qkeep; [apply ekeep_qkeep; exact K|]. intros y t. rewrite (ek_lt _ _ K). auto. Qed.

(* x receives round i: its field is set and it is appended to the received list of round i *)
Definition received_at (st st' : hg) (x i : Z) : Prop :=
  exists ex, get_event st x = Some ex /\
    (forall y, get_event st' y = if y =? x then Some (ex <| ev_rr := Some i |>) else get_event st y) /\
    (forall r, rcv st' r = if r =? i then rcv st r ++ [x] else rcv st r) /\
    lt_memo st' = lt_memo st /\ undetermined st' = undetermined st /\ frames st' = frames st.

Lemma ekeep_received st s1 st' x i : ekeep st s1 -> received_at s1 st' x i -> received_at st st' x i.
Proof.
  intros K [ex [Hx [G [R [L [U F]]]]]]. exists ex.
  rewrite (ekeep_get_event _ _ x K) in Hx. split; [exact Hx|].
  split; [intros y; rewrite G, (ekeep_get_event _ _ y K); reflexivity|].
  split; [intros r; rewrite R, (ek_rcv _ _ K); reflexivity|].
  rewrite L, U, F, (ek_lt _ _ K), (ek_und _ _ K), (ek_fr _ _ K). auto.
Qed.

Lemma received_lkeep st st' x i : received_at st st' x i -> lkeep st st'.
Proof.
  intros [ex [Hx [G [_ [L _]]]]]. constructor; [exact L|]. intros y. rewrite G.
  destruct (Z.eqb_spec y x) as [->|]; [|reflexivity]. rewrite Hx. reflexivity.
Qed.

Lemma rmono_received st st' x i ex :
  received_at st st' x i -> get_event st x = Some ex -> ev_rr ex = None -> rmono st st'.
Proof.
  intros [ex0 [Hx [G [R [L _]]]]] Hx' Hn. rewrite Hx in Hx'. injection Hx' as ->.
  constructor.
  - intros y ey r Hy Hr. rewrite G. destruct (Z.eqb_spec y x) as [->|]; [|eauto]. congruence.
  - intros r. rewrite R. destruct (r =? i); [apply incl_appl|]; apply incl_refl.
  - intros y t. rewrite L. auto.
  - intros y ey Hy. rewrite G. destruct (Z.eqb_spec y x) as [->|]; [|eauto].
    rewrite Hx in Hy. injection Hy as <-. eauto.
Qed.

Lemma rr_loop_rel x : forall is_ st s b, rr_loop st x is_ = (s, b) ->
  if b then exists i, received_at st s x i else ekeep st s.
Proof.
  induction is_ as [|i rest IH]; intros st s b; cbn [rr_loop]; [intros [= <- <-]; apply ekeep_refl|].
  destruct (get_round st i) as [tr|] eqn:Htr.
  2:{ destruct (lower_bound st) as [lb0|]; [destruct (i <=? lb0); [apply IH|]|]; intros [= <- <-]; apply ekeep_refl. }
  destruct (get_peerset st i) as [tps|]; [|intros [= <- <-]; apply ekeep_fail].
  pose proof (witnesses_decided_received tr tps) as Wr.
  destruct (witnesses_decided tr tps) as [d tr']. cbn [snd] in Wr.
  set (st1 := st <| rounds := zset i tr' (rounds st) |>).
  assert (H0 : 0 <= i) by (eapply zget_some_nonneg; exact Htr).
  (* the decided flag is written back; the received list of round i is not touched *)
  assert (Ri : rcv st1 i = rcv st i).
  { unfold rcv, get_round in *. change (rounds st1) with (zset i tr' (rounds st)).
    rewrite zget_zset_same by exact H0. rewrite Htr. exact Wr. }
  assert (K1 : ekeep st st1).
  { constructor; try reflexivity. intros r. destruct (Z.eq_dec i r) as [<-|Hne]; [exact Ri|].
    unfold rcv, get_round. change (rounds st1) with (zset i tr' (rounds st)).
    rewrite zget_zset_other by exact Hne. reflexivity. }
  assert (Rec : rr_loop st1 x rest = (s, b) -> if b then exists j, received_at st s x j else ekeep st s).
  { intros E. specialize (IH st1 s b E).
    destruct b; [destruct IH as [j Hj]; exists j; eapply ekeep_received; eauto|eapply ekeep_trans; eauto]. }
  assert (Fail : (fail st1, false) = (s, b) -> if b then exists j, received_at st s x j else ekeep st s).
  { intros [= <- <-]. eapply ekeep_trans; [exact K1|apply ekeep_fail]. }
  destruct d; cbn [negb].
  - match goal with |- context [fold_left ?f ?l ?a] => destruct (fold_left f l a) as [sees|] end; [|exact Fail].
    destruct (_ && _); [|exact Rec].
    destruct (get_event st1 x) as [ex|] eqn:Hx; [|exact Fail].
    intros [= <- <-]. exists i. eapply ekeep_received; [exact K1|].
    exists ex. split; [exact Hx|]. split; [|split; [|auto]].
    + intros y. exact (get_event_set_stored st1 x ex _ y Hx).
    + intros r. rewrite rcv_set_round, (Z.eqb_sym r). change (rcv (set_evst st1 x _) r) with (rcv st1 r).
      destruct (Z.eqb_spec i r) as [<-|]; cbn [andb]; [|reflexivity].
      rewrite (proj2 (Z.leb_le 0 i) H0), Ri. unfold rcv. rewrite Htr, <- Wr. reflexivity.
  - destruct (lower_bound st1) as [lb|]; [|intros [= <- <-]; exact K1].
    destruct (lb <? i); [intros [= <- <-]; exact K1|exact Rec].
Qed.

Lemma rr_loop_spec x is_ st :
  (snd (rr_loop st x is_) = false -> ekeep st (fst (rr_loop st x is_))) /\
  (snd (rr_loop st x is_) = true -> exists i, received_at st (fst (rr_loop st x is_)) x i).
Proof.
  pose proof (rr_loop_rel x is_ st) as H. destruct (rr_loop st x is_) as [s b]. specialize (H s b eq_refl).
  destruct b; cbn [fst snd]; split; intros E; try discriminate; exact H.
Qed.

(* the four outcomes of DecideRoundReceived for one event *)
Inductive rr_one (s : hg) (und : list Z) (x : Z) : hg * list Z -> Prop :=
| rr_skip : failed s = true -> rr_one s und x (s, und)
| rr_error s' : failed s = false -> ekeep s s' -> failed s' = true -> rr_one s und x (s', und)
| rr_later s' : failed s = false -> ekeep s s' -> rr_one s und x (s', und ++ [x])
| rr_now s' i : failed s = false -> received_at s s' x i -> rr_one s und x (s', und).

Lemma decide_rr_one_cases s und x : rr_one s und x (decide_rr_one (s, und) x).
Proof.
  unfold decide_rr_one. destruct (failed s) eqn:Fs; [apply rr_skip; exact Fs|].
  pose proof (ekeep_okeep _ _ (round_f_events (fuel_of s) s x) (round_f_okeep (fuel_of s) s x)) as K1.
  destruct (round_f (fuel_of s) s x) as [[r|] s1]; cbn [snd] in K1;
    [|apply rr_error; [exact Fs|eapply ekeep_trans; [exact K1|apply ekeep_fail]|apply failed_fail]].
  pose proof (rr_loop_rel x (zrange (r + 1) (last_round s1)) s1) as H.
  destruct (rr_loop s1 x (zrange (r + 1) (last_round s1))) as [s' [|]]; specialize (H _ _ eq_refl).
  - destruct H as [i Hi]. apply (rr_now _ _ _ s' i Fs). eapply ekeep_received; eauto.
  - apply rr_later; [exact Fs|eapply ekeep_trans; eauto].
Qed.

(* the part of the invariant about received lists, and the list being walked *)
Record rloop (U : list Z) (s : hg) (und l : list Z) : Prop := {
  rl_und : undetermined s = U;
  rl_ex : forall y, In y U -> exists ey, get_event s y = Some ey;
  rl_nd : NoDup (und ++ l);
  rl_incl : incl (und ++ l) U;
  rl_none : failed s = false -> forall y ey, In y (und ++ l) -> get_event s y = Some ey -> ev_rr ey = None;
  rl_in : forall r x, In x (rcv s r) -> exists ex, get_event s x = Some ex /\ ev_rr ex = Some r;
  rl_cnd : forall r, NoDup (rcv s r);
  rl_listed : forall x ex r, get_event s x = Some ex -> ev_rr ex = Some r -> In x (rcv s r)
}.

Lemma rloop_start st : oinv st -> rloop (undetermined st) st [] (undetermined st).
Proof.
  intros [A1 A2 A3 A4 A5 A6]. constructor; auto; cbn [app]; auto. apply incl_refl.
Qed.

Lemma rloop_ekeep U s s' und l : ekeep s s' -> failed s = false -> rloop U s und l -> rloop U s' und l.
Proof.
  intros K Fs [A1 A2 A3 A4 A5 A6 A7 A8].
  assert (G : forall y, get_event s' y = get_event s y) by (intros y; apply ekeep_get_event; exact K).
  constructor; auto.
  - rewrite (ek_und _ _ K). exact A1.
  - intros y. rewrite G. apply A2.
  - intros _ y ey Hin. rewrite G. apply A5; auto.
  - intros r x. rewrite (ek_rcv _ _ K), G. apply A6.
  - intros r. rewrite (ek_rcv _ _ K). apply A7.
  - intros x ex r. rewrite (ek_rcv _ _ K), G. apply A8.
Qed.

Lemma in_app_skip {A} (l1 l2 : list A) x y : In y (l1 ++ l2) -> In y (l1 ++ x :: l2).
Proof. intros H. apply in_app_or in H. apply in_or_app. destruct H; [left|right; right]; assumption. Qed.

(* nothing is asked of the events still to be walked once the pass has failed *)
Lemma rloop_failed U s und x l : failed s = true -> rloop U s und (x :: l) -> rloop U s und l.
Proof.
  intros Fs [A1 A2 A3 A4 A5 A6 A7 A8]. constructor; auto.
  - eapply NoDup_remove_1; eauto.
  - intros y Hy. apply A4, in_app_skip, Hy.
  - rewrite Fs. discriminate.
Qed.

Lemma decide_rr_one_rloop U s und x l :
  rloop U s und (x :: l) ->
  rloop U (fst (decide_rr_one (s, und) x)) (snd (decide_rr_one (s, und) x)) l /\
  rmono s (fst (decide_rr_one (s, und) x)) /\ frames (fst (decide_rr_one (s, und) x)) = frames s.
Proof.
  intros RL.
  destruct (decide_rr_one_cases s und x) as [Fs|s' Fs K Fs'|s' Fs K|s' i Fs Rc]; cbn [fst snd].
  - split; [apply (rloop_failed _ _ _ x), RL; exact Fs|split; [apply rmono_refl|reflexivity]].
  - split; [|split; [apply rmono_ekeep; exact K|apply (ek_fr _ _ K)]].
    apply (rloop_failed _ _ _ x); [exact Fs'|]. eapply rloop_ekeep; eauto.
  - split; [|split; [apply rmono_ekeep; exact K|apply (ek_fr _ _ K)]].
    pose proof (rloop_ekeep _ _ _ _ _ K Fs RL) as [A1 A2 A3 A4 A5 A6 A7 A8].
    constructor; auto; rewrite <- app_assoc; assumption.
  - (* x is received in round i: it had no round-received and was in no received list *)
    pose proof (rl_nd _ _ _ _ RL) as ND.
    destruct Rc as [ex [Hx [G [R [L [Un Fr]]]]]].
    assert (Hrx : ev_rr ex = None).
    { eapply (rl_none _ _ _ _ RL Fs x ex); [apply in_or_app; right; left; reflexivity|exact Hx]. }
    assert (Hnot : forall q, ~ In x (rcv s q)).
    { intros q Hin. destruct (rl_in _ _ _ _ RL q x Hin) as [ex' [Hx' Hr']]. congruence. }
    split; [|split; [|exact Fr]].
    2:{ apply (rmono_received s s' x i ex); [exists ex; auto 10|exact Hx|exact Hrx]. }
    constructor.
    + rewrite Un. apply (rl_und _ _ _ _ RL).
    + intros y Hy. rewrite G. destruct (y =? x); [eauto|apply (rl_ex _ _ _ _ RL); exact Hy].
    + eapply NoDup_remove_1; exact ND.
    + intros y Hy. apply (rl_incl _ _ _ _ RL), in_app_skip, Hy.
    + intros _ y ey Hin. rewrite G. destruct (Z.eqb_spec y x) as [->|].
      * exfalso. eapply NoDup_remove_2; eauto.
      * apply (rl_none _ _ _ _ RL Fs), in_app_skip, Hin.
    + intros q y. rewrite R, G. intros Hin.
      assert (Hc : In y (rcv s q) \/ (q = i /\ y = x)).
      { destruct (Z.eqb_spec q i) as [->|]; [|left; exact Hin].
        apply in_app_or in Hin. destruct Hin as [?|[<-|[]]]; auto. }
      destruct Hc as [Hc|[-> ->]].
      * destruct (Z.eqb_spec y x) as [->|]; [exfalso; eapply Hnot; eauto|]. apply (rl_in _ _ _ _ RL); exact Hc.
      * rewrite Z.eqb_refl. eauto.
    + intros q. rewrite R. destruct (Z.eqb_spec q i) as [->|]; [|apply (rl_cnd _ _ _ _ RL)].
      eapply Permutation_NoDup; [apply Permutation_cons_append|].
      constructor; [apply Hnot|apply (rl_cnd _ _ _ _ RL)].
    + intros y ey q. rewrite G, R. destruct (Z.eqb_spec y x) as [->|Hne].
      * intros [= <-] [= <-]. rewrite Z.eqb_refl. apply in_or_app. right; left; reflexivity.
      * intros Hy Hr. pose proof (rl_listed _ _ _ _ RL y ey q Hy Hr) as Hin.
        destruct (q =? i); [apply in_or_app; left|]; exact Hin.
Qed.

(* DecideRoundReceived does not touch timestamps *)
Lemma decide_rr_one_lkeep s und x : lkeep s (fst (decide_rr_one (s, und) x)).
Proof.
  destruct (decide_rr_one_cases s und x) as [Fs|s' Fs K Fs'|s' Fs K|s' i Fs Rc]; cbn [fst];
    [apply lkeep_refl|apply ekeep_lkeep; exact K|apply ekeep_lkeep; exact K|eapply received_lkeep; exact Rc].
Qed.

Lemma decide_rr_fold U l : forall s und s' und',
  fold_left decide_rr_one l (s, und) = (s', und') ->
  lkeep s s' /\ (rloop U s und l -> rloop U s' und' [] /\ rmono s s' /\ frames s' = frames s).
Proof.
  induction l as [|x l IH]; intros s und s' und'; cbn [fold_left].
  - intros [= <- <-]. split; [apply lkeep_refl|intros RL; split; [exact RL|split; [apply rmono_refl|reflexivity]]].
  - pose proof (decide_rr_one_lkeep s und x) as K. pose proof (decide_rr_one_rloop U s und x l) as H.
    destruct (decide_rr_one (s, und) x) as [s1 und1]. cbn [fst snd] in *.
    intros E. destruct (IH _ _ _ _ E) as [K2 H2]. split; [eapply lkeep_trans; eauto|].
    intros RL. destruct (H RL) as [RL1 [M1 F1]]. destruct (H2 RL1) as [RL2 [M2 F2]].
    split; [exact RL2|]. split; [eapply rmono_trans; eauto|congruence].
Qed.

Lemma decide_round_received_oinv st :
  oinv st -> oinv (decide_round_received st) /\ rmono st (decide_round_received st) /\
             frames (decide_round_received st) = frames st.
Proof.
  intros O. unfold decide_round_received.
  destruct (fold_left decide_rr_one (undetermined st) (st, [])) as [s und] eqn:E.
  destruct (proj2 (decide_rr_fold _ _ _ _ _ _ E) (rloop_start st O)) as [RL [M F]]. clear E. cbn [fst snd].
  destruct RL as [A1 A2 A3 A4 A5 A6 A7 A8]. rewrite app_nil_r in *.
  destruct (failed s) eqn:Fs.
  - split; [|split; [exact M|exact F]]. constructor; auto.
    + rewrite A1. exact A2.
    + rewrite A1. apply (u_nodup st O).
    + rewrite Fs. discriminate.
  - (* the new undetermined list is stored; nothing else is read differently *)
    split; [|split; [|exact F]].
    + constructor; [intros x Hx; apply A2, A4, Hx|exact A3|intros _; exact (A5 eq_refl)|exact A6|exact A7|exact A8].
    + eapply rmono_trans; [exact M|]. destruct (rmono_refl s) as [B1 B2 B3 B4]. constructor; assumption.
Qed.

Lemma decide_round_received_lkeep st : lkeep st (decide_round_received st).
Proof.
  unfold decide_round_received.
  destruct (fold_left decide_rr_one (undetermined st) (st, [])) as [s und] eqn:E.
  pose proof (proj1 (decide_rr_fold [] _ _ _ _ _ E)) as G. cbn [fst snd].
  destruct (failed s); [exact G|]. eapply lkeep_trans; [exact G|]. constructor; reflexivity.
Qed.

Definition lt_sorted (l : list frameev) : Prop := StronglySorted (fun a b => fe_lt a <= fe_lt b) l.

(* a cached frame of round rr: sorted by timestamp, without repetition, made of events received in
   rr, with the timestamps of the Lamport memo *)
Definition finv (st : hg) : Prop :=
  forall rr f, zget rr (frames st) = Some f ->
    f_round f = rr /\ lt_sorted (f_events f) /\ NoDup (map fe_id (f_events f)) /\
    (forall fe, In fe (f_events f) ->
       In (fe_id fe) (rcv st rr) /\ zget (fe_id fe) (lt_memo st) = Some (fe_lt fe)) /\
    (forall fe, In fe (f_events f) -> exists ex, get_event st (fe_id fe) = Some ex) /\
    StronglySorted (fe_le st) (f_events f).

Lemma sigkey_eext st st' x ex : eext st st' -> get_event st x = Some ex -> sigkey_of st' x = sigkey_of st x.
Proof. intros E Hx. destruct (E x ex Hx) as [ex' [Hx' Ee]]. unfold sigkey_of. rewrite Hx, Hx', Ee. reflexivity. Qed.

Lemma fe_le_keys st st' a b :
  sigkey_of st' (fe_id a) = sigkey_of st (fe_id a) -> sigkey_of st' (fe_id b) = sigkey_of st (fe_id b) ->
  fe_le st a b -> fe_le st' a b.
Proof. intros Ha Hb. rewrite !fe_le_spec, Ha, Hb. auto. Qed.

Lemma finv_rmono st st' : finv st -> rmono st st' -> frames st' = frames st -> finv st'.
Proof.
  intros F M E rr f. rewrite E. intros H. destruct (F rr f H) as [H1 [H2 [H3 [H4 [H5 H6]]]]].
  split; [exact H1|]. split; [exact H2|]. split; [exact H3|]. split; [|split].
  - intros fe Hin. destruct (H4 fe Hin) as [Ha Hb]. split; [apply (m_rcv _ _ M); exact Ha|apply (m_memo _ _ M); exact Hb].
  - intros fe Hin. destruct (H5 fe Hin) as [ex Hx]. destruct (m_e _ _ M _ _ Hx) as [ex' [Hx' _]]. eauto.
  - eapply StronglySorted_weaken_in; [|exact H6]. intros a b Ha Hb.
    destruct (H5 a Ha) as [ea Hea]. destruct (H5 b Hb) as [eb Heb].
    apply fe_le_keys; eapply sigkey_eext; eauto; apply (m_e _ _ M).
Qed.

Lemma create_frame_event_spec st x fe :
  create_frame_event st x = Some fe ->
  fe_id fe = x /\ zget x (lt_memo st) = Some (fe_lt fe) /\ exists ex, get_event st x = Some ex.
Proof.
  unfold create_frame_event.
  destruct (get_event st x) as [ex0|]; [|discriminate]. destruct (zget x (round_memo st)); [|discriminate].
  destruct (get_round st z); [|discriminate].
  destruct (aget x (ri_created r)) as [[w t]|]; [|discriminate].
  destruct (zget x (lt_memo st)); [|discriminate]. intros H; inversion H; subst. eauto.
Qed.

Lemma cfe_fold st xs : forall acc evs,
  fold_left (fun (acc : option (list frameev)) x =>
     match acc, create_frame_event st x with
     | Some l, Some fe => Some (l ++ [fe])
     | _, _ => None
     end) xs (Some acc) = Some evs ->
  exists news, evs = acc ++ news /\ map fe_id news = xs /\
               forall fe, In fe news -> zget (fe_id fe) (lt_memo st) = Some (fe_lt fe) /\
                                        exists ex, get_event st (fe_id fe) = Some ex.
Proof.
  induction xs as [|x xs IH]; intros acc evs; cbn [fold_left].
  - intros H; inversion H; subst. exists []. rewrite app_nil_r. split; [reflexivity|split; [reflexivity|intros fe []]].
  - destruct (create_frame_event st x) as [fe|] eqn:Hc.
    + intros H. destruct (IH _ _ H) as [news [E [Hm Hl]]]. exists (fe :: news).
      destruct (create_frame_event_spec _ _ _ Hc) as [Hid [Hlt Hex]].
      split; [rewrite E, <- app_assoc; reflexivity|]. split; [cbn [map]; congruence|].
      intros fe' [<-|Hin]; [rewrite Hid; split; [exact Hlt|exact Hex]|apply Hl; exact Hin].
    + intros H. exfalso. clear - H. induction xs as [|y xs IHx]; cbn [fold_left] in H; [discriminate|auto].
Qed.

(* GetFrame either returns the cached frame or builds, caches and returns a new one *)
Lemma get_frame_cases st rr :
  (get_frame st rr = (zget rr (frames st), st) /\ (zget rr (frames st) = None -> True)) \/
  (get_frame st rr = (None, st)) \/
  exists f ri evs,
    get_frame st rr = (Some f, st <| frames := zset rr f (frames st) |>) /\
    zget rr (frames st) = None /\ get_round st rr = Some ri /\ f_round f = rr /\
    f_events f = fe_sort st evs /\ map fe_id evs = ri_received ri /\
    (forall fe, In fe evs -> zget (fe_id fe) (lt_memo st) = Some (fe_lt fe) /\
                             exists ex, get_event st (fe_id fe) = Some ex).
Proof.
  unfold get_frame.
  destruct (zget rr (frames st)) eqn:Hz; [left; split; [reflexivity|auto]|].
  destruct (get_round st rr) as [ri|] eqn:Hri; [|right; left; reflexivity].
  destruct (get_peerset st rr) as [ps|]; [|right; left; reflexivity].
  match goal with |- context [fold_left ?f (ri_received ri) ?a] => destruct (fold_left f (ri_received ri) a) as [evs|] eqn:Ef end;
    [|right; left; reflexivity].
  match goal with |- context [fold_left ?f (repertoire st) ?a] => destruct (fold_left f (repertoire st) a) as [roots|] end;
    [|right; left; reflexivity].
  right; right. destruct (cfe_fold _ _ _ _ Ef) as [news [E [Hm Hl]]]. cbn [app] in E. subst news.
  eexists _, ri, evs. split; [reflexivity|]. split; [reflexivity|]. split; [reflexivity|].
  split; [reflexivity|]. split; [reflexivity|]. split; [exact Hm|exact Hl].
Qed.

Lemma get_frame_finv st rr :
  finv st -> (forall r, NoDup (rcv st r)) ->
  finv (snd (get_frame st rr)) /\ okeep_nf st (snd (get_frame st rr)).
Proof.
  intros F ND. destruct (get_frame_cases st rr) as [[E _]|[E|[f [ri [evs [E [Hz [Hri [Hr [He [Hm Hl]]]]]]]]]]].
  - rewrite E. split; [exact F|apply okeep_nf_refl].
  - rewrite E. split; [exact F|apply okeep_nf_refl].
  - (* only the frame cache differs from st; the other cached frames read the same state *)
    rewrite E. cbn [snd]. split; [|repeat split].
    intros q g Hq. change (zget q (zset rr f (frames st)) = Some g) in Hq. rewrite zget_zset in Hq.
    destruct ((rr =? q) && (0 <=? rr)) eqn:Eq; [|exact (F q g Hq)].
    injection Hq as <-. assert (q = rr) by lia. subst q.
    pose proof (fe_sort_perm st evs) as P. rewrite He.
    split; [exact Hr|]. split; [|split; [|split; [|split]]].
    + eapply StronglySorted_weaken; [|apply fe_sort_sorted]. intros a b. apply fe_le_lt.
    + eapply Permutation_NoDup; [apply Permutation_sym, Permutation_map, P|].
      rewrite Hm. specialize (ND rr). unfold rcv in ND. rewrite Hri in ND. exact ND.
    + intros fe Hin. apply (Permutation_in _ P) in Hin. split; [|apply Hl; exact Hin].
      change (In (fe_id fe) (rcv st rr)). unfold rcv. rewrite Hri, <- Hm. apply in_map. exact Hin.
    + intros fe Hin. apply (Permutation_in _ P) in Hin. apply (Hl fe Hin).
    + exact (fe_sort_sorted st evs).
Qed.

Lemma finv_nf st st' : finv st -> okeep_nf st st' -> frames st' = frames st -> finv st'.
Proof.
  intros F [K1 [K2 [K3 [K4 K5]]]] E rr f. rewrite E, K1. unfold rcv, get_round, fe_le, fe_less, get_event. rewrite K3, K2. apply F.
Qed.

Lemma nodup_nf st st' : okeep_nf st st' -> (forall r, NoDup (rcv st r)) -> forall r, NoDup (rcv st' r).
Proof. intros [K1 [K2 [K3 [K4 K5]]]] H r. unfold rcv, get_round. rewrite K3. apply H. Qed.

Lemma bump_ov s r :
  ov (bump_last_consensus s r) = ov s /\ delivered (bump_last_consensus s r) = delivered s.
Proof. unfold bump_last_consensus. destruct (last_consensus s) as [l|]; [destruct (l <? r)|]; split; reflexivity. Qed.

Definition txs_of (st : hg) (fe : frameev) : list Z :=
  match get_event st (fe_id fe) with Some e => e_txs (ev_e e) | None => [] end.
Definition itxs_of (st : hg) (fe : frameev) : list itx :=
  match get_event st (fe_id fe) with Some e => e_itxs (ev_e e) | None => [] end.
Definition pv (b : block) := (b_rr b, b_txs b, b_itxs b, b_frame b).

(* every delivered block was made from the cached frame of its round: its transactions are the
   concatenation of the frame events' transactions, in frame order *)
Definition dlv (st : hg) : Prop :=
  forall d, In d (delivered st) ->
    zget (b_rr d) (frames st) = Some (b_frame d) /\
    b_txs d = flat_map (txs_of st) (f_events (b_frame d)) /\
    b_itxs d = flat_map (itxs_of st) (f_events (b_frame d)).

Definition fext (st st' : hg) : Prop :=
  forall rr f, zget rr (frames st) = Some f -> zget rr (frames st') = Some f.
Lemma fext_refl st : fext st st.
Proof. intros q g H; exact H. Qed.
Lemma fext_trans a b c : fext a b -> fext b c -> fext a c.
Proof. intros H1 H2 q g H. apply H2, H1, H. Qed.
Lemma fext_eq st st' : frames st' = frames st -> fext st st'.
Proof. intros E q g. rewrite E. auto. Qed.

Lemma flat_map_ext_in {A B} (f g : A -> list B) l : (forall a, In a l -> f a = g a) -> flat_map f l = flat_map g l.
Proof.
  induction l as [|a l IH]; intros H; cbn [flat_map]; [reflexivity|].
  rewrite (H a (or_introl eq_refl)), IH; [reflexivity|]. intros b Hb. apply H. right; exact Hb.
Qed.

Lemma dlv_pass st st' :
  dlv st -> finv st -> oinv st -> delivered st' = delivered st -> fext st st' -> eext st st' -> dlv st'.
Proof.
  intros D F O Ed Ef Ee d. rewrite Ed. intros Hd. destruct (D d Hd) as [H1 [H2 H3]].
  split; [apply Ef; exact H1|].
  destruct (F _ _ H1) as [_ [_ [_ [Hev _]]]].
  assert (Hsame : forall fe, In fe (f_events (b_frame d)) -> txs_of st' fe = txs_of st fe /\ itxs_of st' fe = itxs_of st fe).
  { intros fe Hfe. destruct (Hev fe Hfe) as [Hin _]. destruct (c_in _ O _ _ Hin) as [ex [Hx _]].
    destruct (Ee _ _ Hx) as [ex' [Hx' E]]. unfold txs_of, itxs_of. rewrite Hx, Hx', E. auto. }
  split; [rewrite H2|rewrite H3]; apply flat_map_ext_in; intros fe Hfe; symmetry; apply Hsame; exact Hfe.
Qed.

Lemma dlv_same_events st st' :
  dlv st -> delivered st' = delivered st -> fext st st' -> events st' = events st -> dlv st'.
Proof.
  intros D Ed Ef Ee d. rewrite Ed. intros Hd. destruct (D d Hd) as [H1 [H2 H3]].
  split; [apply Ef; exact H1|]. unfold txs_of, itxs_of, get_event. rewrite Ee. auto.
Qed.

Lemma commit_delivered_pv st b : exists bf, delivered (commit st b) = delivered st ++ [bf] /\ pv bf = pv b.
Proof.
  destruct (commit_delivers st b) as [bf [E M]]. exists bf. split; [exact E|].
  exact (f_equal (fun '(_, rr, _, txs, itxs, f, _) => (rr, txs, itxs, f)) M).
Qed.

Lemma process_frame_delivered_pv s f :
  delivered (process_frame s f) = delivered s \/
  exists bf, delivered (process_frame s f) = delivered s ++ [bf] /\
             pv bf = (f_round f, flat_map (txs_of s) (f_events f), flat_map (itxs_of s) (f_events f), f).
Proof.
  destruct (process_frame_delivers s f) as [E|[bf [E M]]]; [left; exact E|right; exists bf; split; [exact E|]].
  apply (f_equal (fun '(_, rr, _, txs, itxs, f, _) => (rr, txs, itxs, f))) in M. etransitivity; [exact M|].
  unfold txs_of, itxs_of, get_event.
  rewrite <- (fold_left_view events add_consensus_event (fun _ _ => eq_refl) (f_events f) s). reflexivity.
Qed.

Lemma get_frame_some st rr f s :
  get_frame st rr = (Some f, s) ->
  zget rr (frames s) = Some f /\ fext st s /\ events s = events st /\ delivered s = delivered st.
Proof.
  intros H. destruct (get_frame_cases st rr) as [[E _]|[E|[f' [ri [evs [E [Hz [Hri _]]]]]]]]; rewrite H in E.
  - injection E as E1 <-. split; [symmetry; exact E1|]. split; [apply fext_refl|auto].
  - discriminate.
  - injection E as <- ->.
    assert (H0 : 0 <= rr) by (eapply zget_some_nonneg; exact Hri).
    split; [apply zget_zset_same; exact H0|]. split; [|split; reflexivity].
    intros q g Hq. change (zget q (zset rr f (frames st)) = Some g). rewrite zget_zset.
    destruct (Z.eqb_spec rr q) as [->|]; cbn [andb]; [congruence|exact Hq].
Qed.

Lemma process_round_inv s p stop pr :
  finv s -> (forall r, NoDup (rcv s r)) ->
  finv (fst (fst (process_round (s, p, stop) pr))) /\ okeep_nf s (fst (fst (process_round (s, p, stop) pr))) /\
  (dlv s -> dlv (fst (fst (process_round (s, p, stop) pr)))).
Proof.
  intros F ND. unfold process_round.
  destruct (stop || failed s); [split; [exact F|split; [apply okeep_nf_refl|auto]]|].
  destruct (negb (snd pr)); [split; [exact F|split; [apply okeep_nf_refl|auto]]|].
  (* [fail] changes nothing that finv, okeep_nf or dlv read *)
  destruct (get_round s (fst pr)); [|cbn [fst]; split; [exact F|split; [repeat split|auto]]].
  destruct (get_frame_finv s (fst pr) F ND) as [F1 K1].
  destruct (get_frame s (fst pr)) as [[f|] s1] eqn:Hgf; cbn [fst snd] in *.
  2:{ split; [exact F1|split; [exact K1|]]. rewrite (get_frame_none _ _ _ Hgf). auto. }
  destruct (ov_nf _ _ (process_frame_ov s1 f)) as [K2 Fr2].
  destruct (bump_ov (process_frame s1 f) (fst pr)) as [B1 B2]. destruct (ov_nf _ _ B1) as [K3 B4].
  split; [eapply finv_nf; [|exact K3|exact B4]; eapply finv_nf; eauto|].
  split; [eapply okeep_nf_trans; [exact K1|eapply okeep_nf_trans; eauto]|].
  intros D. destruct K2 as [_ [Ev2 _]]. destruct K3 as [_ [B3 _]].
  destruct (get_frame_some _ _ _ _ Hgf) as [Hz [Fx [Ev1 Dl1]]].
  assert (D1 : dlv s1) by (eapply dlv_same_events; eauto).
  destruct (F1 _ _ Hz) as [Hfr _].
  eapply dlv_same_events; [|exact B2|apply fext_eq; exact B4|exact B3].
  destruct (process_frame_delivered_pv s1 f) as [E|[bf [E Hpv]]].
  - eapply dlv_same_events; [exact D1|exact E|apply fext_eq; exact Fr2|exact Ev2].
  - (* the new block is made from the frame just cached *)
    intros d. rewrite E. intros Hd. apply in_app_or in Hd. destruct Hd as [Hd|[<-|[]]].
    + destruct (D1 d Hd) as [H1 [H2 H3]]. rewrite Fr2. split; [exact H1|].
      unfold txs_of, itxs_of, get_event. rewrite Ev2. auto.
    + unfold pv in Hpv. injection Hpv as P1 P2 P3 P4. rewrite P1, P2, P3, P4, Fr2, Hfr.
      split; [exact Hz|]. unfold txs_of, itxs_of, get_event. rewrite Ev2. auto.
Qed.

Lemma process_decided_rounds_inv st :
  finv st -> dlv st -> (forall r, NoDup (rcv st r)) ->
  finv (process_decided_rounds st) /\ dlv (process_decided_rounds st) /\ okeep_nf st (process_decided_rounds st).
Proof.
  intros F D ND. unfold process_decided_rounds.
  assert (G : forall l s p b, finv s -> dlv s -> (forall r, NoDup (rcv s r)) ->
              finv (fst (fst (fold_left process_round l (s, p, b)))) /\
              dlv (fst (fst (fold_left process_round l (s, p, b)))) /\
              okeep_nf s (fst (fst (fold_left process_round l (s, p, b))))).
  { induction l as [|pr l IH]; intros s p b Fs Ds NDs; cbn [fold_left]; [split; [exact Fs|split; [exact Ds|apply okeep_nf_refl]]|].
    destruct (process_round_inv s p b pr Fs NDs) as [F1 [K1 D1]]. specialize (D1 Ds).
    destruct (process_round (s, p, b) pr) as [[s1 p1] b1]. cbn [fst] in *.
    destruct (IH s1 p1 b1 F1 D1 (nodup_nf _ _ K1 NDs)) as [F2 [D2 K2]].
    split; [exact F2|split; [exact D2|eapply okeep_nf_trans; eauto]]. }
  destruct (G (pending st) st [] false F D ND) as [F1 [D1 K1]].
  destruct (fold_left process_round (pending st) (st, [], false)) as [[s processed] stop]. cbn [fst] in *.
  (* the pending queue is read by none of them *)
  split; [exact F1|split; [exact D1|exact K1]].
Qed.

Record gcore (all : list event) (st : hg) : Prop := {
  g_dag : dag_ok st;
  g_from : from_attempts st all;
  g_l : linv st;
  g_o : oinv st
}.
Definition all_lt (st : hg) : Prop := forall x ex, get_event st x = Some ex -> ev_lt ex <> None.
Record ginv (all : list event) (st : hg) : Prop := {
  gi_core : gcore all st;
  gi_all : failed st = false -> all_lt st;
  gi_f : finv st;
  gi_d : dlv st
}.

Lemma okeep_of_nf' st st' : okeep_nf st st' ->
  lkeep st st' /\ qkeep st st' /\ rmono st st'.
Proof.
  intros [K1 [K2 [K3 [K4 K5]]]].
  assert (Ge : forall x, get_event st' x = get_event st x) by (intros x; unfold get_event; rewrite K2; reflexivity).
  assert (Gr : forall r, rcv st' r = rcv st r) by (intros r; unfold rcv, get_round; rewrite K3; reflexivity).
  assert (Q : qkeep st st') by (constructor; [intros x; rewrite Ge; reflexivity|exact Gr|exact K4]).
  split; [constructor; [exact K1|intros x; rewrite Ge; reflexivity]|]. split; [exact Q|].
  apply rmono_qkeep; [exact Q|]. intros y t. rewrite K1. auto.
Qed.

Lemma gcore_pass all st st' :
  gcore all st -> dag_frame st st' -> lkeep st st' -> qkeep st st' -> (failed st' = false -> failed st = false) ->
  gcore all st'.
Proof.
  intros [D Fa L O] Fr K Q Hf. constructor.
  - eapply dag_ok_frame; eauto.
  - eapply from_attempts_frame; eauto.
  - eapply linv_lkeep; eauto.
  - eapply oinv_qkeep; eauto.
Qed.

Lemma all_lt_lkeep st st' : lkeep st st' -> all_lt st -> all_lt st'.
Proof.
  intros K A x ex' Hx. destruct (lkeep_bwd _ _ _ _ K Hx) as [ex [Hx0 [_ El]]]. rewrite El. eapply A; eauto.
Qed.

(* a pass that leaves the DAG, the frame cache and the delivered list alone and only adds to what
   the cached frames and the delivered blocks read *)
Lemma order_pass all st st' :
  gcore all st -> finv st -> dlv st ->
  dag_frame st st' -> linv st' -> oinv st' -> rmono st st' ->
  frames st' = frames st -> delivered st' = delivered st ->
  gcore all st' /\ finv st' /\ dlv st'.
Proof.
  intros [D Fa _ O] F Dl Fr L' O' M Ef Ed. split; [|split].
  - constructor; [eapply dag_ok_frame; eauto|eapply from_attempts_frame; eauto|exact L'|exact O'].
  - eapply finv_rmono; eauto.
  - eapply dlv_pass; [exact Dl|exact F|exact O|exact Ed|apply fext_eq; exact Ef|apply (m_e _ _ M)].
Qed.

(* such a pass that keeps the timestamps as well *)
Lemma keep_pass all st st' :
  ginv all st -> failed st = false ->
  dag_frame st st' -> lkeep st st' -> oinv st' -> rmono st st' ->
  frames st' = frames st -> delivered st' = delivered st ->
  ginv all st' /\ rmono st st'.
Proof.
  intros [C A F Dl] Hf Fr K O' M Ef Ed.
  destruct (order_pass all st st' C F Dl Fr (linv_lkeep _ _ K (g_l _ _ C)) O' M Ef Ed) as [C1 [F1 Dl1]].
  split; [|exact M]. constructor; [exact C1|intros _; exact (all_lt_lkeep _ _ K (A Hf))|exact F1|exact Dl1].
Qed.

Lemma divide_rounds_pass all n st :
  gcore all st -> finv st -> dlv st -> dinv n st -> In n (undetermined st) -> failed st = false ->
  ginv all (divide_rounds st) /\ rmono st (divide_rounds st).
Proof.
  intros C F Dl D Hin Hf. destruct (divide_rounds_spec n st D) as [D1 [K1 L1]].
  pose proof (rmono_dkeep _ _ K1) as M1.
  destruct (order_pass all st (divide_rounds st) C F Dl (divide_rounds_frame st) (d_l _ _ D1)
              (oinv_qkeep _ _ (dk_q _ _ K1) (fun _ => Hf) (g_o _ _ C)) M1 (dk_f _ _ K1)
              (delivered_bview _ _ (divide_rounds_bview st))) as [C1 [F1 Dl1]].
  split; [|exact M1]. constructor; [exact C1| |exact F1|exact Dl1].
  (* only n could lack a timestamp, and n was in the list *)
  intros Hf1 y ey Hy Hn. pose proof (d_only _ _ D1 Hf1 y ey Hy Hn) as ->.
  destruct (L1 Hin) as [C'|[ex [t [Hx Ht]]]]; congruence.
Qed.

Lemma decide_fame_pass all st :
  ginv all st -> failed st = false -> ginv all (decide_fame st) /\ rmono st (decide_fame st).
Proof.
  intros G Hf. pose proof (decide_fame_okeep st) as O.
  exact (keep_pass all st _ G Hf (decide_fame_frame st) (okeep_lkeep _ _ O)
           (oinv_qkeep _ _ (okeep_qkeep _ _ O) (fun _ => Hf) (g_o _ _ (gi_core _ _ G)))
           (rmono_okeep _ _ O) (o_fr _ _ O) (delivered_bview _ _ (decide_fame_bview st))).
Qed.

Lemma decide_round_received_pass all st :
  ginv all st -> failed st = false ->
  ginv all (decide_round_received st) /\ rmono st (decide_round_received st).
Proof.
  intros G Hf. destruct (decide_round_received_oinv st (g_o _ _ (gi_core _ _ G))) as [O' [M E]].
  exact (keep_pass all st _ G Hf (decide_round_received_frame st) (decide_round_received_lkeep st) O' M E
           (delivered_bview _ _ (decide_round_received_bview st))).
Qed.

Lemma process_decided_rounds_pass all st :
  ginv all st -> failed st = false ->
  ginv all (process_decided_rounds st) /\ rmono st (process_decided_rounds st).
Proof.
  intros [C A F Dl] Hf. destruct (process_decided_rounds_inv st F Dl (c_nodup _ (g_o _ _ C))) as [F' [Dl' K]].
  destruct (okeep_of_nf' _ _ K) as [L [Q M]]. split; [|exact M].
  constructor; [|intros _; exact (all_lt_lkeep _ _ L (A Hf))|exact F'|exact Dl'].
  eapply gcore_pass; [exact C|apply process_decided_rounds_frame|exact L|exact Q|intros _; exact Hf].
Qed.

Lemma run_consensus_ginv all n st :
  gcore all st -> finv st -> dlv st -> dinv n st -> In n (undetermined st) ->
  ginv all (run_consensus st) /\ rmono st (run_consensus st).
Proof.
  intros C F Dl D Hin. unfold run_consensus.
  destruct (failed st) eqn:Hf.
  { rewrite (divide_rounds_failed st Hf), Hf. split; [|apply rmono_refl].
    constructor; [exact C|congruence|exact F|exact Dl]. }
  destruct (divide_rounds_pass all n st C F Dl D Hin Hf) as [G1 M1].
  destruct (failed (divide_rounds st)) eqn:Hf1; [split; assumption|].
  destruct (decide_fame_pass all _ G1 Hf1) as [G2 M2]. pose proof (rmono_trans _ _ _ M1 M2) as M12.
  destruct (failed (decide_fame _)) eqn:Hf2; [split; assumption|].
  destruct (decide_round_received_pass all _ G2 Hf2) as [G3 M3]. pose proof (rmono_trans _ _ _ M12 M3) as M13.
  destruct (failed (decide_round_received _)) eqn:Hf3; [split; assumption|].
  destruct (process_decided_rounds_pass all _ G3 Hf3) as [G4 M4].
  split; [exact G4|exact (rmono_trans _ _ _ M13 M4)].
Qed.

(* storing a new event n without timestamp and round-received and queueing it as undetermined *)
Lemma store_new_inv st s n en :
  get_event st n = None -> (forall x, get_event s x = if x =? n then Some en else get_event st x) ->
  ev_lt en = None -> ev_rr en = None ->
  lt_memo s = lt_memo st -> (forall r, rcv s r = rcv st r) -> undetermined s = undetermined st ++ [n] ->
  failed s = failed st -> ops_present s ->
  linv st -> oinv st -> (failed st = false -> all_lt st) ->
  dinv n s /\ oinv s /\ rmono st s.
Proof.
  intros Hfresh G Hlt Hrr L R U Ff OP [LM LE LP] [O1 O2 O3 O4 O5 O6] A.
  assert (Hold : forall x es, get_event st x = Some es -> get_event s x = Some es).
  { intros x es Hx. rewrite G. destruct (Z.eqb_spec x n) as [->|]; [congruence|exact Hx]. }
  assert (Ms : rmono st s).
  { constructor; [intros x ex r Hx Hr; eauto|intros r; rewrite R; apply incl_refl|intros y t; rewrite L; auto|].
    intros x ex Hx. eauto. }
  split; [constructor; [constructor| |]|split; [constructor|exact Ms]].
  - exact (memo_consistent_eext st s L (m_e _ _ Ms) LM).
  - intros x ex t. rewrite G, L. destruct (x =? n); [intros [= <-]; congruence|apply LE].
  - intros x ex t p. rewrite G. destruct (x =? n); [intros [= <-]; congruence|]. intros Hx Ht Hp Hpn.
    destruct (LP x ex t p Hx Ht Hp Hpn) as [ep [tp [Hep Htp]]]. eauto.
  - exact OP.
  - intros Hf y ey. rewrite G. destruct (Z.eqb_spec y n); [auto|]. intros Hy Hl. rewrite Ff in Hf.
    destruct (A Hf y ey Hy Hl).
  - intros x. rewrite U. intros Hx. apply in_app_or in Hx. destruct Hx as [Hx|[<-|[]]].
    + destruct (O1 x Hx) as [ex Hex]. eauto.
    + rewrite G, Z.eqb_refl. eauto.
  - rewrite U. eapply Permutation_NoDup; [apply Permutation_cons_append|]. constructor; [|exact O2].
    intros Hx. destruct (O1 n Hx) as [ex Hex]. congruence.
  - intros Hf x ex. rewrite U, G. rewrite Ff in Hf.
    destruct (Z.eqb_spec x n) as [->|Hne]; [intros _ [= <-]; exact Hrr|].
    intros Hx Hex. apply in_app_or in Hx. destruct Hx as [Hx|[<-|[]]]; [eapply O3; eauto|congruence].
  - intros r x. rewrite R. intros Hx. destruct (O4 r x Hx) as [ex [Hex Hr]]. eauto.
  - intros r. rewrite R. apply O5.
  - intros x ex r. rewrite R, G. destruct (x =? n); [intros [= <-]; congruence|apply O6].
Qed.

(* an admitted insertion is such a store followed by steps that keep what the order invariants read *)
Lemma insert_ok_inv all st e s :
  ids_determine all -> In e all -> 0 <= e_id e -> ginv all st -> insert_event st e = (InsOk, s) ->
  gcore all s /\ finv s /\ dlv s /\ dinv (e_id e) s /\ In (e_id e) (undetermined s) /\ rmono st s.
Proof.
  intros ID Hin Hid [C A F Dl] E. destruct C as [OK FA Ls Os].
  destruct (insert_event_inv st e all InsOk s OK FA ID Hin Hid E) as [OK' [FA' _]].
  pose proof (insert_event_failed st e) as Ff. rewrite E in Ff. cbn [snd] in Ff.
  pose proof (delivered_bview _ _ (insert_event_bview st e)) as Db. rewrite E in Db.
  destruct (insert_event_cases st e _ _ E) as [[_ [N _]]|[Hsig [Hsp [Hop Ad]]]]; [congruence|].
  destruct (admitted_stored st e all _ s OK FA ID Hin Hid Hsig Hsp Hop Ad) as [_ [Hfresh [st2 [Hst [OK2 ->]]]]].
  pose proof (store_set_event_get _ _ st2 Hst Hid) as G2.
  destruct (store_set_event_footprint _ _ _ Hst) as [P E2].
  set (la := fst (init_coords st e)) in *. pose proof (after_store_okeep st2 e la) as K.
  set (s1 := st2 <| undetermined := undetermined st2 ++ [e_id e] |>) in K.
  destruct (store_new_inv st s1 (e_id e) _ Hfresh G2 eq_refl eq_refl) as [D1 [O1 M1]];
    try (subst s1; rewrite E2; reflexivity); [exact (d_op st2 OK2)|exact Ls|exact Os|exact A|].
  assert (Ff1 : failed (after_store st2 e la) = false -> failed s1 = false)
    by (rewrite Ff; subst s1; rewrite E2; exact (fun H => H)).
  pose proof (dinv_okeep _ _ _ K Ff1 D1) as Ds.
  pose proof (rmono_trans _ _ _ M1 (rmono_okeep _ _ K)) as Ms.
  assert (Fm : frames (after_store st2 e la) = frames st) by (rewrite (o_fr _ _ K); subst s1; rewrite E2; reflexivity).
  split; [constructor; [exact OK'|exact FA'|exact (d_l _ _ Ds)|exact (oinv_qkeep _ _ (okeep_qkeep _ _ K) Ff1 O1)]|].
  split; [eapply finv_rmono; eauto|].
  split; [eapply dlv_pass; [exact Dl|exact F|exact Os|exact Db|apply fext_eq; exact Fm|apply (m_e _ _ Ms)]|].
  split; [exact Ds|]. split; [|exact Ms].
  rewrite (o_und _ _ K). apply in_or_app. right; left; reflexivity.
Qed.

Lemma process_sigpool_rv st : rv (process_sigpool st) = rv st /\ failed (process_sigpool st) = failed st.
Proof.
  unfold process_sigpool. generalize (sigpool st). intros l. revert st.
  induction l as [|s l IH]; intros st; cbn [fold_left]; [split; reflexivity|].
  destruct (IH (process_sig st s)) as [E1 F1]. destruct (process_sig_rv st s) as [E2 F2]. split; congruence.
Qed.
Lemma process_sigpool_failed st : failed (process_sigpool st) = failed st.
Proof. apply process_sigpool_rv. Qed.

Lemma process_sigpool_ginv all st : ginv all st -> ginv all (process_sigpool st) /\ rmono st (process_sigpool st).
Proof.
  intros [C A F Dl]. destruct (ov_nf _ _ (process_sigpool_ov st)) as [K E].
  destruct (okeep_of_nf' _ _ K) as [L [Q M]]. destruct (process_sigpool_rv st) as [Er Ff].
  split; [|exact M]. constructor.
  - eapply gcore_pass; [exact C|apply process_sigpool_frame|exact L|exact Q|congruence].
  - intros Hf. eapply all_lt_lkeep; [exact L|apply A; congruence].
  - eapply finv_nf; eauto.
  - eapply dlv_same_events; [exact Dl|exact (f_equal snd Er)|apply fext_eq; exact E|apply K].
Qed.

Lemma ginv_init all self_ genesis oracle_ : ginv all (init_hg self_ genesis oracle_).
Proof.
  assert (E : ov (init_hg self_ genesis oracle_) = ov (empty_hg self_)).
  { unfold init_hg. destruct (set_peerset (empty_hg self_) 0 genesis) as [st|] eqn:S; [|reflexivity].
    rewrite <- (ov_set_peerset _ _ _ _ S). reflexivity. }
  destruct (ov_nf _ _ E) as [[El [Ee [Er [Eu Em]]]] Ef]. clear E.
  assert (Ge : forall x, get_event (init_hg self_ genesis oracle_) x = None).
  { intros x. unfold get_event. rewrite Ee. apply zget_empty. }
  assert (Gr : forall r, rcv (init_hg self_ genesis oracle_) r = []).
  { intros r. unfold rcv, get_round. rewrite Er. cbn. rewrite zget_empty. reflexivity. }
  (* no event, no round, no frame, no block: every clause holds of nothing *)
  constructor; [constructor; [apply dag_ok_init|intros x es H; rewrite Ge in H; discriminate|constructor|constructor]| | |].
  - intros x t. rewrite El. cbn. rewrite zget_empty. discriminate.
  - intros x ex t H. rewrite Ge in H. discriminate.
  - intros x ex t p H. rewrite Ge in H. discriminate.
  - rewrite Eu. intros x [].
  - rewrite Eu. constructor.
  - intros _ x ex _ H. rewrite Ge in H. discriminate.
  - intros r x. rewrite Gr. intros [].
  - intros r. rewrite Gr. constructor.
  - intros x ex r H. rewrite Ge in H. discriminate.
  - intros _ x ex H. rewrite Ge in H. discriminate.
  - intros rr f. rewrite Ef. cbn. rewrite zget_empty. discriminate.
  - intros d. replace (delivered (init_hg self_ genesis oracle_)) with (@nil block); [intros []|].
    unfold init_hg. destruct (set_peerset (empty_hg self_) 0 genesis) as [st|] eqn:S; [|reflexivity].
    symmetry. exact (delivered_bl _ _ (set_peerset_bl _ _ _ _ S)).
Qed.

(* operations whose inserted events come from the list [all] and carry a non-negative identifier *)
Definition hop_ok (all : list event) (o : hop) : Prop :=
  match o with HInsert e => In e all /\ 0 <= e_id e | HSigPool => True end.

(* A predicate [P] with a preorder [R] along every run: a rejected insertion changes nothing, an
   admitted one is followed by the consensus run, ProcessSigPool stands alone. *)
Section Along.
  Variables (all : list event) (P : hg -> Prop) (R : hg -> hg -> Prop).
  Hypothesis ID : ids_determine all.
  Hypothesis P_dag : forall st, P st -> dag_ok st /\ from_attempts st all.
  Hypothesis R_refl : forall st, R st st.
  Hypothesis R_trans : forall a b c, R a b -> R b c -> R a c.
  Hypothesis P_insert : forall st e s, In e all -> 0 <= e_id e -> P st ->
    insert_event st e = (InsOk, s) -> P (run_consensus s) /\ R st (run_consensus s).
  Hypothesis P_sigpool : forall st, P st -> P (process_sigpool st) /\ R st (process_sigpool st).

  Lemma hstep_along st o : hop_ok all o -> P st -> P (hstep st o) /\ R st (hstep st o).
  Proof.
    intros Ho H. destruct o as [e|]; cbn [hstep]; [|apply P_sigpool, H].
    destruct Ho as [Hin Hid]. destruct (P_dag st H) as [OK FA]. unfold step, insert_and_run.
    destruct (insert_event st e) as [r s] eqn:E.
    destruct (insert_event_inv st e all r s OK FA ID Hin Hid E) as [_ [_ Hns]].
    destruct r; try (rewrite (insert_reject_noop st e _ s E ltac:(discriminate) Hns); split; [exact H|apply R_refl]).
    exact (P_insert st e s Hin Hid H E).
  Qed.

  Lemma hrun_along ops : Forall (hop_ok all) ops ->
    forall st, P st -> P (hrun st ops) /\ R st (hrun st ops).
  Proof.
    induction 1 as [|o ops Ho Hops IH]; intros st H; cbn [hrun fold_left]; [split; [exact H|apply R_refl]|].
    destruct (hstep_along st o Ho H) as [H1 M1]. destruct (IH _ H1) as [H2 M2].
    split; [exact H2|exact (R_trans _ _ _ M1 M2)].
  Qed.
End Along.

Lemma ginv_dag all st : ginv all st -> dag_ok st /\ from_attempts st all.
Proof. intros G. split; [apply (g_dag _ _ (gi_core _ _ G))|apply (g_from _ _ (gi_core _ _ G))]. Qed.

Lemma hrun_ginv_from all ops : ids_determine all -> Forall (hop_ok all) ops ->
  forall st, ginv all st -> ginv all (hrun st ops) /\ rmono st (hrun st ops).
Proof.
  intros ID. apply (hrun_along all (ginv all) rmono ID (ginv_dag all) rmono_refl rmono_trans).
  - intros s e s' Hin Hid G E.
    destruct (insert_ok_inv all s e s' ID Hin Hid G E) as [Cs [Fs [Dls [Ds [Hund Ms]]]]].
    destruct (run_consensus_ginv all (e_id e) s' Cs Fs Dls Ds Hund) as [Gr Mr].
    split; [exact Gr|exact (rmono_trans _ _ _ Ms Mr)].
  - apply process_sigpool_ginv.
Qed.

Lemma hstep_ginv all st o : ids_determine all -> hop_ok all o -> ginv all st ->
  ginv all (hstep st o) /\ rmono st (hstep st o).
Proof. intros ID Ho. exact (hrun_ginv_from all [o] ID (Forall_cons _ Ho (Forall_nil _)) st). Qed.

Theorem hrun_ginv all self_ genesis oracle_ ops :
  ids_determine all -> Forall (hop_ok all) ops -> ginv all (hrun (init_hg self_ genesis oracle_) ops).
Proof. intros ID H. apply (hrun_ginv_from all ops ID H). apply ginv_init. Qed.

(* timestamp carried by a parent reference, read from the stored events *)
Definition parent_ts (st : hg) (p : Z) : option Z :=
  if p =? -1 then Some (-1)
  else match get_event st p with Some ep => ev_lt ep | None => None end.

(* direct parent in the stored DAG, ancestor = transitive closure *)
Definition parent_of (st : hg) (a b : Z) : Prop :=
  exists eb, get_event st b = Some eb /\ a <> -1 /\ (a = e_sp (ev_e eb) \/ a = e_op (ev_e eb)).
Inductive anc (st : hg) : Z -> Z -> Prop :=
| anc_parent a b : parent_of st a b -> anc st a b
| anc_step a b c : anc st a b -> parent_of st b c -> anc st a c.

Theorem lamport_strict all st x ex t :
  ginv all st -> get_event st x = Some ex -> ev_lt ex = Some t ->
  exists a b, parent_ts st (e_sp (ev_e ex)) = Some a /\ parent_ts st (e_op (ev_e ex)) = Some b /\
              -1 <= a /\ -1 <= b /\ t = 1 + Z.max a b.
Proof.
  intros [C _ _ _] Hx Ht. destruct (g_l _ _ C) as [M E P].
  pose proof (E x ex t Hx Ht) as Hm. destruct (M x t Hm) as [ex' [a [b [Hx' [Ha [Hb R]]]]]].
  rewrite Hx in Hx'. inversion Hx'; subst ex'. exists a, b.
  assert (Conv : forall p c, (p = e_sp (ev_e ex) \/ p = e_op (ev_e ex)) -> parent_lt st p = Some c -> parent_ts st p = Some c).
  { intros p c Hp. unfold parent_lt, parent_ts. destruct (Z.eqb_spec p (-1)); [auto|]. intros Hc.
    destruct (P x ex t p Hx Ht Hp n) as [ep [tp [Hep Htp]]]. rewrite Hep, Htp.
    rewrite (E p ep tp Hep Htp) in Hc. exact Hc. }
  split; [apply Conv; auto|]. split; [apply Conv; auto|exact R].
Qed.

Corollary lamport_parent_lt all st x ex t p :
  ginv all st -> get_event st x = Some ex -> ev_lt ex = Some t ->
  (p = e_sp (ev_e ex) \/ p = e_op (ev_e ex)) -> p <> -1 ->
  exists ep tp, get_event st p = Some ep /\ ev_lt ep = Some tp /\ tp < t.
Proof.
  intros [C _ _ _] Hx Ht Hp Hn. destruct (g_l _ _ C) as [M E P].
  destruct (P x ex t p Hx Ht Hp Hn) as [ep [tp [Hep Htp]]]. exists ep, tp. split; [exact Hep|split; [exact Htp|]].
  destruct (memo_parent_lt st x ex t p M (E _ _ _ Hx Ht) Hx Hp Hn) as [c [Hc Hlt]].
  rewrite (E _ _ _ Hep Htp) in Hc. injection Hc as <-. exact Hlt.
Qed.

Lemma anc_memo_lt st a b tb :
  memo_consistent st -> anc st a b -> zget b (lt_memo st) = Some tb ->
  exists ta, zget a (lt_memo st) = Some ta /\ ta < tb.
Proof.
  intros M H. revert tb. induction H as [a b [eb [Hb [Hn Hp]]]|a b c Hab IH [ec [Hc [Hn Hp]]]]; intros tb Htb.
  - exact (memo_parent_lt st b eb tb a M Htb Hb Hp Hn).
  - destruct (memo_parent_lt st c ec tb b M Htb Hc Hp Hn) as [tm [Hm Hlt]].
    destruct (IH tm Hm) as [ta [Hta Hl]]. exists ta. split; [auto|lia].
Qed.

Theorem lamport_ancestor_lt all st a b eb tb :
  ginv all st -> anc st a b -> get_event st b = Some eb -> ev_lt eb = Some tb ->
  exists ta, zget a (lt_memo st) = Some ta /\ ta < tb.
Proof.
  intros [C _ _ _] H Hb Ht. destruct (g_l _ _ C) as [M E P].
  eapply anc_memo_lt; eauto.
Qed.

(* in a frame an ancestor always comes before its descendant *)
Theorem frame_respects_ancestry all st rr f i j a b :
  ginv all st -> zget rr (frames st) = Some f ->
  nth_error (f_events f) i = Some a -> nth_error (f_events f) j = Some b ->
  anc st (fe_id a) (fe_id b) -> (i < j)%nat.
Proof.
  intros [C _ F _] Hf Ha Hb Hanc. destruct (F rr f Hf) as [_ [S [_ [Hev _]]]].
  destruct (Hev a (nth_error_In _ _ Ha)) as [_ Hma]. destruct (Hev b (nth_error_In _ _ Hb)) as [_ Hmb].
  destruct (anc_memo_lt st _ _ _ (l_memo _ (g_l _ _ C)) Hanc Hmb) as [ta [Hta Hlt]].
  rewrite Hma in Hta. inversion Hta; subst ta.
  exact (sorted_key_position fe_lt _ _ _ _ _ S Ha Hb Hlt).
Qed.

(* round-received, once assigned, is kept by every continuation *)
Theorem rr_stable all st ops x ex r :
  ids_determine all -> Forall (hop_ok all) ops -> ginv all st ->
  get_event st x = Some ex -> ev_rr ex = Some r ->
  exists ex', get_event (hrun st ops) x = Some ex' /\ ev_rr ex' = Some r.
Proof.
  intros ID Hops G Hx Hr. destruct (hrun_ginv_from all ops ID Hops st G) as [_ M]. eapply (m_rr _ _ M); eauto.
Qed.

(* received lists: exactly the events with that round-received, without repetition *)
Theorem received_iff all st r x :
  ginv all st -> (In x (rcv st r) <-> exists ex, get_event st x = Some ex /\ ev_rr ex = Some r).
Proof.
  intros [C _ _ _]. split; [apply (c_in _ (g_o _ _ C))|]. intros [ex [Hx Hr]]. eapply (c_listed _ (g_o _ _ C)); eauto.
Qed.
Theorem received_nodup all st r : ginv all st -> NoDup (rcv st r).
Proof. intros [C _ _ _]. apply (c_nodup _ (g_o _ _ C)). Qed.
Theorem received_one_round all st r r' x : ginv all st -> In x (rcv st r) -> In x (rcv st r') -> r = r'.
Proof.
  intros G H H'. apply (received_iff all st r x G) in H. apply (received_iff all st r' x G) in H'.
  destruct H as [ex [Hx Hr]], H' as [ex' [Hx' Hr']]. congruence.
Qed.

(* frames: no event twice in a frame, no event in the frames of two rounds *)
Theorem frame_nodup all st rr f : ginv all st -> zget rr (frames st) = Some f -> NoDup (map fe_id (f_events f)).
Proof. intros [_ _ F _] H. apply (F rr f H). Qed.
Theorem frame_one_round all st rr rr' f f' x :
  ginv all st -> zget rr (frames st) = Some f -> zget rr' (frames st) = Some f' ->
  In x (map fe_id (f_events f)) -> In x (map fe_id (f_events f')) -> rr = rr'.
Proof.
  intros G H H' Hx Hx'. destruct G as [C A F Dl]. 
  destruct (F rr f H) as [_ [_ [_ [E _]]]]. destruct (F rr' f' H') as [_ [_ [_ [E' _]]]].
  apply in_map_iff in Hx. destruct Hx as [fe [<- Hfe]]. apply in_map_iff in Hx'. destruct Hx' as [fe' [Eq Hfe']].
  destruct (E fe Hfe) as [I1 _]. destruct (E' fe' Hfe') as [I2 _]. rewrite Eq in I2.
  eapply (received_one_round all st); eauto. constructor; assumption.
Qed.
Theorem frame_events_received all st rr f fe :
  ginv all st -> zget rr (frames st) = Some f -> In fe (f_events f) ->
  f_round f = rr /\ zget (fe_id fe) (lt_memo st) = Some (fe_lt fe) /\
  exists ex, get_event st (fe_id fe) = Some ex /\ ev_rr ex = Some rr /\
             (failed st = false -> ev_lt ex = Some (fe_lt fe)).
Proof.
  intros [C A F Dl] H Hfe. destruct (F rr f H) as [Hr [_ [_ [E _]]]]. destruct (E fe Hfe) as [I1 Hm].
  split; [exact Hr|]. split; [exact Hm|].
  destruct (c_in _ (g_o _ _ C) rr _ I1) as [ex [Hx Hrr]]. exists ex. split; [auto|split; [auto|]].
  intros Hf. destruct (ev_lt ex) as [t|] eqn:Hl.
  - pose proof (l_ev _ (g_l _ _ C) _ _ _ Hx Hl) as Hm'. congruence.
  - exfalso. apply (A Hf _ _ Hx). exact Hl.
Qed.

Theorem delivered_block_payload all st d :
  ginv all st -> In d (delivered st) ->
  zget (b_rr d) (frames st) = Some (b_frame d) /\
  b_txs d = flat_map (txs_of st) (f_events (b_frame d)) /\
  b_itxs d = flat_map (itxs_of st) (f_events (b_frame d)).
Proof. intros [_ _ _ Dl]. apply Dl. Qed.

(* the transactions of one event are a contiguous segment of the block, in the creator's order *)
Theorem delivered_event_segment all st d l1 fe l2 :
  ginv all st -> In d (delivered st) -> f_events (b_frame d) = l1 ++ fe :: l2 ->
  b_txs d = flat_map (txs_of st) l1 ++ txs_of st fe ++ flat_map (txs_of st) l2.
Proof.
  intros G Hd Hs. destruct (delivered_block_payload all st d G Hd) as [_ [Ht _]].
  rewrite Ht, Hs, flat_map_app. reflexivity.
Qed.

Lemma sorted_nth_lt_gen l : StronglySorted Z.lt l ->
  forall k k' a b, (k < k')%nat -> nth_error l k = Some a -> nth_error l k' = Some b -> a < b.
Proof.
  induction 1 as [|x l S IH F]; intros k k' a b Hlt Ha Hb; [destruct k; discriminate|].
  destruct k' as [|k']; [lia|]. destruct k as [|k]; cbn in Ha, Hb.
  - inversion Ha; subst. rewrite Forall_forall in F. apply F. eapply nth_error_In; eauto.
  - eapply IH; [|exact Ha|exact Hb]. lia.
Qed.

(* an event is committed at most once: it belongs to the frame of at most one delivered block *)
Theorem committed_once all self_ genesis oracle_ ops k k' d d' x :
  ids_determine all -> Forall (hop_ok all) ops ->
  let st := hrun (init_hg self_ genesis oracle_) ops in
  nth_error (delivered st) k = Some d -> nth_error (delivered st) k' = Some d' ->
  In x (map fe_id (f_events (b_frame d))) -> In x (map fe_id (f_events (b_frame d'))) ->
  k = k' /\ NoDup (map fe_id (f_events (b_frame d))).
Proof.
  intros ID Hops st Hk Hk' Hx Hx'.
  pose proof (hrun_ginv all self_ genesis oracle_ ops ID Hops) as G. fold st in G.
  destruct (delivered_block_payload all st d G (nth_error_In _ _ Hk)) as [Hf _].
  destruct (delivered_block_payload all st d' G (nth_error_In _ _ Hk')) as [Hf' _].
  pose proof (frame_one_round all st _ _ _ _ x G Hf Hf' Hx Hx') as Er.
  split; [|eapply frame_nodup; eauto].
  destruct (hrun_rtop self_ genesis oracle_ ops) as [S _]. fold st in S.
  assert (Ha : nth_error (map b_rr (delivered st)) k = Some (b_rr d)) by (rewrite nth_error_map, Hk; reflexivity).
  assert (Hb : nth_error (map b_rr (delivered st)) k' = Some (b_rr d')) by (rewrite nth_error_map, Hk'; reflexivity).
  destruct (Nat.lt_trichotomy k k') as [Hlt|[->|Hlt]]; [|reflexivity|].
  - pose proof (sorted_nth_lt_gen _ S _ _ _ _ Hlt Ha Hb). lia.
  - pose proof (sorted_nth_lt_gen _ S _ _ _ _ Hlt Hb Ha). lia.
Qed.

(* inside a delivered block an ancestor's transactions come before its descendant's *)
Theorem delivered_block_respects_ancestry all st d i j a b :
  ginv all st -> In d (delivered st) ->
  nth_error (f_events (b_frame d)) i = Some a -> nth_error (f_events (b_frame d)) j = Some b ->
  anc st (fe_id a) (fe_id b) -> (i < j)%nat.
Proof.
  intros G Hd Ha Hb Hanc. destruct (delivered_block_payload all st d G Hd) as [Hf _].
  eapply frame_respects_ancestry; eauto.
Qed.

(* boolean checks that discharge ids_determine and hop_ok on concrete histories *)
Fixpoint distinctb (l : list Z) : bool :=
  match l with [] => true | x :: r => negb (mem_key x r) && distinctb r end.

Lemma mem_key_In k l : mem_key k l = true <-> In k l.
Proof.
  induction l as [|x l IH]; cbn [mem_key In]; [split; [discriminate|intros []]|].
  destruct (Z.eqb_spec x k); [split; auto|]. rewrite IH. split; [auto|intros [?|?]; [contradiction|auto]].
Qed.

Lemma distinctb_NoDup l : distinctb l = true -> NoDup l.
Proof.
  induction l as [|x l IH]; cbn [distinctb]; [constructor|].
  intros H. apply andb_prop in H. destruct H as [H1 H2]. constructor; [|apply IH; exact H2].
  intros C. apply mem_key_In in C. rewrite C in H1. discriminate.
Qed.

Lemma ids_determine_distinct all : distinctb (map e_id all) = true -> ids_determine all.
Proof. intros H e e' He He' E. eapply NoDup_map_inj; eauto. apply distinctb_NoDup. exact H. Qed.

Lemma hop_ok_inserts all :
  forallb (fun e => 0 <=? e_id e) all = true -> Forall (hop_ok all) (map HInsert all).
Proof.
  intros H. apply Forall_forall. intros o Ho. apply in_map_iff in Ho. destruct Ho as [e [<- He]].
  cbn. split; [exact He|]. rewrite forallb_forall in H. specialize (H e He). lia.
Qed.

(* a cached frame is sorted by the full key (timestamp, signature rank) of the current state; with
   pairwise distinct keys it is the only sorted arrangement of its events *)
Theorem frame_sorted all st rr f :
  ginv all st -> zget rr (frames st) = Some f ->
  StronglySorted (fe_le st) (f_events f) /\
  (NoDup (map (fe_key st) (f_events f)) ->
   forall l', Permutation l' (f_events f) -> StronglySorted (fe_le st) l' -> l' = f_events f).
Proof.
  intros [_ _ F _] H. destruct (F rr f H) as [_ [_ [_ [_ [_ S]]]]]. split; [exact S|].
  intros N l' P S'. rewrite (fe_sort_unique st (f_events f) l' N P S').
  symmetry. apply fe_sort_unique; [exact N|apply Permutation_refl|exact S].
Qed.
