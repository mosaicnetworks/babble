(* The late-witness lemma (model after fix 05eda0b).  At the level of the abstract voting loop: if no witness
   of round r+1 sees the candidate and round r+2 has a witness, the loop decides NOT FAMOUS (at round r+2).  On
   states: a candidate that a node does not store, while the node already has a witness of round r+2, cannot be
   decided famous by anybody ([famous_is_knownD]; [famous_is_known] is its instance for static membership). *)
From Coq Require Import ZArith List Bool Lia ZifyBool Permutation.
From RecordUpdate Require Import RecordSet.
From V Require Import Model.ZMap Model.Quorum Model.Voting Model.VotingRef Model.VotingRefD Model.HgImpl
  Proofs.ZMapFacts Proofs.QuorumProofs Proofs.AdmissionProofs Proofs.Ancestry Proofs.BlockInv Proofs.RoundOrder
  Proofs.VotingProofs Proofs.VotingProofsD Proofs.FameBridge Proofs.Static Proofs.FirstDesc Proofs.DivInv
  Proofs.Height Proofs.ViewOk Proofs.SameHistory Proofs.FirstDescD Proofs.StronglySeeD Proofs.RoundFunD
  Proofs.ViewOkD Proofs.SameHistoryD Proofs.AgreementD.
From V Require Import Proofs.StronglySee.
Import ListNotations RecordSetNotations.
Open Scope Z_scope.

Theorem nobody_sees_decides_falseD n r P W J y0 :
  view_okD n r P W J -> r + 2 <= J -> In y0 (W (r + 2)) ->
  (forall y, In y (W (r + 1)) -> vp_sees P y = Some false) ->
  fame_loop P (fun j => Some (W j)) r (zrange (r + 1) J) [] = Some (Some false).
Proof.
  intros V HJ Hy0 Hsees.
  destruct (loop_no_error_and_votesD n r P W J V) as [E _]. cbv zeta in E. rewrite E. f_equal.
  apply (loop_ref_Some_iffD n r P W J V false). exists (r + 2), y0.
  split; [lia|]. split; [exact Hy0|].
  pose proof (vd_quorum _ _ _ _ _ V (r + 2) y0 ltac:(lia) Hy0) as Hq.
  destruct (view_sm_posD n r P W J V (r + 2)) as [Hn1 _].
  (* the tally of y0: everybody it strongly sees votes false *)
  assert (Hv : forall w, In w (ssset P W (r + 2) y0) -> VzD P W r (smd n) (r + 2 - 1) w = false).
  { intros w Hw. apply ssset_incl in Hw. replace (r + 2 - 1) with (r + 1) in * by lia.
    rewrite Vz_baseD. unfold seesb. rewrite (Hsees w Hw). reflexivity. }
  assert (Ht : tallyf (VzD P W r (smd n) (r + 2 - 1)) (ssset P W (r + 2) y0) =
               (false, Z.of_nat (length (ssset P W (r + 2) y0)))).
  { apply tallyf_unanimous; [exact Hv|exact (Z.le_trans _ _ _ Hn1 Hq)]. }
  assert (Hmod : 0 <? (r + 2 - r) mod 4 = true) by (replace (r + 2 - r) with 2 by lia; reflexivity).
  split.
  - unfold deciderD. rewrite Ht. cbn [snd]. rewrite Hmod.
    replace (2 <=? r + 2 - r) with true by lia. cbn [andb]. apply Z.leb_le. exact Hq.
  - rewrite Vz_stepD by lia. rewrite Hmod, Ht. reflexivity.
Qed.

Section Late.
  Variables (P : Z -> peerset) (st1 st2 : hg).
  Hypothesis G1 : goodD P st1.
  Hypothesis G2 : goodD P st2.
  Hypothesis C1 : contig st1.
  Hypothesis C2 : contig st2.
  Hypothesis SAME : same_bodies st1 st2.
  Hypothesis NF : no_cross_fork st1 st2.
  Hypothesis T1 : forall q, 0 <= q <= last_round st1 -> get_peerset st1 q = Some (P q).
  Hypothesis T2 : forall q, 0 <= q <= last_round st2 -> get_peerset st2 q = Some (P q).

  (* st1 decided x famous; st2 does not store x but has a witness of round r+2: impossible *)
  Theorem famous_is_knownD x r y0 :
    fame_of st1 x r = Some (Some true) -> In y0 (wits st2 (r + 2)) -> get_event st2 x <> None.
  Proof.
    intros F1 Hy0 Hx2. 
    destruct (fame_decided_preD P st1 G1 C1 T1 x r true F1) as [Hr1 [e1x H1x]].
    pose proof Hx2 as Hx2'.
    (* the round of y0 exists in st2 *)
    assert (Hlr2 : r + 2 <= last_round st2).
    { assert (Hg : get_round st2 (r + 2) <> None).
      { intros D. unfold wits, wl in Hy0. rewrite D in Hy0. destruct Hy0. }
      apply C2 in Hg. lia. }
    set (sees2 := fun _ : Z => Some false).
    pose proof (view_ok_reachD P st1 G1 C1 T1 x r e1x Hr1 H1x) as V1.
    assert (V2 : view_okD (nD P) r (vparams_with st2 sees2) (view_witnesses st2) (last_round st2)).
    { apply (view_ok_reach_genD P st2 G2 C2 T2 sees2 r); [lia|]. intros y _. discriminate. }
    assert (SH : same_historyD (nD P) r (vparams_of st1 x) (view_witnesses st1) (last_round st1)
                   (vparams_with st2 sees2) (view_witnesses st2) (last_round st2) (GWD st1 st2)).
    { rewrite vparams_of_with. apply (same_history_genD P st1 st2 G1 G2 SAME NF C1 C2 T1 T2); [lia|].
      intros y Hy1 Hy2. unfold sees2.
      destruct (wits_storedD P st1 G1 _ y Hy1) as [e1y H1y]. destruct (wits_storedD P st2 G2 _ y Hy2) as [e2y H2y].
      (* y is stored in st2, x is not: y cannot descend from x *)
      unfold see. destruct (ancestor st1 y x) as [[|]|] eqn:Ea.
      - exfalso. apply (ancestor_correct st1 y x e1y e1x (gD_dag _ _ G1) (gD_la _ _ G1) H1y H1x) in Ea.
        destruct (anc_commonD P P st1 st2 G1 G2 SAME y e1y e2y x H1y H2y Ea) as [_ [e2x H2x]]. congruence.
      - reflexivity.
      - exfalso. unfold ancestor in Ea. destruct (y =? x); [discriminate|]. rewrite H1y, H1x in Ea. discriminate. }
    assert (F2 : fame_loop (vparams_with st2 sees2) (fun j => Some (view_witnesses st2 j)) r
                   (zrange (r + 1) (last_round st2)) [] = Some (Some false)).
    { apply (nobody_sees_decides_falseD (nD P) r _ _ _ y0 V2 Hlr2).
      - rewrite (view_witnesses_eqD P st2 C2 T2). exact Hy0.
      - intros y _. reflexivity. }
    rewrite (fame_of_as_view st1 x r (round_witnesses_zrangeD P st1 C1 T1 r (proj1 Hr1))) in F1.
    pose proof (decisions_agreeD (nD P) r _ _ _ _ _ _ (GWD st1 st2) true false V1 V2 SH F1 F2). discriminate.
  Qed.
End Late.

Section Late.
  Variables (g : peerset) (st1 st2 : hg).
  Hypothesis G1 : good g st1.
  Hypothesis G2 : good g st2.
  Hypothesis C1 : contig st1.
  Hypothesis C2 : contig st2.
  Hypothesis SAME : same_bodies st1 st2.
  Hypothesis NF : no_cross_fork st1 st2.

  (* st1 decided x famous; st2 does not store x but has a witness of round r+2: impossible *)
  Theorem famous_is_known x r y0 :
    fame_of st1 x r = Some (Some true) -> In y0 (wits st2 (r + 2)) -> get_event st2 x <> None.
  Proof.
    exact (famous_is_knownD _ st1 st2 (good_goodD g st1 G1) (good_goodD g st2 G2) C1 C2 SAME NF
             (fun q _ => good_peerset g st1 G1 q) (fun q _ => good_peerset g st2 G2 q) x r y0).
  Qed.
End Late.
