(* The distance bound implies the window.  If after every step last_round is at most
   5 above the next round to be processed before the step (Model/Window.v gap_stepb), then every table
   entry the step writes is above every existing round (window_stepb): the blocks a step delivers have a
   round-received above the last consensus round of the state before the step, and their entries are at
   round-received + 6.  No membership premise; arbitrary operations. *)
From Coq Require Import ZArith List Bool Lia Sorted.
From RecordUpdate Require Import RecordSet.
From V Require Import Model.Quorum Model.HgImpl Model.Window Proofs.HgFrames Proofs.BlockInv Proofs.HgBlockFrames
  Proofs.RoundOrder Proofs.PeerSetProofs Proofs.TidyRR Proofs.WindowStable.
Import ListNotations RecordSetNotations.
Open Scope Z_scope.

(* the blocks a state gained over a base state have a round-received above the base's last consensus round *)
Definition newabove (st s : hg) : Prop := forall d, In d (delivered s) -> In d (delivered st) \/ lc_lt st (b_rr d).

Lemma newabove_refl st : newabove st st.
Proof. intros d H. left. exact H. Qed.

Lemma newabove_same st s s' : delivered s' = delivered s -> newabove st s -> newabove st s'.
Proof. intros E H d Hd. rewrite E in Hd. apply H. exact Hd. Qed.

Lemma process_round_new s p stop pr : rinvA s ->
  forall d, In d (delivered (fst (fst (process_round (s, p, stop) pr)))) -> In d (delivered s) \/ b_rr d = fst pr.
Proof.
  intros A d.
  destruct (process_round_cases s p stop pr) as [[b ->]|[->|[ri [f [s1 [_ [Hgf ->]]]]]]]; cbn [fst];
    [intros H; left; exact H|intros H; left; exact H|].
  destruct (get_frame_spec s (fst pr) f s1 (r_frames s A) Hgf) as [Hfr [Hd1 _]].
  destruct (bump_keep (process_frame s1 f) (fst pr)) as [_ [_ Dl3]]. rewrite Dl3.
  destruct (process_frame_delivered s1 f) as [E|[bf [E Hb]]]; rewrite E, Hd1; [auto|].
  intros Hin. apply in_app_or in Hin. destruct Hin as [Hin|[<-|[]]]; [left; exact Hin|right; congruence].
Qed.

Lemma process_fold_new l : forall s p stop,
  rinvA s -> StronglySorted Z.lt (map fst l) -> (forall r, In r (map fst l) -> lc_lt s r) ->
  forall d, In d (delivered (fst (fst (fold_left process_round l (s, p, stop))))) ->
            In d (delivered s) \/ In (b_rr d) (map fst l).
Proof.
  induction l as [|pr l IH]; intros s p stop A S Hab d; cbn [fold_left]; [cbn [fst]; auto|].
  inversion S as [|a b S' Fa]; subst.
  assert (Hpr : lc_lt s (fst pr)) by (apply Hab; left; reflexivity).
  destruct (process_round_spec s p stop pr A Hpr) as [A1 [K1 C]].
  pose proof (process_round_new s p stop pr A) as N1.
  destruct (process_round (s, p, stop) pr) as [[s1 p1] stop1] eqn:E. cbn [fst snd] in *.
  destruct C as [[-> [Hlc Hs]]|[-> [Hd Hlc]]].
  - rewrite (process_fold_stopped l s1 p stop1 Hs). cbn [fst]. intros Hin.
    destruct (N1 d Hin) as [H|H]; [left; exact H|right; left; symmetry; exact H].
  - assert (Hab1 : forall r, In r (map fst l) -> lc_lt s1 r).
    { intros r Hr. unfold lc_lt. rewrite Hlc. rewrite Forall_forall in Fa. apply Fa. exact Hr. }
    intros Hin. destruct (IH s1 (p ++ [fst pr]) stop1 A1 S' Hab1 d Hin) as [H|H]; [|right; right; exact H].
    destruct (N1 d H) as [H'|H']; [left; exact H'|right; left; symmetry; exact H'].
Qed.

Lemma process_decided_rounds_new st : rinv st -> newabove st (process_decided_rounds st).
Proof.
  intros [A B] d. unfold process_decided_rounds.
  pose proof (process_fold_new (pending st) st [] false A (r_sorted st A) (r_above st B) d) as G.
  destruct (fold_left process_round (pending st) (st, [], false)) as [[s processed] stop]. cbn [fst] in G.
  replace (delivered (s <| pending := _ |>)) with (delivered s) by (destruct s; reflexivity).
  intros Hin. destruct (G Hin) as [H|H]; [left; exact H|right]. apply (r_above st B). exact H.
Qed.

(* the base state may be replaced by one with the same block view *)
Lemma newabove_base st s s' : bview s = bview st -> newabove s s' -> newabove st s'.
Proof.
  intros B N d Hd. unfold lc_lt. rewrite <- (delivered_bview _ _ B), <- (f_equal snd B : last_consensus s = last_consensus st).
  exact (N d Hd).
Qed.

Lemma run_consensus_new st : rtop st -> newabove st (run_consensus st).
Proof.
  intros [Hs Hi]. unfold run_consensus.
  destruct (failed st) eqn:Hf.
  { rewrite (divide_rounds_failed st Hf), Hf. apply newabove_refl. }
  pose proof (divide_rounds_rinv st (or_intror (Hi eq_refl))) as I1.
  pose proof (divide_rounds_bview st) as B1.
  set (s1 := divide_rounds st) in *. clearbody s1.
  destruct (failed s1) eqn:Hf1; [exact (newabove_base st s1 s1 B1 (newabove_refl s1))|].
  destruct I1 as [I1|I1]; [congruence|].
  pose proof (decide_fame_rinv _ I1) as I2. pose proof (eq_trans (decide_fame_bview s1) B1) as B2.
  set (s2 := decide_fame s1) in *. clearbody s2.
  destruct (failed s2); [exact (newabove_base st s2 s2 B2 (newabove_refl s2))|].
  pose proof (rinv_rstep _ _ I2 (decide_round_received_rstep s2 (proj1 (rinv_bounded _ I2)))) as I3.
  pose proof (eq_trans (decide_round_received_bview s2) B2) as B3.
  set (s3 := decide_round_received s2) in *. clearbody s3.
  destruct (failed s3); [exact (newabove_base st s3 s3 B3 (newabove_refl s3))|].
  exact (newabove_base st s3 _ B3 (process_decided_rounds_new s3 I3)).
Qed.

Lemma hstep_new st o : rtop st -> newabove st (hstep st o).
Proof.
  intros T. destruct o as [e|]; cbn [hstep].
  - unfold step, insert_and_run.
    pose proof (insert_event_rstep st e) as S. pose proof (insert_event_failed st e) as F.
    pose proof (insert_event_bview st e) as B.
    destruct (insert_event st e) as [r s]. cbn [snd] in *.
    pose proof (newabove_base st s s B (newabove_refl s)) as N0.
    destruct r; cbn [snd]; try exact N0.
    exact (newabove_base st s _ B (run_consensus_new s (rtop_rstep _ _ T S F))).
  - apply (newabove_same st st); [|apply newabove_refl].
    exact (fold_left_view delivered process_sig (fun s a => proj1 (process_sig_rest s a)) (sigpool st) st).
Qed.

Lemma sorted_app_disjoint (l1 l2 : list Z) x : StronglySorted Z.lt (l1 ++ l2) -> In x l1 -> In x l2 -> False.
Proof.
  induction l1 as [|a l1 IH]; intros S H1 H2; [destruct H1|].
  cbn [app] in S. inversion S as [|? ? S' Fa]; subst. destruct H1 as [E|H1]; [|apply IH; assumption].
  subst a. rewrite Forall_forall in Fa. specialize (Fa x (in_or_app _ _ _ (or_intror H2))). lia.
Qed.

Section Node.
  Variables (self_ : Z) (genesis : peerset) (oracle_ : list Z).
  Hypothesis Hself : self_ <> -1.
  Notation R := (reach self_ genesis oracle_).

  Lemma gap_step_window ops o : gap_stepb (R ops) (hstep (R ops) o) = true -> window_stepb (R ops) (hstep (R ops) o) = true.
  Proof.
    intros Hg. unfold gap_stepb in Hg. apply Z.leb_le in Hg.
    assert (E' : hstep (R ops) o = R (ops ++ [o])) by (rewrite reach_app; reflexivity).
    destruct (reach_ext self_ genesis oracle_ ops [o] Hself) as (l & Hl & F & T2). rewrite <- E' in Hl, T2.
    pose proof (hstep_new (R ops) o (hrun_rtop self_ genesis oracle_ ops)) as N.
    unfold window_stepb, new_entries. apply forallb_forall. intros k Hk. apply filter_In in Hk. destruct Hk as [Hk1 Hk2].
    apply in_map_iff in Hk1. destruct Hk1 as [[k0 p] [E0 Hin]]. cbn in E0. subst k0.
    rewrite T2 in Hin. destruct (replay_keys _ _ _ _ _ Hin) as [[p0 Hp0]|[d [Hd Ek]]].
    - exfalso. apply negb_true_iff in Hk2. apply Bool.not_true_iff_false in Hk2. apply Hk2.
      apply existsb_exists. exists k. split; [apply in_map_iff; exists (k, p0); auto|apply Z.eqb_refl].
    - assert (Hd' : In d (delivered (hstep (R ops) o))) by (rewrite Hl; apply in_or_app; right; exact Hd).
      destruct (N d Hd') as [Hold|Hab].
      + (* d old and d in l: the delivered list has no repetition of round-received *)
        assert (Srt : StronglySorted Z.lt (map b_rr (delivered (hstep (R ops) o))))
          by (rewrite E'; apply (reach_rr_increasing self_ genesis oracle_ (ops ++ [o]))).
        rewrite Hl, map_app in Srt.
        exfalso. apply (sorted_app_disjoint _ _ (b_rr d) Srt); [apply in_map; exact Hold|apply in_map; exact Hd].
      + assert (H0 : 0 <= b_rr d) by (rewrite Forall_forall in F; apply F; exact Hd).
        apply Z.ltb_lt. subst k. unfold lc_lt, lc_next in *. destruct (last_consensus (reach self_ genesis oracle_ ops)); lia.
  Qed.
End Node.

Fixpoint gap_runb (st : hg) (ops : list hop) : bool :=
  match ops with
  | [] => true
  | o :: r => gap_stepb st (hstep st o) && gap_runb (hstep st o) r
  end.

Lemma gap_run_window self_ genesis oracle_ : self_ <> -1 -> forall ops2 ops1,
  gap_runb (reach self_ genesis oracle_ ops1) ops2 = true -> window_runb (reach self_ genesis oracle_ ops1) ops2 = true.
Proof.
  intros Hs. induction ops2 as [|o ops2 IH]; intros ops1 H; [reflexivity|].
  cbn [gap_runb window_runb] in *. apply andb_prop in H. destruct H as [H1 H2].
  rewrite (gap_step_window self_ genesis oracle_ Hs ops1 o H1). cbn [andb].
  assert (E' : hstep (reach self_ genesis oracle_ ops1) o = reach self_ genesis oracle_ (ops1 ++ [o])) by (rewrite reach_app; reflexivity).
  rewrite E' in *. apply IH. exact H2.
Qed.

(* under the distance bound every validator-set lookup made during the run returns the final answer *)
Theorem gap_lookup_final self_ genesis oracle_ ops k r :
  self_ <> -1 -> gap_runb (init_hg self_ genesis oracle_) ops = true ->
  r <= last_round (hrun (init_hg self_ genesis oracle_) (firstn k ops)) ->
  get_peerset (hrun (init_hg self_ genesis oracle_) (firstn k ops)) r = get_peerset (hrun (init_hg self_ genesis oracle_) ops) r.
Proof.
  intros Hs Hg. apply (window_lookup_final self_ genesis oracle_ Hs ops k r).
  exact (gap_run_window self_ genesis oracle_ Hs ops [] Hg).
Qed.
