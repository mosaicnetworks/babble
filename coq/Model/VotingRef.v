(* Reference semantics of the virtual-voting loop of Model/Voting.v: the vote of a witness as a
   function of the witness alone (by recursion on the round offset), the "decider" test, and a
   store-free reference loop.  Executable definitions only; Proofs/VotingProofsD.v relates them
   to fame_loop and proves agreement. *)
From Coq Require Import ZArith List Bool.
From V Require Import Model.ZMap Model.Voting.
Import ListNotations.
Open Scope Z_scope.

(* total versions of the lookups (None is excluded by the view hypotheses) *)
Definition seesb (P : vparams) (y : Z) : bool :=
  match vp_sees P y with Some b => b | None => false end.
Definition ssb (P : vparams) (j y w : Z) : bool :=
  match vp_ss P j y w with Some b => b | None => false end.

(* the round-(j-1) witnesses strongly seen by y (a witness of round j) *)
Definition ssset (P : vparams) (W : Z -> list Z) (j y : Z) : list Z :=
  filter (ssb P j y) (W (j - 1)).

(* tally with the votes given by a function instead of the association list *)
Definition tallyf (f : Z -> bool) (ssw : list Z) : bool * Z :=
  let yays := Z.of_nat (length (filter f ssw)) in
  let nays := Z.of_nat (length ssw) - yays in
  let v := nays <=? yays in
  (v, if v then yays else nays).

(* reference vote of witness y of round r+1+d about the candidate; s = supermajority *)
Fixpoint refvote (P : vparams) (W : Z -> list Z) (r s : Z) (d : nat) (y : Z) : bool :=
  match d with
  | O => seesb P y
  | S d' =>
    let j := r + 2 + Z.of_nat d' in
    let vt := tallyf (refvote P W r s d') (ssset P W j y) in
    if 0 <? (j - r) mod 4 then fst vt
    else if s <=? snd vt then fst vt else vp_coin P y
  end.

(* the same, indexed by the absolute round j >= r+1 *)
Definition Vz (P : vparams) (W : Z -> list Z) (r s j y : Z) : bool :=
  refvote P W r s (Z.to_nat (j - r - 1)) y.

(* y (witness of round j) decides the fame of the candidate: normal round, j - r >= 2,
   supermajority tally.  The decision is then Vz j y. *)
Definition decider (P : vparams) (W : Z -> list Z) (r s j y : Z) : bool :=
  (2 <=? j - r) && (0 <? (j - r) mod 4) &&
  (s <=? snd (tallyf (Vz P W r s (j - 1)) (ssset P W j y))).

Definition round_ref (P : vparams) (W : Z -> list Z) (r s j : Z) (ys : list Z) : option bool :=
  match find (decider P W r s j) ys with
  | Some y => Some (Vz P W r s j y)
  | None => None
  end.

Fixpoint loop_ref (P : vparams) (W : Z -> list Z) (r s : Z) (js : list Z) : option bool :=
  match js with
  | [] => None
  | j :: rest =>
    match round_ref P W r s j (W j) with
    | Some v => Some v
    | None => loop_ref P W r s rest
    end
  end.

(* fame_loop instrumented to return the final votes list as well *)
Fixpoint fame_loop_votes (P : vparams) (rounds_w : Z -> option (list Z)) (r : Z) (js : list Z)
         (votes : list (Z * bool)) : option (list (Z * bool) * option bool) :=
  match js with
  | [] => Some (votes, None)
  | j :: rest =>
    match rounds_w j with
    | Some ws =>
      match fame_round_j P r j ws votes with
      | None => None
      | Some (votes', Some v) => Some (votes', Some v)
      | Some (votes', None) => fame_loop_votes P rounds_w r rest votes'
      end
    | None => None
    end
  end.

(* executable check of the view hypotheses (sound for Proofs/VotingProofs.view_ok) *)
Fixpoint zinb (k : Z) (l : list Z) : bool :=
  match l with [] => false | x :: t => (x =? k) || zinb k t end.
Fixpoint nodupb (l : list Z) : bool :=
  match l with [] => true | x :: t => negb (zinb x t) && nodupb t end.
Definition disjointb (a b : list Z) : bool := forallb (fun x => negb (zinb x b)) a.
Definition is_some {A} (o : option A) : bool := match o with Some _ => true | None => false end.

Definition view_okb (n r : Z) (P : vparams) (W : Z -> list Z) (J : Z) : bool :=
  (1 <=? n) && (r <=? J) &&
  forallb (fun j => nodupb (W j) && (Z.of_nat (length (W j)) <=? n)) (zrange (r + 1) J) &&
  forallb (fun j => forallb (fun j' => (j =? j') || disjointb (W j) (W j')) (zrange (r + 1) J))
          (zrange (r + 1) J) &&
  forallb (fun j =>
     match vp_sm P j with Some x => x =? 2 * n / 3 + 1 | None => false end &&
     match vp_prev P j with
     | Some prev => if list_eq_dec Z.eq_dec prev (W (j - 1)) then true else false
     | None => false
     end &&
     forallb (fun y => forallb (fun w => is_some (vp_ss P j y w)) (W (j - 1)) &&
                       (2 * n / 3 + 1 <=? Z.of_nat (length (ssset P W j y)))) (W j))
     (zrange (r + 2) J) &&
  forallb (fun y => is_some (vp_sees P y)) (W (r + 1)).

(* executable check that two views are views of the same history with global witness lists G
   (sound for Proofs/VotingProofs.same_history) *)
Definition inclb (a b : list Z) : bool := forallb (fun x => zinb x b) a.
Definition obool_eqb (a b : option bool) : bool :=
  match a, b with
  | Some x, Some y => Bool.eqb x y
  | None, None => true
  | _, _ => false
  end.

Definition same_historyb (n r : Z) (P1 : vparams) (W1 : Z -> list Z) (J1 : Z)
           (P2 : vparams) (W2 : Z -> list Z) (J2 : Z) (G : Z -> list Z) : bool :=
  let M := Z.min J1 J2 in
  forallb (fun y => negb (zinb y (W2 (r + 1))) || obool_eqb (vp_sees P1 y) (vp_sees P2 y))
          (W1 (r + 1)) &&
  forallb (fun j => forallb (fun y => negb (zinb y (W2 j)) ||
                                      (Bool.eqb (vp_coin P1 y) (vp_coin P2 y) &&
                                       inclb (ssset P1 W1 j y) (ssset P2 W2 j y) &&
                                       inclb (ssset P2 W2 j y) (ssset P1 W1 j y))) (W1 j))
          (zrange (r + 2) M) &&
  forallb (fun j => nodupb (G j) && (Z.of_nat (length (G j)) <=? n) &&
                    inclb (W1 j) (G j) && inclb (W2 j) (G j)) (zrange (r + 1) M).
