(* The virtual-voting loop of Hashgraph.DecideFame for one candidate witness x of round r,
   abstracted from the store: everything it reads is a parameter.  HgImpl instantiates the
   parameters with store lookups; Proofs/VotingProofsD.v proves agreement of decisions for all
   parameter values satisfying the quorum hypotheses.  Executable definitions only. *)
From Coq Require Import ZArith List Bool.
From V Require Import Model.ZMap.
Import ListNotations.
Open Scope Z_scope.

Record vparams := mkVP {
  vp_sees : Z -> option bool;          (* y sees x  (used when j - r = 1) *)
  vp_prev : Z -> option (list Z);      (* j |-> witnesses of round j-1 (None: store error) *)
  vp_ss : Z -> Z -> Z -> option bool;  (* j y w |-> y strongly sees w under the peer set of round j-1 *)
  vp_sm : Z -> option Z;               (* j |-> decision quorum of voting round j: SuperMajority of the peer set of round j-1 (the voters) *)
  vp_coin : Z -> bool                  (* middle bit of y's hash *)
}.

Definition vote_of (votes : list (Z * bool)) (w : Z) : bool :=
  match aget w votes with Some b => b | None => false end.

(* witnesses of round j-1 strongly seen by y *)
Definition ss_witnesses (P : vparams) (j y : Z) (prev : list Z) : option (list Z) :=
  fold_left (fun (acc : option (list Z)) w =>
     match acc, P.(vp_ss) j y w with
     | Some l, Some b => Some (if b then l ++ [w] else l)
     | _, _ => None
     end) prev (Some []).

(* (vote, tally) of y from the votes of the witnesses it strongly sees *)
Definition tally (votes : list (Z * bool)) (ssw : list Z) : bool * Z :=
  let yays := Z.of_nat (length (filter (fun w => vote_of votes w) ssw)) in
  let nays := Z.of_nat (length ssw) - yays in
  let v := nays <=? yays in
  (v, if v then yays else nays).

(* the y loop of round j; returns (votes, Some fame when decided); None on a store error *)
Fixpoint fame_round_j (P : vparams) (r j : Z) (ys : list Z) (votes : list (Z * bool))
  : option (list (Z * bool) * option bool) :=
  match ys with
  | [] => Some (votes, None)
  | y :: rest =>
    let diff := j - r in
    if diff =? 1 then
      match P.(vp_sees) y with
      | None => None
      | Some b => fame_round_j P r j rest (aset y b votes)
      end
    else
      match P.(vp_prev) j, P.(vp_sm) j with
      | Some prev, Some smj =>
        match ss_witnesses P j y prev with
        | None => None
        | Some ssw =>
          let '(v, t) := tally votes ssw in
          if 0 <? diff mod 4 then
            if smj <=? t then Some (aset y v votes, Some v)
            else fame_round_j P r j rest (aset y v votes)
          else
            if smj <=? t then fame_round_j P r j rest (aset y v votes)
            else fame_round_j P r j rest (aset y (P.(vp_coin) y) votes)
        end
      | _, _ => None
      end
  end.

(* VOTE_LOOP over the rounds j = r+1 .. LastRound; rounds_w j = witnesses of round j *)
Fixpoint fame_loop (P : vparams) (rounds_w : Z -> option (list Z)) (r : Z) (js : list Z)
         (votes : list (Z * bool)) : option (option bool) :=
  match js with
  | [] => Some None
  | j :: rest =>
    match rounds_w j with
    | Some ws =>
      match fame_round_j P r j ws votes with
      | None => None
      | Some (_, Some v) => Some (Some v)
      | Some (votes', None) => fame_loop P rounds_w r rest votes'
      end
    | None => None
    end
  end.
